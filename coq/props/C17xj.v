(* props/C17xj.v — C17 "The same holds for Jobs through parse_model", for the Jobs that create_job RETURNS.

   props/C17x.v (C17_roundtrip_job) proves decode (export J) = J for a Job J as parse_model(Job, .) decodes it: base
   classes only.  A Job returned by create_job holds SUBCLASS nodes (IntRangeListTaskParameterDefinition,
   FloatRangeListTaskParameterDefinition) after instantiate_model + the job-side coercion; that such a Job is equal to
   the decode of its own export is what harness/c17.py (kind "jobobj") tests case by case.  Here it is a theorem
   about the composed model CreateJobFull.create_job_full (props/C06x.v), for every accepted template, all environment
   templates, all values.

   "Equal" is pydantic 1.10's BaseModel.__eq__ : self.dict() == other.dict().  Probe on the real classes
   (PYTHONPATH=/repo/src, pydantic 1.10.26):
       RangeListTaskParameterDefinition(type="INT", range=["1","2"]) == IntRangeListTaskParameterDefinition(...)   True (both ways)
       JobParameter(type="INT", value="5").dict()  ==  {'type': INT, 'value': '5', 'description': None}            None IS a key
       FormatString("a{{Param.X}}") == "a{{Param.X}}"                                                             True (str subclass)
   So: the class of a node is not compared, the fields are a dict (order irrelevant, None-valued fields present),
   format strings compare as text.  [mval_equiv] (theories/ExportCreatedRel.v) is that relation on the model's instance
   trees; dictionaries (Job.parameters, taskParameterDefinitions, variables) are compared in order, which is STRICTER
   than Python's dict equality.  Export.mval_eqb cannot be used: it compares the fields of a node IN ORDER, and the
   model's instantiate_model keeps the TEMPLATE's field order (Step: name, description, script, ...;  JobParameter: type,
   description, value) where the decoder builds the class's order (pydantic re-orders on construction; the harness
   ships the real object) — see the example below, where mval_eqb is false and mval_equiv holds.
   For the same reason the fixpoint "export (decode (export job)) = export job" is stated up to member order, with the
   development's document equivalence JsonEquiv.json_equiv (props/C05x.v); neither export holds a null member.

     C17_created_job_roundtrip     THE THEOREM (requested form)
     C17_created_job_roundtrip_any_envs    ... the environment templates need not even be accepted ones
     C17_created_job_plain         the export of a created Job is plain data (C17_plain's side condition holds)
     C17_created_job_stable        the re-decoded Job is a fixpoint of export / decode in the strict sense of C17x
     C17_created_job_roundtrip_perm ... equal up to the order of the members when the keys are pairwise distinct
     C17_created_docs              the same from the raw documents (create_job_docs)
     C17_created_union             the ordered union RangeList | RangeExpression: a definition of any of the four
                                   job-side classes re-parses to an equal instance under WHICHEVER alternative accepts it
     C17_created_node              the rule for a model node whose class is another class with the same fields
     C17_equiv_refl, C17_equiv_of_eqb, C17_equiv_checker   the relation: reflexive, coarser than Export.mval_eqb,
                                   decided (soundly) by the checker [meqb]

   Lemmas: theories/ExportCreatedRel.v, ExportCreatedSem.v, ExportCreatedCarried.v, ExportCreatedInst.v,
   ExportCreatedPlain.v, ExportCreated.v. *)
From Coq Require Import List NArith ZArith Bool String.
Import ListNotations.
Require Import OJD.Base OJD.Lexer OJD.Json OJD.Schema OJD.Generated OJD.CreateJob OJD.CreateJobProofs OJD.Parse
               OJD.Validators OJD.Accept OJD.Export OJD.ExportProofs OJD.JsonEquiv OJD.CreateJobExactLib OJD.ConformInst
               OJD.CreateJobFull OJD.CreateJobFullProofs
               OJD.ExportCreatedRel OJD.ExportCreatedSem OJD.ExportCreatedInst OJD.ExportCreated.
Local Open Scope string_scope.
Local Open Scope list_scope.

(* ------------------------------------------------------------------ the theorem *)

(* For every accepted job template, accepted environment templates and caller values: if create_job returns a Job,
   then parse_model(Job, model_to_object(job)) succeeds, the Job it returns is equal to the created Job as pydantic
   compares model instances, and it exports to the same document. *)
Theorem C17_created_job_roundtrip : forall classify j t envs vals job,
  decode_job classify j = Ok t -> accepted_envs classify envs ->
  create_job_full classify envs t vals = Ok job ->
  exists v, parse_any classify "Job" (export job) = Ok v
            /\ mval_equiv v job
            /\ json_equiv (export v) (export job).
Proof. intros classify j t envs vals job Hd _ H. exact (created_job_roundtrip classify j t envs vals job Hd H). Qed.
Print Assumptions C17_created_job_roundtrip.

Theorem C17_created_job_roundtrip_any_envs : forall classify j t envs vals job,
  decode_job classify j = Ok t ->
  create_job_full classify envs t vals = Ok job ->
  exists v, parse_any classify "Job" (export job) = Ok v
            /\ mval_equiv v job
            /\ json_equiv (export v) (export job).
Proof. exact created_job_roundtrip. Qed.
Print Assumptions C17_created_job_roundtrip_any_envs.

Theorem C17_created_job_plain : forall classify j t envs vals job,
  decode_job classify j = Ok t -> create_job_full classify envs t vals = Ok job ->
  plain (export job) = true.
Proof. exact created_job_plain. Qed.
Print Assumptions C17_created_job_plain.

(* what the re-decoding returns is a Job in the sense of C17_roundtrip_job: from there on decode (export .) is the
   identity as Export.roundtrip computes it, and its export is plain *)
Theorem C17_created_job_stable : forall classify j t envs vals job,
  decode_job classify j = Ok t -> create_job_full classify envs t vals = Ok job ->
  exists v, parse_any classify "Job" (export job) = Ok v
            /\ snd (roundtrip classify "Job" v) = true
            /\ plain (export v) = true.
Proof. exact created_job_stable. Qed.
Print Assumptions C17_created_job_stable.

(* when both documents have pairwise distinct keys (boolean functions of the two values; always so for what a Python
   dict can hold) they are equal up to the ORDER of the members only (JsonEquiv.json_perm) *)
Theorem C17_created_job_roundtrip_perm : forall classify j t envs vals job,
  decode_job classify j = Ok t -> create_job_full classify envs t vals = Ok job ->
  exists v, parse_any classify "Job" (export job) = Ok v
            /\ mval_equiv v job
            /\ (distinct_keys (export v) = true -> distinct_keys (export job) = true ->
                json_perm (export v) (export job)).
Proof. exact created_job_roundtrip_perm. Qed.
Print Assumptions C17_created_job_roundtrip_perm.

(* from the raw documents: decode the templates, create the Job, print it; the printed document is plain, is
   accepted by parse_model(Job, .), and printing what it decodes to gives the same document *)
Theorem C17_created_docs : forall classify env_docs doc vals obj,
  create_job_docs classify env_docs doc vals = Ok (Ok obj) ->
  plain obj = true /\
  exists v, parse_any classify "Job" obj = Ok v /\ json_equiv (export v) obj
            /\ snd (roundtrip classify "Job" v) = true.
Proof. exact created_docs_roundtrip. Qed.
Print Assumptions C17_created_docs.

(* no export holds a null member (json_equiv's "a null member is an absent member" is not in play) *)
Theorem C17_created_no_null_members : forall v, no_null_members (export v) = true.
Proof. exact exports_no_null_members. Qed.
Print Assumptions C17_created_no_null_members.

(* ------------------------------------------------------------------ the two steps that are new *)

(* StepParameterSpace.taskParameterDefinitions : RangeList... | RangeExpression... (ordered union of BASE classes).
   A definition as create_job leaves it ([ConformInst.jdef]: one of the four job-side classes, a type, a list of str
   items or a range string), exported and parsed as that union — by whichever alternative accepts it, with any
   validators and fuel — comes back equal to it and with the same export. *)
Theorem C17_created_union : forall classify pre post y f v,
  jdef y ->
  parse_kind Generated.schema classify pre post f tpd_kind (tobj Generated.schema y) = Ok v ->
  mval_equiv v y /\ json_equiv (tobj Generated.schema v) (tobj Generated.schema y).
Proof. intros classify pre post y f v Hy H. exact (proj1 (sem_tpd classify pre post y Hy) f v H). Qed.
Print Assumptions C17_created_union.

(* a model node of class c' whose field names are exactly those of class c (any order) and whose class gives them
   the aliases c gives them: if every field value re-parses equal (SEMV), so does the node parsed AS c *)
Theorem C17_created_node : forall classify pre post c c' k fs,
  lookup_cls Generated.schema c = Some k ->
  fields_ok c' k (map fst fs) = true ->
  (forall fl, In fl (c_fields k) -> SEMV classify pre post fl (mfield (f_name fl) fs)) ->
  forall f v, parse_cls Generated.schema classify pre post f c (tobj Generated.schema (MModel c' fs)) = Ok v ->
              mval_equiv v (MModel c' fs) /\ json_equiv (tobj Generated.schema v) (tobj Generated.schema (MModel c' fs)).
Proof. intros classify pre post c c' k fs Hl Hok Hv. exact (sem_cls classify pre post c c' k fs Hl Hok Hv). Qed.
Print Assumptions C17_created_node.

(* ------------------------------------------------------------------ the relation *)
Theorem C17_equiv_refl : forall v, mval_equiv v v.
Proof. exact mval_equiv_refl. Qed.
Print Assumptions C17_equiv_refl.

(* Export.mval_eqb (class names ignored, fields in order) implies it *)
Theorem C17_equiv_of_eqb : forall F a b, Export.mval_eqb F a b = true -> mval_equiv a b.
Proof. exact mval_eqb_equiv. Qed.
Print Assumptions C17_equiv_of_eqb.

Theorem C17_equiv_checker : forall F a b, meqb F a b = true -> mval_equiv a b.
Proof. exact meqb_sound. Qed.
Print Assumptions C17_equiv_checker.

(* ================================================================== non-vacuity *)
Definition xj_s (x : string) : json := JStr (str_of_string x).
Definition xj_o (l : list (string * json)) : json := JObj (map (fun kv => (str_of_string (fst kv), snd kv)) l).
Definition xj_vs (l : list (string * string)) : list (str * str) := map (fun kv => ($(fst kv), $(snd kv))) l.

(* job parameters of all four types; a job environment; a step with INT / FLOAT / STRING / PATH range lists (numbers,
   number texts and references), an INT range expression, host requirements (amount with Decimal bounds given as an int
   and as a text, attribute), a step environment, an embedded file, a cancelation method, a lax int given as text;
   a second step with a dependency and nothing optional *)
Definition xj_doc : json :=
  xj_o [("specificationVersion", xj_s "jobtemplate-2023-09");
        ("name", xj_s "job {{Param.N}}"); ("description", xj_s "d");
        ("parameterDefinitions",
         JArr [xj_o [("name", xj_s "N"); ("type", xj_s "INT"); ("default", JInt 5); ("description", xj_s "an int")];
               xj_o [("name", xj_s "F"); ("type", xj_s "FLOAT"); ("default", JDec 15 (-1))];
               xj_o [("name", xj_s "S"); ("type", xj_s "STRING"); ("default", xj_s "s")];
               xj_o [("name", xj_s "P"); ("type", xj_s "PATH"); ("default", xj_s "/tmp/x")]]);
        ("jobEnvironments", JArr [xj_o [("name", xj_s "je"); ("variables", xj_o [("A", xj_s "{{Param.S}}")])]]);
        ("steps",
         JArr [xj_o [("name", xj_s "s1"); ("description", xj_s "sd");
                     ("script",
                      xj_o [("actions",
                             xj_o [("onRun", xj_o [("command", xj_s "{{Task.File.run}}");
                                                   ("args", JArr [xj_s "{{Param.N}}"; xj_s "{{Task.Param.i}}"]);
                                                   ("timeout", xj_s "30");
                                                   ("cancelation", xj_o [("mode", xj_s "NOTIFY_THEN_TERMINATE");
                                                                         ("notifyPeriodInSeconds", xj_s "5")])])]);
                            ("embeddedFiles", JArr [xj_o [("name", xj_s "run"); ("type", xj_s "TEXT");
                                                          ("data", xj_s "echo {{Task.RawParam.x}}")]])]);
                     ("stepEnvironments", JArr [xj_o [("name", xj_s "e"); ("variables", xj_o [("OUT", xj_s "{{Param.P}}")])]]);
                     ("parameterSpace",
                      xj_o [("taskParameterDefinitions",
                             JArr [xj_o [("name", xj_s "i"); ("type", xj_s "INT"); ("range", JArr [JInt 1; xj_s "2"; xj_s "{{Param.N}}"])];
                                   xj_o [("name", xj_s "r"); ("type", xj_s "INT"); ("range", xj_s "1-{{Param.N}}")];
                                   xj_o [("name", xj_s "x"); ("type", xj_s "FLOAT"); ("range", JArr [JDec 15 (-1); JInt 2; xj_s "{{Param.F}}"])];
                                   xj_o [("name", xj_s "s"); ("type", xj_s "STRING"); ("range", JArr [xj_s "a"; xj_s "{{Param.S}}"])];
                                   xj_o [("name", xj_s "p"); ("type", xj_s "PATH"); ("range", JArr [xj_s "/a"; xj_s "{{RawParam.P}}"])]]);
                            ("combination", xj_s "i * r * x * s * p")]);
                     ("hostRequirements",
                      xj_o [("amounts", JArr [xj_o [("name", xj_s "amount.worker.vcpu"); ("min", JInt 2); ("max", xj_s "4.50")]]);
                            ("attributes", JArr [xj_o [("name", xj_s "attr.worker.os.family"); ("anyOf", JArr [xj_s "linux"])]])])];
               xj_o [("name", xj_s "s2"); ("script", xj_o [("actions", xj_o [("onRun", xj_o [("command", xj_s "x")])])]);
                     ("dependencies", JArr [xj_o [("dependsOn", xj_s "s1")]])]])].

(* an environment template that re-constrains N and adds a parameter of its own *)
Definition xj_env_doc : json :=
  xj_o [("specificationVersion", xj_s "environment-2023-09");
        ("parameterDefinitions",
         JArr [xj_o [("name", xj_s "N"); ("type", xj_s "INT"); ("maxValue", JInt 10)];
               xj_o [("name", xj_s "Extra"); ("type", xj_s "STRING"); ("default", xj_s "e")]]);
        ("environment", xj_o [("name", xj_s "E"); ("variables", xj_o [("A", xj_s "b")])])].

Definition xj_vals : list (str * str) := xj_vs [("N", "7"); ("F", "2.5"); ("S", "str"); ("P", "/p")].

Definition xj_t : mval := match decode_job ascii_class xj_doc with Ok t => t | Raise _ => MNone end.
Definition xj_env : mval := match decode_env ascii_class xj_env_doc with Ok e => e | Raise _ => MNone end.
Definition xj_job : mval := match create_job_full ascii_class [xj_env] xj_t xj_vals with Ok job => job | Raise _ => MNone end.

Example xj_t_ok : decode_job ascii_class xj_doc = Ok xj_t.
Proof. apply ok_default. vm_compute. reflexivity. Qed.
Example xj_env_ok : accepted_envs ascii_class [xj_env].
Proof. constructor; [exists xj_env_doc; apply ok_default; vm_compute; reflexivity|constructor]. Qed.
Example xj_job_ok : create_job_full ascii_class [xj_env] xj_t xj_vals = Ok xj_job.
Proof. apply ok_default. vm_compute. reflexivity. Qed.

(* the hypotheses are met; the created Job holds both subclasses, the range expression class and the base class;
   THE THEOREM, applied, gives the re-decoded Job v, equal to the created Job and with the same export; v holds
   neither subclass; and (computed on that v) the order-sensitive Export.mval_eqb does NOT hold between the two in
   the model, while the checker of mval_equiv answers true both ways *)
Example C17_created_job_roundtrip_nonvacuous :
  decode_job ascii_class xj_doc = Ok xj_t /\ accepted_envs ascii_class [xj_env] /\
  create_job_full ascii_class [xj_env] xj_t xj_vals = Ok xj_job /\
  forallb (fun c => mem_s c (classes_in xj_job))
          ["IntRangeListTaskParameterDefinition"; "FloatRangeListTaskParameterDefinition";
           "RangeExpressionTaskParameterDefinition"; "RangeListTaskParameterDefinition";
           "HostRequirements"; "AmountRequirement"; "AttributeRequirement"; "JobParameter"; "Environment"] = true /\
  exists v, parse_any ascii_class "Job" (export xj_job) = Ok v
            /\ mval_equiv v xj_job
            /\ json_equiv (export v) (export xj_job)
            /\ mem_s "IntRangeListTaskParameterDefinition" (classes_in v) = false
            /\ mem_s "FloatRangeListTaskParameterDefinition" (classes_in v) = false
            /\ mem_s "RangeListTaskParameterDefinition" (classes_in v) = true
            /\ Export.mval_eqb 60 v xj_job = false
            /\ meqb 60 v xj_job = true /\ meqb 60 xj_job v = true
            /\ export v <> export xj_job.
Proof.
  split; [exact xj_t_ok|]. split; [exact xj_env_ok|]. split; [exact xj_job_ok|].
  destruct (C17_created_job_roundtrip ascii_class xj_doc xj_t [xj_env] xj_vals xj_job xj_t_ok xj_env_ok xj_job_ok)
    as [v [Hv [Hm Hj]]].
  (* X: the two closed parts of the statement, the classes of xj_job and what is said of v after the two relations;
     closed once v is read off the parse, so one evaluation decides both *)
  refine ((fun X => conj (proj1 X) (ex_intro _ v (conj Hv (conj Hm (conj Hj (proj2 X)))))) _).
  rewrite (ok_value _ _ _ MNone Hv). vm_compute. repeat (split; [reflexivity|]). discriminate.
Qed.

Example C17_created_job_roundtrip_perm_nonvacuous :
  exists v, parse_any ascii_class "Job" (export xj_job) = Ok v /\ json_perm (export v) (export xj_job).
Proof.
  destruct (C17_created_job_roundtrip_perm ascii_class xj_doc xj_t [xj_env] xj_vals xj_job xj_t_ok xj_job_ok)
    as [v [Hv [_ Hp]]].
  exists v. split; [exact Hv|].
  assert (D : distinct_keys (export v) && distinct_keys (export xj_job) = true)
    by (rewrite (ok_value _ _ _ MNone Hv); vm_compute; reflexivity).
  apply andb_true_iff in D. destruct D as [D1 D2]. exact (Hp D1 D2).
Qed.

Example C17_created_job_plain_nonvacuous : plain (export xj_job) = true /\ export xj_job <> JNull.
Proof.
  split; [exact (C17_created_job_plain ascii_class xj_doc xj_t [xj_env] xj_vals xj_job xj_t_ok xj_job_ok)|].
  destruct (created_job_sem ascii_class xj_doc xj_t [xj_env] xj_vals xj_job xj_t_ok xj_job_ok) as [_ [[fs ->] _]].
  rewrite ExportProofs.export_tobj. discriminate.
Qed.

Example C17_created_docs_nonvacuous :
  exists obj, create_job_docs ascii_class [xj_env_doc] xj_doc xj_vals = Ok (Ok obj) /\ plain obj = true /\
              exists v, parse_any ascii_class "Job" obj = Ok v /\ json_equiv (export v) obj.
Proof.
  (* the document is the export of xj_job: by the three facts above, with nothing evaluated but the small decode_env *)
  assert (Ee : decode_env ascii_class xj_env_doc = Ok xj_env) by (apply ok_default; vm_compute; reflexivity).
  assert (E : create_job_docs ascii_class [xj_env_doc] xj_doc xj_vals = Ok (Ok (export xj_job))).
  { unfold create_job_docs. rewrite xj_t_ok. cbn [bind mapM]. rewrite Ee. cbn [bind]. rewrite xj_job_ok. reflexivity. }
  exists (export xj_job). split; [exact E|].
  destruct (C17_created_docs ascii_class [xj_env_doc] xj_doc xj_vals _ E) as [Hp [v [Hv [Hj _]]]].
  split; [exact Hp|]. exists v. split; [exact Hv|exact Hj].
Qed.

(* the union rule on a definition of the Int subclass and on a range expression: [jdef] holds, and the first /
   the second alternative is the one that accepts the export *)
Example C17_created_union_nonvacuous :
  jdef (MModel "IntRangeListTaskParameterDefinition" [("type", MStr $"INT"); ("range", MList (map MStr [$"1"; $"2"]))]) /\
  jdef (MModel "RangeExpressionTaskParameterDefinition" [("type", MStr $"INT"); ("range", MStr $"1-7")]) /\
  parse_kind Generated.schema ascii_class pre_hook (post_hook ascii_class) 10 tpd_kind
    (tobj Generated.schema (MModel "IntRangeListTaskParameterDefinition" [("type", MStr $"INT"); ("range", MList (map MStr [$"1"; $"2"]))]))
  = Ok (MModel "RangeListTaskParameterDefinition" [("type", MStr $"INT"); ("range", MList [MStr $"1"; MStr $"2"])]) /\
  parse_kind Generated.schema ascii_class pre_hook (post_hook ascii_class) 10 tpd_kind
    (tobj Generated.schema (MModel "RangeExpressionTaskParameterDefinition" [("type", MStr $"INT"); ("range", MStr $"1-7")]))
  = Ok (MModel "RangeExpressionTaskParameterDefinition" [("type", MStr $"INT"); ("range", MFmt $"1-7")]).
Proof.
  split; [apply jd_int|]. split; [apply jd_expr|]. split; vm_compute; reflexivity.
Qed.

(* the relation: not everything is related, None-valued fields count, the class does not, field order does not *)
Example C17_equiv_nonvacuous :
  mval_equiv (MModel "A" [("x", MStr $"1"); ("y", MNone)]) (MModel "B" [("y", MNone); ("x", MFmt $"1")]) /\
  meqb 5 (MModel "A" [("x", MStr $"1"); ("y", MNone)]) (MModel "B" [("x", MStr $"1")]) = false /\
  ~ mval_equiv (MModel "A" [("x", MStr $"1"); ("y", MNone)]) (MModel "B" [("x", MStr $"1")]) /\
  ~ mval_equiv (MInt 1) (MStr $"1").
Proof.
  split; [apply (meqb_sound 5); vm_compute; reflexivity|]. split; [vm_compute; reflexivity|]. split.
  - intros H. inversion H as [| | | | |a b s Ha Hb| | |c c' fs fs' Hk]; subst; [discriminate Ha|].
    specialize (Hk "y"). cbn in Hk. inversion Hk.
  - intros H. inversion H as [| | | | |a b s Ha Hb| | |]; subst. discriminate Ha.
Qed.
