(* props/C17xf.v — C17 "Serialisation is faithful and round-trips": the sentence

       model_to_object(M) ... reproduces the document M was decoded from up to numeric formatting — with every
       key under the name the schema gives it, '$schema' included

   as a theorem (the harness decides it case by case: function [equiv] of harness/c17.py).

   Definitions: ExportFaithful.v ([jequiv]: the relation "same document up to numeric formatting", written from
   the property text).  Lemmas: ExportFaithfulNum.v (numerals), ExportFaithfulProofs.v (the induction over the
   structural decoder), ExportFaithfulDec.v (the relation is decidable: [jequivb], the harness's function).
   Models: Parse.v / Validators.v / Export.v ([parse_any], [export]) as in C17.v, C17x.v.
   Everything for ALL documents / values / fuels / character tables.

     C17_int_coercion_lossless     a float accepted by a non-strict int field is the int stored for it
                                   (fix cb389b6: before it 1.5 was stored as 1)
     C17_int_text_is_decimal_text  a text int() reads as z, decimal.Decimal reads as z
     C17_int_print_decimal_text    Decimal(str(z)) = z
     C17_faithful_generic          any schema whose classes forbid unknown keys and have distinct names and
                                   aliases, any validators: decode v = Ok x -> jequiv v (export x)
     C17_live_schema_faithful_ok   ... which the live schema is
     C17_faithful                  THE STATEMENT: every class of the module as root (the two template roots, Job,
                                   and every class below them)
     C17_faithful_strong           the same without the distinct-member-names hypothesis
     C17_faithful_template_roots   the instance the property names
     C17_jequiv_sound / _complete / _refutes      jequiv is decided by jequivb
     C17_export_keys_distinct      the export of a document with distinct member names has distinct member names
     C17_faithful_decided          hence the function the harness runs returns true on (document, export) *)
From Coq Require Import List NArith ZArith Bool String.
Import ListNotations.
Require Import OJD.Base OJD.Lexer OJD.Json OJD.Schema OJD.Generated OJD.Numerals OJD.NumPrint OJD.CreateJob
               OJD.Parse OJD.Validators OJD.Accept OJD.Export OJD.DeepKeyOrder OJD.NumRoundtrip OJD.ExportProofs
               OJD.ExportFaithful OJD.ExportFaithfulNum OJD.ExportFaithfulProofs OJD.ExportFaithfulDec
               OJD.ExportFaithfulKeys.
Local Open Scope string_scope.
Local Open Scope list_scope.

(* ------------------------------------------------------------------ numerals *)

(* [dec_integral m e]: the number m * 10^e has no fractional part — the only floats a non-strict int field takes;
   [trunc_dec m e] is the int it stores (int(float)) *)
Theorem C17_int_coercion_lossless : forall m e,
  dec_integral m e = true -> num_eqb (mkNum m e) (num_of_Z (trunc_dec m e)) = true.
Proof. exact trunc_dec_same_value. Qed.
Print Assumptions C17_int_coercion_lossless.

(* white space around, a sign, single underscores between digits: all of int()'s syntax is Decimal() syntax *)
Theorem C17_int_text_is_decimal_text : forall s z, parse_int s = Some z -> parse_dec s = Some (Fin z 0).
Proof. exact parse_int_parse_dec. Qed.
Print Assumptions C17_int_text_is_decimal_text.

Theorem C17_int_print_decimal_text : forall z, parse_dec (print_Z z) = Some (Fin z 0).
Proof. exact parse_dec_print_Z. Qed.
Print Assumptions C17_int_print_decimal_text.

(* ------------------------------------------------------------------ the generic statement *)

(* [faithful_schema_ok SC] (computable): every class of SC forbids unknown keys (extra = forbid) and has pairwise
   distinct attribute names and pairwise distinct input names.  pre / post are ANY validators (they only ever
   reject); [exp SC x] is [to_object] with the canonical fuel (C17_exp_is_to_object in C17.v). *)
Theorem C17_faithful_generic : forall SC classify pre post,
  faithful_schema_ok SC = true ->
  forall f,
    (forall k v x, parse_kind SC classify pre post f k v = Ok x -> jequiv v (exp SC x))
    /\ (forall c v x, parse_cls SC classify pre post f c v = Ok x -> jequiv v (exp SC x)).
Proof. exact faithful_generic. Qed.
Print Assumptions C17_faithful_generic.

Theorem C17_live_schema_faithful_ok : faithful_schema_ok Generated.schema = true.
Proof. exact generated_faithful_ok. Qed.
Print Assumptions C17_live_schema_faithful_ok.

(* ------------------------------------------------------------------ THE STATEMENT *)

(* [keys_ok j]: member names distinct at every level — what a parsed JSON / YAML mapping is.  [root] is any class
   of the module: "JobTemplate", "EnvironmentTemplate", "Job" (parse_model (model=Job)), or any class below. *)
Theorem C17_faithful : forall classify root j v,
  keys_ok j = true ->
  parse_any classify root j = Ok v ->
  jequiv j (export v).
Proof. exact (fun classify root j v _ H => faithful_any classify root j v H). Qed.
Print Assumptions C17_faithful.

(* the hypothesis on member names is not needed: [jequiv] reads a mapping through the first member of a name,
   as the decoder does *)
Theorem C17_faithful_strong : forall classify root j v,
  parse_any classify root j = Ok v -> jequiv j (export v).
Proof. exact faithful_any. Qed.
Print Assumptions C17_faithful_strong.

Theorem C17_faithful_template_roots : forall classify root j v,
  In root ["JobTemplate"; "EnvironmentTemplate"] ->
  keys_ok j = true ->
  parse_any classify root j = Ok v ->
  jequiv j (export v).
Proof. exact (fun classify root j v _ _ H => faithful_any classify root j v H). Qed.
Print Assumptions C17_faithful_template_roots.

(* ------------------------------------------------------------------ the relation is decidable *)

Theorem C17_jequiv_sound : forall a b, jequivb a b = true -> jequiv a b.
Proof. exact jequivb_sound. Qed.
Print Assumptions C17_jequiv_sound.

Theorem C17_jequiv_complete : forall a b,
  keys_ok a = true -> keys_ok b = true -> jequiv a b -> jequivb a b = true.
Proof. exact jequivb_complete. Qed.
Print Assumptions C17_jequiv_complete.

Theorem C17_jequiv_refutes : forall a b,
  keys_ok a = true -> keys_ok b = true -> jequivb a b = false -> ~ jequiv a b.
Proof. exact jequivb_false. Qed.
Print Assumptions C17_jequiv_refutes.

(* ------------------------------------------------------------------ what the harness computes *)

Theorem C17_export_keys_distinct : forall classify root j v,
  keys_ok j = true -> parse_any classify root j = Ok v -> keys_ok (export v) = true.
Proof. exact export_keys_ok_live. Qed.
Print Assumptions C17_export_keys_distinct.

(* [jequivb] (ExportFaithful.v) is the harness's function [equiv]; extracted in extract/ExtractFaithful.v *)
Theorem C17_faithful_decided : forall classify root j v,
  keys_ok j = true -> parse_any classify root j = Ok v -> jequivb j (export v) = true.
Proof. exact faithful_decided. Qed.
Print Assumptions C17_faithful_decided.

(* ================================================================== non-vacuity *)

(* a job template that uses the coercions: a non-strict int given as 30.0 (timeout) and as text
   (notifyPeriodInSeconds, an INT default), as a bool (decimals); a float given as an int (singleStepDelta); a
   Decimal given as a float (maxValue); a string field given as an int, under an aliased key ($schema); an
   explicit null (description) *)
Definition exf_run : json :=
  JObj [($"command", JStr $"echo"); ($"args", JArr [JStr $"{{Param.N}}"]); ($"timeout", JDec 300 (-1));
        ($"cancelation", JObj [($"mode", JStr $"NOTIFY_THEN_TERMINATE"); ($"notifyPeriodInSeconds", JStr $" 4_5 ")])].
Definition exf_doc : json :=
  JObj [($"specificationVersion", JStr $"jobtemplate-2023-09");
        ($"$schema", JInt 12);
        ($"name", JStr $"job {{Param.N}}");
        ($"description", JNull);
        ($"parameterDefinitions",
         JArr [JObj [($"name", JStr $"N"); ($"type", JStr $"INT"); ($"default", JStr $"5"); ($"minValue", JInt 1)];
               JObj [($"name", JStr $"F"); ($"type", JStr $"FLOAT"); ($"maxValue", JDec 25 (-1));
                     ($"userInterface", JObj [($"control", JStr $"SPIN_BOX"); ($"decimals", JBool true);
                                              ($"singleStepDelta", JInt 2)])]]);
        ($"steps", JArr [JObj [($"name", JStr $"s1"); ($"script", JObj [($"actions", JObj [($"onRun", exf_run)])])]])].

(* what comes back: 30, 45, 5, 1, 2.0 (a float), "2.5", "12"; no description *)
Definition exf_run_out : json :=
  JObj [($"command", JStr $"echo"); ($"args", JArr [JStr $"{{Param.N}}"]); ($"timeout", JInt 30);
        ($"cancelation", JObj [($"mode", JStr $"NOTIFY_THEN_TERMINATE"); ($"notifyPeriodInSeconds", JInt 45)])].

Example C17_faithful_nonvacuous :
  keys_ok exf_doc = true
  /\ exists v,
      parse_any ascii_class "JobTemplate" exf_doc = Ok v
      /\ export v <> exf_doc
      /\ jget "$schema" (export v) = JStr $"12"
      /\ jget "description" (export v) = JNull
      /\ jget "steps" (export v)
         = JArr [JObj [($"name", JStr $"s1"); ($"script", JObj [($"actions", JObj [($"onRun", exf_run_out)])])]]
      /\ jequivb exf_doc (export v) = true
      /\ jequiv exf_doc (export v).
Proof.
  split; [vm_compute; reflexivity|].
  eassert (E : parse_any ascii_class "JobTemplate" exf_doc = Ok _) by (vm_compute; reflexivity).
  eexists. split; [exact E|]. pose proof (C17_faithful_strong _ _ _ _ E) as Hj.
  split; [vm_compute; discriminate|].
  split; [vm_compute; reflexivity|]. split; [vm_compute; reflexivity|]. split; [vm_compute; reflexivity|].
  split; [vm_compute; reflexivity|exact Hj].
Qed.

(* a bool where a string is expected: stored, and exported, as Python's str(True) *)
Definition exf_doc_b : json :=
  JObj [($"specificationVersion", JStr $"jobtemplate-2023-09");
        ($"$schema", JBool true);
        ($"name", JStr $"job");
        ($"steps", JArr [JObj [($"name", JStr $"s1");
                               ($"script", JObj [($"actions", JObj [($"onRun", JObj [($"command", JStr $"echo")])])])]])].

Example C17_faithful_bool_as_text :
  keys_ok exf_doc_b = true
  /\ exists v,
      parse_any ascii_class "JobTemplate" exf_doc_b = Ok v
      /\ export v <> exf_doc_b
      /\ jget "$schema" (export v) = JStr $"True"
      /\ jequiv exf_doc_b (export v).
Proof.
  split; [vm_compute; reflexivity|].
  eassert (E : parse_any ascii_class "JobTemplate" exf_doc_b = Ok _) by (vm_compute; reflexivity).
  eexists. split; [exact E|]. pose proof (C17_faithful_strong _ _ _ _ E) as Hj.
  split; [vm_compute; discriminate|]. split; [vm_compute; reflexivity|exact Hj].
Qed.

(* an environment template: a dictionary (variables), a null member, a lax int given as a float *)
Definition exf_env : json :=
  JObj [($"specificationVersion", JStr $"environment-2023-09");
        ($"parameterDefinitions", JArr [JObj [($"name", JStr $"Out"); ($"type", JStr $"PATH"); ($"description", JNull)]]);
        ($"environment",
         JObj [($"name", JStr $"E");
               ($"variables", JObj [($"A", JStr $"{{Param.Out}}"); ($"B", JStr $"2")]);
               ($"script",
                JObj [($"actions", JObj [($"onEnter", JObj [($"command", JStr $"x"); ($"timeout", JDec 300 (-1))])])])])].

Example C17_faithful_env_nonvacuous :
  keys_ok exf_env = true
  /\ exists v,
      parse_any ascii_class "EnvironmentTemplate" exf_env = Ok v
      /\ export v <> exf_env
      /\ jequivb exf_env (export v) = true
      /\ jequiv exf_env (export v).
Proof.
  split; [vm_compute; reflexivity|].
  eassert (E : parse_any ascii_class "EnvironmentTemplate" exf_env = Ok _) by (vm_compute; reflexivity).
  eexists. split; [exact E|]. pose proof (C17_faithful_strong _ _ _ _ E) as Hj.
  split; [vm_compute; discriminate|]. split; [vm_compute; reflexivity|exact Hj].
Qed.

(* a Job document (parse_model (model=Job)): an empty mapping stays a mapping, a Decimal given as an int is
   exported as text *)
Definition exf_job : json :=
  JObj [($"name", JStr $"job");
        ($"steps", JArr [JObj [($"name", JStr $"s1");
                               ($"script", JObj [($"actions", JObj [($"onRun", JObj [($"command", JStr $"echo"); ($"timeout", JStr $"30")])])]);
                               ($"hostRequirements",
                                JObj [($"amounts", JArr [JObj [($"name", JStr $"amount.worker.vcpu"); ($"min", JInt 2)]])])]]);
        ($"parameters", JObj [])].

Example C17_faithful_job_nonvacuous :
  keys_ok exf_job = true
  /\ exists v,
      parse_any ascii_class "Job" exf_job = Ok v
      /\ export v <> exf_job
      /\ jget "parameters" (export v) = JObj []
      /\ jequiv exf_job (export v).
Proof.
  split; [vm_compute; reflexivity|].
  eassert (E : parse_any ascii_class "Job" exf_job = Ok _) by (vm_compute; reflexivity).
  eexists. split; [exact E|]. pose proof (C17_faithful_strong _ _ _ _ E) as Hj.
  split; [vm_compute; discriminate|]. split; [vm_compute; reflexivity|exact Hj].
Qed.

Example C17_faithful_generic_nonvacuous : faithful_schema_ok Generated.schema = true /\ List.length Generated.schema = 41.
Proof. split; vm_compute; reflexivity. Qed.

(* ------------------------------------------------------------------ the relation tells things apart *)

(* what it identifies ... *)
Example C17_jequiv_identifies :
  jequiv (JInt 5) (JDec 50 (-1)) /\ jequiv (JStr $"5.0") (JInt 5) /\ jequiv (JStr $" 1_0 ") (JStr $"1E+1")
  /\ jequiv (JBool true) (JInt 1) /\ jequiv (JBool false) (JStr $"False")
  /\ jequiv (JObj [($"a", JNull); ($"b", JInt 1)]) (JObj [($"b", JDec 10 (-1))])
  /\ jequiv (JObj [($"a", JInt 1); ($"b", JInt 2)]) (JObj [($"b", JInt 2); ($"a", JInt 1)]).
Proof. repeat split; apply C17_jequiv_sound; vm_compute; reflexivity. Qed.

(* ... and what it does not: each line is a defect this theorem would have failed on.
   (1) fix cb389b6: 'timeout: 1.5' came back as 1;  (2) fix c014c55: '$schema' came back as 'schemaStr';
   (3) fix 876c663: 'variables: [["A","b"]]' came back as {"A": "b"};  also: True is not "1", null is not 0,
   a dropped member, an extra member, a reordered list *)
Example C17_jequiv_distinguishes :
  ~ jequiv (JObj [($"timeout", JDec 15 (-1))]) (JObj [($"timeout", JInt 1)])
  /\ ~ jequiv (JObj [($"$schema", JStr $"x")]) (JObj [($"schemaStr", JStr $"x")])
  /\ ~ jequiv (JObj [($"variables", JArr [JArr [JStr $"A"; JStr $"b"]])]) (JObj [($"variables", JObj [($"A", JStr $"b")])])
  /\ ~ jequiv (JBool true) (JStr $"1")
  /\ ~ jequiv JNull (JInt 0)
  /\ ~ jequiv (JObj [($"a", JInt 1); ($"b", JInt 2)]) (JObj [($"a", JInt 1)])
  /\ ~ jequiv (JObj [($"a", JInt 1)]) (JObj [($"a", JInt 1); ($"b", JInt 2)])
  /\ ~ jequiv (JArr [JInt 1; JInt 2]) (JArr [JInt 2; JInt 1])
  /\ ~ jequiv (JArr []) (JObj [])
  /\ ~ jequiv (JStr $"abc") (JStr $"abd").
Proof. repeat split; apply C17_jequiv_refutes; vm_compute; reflexivity. Qed.

(* the side condition of C17_jequiv_complete is needed, and is met by the examples above *)
Example C17_jequiv_complete_nonvacuous :
  keys_ok exf_doc = true
  /\ keys_ok (JObj [($"a", JInt 1); ($"a", JInt 2)]) = false
  /\ jequiv (JObj [($"a", JInt 1); ($"a", JInt 2)]) (JObj [($"a", JInt 1)])
  /\ jequivb (JObj [($"a", JInt 1); ($"a", JInt 2)]) (JObj [($"a", JInt 1)]) = false.
Proof.
  split; [vm_compute; reflexivity|]. split; [vm_compute; reflexivity|]. split; [|vm_compute; reflexivity].
  apply JE_obj.
  - intros k. unfold jlook. cbn [assoc]. destruct (str_eqb k $"a"); split; intros H; try discriminate H; reflexivity.
  - intros k v v' Hv Hv'. unfold jlook in Hv, Hv'. cbn [assoc] in Hv, Hv'. destruct (str_eqb k $"a"); [|discriminate Hv].
    inversion Hv. inversion Hv'. subst. apply C17_jequiv_sound. vm_compute. reflexivity.
Qed.

Example C17_int_coercion_lossless_nonvacuous :
  dec_integral 300 (-1) = true /\ trunc_dec 300 (-1) = 30%Z /\ dec_integral 15 (-1) = false
  /\ dec_integral 3 2 = true /\ trunc_dec 3 2 = 300%Z.
Proof. vm_compute. repeat split. Qed.

Example C17_int_text_is_decimal_text_nonvacuous :
  parse_int $" -1_000 " = Some (-1000)%Z /\ parse_dec $" -1_000 " = Some (Fin (-1000) 0)
  /\ parse_int $"1.0" = None /\ parse_dec $"1.0" = Some (Fin 10 (-1)).
Proof. vm_compute. repeat split. Qed.
