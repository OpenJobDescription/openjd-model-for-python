(* props/C11.v — PATH defaults cannot escape the template directory; joining is as documented.
   POSIX flavour only.  Model: OJD.Paths (pathlib/posixpath 3.12 + _create_job.py);
   specification: OJD.PathsSpec.  All statements quantify over ALL strings (list N). *)
From Coq Require Import List NArith Bool.
Import ListNotations.
Require Import OJD.Base OJD.Paths OJD.PathsSpec OJD.PathsProofs.
Local Open Scope N_scope.

(* concrete strings for the non-vacuity examples *)
Definition s_t_dir  : str := [47;116;47;100;105;114].                 (* "/t/dir"   *)
Definition s_t_dir2 : str := [47;116;47;100;105;114;50].              (* "/t/dir2"  *)
Definition s_a_x    : str := [97;47;46;47;47;120].                    (* "a/.//x"   *)
Definition s_climb  : str := [97;47;46;46;47;46;46;47;120].           (* "a/../../x" *)
Definition s_sib    : str := [46;46;47;100;105;114;50;47;120].        (* "../dir2/x" *)
Definition s_back   : str := [46;46;47;100;105;114;47;120].           (* "../dir/x" *)
Definition s_abs    : str := [47;97].                                 (* "/a"       *)
Definition s_rel    : str := [114;47;100].                            (* "r/d"      *)
Definition s_cwd    : str := [47;99;119;100].                         (* "/cwd"     *)
Definition s_tidy   : str := [97;47;47;98;47;46;47;46;46;47].         (* "a//b/./../" *)
Definition s_dd_dir : str := [47;116;47;46;46;47;117].                (* "/t/../u"  *)

(* 0. the specification reads path strings exactly as pathlib does *)
Theorem C11_parts_spec : forall s, parts s = spec_parts s /\ is_absolute s = spec_abs s.
Proof. intro s. split; [apply parts_spec|apply is_absolute_spec]. Qed.
Print Assumptions C11_parts_spec.

(* key lemma: normpath of an absolute path is absolute and has no ".." component *)
Theorem C11_normpath_abs_no_dotdot : forall s, spec_abs s = true ->
  normpath s = canon (spec_root s) (resolve (spec_comps s))
  /\ spec_abs (normpath s) = true /\ ~ In s_dotdot (spec_parts (normpath s)).
Proof. intros s H. split; [apply normpath_abs; exact H|apply normpath_abs_no_dotdot; exact H]. Qed.
Print Assumptions C11_normpath_abs_no_dotdot.

(* 1. containment: walk-up disallowed, a non-empty value produced from a default is absolute,
      has the directory's parts as a prefix of its parts, and contains no ".." *)
Theorem C11_contained : forall dir default v,
  collect_path_default dir false default = Ok v -> v <> [] ->
  spec_abs v = true /\ prefix (spec_parts dir) (spec_parts v) /\ ~ In s_dotdot (spec_parts v).
Proof. exact contained_thm. Qed.
Print Assumptions C11_contained.
Example C11_contained_nonvacuous :
  collect_path_default s_t_dir false s_a_x = Ok [47;116;47;100;105;114;47;97;47;120] (* "/t/dir/a/x" *)
  /\ containedb s_t_dir [47;116;47;100;105;114;47;97;47;120] = true
  /\ collect_path_default s_t_dir false s_back = Ok [47;116;47;100;105;114;47;120].   (* "../dir/x" re-enters: "/t/dir/x" *)
Proof. vm_compute. repeat split. Qed.

(* the same at the level of preprocess_job_parameters (any number of PATH parameters) *)
Theorem C11_contained_all : forall dir cwd ps l,
  preprocess_paths dir cwd false ps = Ok l ->
  Forall2 (fun p v => match p with
                      | PSupplied x => v = spec_supplied cwd x
                      | PDefault d => v = [] \/ contained dir v
                      | PRequired => False
                      end) ps l.
Proof.
  intros dir cwd ps l H. apply preprocess_ok in H. revert H. apply ListLib.Forall2_impl.
  intros [x|d|] v R; cbn in R |- *.
  - rewrite <- supplied_exact. exact R.
  - destruct v as [|c v']; [left; reflexivity|right]. eapply contained_thm; [exact R|intro; discriminate].
  - exact R.
Qed.
Print Assumptions C11_contained_all.
Example C11_contained_all_nonvacuous :
  preprocess_paths s_t_dir s_cwd false [PDefault s_a_x; PSupplied s_rel; PDefault []]
  = Ok [[47;116;47;100;105;114;47;97;47;120]; [47;99;119;100;47;114;47;100]; []].
Proof. vm_compute. reflexivity. Qed.

(* 2. the complete behaviour for a default, walk-up disallowed (one equation) *)
Theorem C11_default_exact : forall dir default,
  collect_path_default dir false default = spec_default dir default.
Proof. exact default_exact. Qed.
Print Assumptions C11_default_exact.

(* 3. the three rejections *)
Theorem C11_reject_abs : forall dir default, spec_abs default = true ->
  collect_path_default dir false default = Raise ValueError.
Proof. exact reject_abs. Qed.
Print Assumptions C11_reject_abs.
Example C11_reject_abs_nonvacuous :
  spec_abs s_abs = true /\ collect_path_default s_t_dir false s_abs = Raise ValueError.
Proof. vm_compute. split; reflexivity. Qed.

Theorem C11_reject_climb : forall dir default, default <> [] -> ~ lex_inside dir default ->
  collect_path_default dir false default = Raise ValueError.
Proof. exact reject_climb. Qed.
Print Assumptions C11_reject_climb.
Example C11_reject_climb_nonvacuous :
  prefixb (spec_comps s_t_dir) (lex_target s_t_dir s_climb) = false
  /\ collect_path_default s_t_dir false s_climb = Raise ValueError
  /\ collect_path_default s_t_dir false s_sib = Raise ValueError       (* sibling "/t/dir2" *)
  /\ collect_path_default s_t_dir2 false [46;46;47;100;105;114] = Raise ValueError.  (* "../dir" from /t/dir2 *)
Proof. vm_compute. repeat split. Qed.

(* ... and nothing that stays inside is rejected *)
Theorem C11_accept_inside : forall dir default,
  spec_abs dir = true -> default <> [] -> spec_abs default = false -> lex_inside dir default ->
  collect_path_default dir false default = Ok (canon (spec_root dir) (lex_target dir default)).
Proof. exact accept_inside. Qed.
Print Assumptions C11_accept_inside.
Example C11_accept_inside_nonvacuous :
  spec_abs s_t_dir = true /\ spec_abs s_a_x = false
  /\ prefixb (spec_comps s_t_dir) (lex_target s_t_dir s_a_x) = true.
Proof. vm_compute. repeat split. Qed.

(* a template directory that itself contains ".." rejects every relative non-empty default
   (the code compares the normalised value with the un-normalised directory) *)
Theorem C11_dotdot_dir_rejects : forall dir default,
  In s_dotdot (spec_comps dir) -> default <> [] ->
  collect_path_default dir false default = Raise ValueError.
Proof.
  intros dir default Hin Hne. apply reject_climb; [exact Hne|].
  intros [r E]. apply (nodd_notin _ (resolve_nodd (spec_comps dir ++ spec_comps default))).
  unfold lex_target in E. rewrite E. apply in_or_app. left. exact Hin.
Qed.
Print Assumptions C11_dotdot_dir_rejects.
Example C11_dotdot_dir_rejects_nonvacuous :
  mem_str s_dotdot (spec_comps s_dd_dir) = true
  /\ collect_path_default s_dd_dir false [97] = Raise ValueError.
Proof. vm_compute. split; reflexivity. Qed.

Theorem C11_reldir : forall dir, spec_abs dir = false ->
  (forall default, collect_path_default dir false default = Raise ValueError)
  /\ (forall cwd ps, ps <> [] -> preprocess_paths dir cwd false ps = Raise ValueError).
Proof.
  intros dir H. split; [intro; apply reldir_default; exact H|intros; apply reldir_preprocess; assumption].
Qed.
Print Assumptions C11_reldir.
Example C11_reldir_nonvacuous :
  spec_abs s_rel = false
  /\ preprocess_paths s_rel s_cwd false [PSupplied s_abs] = Raise ValueError
  /\ collect_path_default s_rel true s_a_x = Ok s_a_x.   (* walk-up allowed: verbatim, relative *)
Proof. vm_compute. repeat split. Qed.

Theorem C11_only_ValueError : forall dir cwd walkup ps e,
  preprocess_paths dir cwd walkup ps = Raise e -> e = ValueError.
Proof. exact preprocess_only_ValueError. Qed.
Print Assumptions C11_only_ValueError.
Example C11_only_ValueError_nonvacuous :
  preprocess_paths s_t_dir s_cwd true [PRequired] = Raise ValueError.
Proof. vm_compute. reflexivity. Qed.

(* 4. supplied values *)
Theorem C11_supplied : forall cwd v,
  path_supplied cwd v = spec_supplied cwd v
  /\ (v = [] \/ spec_abs v = true -> path_supplied cwd v = v)
  /\ (v <> [] -> spec_abs v = false ->
      spec_parts (path_supplied cwd v) = spec_parts cwd ++ spec_parts v
      /\ spec_abs (path_supplied cwd v) = spec_abs cwd).
Proof.
  intros cwd v. split; [apply supplied_exact|]. split; [|apply supplied_parts].
  intro H. rewrite supplied_exact. unfold spec_supplied.
  destruct H as [H|H]; [subst; reflexivity|]. rewrite H, orb_true_r. reflexivity.
Qed.
Print Assumptions C11_supplied.
Example C11_supplied_nonvacuous :
  path_supplied s_cwd s_tidy = [47;99;119;100;47;97;47;98;47;46;46]   (* "/cwd/a/b/.." : ".." kept *)
  /\ path_supplied s_cwd [] = [] /\ path_supplied s_cwd s_abs = s_abs.
Proof. vm_compute. repeat split. Qed.

(* 5. server mode: Path() for both directories, walk-up allowed *)
Theorem C11_server : forall v,
  server_value v = spec_server v
  /\ (v = [] \/ spec_abs v = true -> server_value v = v)
  /\ (v <> [] -> spec_parts (server_value v) = spec_parts v)
  /\ server_default v = Ok v.
Proof.
  intro v. split; [apply server_exact|]. split; [|split; [apply server_parts|apply server_default_verbatim]].
  intro H. rewrite server_exact. apply spec_server_fix_abs.
  destruct H as [H|H]; [subst; reflexivity|]. rewrite H, orb_true_r. reflexivity.
Qed.
Print Assumptions C11_server.
Example C11_server_nonvacuous :
  server_value s_tidy = [97;47;98;47;46;46]          (* "a//b/./../" -> "a/b/.." *)
  /\ server_value [46] = [46]                        (* "." -> "." *)
  /\ server_value [47;47;97;47;47;46;46;47] = [47;47;97;47;47;46;46;47]   (* absolute: verbatim *)
  /\ server_default s_tidy = Ok s_tidy.
Proof. vm_compute. repeat split. Qed.

(* 6. what create_job stores = re-preprocessing in server mode *)
Theorem C11_idempotent :
  (forall v, server_value (server_value v) = server_value v)
  /\ (forall cwd v, server_value (path_supplied cwd v) = path_supplied cwd v)
  /\ (forall dir walkup default w, collect_path_default dir walkup default = Ok w ->
        spec_abs dir = true \/ walkup = false -> server_value w = w).
Proof. split; [exact server_idempotent|split; [exact server_fix_supplied|exact server_fix_default]]. Qed.
Print Assumptions C11_idempotent.

(* the one case in which the Job's value is not textually the preprocessed one: walk-up
   allowed AND a relative template directory return a relative default verbatim, and
   create_job then tidies it (same parts) *)
Theorem C11_walkup_default : forall dir default,
  collect_path_default dir true default =
  Ok (if negb (is_nil default) && negb (spec_abs default) && spec_abs dir
      then canon (spec_root dir) (lex_target dir default) else default).
Proof. exact default_walkup. Qed.
Print Assumptions C11_walkup_default.
Theorem C11_untidy_default_witness : exists dir default w,
  collect_path_default dir true default = Ok w /\ server_value w <> w
  /\ spec_parts (server_value w) = spec_parts w.
Proof. exists s_rel, s_a_x, s_a_x. vm_compute. repeat split. discriminate. Qed.
Print Assumptions C11_untidy_default_witness.

(* 7. the executable oracle used by the check (PathsSpec.spec_preprocess) IS the model *)
Theorem C11_preprocess_spec : forall dir cwd walkup ps,
  preprocess_paths dir cwd walkup ps = spec_preprocess dir cwd walkup ps.
Proof. exact preprocess_spec. Qed.
Print Assumptions C11_preprocess_spec.
