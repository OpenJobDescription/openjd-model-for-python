(* props/C06xu.v — the last clause of C06: "... and every Job that is returned can be iterated and graphed
   without error".

   [usable_job classify job] (theories/UsableSpec.v, written from the property text; the glue that reads a Job
   instance into the inputs of the two consumers is theories/UsableGlue.v):

     is_job job                the value is a Job instance with a list of steps;
     for every step of job.steps, [usable_space classify step.parameterSpace]:
         read_space = Ok sp        the combination parses (Comb.parse_str), every range is a list of strings or a
                                   range expression that parses (RangeExpr.from_str);
         sps_init sp = Ok tp       StepParameterSpaceIterator(space=...) returns: every leaf of the combination
                                   names a declared task parameter (no KeyError); no combination = the product
                                   of all parameters in declaration order; no space = [{}];
         space_ok tp               the tree is C07-valid: ranges non-empty, each parameter named once, the operands
                                   of every association have the same number of elements (dimensions balanced);
         iterates tp               len() = n >= 1 is defined, obj[i] is defined for -n <= i < n, and iteration hands
                                   out exactly n task parameter sets (those of C07's denotation, in order) and then
                                   raises StopIteration;
     usable_graph job          StepDependencyGraph(job=job): step names pairwise distinct, no edge to an unknown step,
                               the constructor returns, and topo_sorted returns every step once, each after its
                               dependencies — the documented stable order (C15).

   Proofs: theories/UsableTree.v (dimension check passed ==> the iterator's tree is valid), UsableParse.v (what
   the job-side re-validation of a StepParameterSpace / RangeExpression node says), UsableSpace.v, UsableTrace.v
   (names, dependencies, combination and parameter names are carried from the accepted template into the Job),
   UsableProofs.v. *)
From Coq Require Import List NArith ZArith Bool String Permutation.
Import ListNotations.
Require Import OJD.Base OJD.Lexer OJD.Json OJD.Schema OJD.Generated OJD.CreateJob OJD.Parse OJD.Validators OJD.Accept
               OJD.Export OJD.Comb OJD.ParamSpace OJD.ParamSpaceSpec OJD.DepGraph OJD.DepGraphSpec
               OJD.CreateJobFull OJD.CreateJobFullProofs
               OJD.UsableGlue OJD.UsableSpec OJD.UsableTree OJD.UsableShape OJD.UsableSpace OJD.UsableProofs.
Local Open Scope string_scope.
Local Open Scope list_scope.

(* ------------------------------------------------------------------ THE THEOREM *)

(* for every job template accepted by decode_job, all environment templates accepted by decode_env and
   every list of caller values: a Job that create_job_full returns is usable *)
Theorem C06_full_usable : forall classify j t envs vals job,
  decode_job classify j = Ok t -> accepted_envs classify envs ->
  create_job_full classify envs t vals = Ok job ->
  usable_job classify job.
Proof. exact create_job_full_usable. Qed.
Print Assumptions C06_full_usable.

(* with C06_full_total: create_job returns a usable Job or raises DecodeValidationError — nothing else *)
Theorem C06_full_total_usable : forall classify j t envs vals,
  decode_job classify j = Ok t -> accepted_envs classify envs ->
  (exists job, create_job_full classify envs t vals = Ok job /\ usable_job classify job) \/
  create_job_full classify envs t vals = Raise DecodeValidationError.
Proof. exact create_job_full_total_usable. Qed.
Print Assumptions C06_full_total_usable.

(* the same from the raw documents *)
Theorem C06_full_docs_usable : forall classify env_docs doc vals out,
  create_job_docs classify env_docs doc vals = Ok (Ok out) ->
  exists job, usable_job classify job /\ out = export job.
Proof. exact create_job_docs_usable. Qed.
Print Assumptions C06_full_docs_usable.

(* ------------------------------------------------------------------ the parts *)

(* (a), on the Job alone (no template): a StepParameterSpace instance of the shape instantiate_model
   produces — definitions keyed by pairwise distinct names, each a RangeExpression... node or a
   *RangeList... node with a non-empty list of strings, the combination absent or a string that parses
   and names every key once — all of whose nodes are accepted by their own classes (the job-side
   re-validation, Export.nodes_ok) is usable *)
Theorem C06xu_space : forall classify psn,
  space_shape classify is_mstr psn ->
  (forall w, subnode psn w -> node_accepted classify w) ->
  usable_space classify psn.
Proof. exact shape_usable. Qed.
Print Assumptions C06xu_space.

(* Export.nodes_ok = Ok true is "every model node of the tree is accepted by its own class" *)
Theorem C06xu_nodes_accepted : forall classify F v, nodes_ok classify F v = Ok true ->
  forall w, subnode v w -> node_accepted classify w.
Proof. exact nodes_ok_accepted. Qed.
Print Assumptions C06xu_nodes_accepted.

(* the dimension check of the job-side validator returned ==> _create_expr_tree builds a C07-valid tree
   (for a combination: canonical = parsed, naming each parameter once; lengths = those of the parameters) *)
Theorem C06xu_tree : forall (ps : list param) (comb : option Comb.ctree) (al : list (str * N)),
  ps <> [] -> NoDup (map ParamSpaceProofs.pname ps) -> (forall p, In p ps -> snd p <> []) ->
  Forall2 (fun a p => fst a = ParamSpaceProofs.pname p /\ snd a = N.of_nat (List.length (snd p))) al ps ->
  (forall c, comb = Some c ->
     CombSpec.Canonical c /\ Permutation (collect_ids c) (map ParamSpaceProofs.pname ps) /\
     exists n, dims (lookup_len al) c = Ok n) ->
  exists t, sps_init (Some (ps, option_map conv comb)) = Ok (TopNode t) /\ valid t.
Proof. exact space_built. Qed.
Print Assumptions C06xu_tree.

(* C07 packaged: a well-formed top can be used *)
Theorem C06xu_iterates : forall tp, space_ok tp -> iterates tp.
Proof. exact ok_iterates. Qed.
Print Assumptions C06xu_iterates.

(* (b): a step list that satisfies the template's dependency rule (unique names, known dependencies, no
   cycle) has a graph that builds and sorts; and with unique names the Job's graph is that graph *)
Theorem C06xu_graph : forall steps, WF.DepsRule steps ->
  let g := dep_job steps in
  well_named g /\
  exists gr order,
    build g = Ok gr /\ topo gr = Ok order /\
    Permutation order (DepGraphSpec.names g) /\
    (forall n d, In d (deps_of g n) -> before d n order) /\
    order = stable_order g.
Proof. exact deps_rule_graph. Qed.
Print Assumptions C06xu_graph.

Theorem C06xu_graph_glue : forall steps, NoDup (names_of steps) -> steps_graph steps = dep_job steps.
Proof. exact steps_graph_dep_job. Qed.
Print Assumptions C06xu_graph_glue.

(* ------------------------------------------------------------------ non-vacuity *)
Definition js (x : string) : json := JStr (str_of_string x).
Definition jo (l : list (string * json)) : json := JObj (map (fun kv => (str_of_string (fst kv), snd kv)) l).
Definition vs (l : list (string * string)) : list (str * str) := map (fun kv => ($(fst kv), $(snd kv))) l.
Definition uscript : json := jo [("actions", jo [("onRun", jo [("command", js "c")])])].

(* two steps; B depends on A; A has a parameter space with an association (X, Y), a product with Z, a range
   expression that refers to a job parameter, a string list with a reference and a FLOAT list of numbers *)
Definition udoc : json :=
  jo [("specificationVersion", js "jobtemplate-2023-09");
      ("name", js "J");
      ("parameterDefinitions", JArr [jo [("name", js "N"); ("type", js "INT"); ("default", js "3")]]);
      ("steps",
       JArr [jo [("name", js "A");
                 ("parameterSpace",
                  jo [("taskParameterDefinitions",
                       JArr [jo [("name", js "X"); ("type", js "INT"); ("range", js "1-{{Param.N}}")];
                             jo [("name", js "Y"); ("type", js "STRING"); ("range", JArr [js "a"; js "b{{Param.N}}"; js "c"])];
                             jo [("name", js "Z"); ("type", js "FLOAT"); ("range", JArr [JInt 1; JDec 25 (-1)])]]);
                      ("combination", js "(X, Y) * Z")]);
                 ("script", uscript)];
             jo [("name", js "B"); ("script", uscript); ("dependencies", JArr [jo [("dependsOn", js "A")]])]])].

(* the decoded template and the Job create_job_full returns for N = 3, as closed values *)
Definition ut : mval := match decode_job ascii_class udoc with Ok t => t | Raise _ => MNone end.
Definition ujob : mval := match create_job_full ascii_class [] ut (vs [("N", "3")]) with Ok j => j | Raise _ => MNone end.

Example ut_ok : decode_job ascii_class udoc = Ok ut.
Proof. vm_compute. reflexivity. Qed.
Example ujob_ok : create_job_full ascii_class [] ut (vs [("N", "3")]) = Ok ujob.
Proof. vm_compute. reflexivity. Qed.

(* the hypotheses are met (the template is accepted, a Job is returned for N = 3), the glue reads the real
   Job — X = 1,2,3 expanded from the substituted expression "1-3", Y's reference resolved, Z's numbers
   printed; the graph of the two steps — and [usable_job] holds BY THE THEOREM, not by computation *)
Example C06_full_usable_nonvacuous :
  exists t job,
    decode_job ascii_class udoc = Ok t /\ accepted_envs ascii_class [] /\
    create_job_full ascii_class [] t (vs [("N", "3")]) = Ok job /\
    usable_job ascii_class job /\
    map (fun st => read_space ascii_class (step_space st)) (job_steps job)
    = [Ok (Some ([($"X", TInt, [$"1"; $"2"; $"3"]);
                  ($"Y", TString, [$"a"; $"b3"; $"c"]);
                  ($"Z", TFloat, [$"1"; $"2.5"])],
                 Some (CProd [CAssoc [CId $"X"; CId $"Y"]; CId $"Z"])));
       Ok None] /\
    job_graph job = [(0%N, []); (1%N, [0%N])] /\
    topo_job (job_graph job) = Ok [0%N; 1%N].
Proof.
  exists ut, ujob. split; [exact ut_ok|]. split; [constructor|]. split; [exact ujob_ok|].
  split; [exact (C06_full_usable ascii_class udoc ut [] (vs [("N", "3")]) ujob ut_ok (Forall_nil _) ujob_ok)|].
  vm_compute. repeat split.
Qed.

(* ... and what usable_job says there: the space of step A has 3 * 2 = 6 task parameter sets, the space of
   step B (none) has one *)
Example C06_full_usable_len_nonvacuous :
  map (fun st => match read_space ascii_class (step_space st) with
                 | Ok sp => match sps_init sp with Ok tp => top_len tp | Raise e => Raise e end
                 | Raise e => Raise e
                 end) (job_steps ujob) = [Ok 6%Z; Ok 1%Z].
Proof. vm_compute. reflexivity. Qed.

(* a value that makes the substituted range invalid ("1-0"): no Job, DecodeValidationError (C06_full_total_usable's
   other branch) *)
Example C06_full_usable_refused_nonvacuous :
  create_job_docs ascii_class [] udoc (vs [("N", "0")]) = Ok (Raise DecodeValidationError).
Proof. vm_compute. reflexivity. Qed.

(* unbalanced after substitution: (X, Y) with |X| = 2, |Y| = 3 — the dimension check refuses the Job *)
Example C06_full_usable_unbalanced_nonvacuous :
  create_job_docs ascii_class [] udoc (vs [("N", "2")]) = Ok (Raise DecodeValidationError).
Proof. vm_compute. reflexivity. Qed.

(* the hypotheses of C06xu_space / C06xu_iterates are met by a hand-written space *)
Example C06xu_iterates_nonvacuous :
  space_ok (TopList none_denote) /\
  space_ok (TopNode (ParamSpace.Prod [Leaf $"A" TInt [$"1"; $"2"]; Leaf $"B" TString [$"x"]])).
Proof.
  split; [reflexivity|]. split.
  - cbn. constructor; [cbn; intros [E|[]]; discriminate E|]. constructor; [intros []|constructor].
  - apply WfProd; [discriminate|]. repeat constructor; discriminate.
Qed.

(* the hypotheses of C06xu_space are met by the parameter space of step A of the Job above: it has the shape,
   and all its nodes are accepted (nodes_ok on the whole Job, by computation, then C06xu_nodes_accepted) *)
Definition upsn : mval := step_space (hd MNone (job_steps ujob)).

Example C06xu_space_nonvacuous :
  space_shape ascii_class is_mstr upsn /\ (forall w, subnode upsn w -> node_accepted ascii_class w).
Proof.
  (* the Job is evaluated once *)
  unfold upsn, job_steps, job_steps_val. remember ujob as j eqn:Ej. vm_compute in Ej.
  split.
  - subst j. unfold space_shape. eexists. eexists. split; [reflexivity|].
    split; [discriminate|]. split.
    + cbn [map fst]. repeat (constructor; [cbn [In]; intros H; repeat (destruct H as [H|H]; [discriminate H|]); exact H|]).
      constructor.
    + split.
      * constructor; [apply DS_expr; discriminate|].
        constructor; [apply DS_list; [right; right; left; reflexivity|discriminate|discriminate|
                                      repeat (constructor; [eexists; reflexivity|]); constructor]|].
        constructor; [apply DS_list; [right; left; reflexivity|discriminate|discriminate|
                                      repeat (constructor; [eexists; reflexivity|]); constructor]|].
        constructor.
      * right. eexists. eexists. split; [reflexivity|]. split; vm_compute; reflexivity.
  - intros w Hw. apply (C06xu_nodes_accepted ascii_class 20 j); subst j; [vm_compute; reflexivity|].
    refine (subnode_trans _ _ _ _ Hw).
    eapply subnode_trans; [apply (subnode_mfield _ "steps"); [reflexivity|discriminate]|].
    eapply subnode_trans; [apply subnode_mitems; left; reflexivity|].
    apply (subnode_mfield _ "parameterSpace"); [reflexivity|discriminate].
Qed.

(* C06xu_tree: (A, B) with two values each; the lengths are those the validator would look up *)
Example C06xu_tree_nonvacuous :
  let ps : list param := [($"A", TInt, [$"1"; $"2"]); ($"B", TString, [$"x"; $"y"])] in
  let al : list (str * N) := [($"A", 2%N); ($"B", 2%N)] in
  let c := Comb.Assoc [Comb.Id $"A"; Comb.Id $"B"] in
  ps <> [] /\ NoDup (map ParamSpaceProofs.pname ps) /\ (forall p, In p ps -> snd p <> []) /\
  Forall2 (fun a p => fst a = ParamSpaceProofs.pname p /\ snd a = N.of_nat (List.length (snd p))) al ps /\
  CombSpec.Canonical c /\ Permutation (collect_ids c) (map ParamSpaceProofs.pname ps) /\
  dims (lookup_len al) c = Ok 2%N.
Proof.
  cbv zeta. split; [discriminate|]. split.
  { cbn [map]. repeat (constructor; [cbn [In]; intros H; repeat (destruct H as [H|H]; [discriminate H|]); exact H|]). constructor. }
  split; [intros p [<-|[<-|[]]]; discriminate|].
  split; [repeat constructor|].
  split; [apply CombSpec.Can_assoc; [cbn; auto|repeat constructor]|].
  split; [apply Permutation_refl|vm_compute; reflexivity].
Qed.

(* C06xu_graph / C06xu_graph_glue: the steps of the Job above satisfy the dependency rule *)
Example C06xu_graph_nonvacuous :
  WF.DepsRule (job_steps_val ujob) /\ NoDup (names_of (job_steps_val ujob)) /\
  dep_job (job_steps_val ujob) = [(0%N, []); (1%N, [0%N])].
Proof.
  assert (H : WF.DepsRule (job_steps_val ujob) /\ dep_job (job_steps_val ujob) = [(0%N, []); (1%N, [0%N])])
    by (rewrite <- AcceptRules.deps_rule_iff; vm_compute; split; reflexivity).
  split; [exact (proj1 H)|]. split; [exact (proj1 (proj1 H))|exact (proj2 H)].
Qed.
