(* props/C05x.v — C05_exact: "a created Job is the template with creation-time substitutions, nothing else",
   END TO END on the raw document.

   For every job-template DOCUMENT j that the acceptance model accepts (decode_job, Accept.v, on the live
   schema Generated.schema) and every list of values, if the instantiation model returns a Job
   (create_job_object, CreateJob.v: instantiate_model on the decoded instance tree, the job-side range
   coercion, model_to_object), then the document-level specification expected_job (CreateJobSpec.v: written
   on the raw document, no metadata) also returns a Job, and the two are the same JSON value up to
   [json_equiv] (JsonEquiv.v):

       scalars equal; arrays pointwise; objects as finite maps — a member whose value is null is the same as
       no member, member order is irrelevant, same keys, equivalent values.

   Hypotheses on the document, each a boolean function of the document alone (no schema):

     distinct_keys j      every object of j has pairwise distinct keys.  True of every value a JSON / YAML
                          parser returns (a Python dict cannot hold a key twice); needed because [jget] and the
                          parser read the FIRST member with a key while "explicit nulls are absent" may
                          uncover a later one.  Only used inside scripts, environments, dependencies.
     lax_ints_native j    the two lax integer fields of the carried classes, "timeout" and
                          "notifyPeriodInSeconds", are integers in the document (pydantic accepts "5", true,
                          5.0 there and stores 5; the Job would then differ from the document).  Members of an
                          environment's "variables" are exempt.
     canonical_numbers j  a STRING item of an INT (FLOAT) range list that int() (Decimal()) accepts, and an
                          amount bound given as a string, is written the way str() prints the number
                          ("5" not "+5"/" 5"/"0_5"; "1.50" is fine, "1.5e0" is not).  The template stores the
                          NUMBER and create_job writes str(number); the specification substitutes into the
                          string as written.

   No hypothesis on the values: [covers] is not needed (a missing value makes the model raise KeyError, and
   the theorem speaks about returned Jobs); the corollary C05_exact states it in the requested form. *)
From Coq Require Import List NArith ZArith Bool String.
Import ListNotations.
Require Import OJD.Base OJD.Lexer OJD.Json OJD.Schema OJD.Generated OJD.CreateJob OJD.CreateJobSpec OJD.Accept OJD.Export
               OJD.NoMissingVar OJD.JsonEquiv OJD.CreateJobExactCarried OJD.CreateJobExactSpace OJD.CreateJobExactHost
               OJD.CreateJobExact.
Local Open Scope string_scope.
Local Open Scope list_scope.

(* ------------------------------------------------------------------ the equivalence *)
Theorem C05x_equiv_refl : forall j, json_equiv j j.
Proof. exact json_equiv_refl. Qed.
Print Assumptions C05x_equiv_refl.

Theorem C05x_equiv_sym : forall a b, json_equiv a b -> json_equiv b a.
Proof. exact json_equiv_sym. Qed.
Print Assumptions C05x_equiv_sym.

Theorem C05x_equiv_trans : forall a b c, json_equiv a b -> json_equiv b c -> json_equiv a c.
Proof. exact json_equiv_trans. Qed.
Print Assumptions C05x_equiv_trans.

(* ------------------------------------------------------------------ the theorem *)
Theorem C05_exact_full : forall classify j t vals job,
  ascii_ok classify = true ->
  decode_job classify j = Ok t ->
  distinct_keys j = true -> lax_ints_native j = true -> canonical_numbers j = true ->
  create_job_object Generated.schema (fs_resolve classify) vals t = Ok job ->
  exists job', expected_job (fs_resolve classify) (symtab_of vals) j = Ok job' /\ json_equiv job job'.
Proof. exact CreateJobExact.C05_exact_full. Qed.
Print Assumptions C05_exact_full.

(* ... in the form of the design document (the [covers] premise is not used) *)
Theorem C05_exact : forall classify j t vals job,
  ascii_ok classify = true ->
  decode_job classify j = Ok t ->
  covers (jget "parameterDefinitions" j) vals ->
  distinct_keys j = true -> lax_ints_native j = true -> canonical_numbers j = true ->
  create_job_object Generated.schema (fs_resolve classify) vals t = Ok job ->
  exists job', expected_job (fs_resolve classify) (symtab_of vals) j = Ok job' /\ json_equiv job job'.
Proof. intros classify j t vals job Ha Hd _. exact (CreateJobExact.C05_exact_full classify j t vals job Ha Hd). Qed.
Print Assumptions C05_exact.

(* templates whose steps have neither parameterSpace nor hostRequirements: name substitution, parameters map,
   everything else carried over; any [resolve], any [classify], no condition on numerals *)
Theorem C05_exact_partial_1 : forall classify resolve j t vals job,
  decode_job classify j = Ok t ->
  distinct_keys j = true -> lax_ints_native j = true -> plain_steps j = true ->
  create_job_object Generated.schema resolve vals t = Ok job ->
  exists job', expected_job resolve (symtab_of vals) j = Ok job' /\ json_equiv job job'.
Proof. exact CreateJobExact.C05_exact_plain. Qed.
Print Assumptions C05_exact_partial_1.

(* templates without hostRequirements *)
Theorem C05_exact_partial_2 : forall classify j t vals job,
  ascii_ok classify = true ->
  decode_job classify j = Ok t ->
  distinct_keys j = true -> lax_ints_native j = true -> no_host_steps j = true ->
  forallb (fun st => canon_space (jget "parameterSpace" st)) (items (jget "steps" j)) = true ->
  create_job_object Generated.schema (fs_resolve classify) vals t = Ok job ->
  exists job', expected_job (fs_resolve classify) (symtab_of vals) j = Ok job' /\ json_equiv job job'.
Proof. exact CreateJobExact.C05_exact_space. Qed.
Print Assumptions C05_exact_partial_2.

(* equality up to member ORDER ([json_perm]: scalars equal, arrays pointwise, objects a permutation of members with
   equal keys and values): holds as soon as the two Jobs have pairwise distinct keys and the specification's Job has
   no null member -- three boolean functions of the two VALUES (that the model's Job has no null member is proved).
   That these three always hold for accepted documents is proved in props/C05xk.v. *)
Theorem C05_exact_perm : forall classify j t vals job job',
  ascii_ok classify = true ->
  decode_job classify j = Ok t ->
  distinct_keys j = true -> lax_ints_native j = true -> canonical_numbers j = true ->
  create_job_object Generated.schema (fs_resolve classify) vals t = Ok job ->
  expected_job (fs_resolve classify) (symtab_of vals) j = Ok job' ->
  distinct_keys job = true -> distinct_keys job' = true -> no_null_members job' = true ->
  json_perm job job'.
Proof. exact CreateJobExact.C05_exact_perm. Qed.
Print Assumptions C05_exact_perm.

Theorem C05x_model_job_no_null : forall resolve vals t job,
  create_job_object Generated.schema resolve vals t = Ok job -> no_null_members job = true.
Proof. exact create_job_object_nnm. Qed.
Print Assumptions C05x_model_job_no_null.

Theorem C05x_equiv_perm : forall a b,
  json_equiv a b ->
  no_null_members a = true -> no_null_members b = true -> distinct_keys a = true -> distinct_keys b = true ->
  json_perm a b.
Proof. exact json_equiv_perm. Qed.
Print Assumptions C05x_equiv_perm.

(* ================================================================== non-vacuity *)
Example ascii_class_ok : ascii_ok ascii_class = true.
Proof. vm_compute. reflexivity. Qed.

Definition ex_env (name : string) : json :=
  JObj [($"description", JNull); ($"name", JStr $name);
        ($"variables", JObj [($"V", JStr $"{{Param.S}}"); ($"timeout", JStr $"5")])].

Definition ex_script (arg : string) : json :=
  JObj [($"embeddedFiles", JArr [JObj [($"type", JStr $"TEXT"); ($"name", JStr $"f"); ($"data", JStr $"{{RawParam.P}}");
                                      ($"runnable", JNull)]]);
        ($"actions", JObj [($"onRun", JObj [($"args", JArr [JStr $arg; JStr $"{{Param.S}}"]);
                                            ($"command", JStr $"echo {{Param.S}} {{Task.File.f}}");
                                            ($"timeout", JInt 5);
                                            ($"cancelation", JObj [($"notifyPeriodInSeconds", JInt 10);
                                                                   ($"mode", JStr $"NOTIFY_THEN_TERMINATE")])])])].

Definition ex_space : json :=
  JObj [($"combination", JStr $"(i,k) * x * s");
        ($"taskParameterDefinitions",
         JArr [JObj [($"name", JStr $"i"); ($"type", JStr $"INT"); ($"range", JStr $"1-{{Param.I}}")];
               JObj [($"range", JArr [JInt 7; JStr $"3"; JStr $"{{Param.I}}"]); ($"type", JStr $"INT"); ($"name", JStr $"k")];
               JObj [($"name", JStr $"x"); ($"type", JStr $"FLOAT"); ($"range", JArr [JDec 25 (-1); JStr $"1.50"; JInt 2; JStr $"{{Param.I}}"])];
               JObj [($"name", JStr $"s"); ($"type", JStr $"STRING"); ($"range", JArr [JStr $"a{{Param.I}}"; JStr $"007"])]])].

Definition ex_host : json :=
  JObj [($"attributes", JArr [JObj [($"name", JStr $"attr.worker.os.family"); ($"anyOf", JArr [JStr $"linux"]); ($"allOf", JNull)];
                              JObj [($"name", JStr $"attr.{{Param.S}}"); ($"allOf", JArr [JStr $"{{Param.S}}"; JStr $"b"])]]);
        ($"amounts", JArr [JObj [($"max", JStr $"2.5"); ($"name", JStr $"amount.worker.vcpu"); ($"min", JInt 1)];
                           JObj [($"name", JStr $"amount.{{Param.S}}"); ($"min", JDec 5 (-1))]])].

(* two steps; members deliberately not in schema order, some explicit nulls *)
Definition ex_doc : json :=
  JObj [($"steps",
         JArr [JObj [($"hostRequirements", ex_host); ($"script", ex_script "{{Task.Param.i}}"); ($"name", JStr $"a");
                     ($"parameterSpace", ex_space); ($"stepEnvironments", JArr [ex_env "se"]); ($"description", JStr $"first {{Param.S}}")];
               JObj [($"name", JStr $"b"); ($"dependencies", JArr [JObj [($"dependsOn", JStr $"a")]]); ($"script", ex_script "{{RawParam.P}}");
                     ($"parameterSpace", JNull)]]);
        ($"specificationVersion", JStr $"jobtemplate-2023-09");
        ($"jobEnvironments", JArr [ex_env "e"]);
        ($"$schema", JStr $"http://x");
        ($"description", JStr $"d {{Param.S}}");
        ($"parameterDefinitions",
         JArr [JObj [($"name", JStr $"S"); ($"type", JStr $"STRING"); ($"description", JStr $"a string"); ($"default", JStr $"x")];
               JObj [($"type", JStr $"PATH"); ($"name", JStr $"P"); ($"description", JNull)];
               JObj [($"name", JStr $"I"); ($"type", JStr $"INT"); ($"minValue", JStr $"1")]]);
        ($"name", JStr $"job {{Param.S}} {{RawParam.P}}")].

(* the value of S looks like a reference: it is not expanded again *)
Definition ex_vals : list (str * str * str) :=
  [($"S", $"STRING", $"{{Param.I}}"); ($"P", $"PATH", $"/tmp"); ($"I", $"INT", $"3")].

Definition ex_decoded : outcome mval := decode_job ascii_class ex_doc.
Definition ex_job : outcome json :=
  match ex_decoded with
  | Ok t => create_job_object Generated.schema (fs_resolve ascii_class) ex_vals t
  | Raise e => Raise e
  end.

(* every hypothesis of C05_exact_full holds of the example, and the Job has a parameter space and host requirements *)
Example C05_exact_nonvacuous :
  ascii_ok ascii_class = true /\
  is_ok ex_decoded = true /\
  distinct_keys ex_doc = true /\ lax_ints_native ex_doc = true /\ canonical_numbers ex_doc = true /\
  is_ok ex_job = true /\
  plain_steps ex_doc = false /\ no_host_steps ex_doc = false.
Proof. vm_compute. repeat split. Qed.

(* ... hence its conclusion: the specification's Job exists and is equivalent to the model's *)
Example C05_exact_example :
  exists t job job', decode_job ascii_class ex_doc = Ok t /\
    create_job_object Generated.schema (fs_resolve ascii_class) ex_vals t = Ok job /\
    expected_job (fs_resolve ascii_class) (symtab_of ex_vals) ex_doc = Ok job' /\ json_equiv job job'.
Proof.
  destruct (decode_job ascii_class ex_doc) as [t|e] eqn:Ed; [|vm_compute in Ed; discriminate Ed].
  destruct (create_job_object Generated.schema (fs_resolve ascii_class) ex_vals t) as [job|e] eqn:Ej.
  - assert (K1 : distinct_keys ex_doc = true) by (vm_compute; reflexivity).
    assert (K2 : lax_ints_native ex_doc = true) by (vm_compute; reflexivity).
    assert (K3 : canonical_numbers ex_doc = true) by (vm_compute; reflexivity).
    destruct (C05_exact_full ascii_class ex_doc t ex_vals job ascii_class_ok Ed K1 K2 K3 Ej) as [job' [H1 H2]].
    exists t, job, job'. repeat split; assumption.
  - exfalso. assert (K : is_ok ex_job = true) by (vm_compute; reflexivity).
    unfold ex_job, ex_decoded in K. rewrite Ed, Ej in K. discriminate K.
Qed.

(* ... and, the three value conditions of C05_exact_perm being true of the two Jobs, they are equal up to member order *)
Definition ex_t : mval := Eval vm_compute in match decode_job ascii_class ex_doc with Ok t => t | Raise _ => MNone end.
Definition ex_model_job : json :=
  Eval vm_compute in match create_job_object Generated.schema (fs_resolve ascii_class) ex_vals ex_t with Ok x => x | Raise _ => JNull end.
Definition ex_spec_job : json :=
  Eval vm_compute in match expected_job (fs_resolve ascii_class) (symtab_of ex_vals) ex_doc with Ok x => x | Raise _ => JNull end.

Example C05_exact_perm_example :
  decode_job ascii_class ex_doc = Ok ex_t /\
  create_job_object Generated.schema (fs_resolve ascii_class) ex_vals ex_t = Ok ex_model_job /\
  expected_job (fs_resolve ascii_class) (symtab_of ex_vals) ex_doc = Ok ex_spec_job /\
  json_perm ex_model_job ex_spec_job.
Proof.
  assert (H1 : decode_job ascii_class ex_doc = Ok ex_t) by (vm_compute; reflexivity).
  assert (H2 : create_job_object Generated.schema (fs_resolve ascii_class) ex_vals ex_t = Ok ex_model_job) by (vm_compute; reflexivity).
  assert (H3 : expected_job (fs_resolve ascii_class) (symtab_of ex_vals) ex_doc = Ok ex_spec_job) by (vm_compute; reflexivity).
  split; [exact H1|]. split; [exact H2|]. split; [exact H3|].
  destruct C05_exact_nonvacuous as [Ha [_ [K1 [K2 [K3 _]]]]].
  apply (C05_exact_perm ascii_class ex_doc ex_t ex_vals ex_model_job ex_spec_job Ha H1 K1 K2 K3 H2 H3); vm_compute; reflexivity.
Qed.

(* the canonical-number condition cannot be dropped: with "+3" in an INT range the model's Job holds "3", the
   specification's "+3" *)
Definition ex_noncanon : json :=
  JObj [($"specificationVersion", JStr $"jobtemplate-2023-09"); ($"name", JStr $"n");
        ($"steps", JArr [JObj [($"name", JStr $"a");
                               ($"script", JObj [($"actions", JObj [($"onRun", JObj [($"command", JStr $"c")])])]);
                               ($"parameterSpace",
                                JObj [($"taskParameterDefinitions",
                                       JArr [JObj [($"name", JStr $"k"); ($"type", JStr $"INT"); ($"range", JArr [JStr $"+3"])]])])]])].

Example C05_canonical_needed :
  canonical_numbers ex_noncanon = false /\
  exists t job job', decode_job ascii_class ex_noncanon = Ok t /\
    create_job_object Generated.schema (fs_resolve ascii_class) [] t = Ok job /\
    expected_job (fs_resolve ascii_class) [] ex_noncanon = Ok job' /\ job <> job' /\
    jget "range" (jget "k" (jget "taskParameterDefinitions" (jget "parameterSpace" (match jget "steps" job with JArr (s :: _) => s | _ => JNull end))))
      = JArr [JStr $"3"] /\
    jget "range" (jget "k" (jget "taskParameterDefinitions" (jget "parameterSpace" (match jget "steps" job' with JArr (s :: _) => s | _ => JNull end))))
      = JArr [JStr $"+3"].
Proof.
  split; [vm_compute; reflexivity|].
  eexists. eexists. eexists. split; [vm_compute; reflexivity|]. split; [vm_compute; reflexivity|].
  split; [vm_compute; reflexivity|]. split; [intros E; vm_compute in E; discriminate E|].
  split; vm_compute; reflexivity.
Qed.
