(* props/C05xk.v — C05_exact up to member ORDER with no premise on the two Jobs.

   props/C05x.v proves, for an accepted job-template document j (decode_job = Ok t) with distinct_keys j,
   lax_ints_native j, canonical_numbers j, that the model's Job and the specification's Job
   (expected_job, CreateJobSpec.v) are [json_equiv]; and [json_perm] (equal up to the order of object members:
   scalars equal, arrays pointwise, objects a permutation of members) under three extra premises on the two Job
   VALUES.  Here the three premises are theorems:

     C05xk_model_job_distinct_keys   every object of the model's Job has pairwise distinct keys
     C05xk_spec_job_distinct_keys    ... of the specification's Job ...
     C05xk_spec_job_no_null          no object of the specification's Job has a null member

   each from [decode_job classify j = Ok t] and [distinct_keys j] alone (any [resolve], any values / symbol
   table), and therefore

     C05_exact_perm_unconditional    (hypotheses of C05_exact_full) ->
                                     exists job', expected_job ... j = Ok job' /\ json_perm job job'. *)
From Coq Require Import List NArith ZArith Bool String.
Import ListNotations.
Require Import OJD.Base OJD.Lexer OJD.Json OJD.Schema OJD.Generated OJD.CreateJob OJD.CreateJobSpec OJD.Accept OJD.Export
               OJD.NoMissingVar OJD.JsonEquiv OJD.CreateJobExactCarried OJD.CreateJobExactSpace OJD.CreateJobExactHost
               OJD.CreateJobExact OJD.CreateJobExactKeys.
Require Import OJDProps.C05x.
Local Open Scope string_scope.
Local Open Scope list_scope.

Theorem C05xk_model_job_distinct_keys : forall classify resolve j t vals job,
  decode_job classify j = Ok t -> distinct_keys j = true ->
  create_job_object Generated.schema resolve vals t = Ok job -> distinct_keys job = true.
Proof. exact CreateJobExactKeysModel.model_job_distinct_keys. Qed.
Print Assumptions C05xk_model_job_distinct_keys.

Theorem C05xk_spec_job_distinct_keys : forall classify resolve sigma j t job',
  decode_job classify j = Ok t -> distinct_keys j = true ->
  expected_job resolve sigma j = Ok job' -> distinct_keys job' = true.
Proof. exact CreateJobExactKeys.spec_job_dk. Qed.
Print Assumptions C05xk_spec_job_distinct_keys.

Theorem C05xk_spec_job_no_null : forall classify resolve sigma j t job',
  decode_job classify j = Ok t -> distinct_keys j = true ->
  expected_job resolve sigma j = Ok job' -> no_null_members job' = true.
Proof. exact CreateJobExactKeys.spec_job_nnm. Qed.
Print Assumptions C05xk_spec_job_no_null.

(* model Job = specification Job up to the order of object members *)
Theorem C05_exact_perm_unconditional : forall classify j t vals job,
  ascii_ok classify = true ->
  decode_job classify j = Ok t ->
  distinct_keys j = true -> lax_ints_native j = true -> canonical_numbers j = true ->
  create_job_object Generated.schema (fs_resolve classify) vals t = Ok job ->
  exists job', expected_job (fs_resolve classify) (symtab_of vals) j = Ok job' /\ json_perm job job'.
Proof. exact CreateJobExactKeys.C05_exact_perm_unconditional. Qed.
Print Assumptions C05_exact_perm_unconditional.

(* templates whose steps have neither parameterSpace nor hostRequirements: any [resolve], any [classify] *)
Theorem C05_exact_perm_partial_1 : forall classify resolve j t vals job,
  decode_job classify j = Ok t ->
  distinct_keys j = true -> lax_ints_native j = true -> plain_steps j = true ->
  create_job_object Generated.schema resolve vals t = Ok job ->
  exists job', expected_job resolve (symtab_of vals) j = Ok job' /\ json_perm job job'.
Proof. exact CreateJobExactKeys.C05_exact_plain_perm. Qed.
Print Assumptions C05_exact_perm_partial_1.

(* ================================================================== non-vacuity *)
(* the example document of props/C05x.v (two steps, parameter space, host requirements, environments, explicit
   nulls, members out of schema order) meets every hypothesis; the conclusions are obtained from the theorems *)
Example C05xk_nonvacuous :
  ascii_ok ascii_class = true /\
  decode_job ascii_class ex_doc = Ok ex_t /\
  distinct_keys ex_doc = true /\ lax_ints_native ex_doc = true /\ canonical_numbers ex_doc = true /\
  create_job_object Generated.schema (fs_resolve ascii_class) ex_vals ex_t = Ok ex_model_job /\
  expected_job (fs_resolve ascii_class) (symtab_of ex_vals) ex_doc = Ok ex_spec_job.
Proof.
  destruct C05_exact_nonvacuous as [Ha [_ [K1 [K2 [K3 _]]]]]. destruct C05_exact_perm_example as [H1 [H2 [H3 _]]].
  exact (conj Ha (conj H1 (conj K1 (conj K2 (conj K3 (conj H2 H3)))))).
Qed.

Example C05xk_example :
  distinct_keys ex_model_job = true /\ distinct_keys ex_spec_job = true /\ no_null_members ex_spec_job = true /\
  json_perm ex_model_job ex_spec_job.
Proof.
  destruct C05xk_nonvacuous as [Ha [Hd [K1 [K2 [K3 [Hm Hs]]]]]].
  split; [exact (C05xk_model_job_distinct_keys _ _ _ _ _ _ Hd K1 Hm)|].
  split; [exact (C05xk_spec_job_distinct_keys _ _ _ _ _ _ Hd K1 Hs)|].
  split; [exact (C05xk_spec_job_no_null _ _ _ _ _ _ Hd K1 Hs)|].
  destruct (C05_exact_perm_unconditional _ _ _ _ _ Ha Hd K1 K2 K3 Hm) as [job' [Hs' Hp]].
  rewrite Hs in Hs'. injection Hs' as <-. exact Hp.
Qed.

(* the premise [distinct_keys j] cannot be dropped from C05xk_model_job_distinct_keys: the acceptance model reads an
   environment's "variables" member by member (a Python dict cannot hold a key twice, so no parsed document is
   like this), and the model's Job repeats the key *)
Definition ex_dupvars : json :=
  JObj [($"specificationVersion", JStr $"jobtemplate-2023-09"); ($"name", JStr $"n");
        ($"steps", JArr [JObj [($"name", JStr $"a");
                               ($"script", JObj [($"actions", JObj [($"onRun", JObj [($"command", JStr $"c")])])])]]);
        ($"jobEnvironments", JArr [JObj [($"name", JStr $"e");
                                         ($"variables", JObj [($"V", JStr $"1"); ($"V", JStr $"2")])]])].

Example C05xk_distinct_keys_needed :
  distinct_keys ex_dupvars = false /\
  exists t job, decode_job ascii_class ex_dupvars = Ok t /\
                create_job_object Generated.schema (fs_resolve ascii_class) [] t = Ok job /\ distinct_keys job = false.
Proof.
  split; [vm_compute; reflexivity|].
  eexists. eexists. split; [vm_compute; reflexivity|]. split; vm_compute; reflexivity.
Qed.
