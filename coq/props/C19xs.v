(* props/C19xs.v — C19, renaming of STEPS and ENVIRONMENTS (props/C19x.v has the renaming theorem
   for parameters / task parameters / embedded files).

   Steps and environments are not referenced from format strings.  Their names matter to:
     * their own rule (Generated.schema: StepTemplate.name, StepDependency.dependsOn, Environment.name are
       constr(min_length=1, max_length=64) without control characters) = [name_fine];
     * the validators: unique step names, dependsOn names an existing step, no self dependency, no
       duplicate dependency, no dependency cycle, unique environment names inside jobEnvironments /
       inside one step's stepEnvironments, step-environment names differ from job-environment names.

   [rename_steps_envs rho_s rho_e j]  maps steps[i].name and every steps[i].dependencies[k].dependsOn
       through rho_s, jobEnvironments[i].name and steps[i].stepEnvironments[k].name through rho_e
       (the same function renames an exported Job, which has the same members);
   [rename_env_name rho_e j]          maps environment.name of an environment template through rho_e;
   [mrename_job] / [mrename_env_template] are the same renamings on decoded models and on Job instances.
   Only string values at those places are touched.

   Side conditions, as boolean functions of the name:
     * [rho] respects the names' own rule, [name_fine (rho n) = name_fine n] — implied by the pair "a fine name
       stays fine, a name that breaks its rule is left alone" (C19_fine_conditions; C19_rename_steps is stated
       with that pair);
     * [rho] is injective — needed ON THE STRINGS OF THE DOCUMENT only ([InjOn rho (jstrings j)]), which is what a
       renaming "names of the document -> fresh names, everything else unchanged" satisfies (such a map is not
       injective on all strings).  The [_on] theorems are the general ones; the others are their corollaries
       for globally injective maps.

   RESULTS (stronger than the verdict):
     decoding COMMUTES with the renaming (same exception, or the accepted model is the renamed model);
     create_job of the renamed template returns the renamed Job (same exception otherwise), also end to end on
     documents (decode, create, export).
   Proofs: theories/RenameStepsProofs.v (decoding), theories/RenameStepsJob.v (create_job). *)
From Coq Require Import List NArith ZArith Bool String.
Import ListNotations.
Require Import OJD.Base OJD.Lexer OJD.Json OJD.Schema OJD.Generated OJD.FsRefs OJD.CreateJob
               OJD.Parse OJD.Validators OJD.Accept OJD.ScopeWalk OJD.ScopeSpec
               OJD.Export OJD.CreateJobFull OJD.RenameProofs OJD.RenameSteps OJD.RenameStepsProofs OJD.RenameStepsJob.
Local Open Scope string_scope.
Local Open Scope list_scope.

Definition injective (rho : str -> str) : Prop := forall a b, rho a = rho b -> a = b.

(* ================================================================== decoding *)

(* THE THEOREM: decoding a job template commutes with the renaming; injectivity on the document's strings *)
Theorem C19_rename_steps_decode_on : forall classify (rho_s rho_e : str -> str) j,
  InjOn rho_s (jstrings j) -> InjOn rho_e (jstrings j) ->
  (forall n, name_fine (rho_s n) = name_fine n) ->
  (forall n, name_fine (rho_e n) = name_fine n) ->
  decode_job classify (rename_steps_envs rho_s rho_e j)
  = omap (mrename_job rho_s rho_e) (decode_job classify j).
Proof. intros classify rho_s rho_e j Is Ie Fs Fe. apply decode_job_rs_on; assumption. Qed.
Print Assumptions C19_rename_steps_decode_on.

(* ... for globally injective renamings *)
Theorem C19_rename_steps_decode : forall classify (rho_s rho_e : str -> str) j,
  injective rho_s -> injective rho_e ->
  (forall n, name_fine (rho_s n) = name_fine n) ->
  (forall n, name_fine (rho_e n) = name_fine n) ->
  decode_job classify (rename_steps_envs rho_s rho_e j)
  = omap (mrename_job rho_s rho_e) (decode_job classify j).
Proof. intros classify rho_s rho_e j Hs He Fs Fe. apply decode_job_rs; assumption. Qed.
Print Assumptions C19_rename_steps_decode.

(* decoding an environment template commutes with renaming its environment (one name: no injectivity needed) *)
Theorem C19_rename_env_decode : forall classify (rho_e : str -> str) j,
  (forall n, name_fine (rho_e n) = name_fine n) ->
  decode_env classify (rename_env_name rho_e j)
  = omap (mrename_env_template rho_e) (decode_env classify j).
Proof. intros classify rho_e j Fe. apply decode_env_rs. exact Fe. Qed.
Print Assumptions C19_rename_env_decode.

(* "a fine name stays fine, a name that breaks its own rule is left alone" gives the condition used above *)
Theorem C19_fine_conditions : forall rho : str -> str,
  (forall n, name_fine n = true -> name_fine (rho n) = true) ->
  (forall n, name_fine n = false -> rho n = n) ->
  forall n, name_fine (rho n) = name_fine n.
Proof.
  intros rho H1 H2 n. destruct (name_fine n) eqn:E; [exact (H1 n E)|]. rewrite (H2 n E). exact E.
Qed.
Print Assumptions C19_fine_conditions.

(* the verdict, as the property states it *)
Theorem C19_rename_steps : forall classify (rho_s rho_e : str -> str) j,
  injective rho_s -> injective rho_e ->
  (forall n, name_fine n = true -> name_fine (rho_s n) = true) ->
  (forall n, name_fine n = true -> name_fine (rho_e n) = true) ->
  (forall n, name_fine n = false -> rho_s n = n) ->
  (forall n, name_fine n = false -> rho_e n = n) ->
  is_ok (decode_job classify (rename_steps_envs rho_s rho_e j)) = is_ok (decode_job classify j) /\
  is_ok (decode_env classify (rename_env_name rho_e j)) = is_ok (decode_env classify j).
Proof.
  intros classify rho_s rho_e j Hs He F1s F1e F2s F2e.
  pose proof (C19_fine_conditions rho_s F1s F2s) as Fs. pose proof (C19_fine_conditions rho_e F1e F2e) as Fe.
  rewrite (C19_rename_steps_decode classify rho_s rho_e j Hs He Fs Fe), (C19_rename_env_decode classify rho_e j Fe).
  split; apply is_ok_omap.
Qed.
Print Assumptions C19_rename_steps.

(* the verdict, injectivity on the document only *)
Theorem C19_rename_steps_on : forall classify (rho_s rho_e : str -> str) j,
  InjOn rho_s (jstrings j) -> InjOn rho_e (jstrings j) ->
  (forall n, name_fine (rho_s n) = name_fine n) ->
  (forall n, name_fine (rho_e n) = name_fine n) ->
  is_ok (decode_job classify (rename_steps_envs rho_s rho_e j)) = is_ok (decode_job classify j).
Proof.
  intros classify rho_s rho_e j Is Ie Fs Fe.
  rewrite (C19_rename_steps_decode_on classify rho_s rho_e j Is Ie Fs Fe). apply is_ok_omap.
Qed.
Print Assumptions C19_rename_steps_on.

(* ... and the exception, when there is one, is the same *)
Theorem C19_rename_steps_exn : forall classify (rho_s rho_e : str -> str) j e,
  InjOn rho_s (jstrings j) -> InjOn rho_e (jstrings j) ->
  (forall n, name_fine (rho_s n) = name_fine n) ->
  (forall n, name_fine (rho_e n) = name_fine n) ->
  (decode_job classify (rename_steps_envs rho_s rho_e j) = Raise e <-> decode_job classify j = Raise e).
Proof.
  intros classify rho_s rho_e j e Is Ie Fs Fe.
  rewrite (C19_rename_steps_decode_on classify rho_s rho_e j Is Ie Fs Fe).
  destruct (decode_job classify j) as [t|e']; cbn [omap]; split; intros H; try discriminate H; exact H.
Qed.
Print Assumptions C19_rename_steps_exn.

(* ================================================================== create_job *)

(* the Job created from the renamed template is the renamed Job (same exception otherwise).  [t] is any decoded
   job template, [envs] the decoded environment templates, [vals] the caller's values.  No injectivity: the
   target classes Job / Step have no uniqueness validators *)
Theorem C19_rename_steps_create_job : forall classify (rho_s rho_e : str -> str) j envs t vals,
  (forall n, name_fine (rho_s n) = name_fine n) ->
  (forall n, name_fine (rho_e n) = name_fine n) ->
  decode_job classify j = Ok t ->
  create_job_full classify envs (mrename_job rho_s rho_e t) vals
  = omap (mrename_job rho_s rho_e) (create_job_full classify envs t vals).
Proof.
  intros classify rho_s rho_e j envs t vals Fs Fe H.
  exact (proj1 (create_job_full_shaped classify rho_s rho_e Fs Fe envs t vals (decode_job_tshape classify j t H))).
Qed.
Print Assumptions C19_rename_steps_create_job.

(* end to end, on documents: decode_job_template, decode_environment_template, create_job, model_to_object.
   The exported Job of the renamed template is the renamed exported Job; an outer Raise (a template is not
   accepted) and an inner Raise (create_job fails) are the same on both sides *)
Theorem C19_rename_steps_create_job_docs_on : forall classify (rho_s rho_e : str -> str) env_docs doc vals,
  InjOn rho_s (jstrings doc) -> InjOn rho_e (jstrings doc) ->
  (forall n, name_fine (rho_s n) = name_fine n) ->
  (forall n, name_fine (rho_e n) = name_fine n) ->
  create_job_docs classify env_docs (rename_steps_envs rho_s rho_e doc) vals
  = omap (omap (rename_steps_envs rho_s rho_e)) (create_job_docs classify env_docs doc vals).
Proof.
  intros classify rho_s rho_e env_docs doc vals Is Ie Fs Fe. apply create_job_docs_rs_names; try assumption; intros a b Ha Hb.
  - apply Is; apply job_snames_jstrings; assumption.
  - apply Ie; apply job_enames_jstrings; assumption.
Qed.
Print Assumptions C19_rename_steps_create_job_docs_on.

Theorem C19_rename_steps_create_job_docs : forall classify (rho_s rho_e : str -> str) env_docs doc vals,
  injective rho_s -> injective rho_e ->
  (forall n, name_fine (rho_s n) = name_fine n) ->
  (forall n, name_fine (rho_e n) = name_fine n) ->
  create_job_docs classify env_docs (rename_steps_envs rho_s rho_e doc) vals
  = omap (omap (rename_steps_envs rho_s rho_e)) (create_job_docs classify env_docs doc vals).
Proof.
  intros classify rho_s rho_e env_docs doc vals Hs He Fs Fe.
  apply create_job_docs_rs_names; try assumption; intros a b _ _; [apply Hs|apply He].
Qed.
Print Assumptions C19_rename_steps_create_job_docs.

(* the names of the environments of the environment templates given to create_job play no role *)
Theorem C19_rename_env_templates_create_job : forall classify (rho : str -> str) envs t vals,
  create_job_full classify (map (mrename_env_template rho) envs) t vals = create_job_full classify envs t vals.
Proof.
  intros classify rho envs t vals. unfold create_job_full, prep_full.
  assert (E : mapM defs_of_template (map (mrename_env_template rho) envs) = mapM defs_of_template envs).
  { induction envs as [|e r IH]; [reflexivity|]. cbn [map mapM]. rewrite defs_of_template_envt, IH. reflexivity. }
  rewrite E. reflexivity.
Qed.
Print Assumptions C19_rename_env_templates_create_job.

(* ================================================================== the ingredients *)

(* the reference walk does not read step / environment names: the error list is EQUAL (no side condition) *)
Theorem C19_rename_steps_walk : forall (rho_s rho_e : str -> str) refs j,
  prevalidate Generated.schema refs "JobTemplate" (rename_steps_envs rho_s rho_e j)
  = prevalidate Generated.schema refs "JobTemplate" j /\
  prevalidate Generated.schema refs "EnvironmentTemplate" (rename_env_name rho_e j)
  = prevalidate Generated.schema refs "EnvironmentTemplate" j.
Proof. intros rho_s rho_e refs j. split; [apply prevalidate_job_rs|apply prevalidate_envt_rs]. Qed.
Print Assumptions C19_rename_steps_walk.

(* [step_shaped Ps Pe st]: st.name, every st.dependencies[k].dependsOn (resp. st.stepEnvironments[k].name) is a
   string that satisfies Ps (resp. Pe) — true of every StepTemplate instance the parser returns, with
   Ps = Pe = "occurs in the document".
   The dependency graph is built on step INDICES: it is literally the same graph after the renaming, so the
   cycle check needs no relabelling argument *)
Theorem C19_rename_steps_graph : forall (rho_s rho_e : str -> str) (Ps Pe : str -> Prop) steps,
  (forall a b, Ps a -> Ps b -> rho_s a = rho_s b -> a = b) ->
  Forall (step_shaped Ps Pe) (mitems steps) ->
  dep_job (on_mlist (mr_step rho_s rho_e) steps) = dep_job steps.
Proof. intros rho_s rho_e Ps Pe steps Hs H. exact (dep_job_ren rho_s rho_e Ps Pe Hs steps H). Qed.
Print Assumptions C19_rename_steps_graph.

(* the root validator of JobTemplate on the renamed raw document and the renamed fields *)
Theorem C19_rename_steps_root_validator : forall classify (rho_s rho_e : str -> str) (Ps Pe : str -> Prop) raw fs,
  (forall a b, Ps a -> Ps b -> rho_s a = rho_s b -> a = b) ->
  (forall a b, Pe a -> Pe b -> rho_e a = rho_e b -> a = b) ->
  Forall (step_shaped Ps Pe) (mitems (fget "steps" fs)) ->
  Forall (has_mstr Pe "name") (mitems (fget "jobEnvironments" fs)) ->
  job_template_ok classify (rename_steps_envs rho_s rho_e raw) (mapf (mr_job_g rho_s rho_e) fs)
  = job_template_ok classify raw fs.
Proof. intros classify rho_s rho_e Ps Pe raw fs Hs He H1 H2. exact (job_template_ok_ren rho_s rho_e Ps Pe Hs He classify raw fs H1 H2). Qed.
Print Assumptions C19_rename_steps_root_validator.

(* the structural layer of ANY schema, one object: parse_cls commutes with a member-wise renaming as soon
   as the value parser of every field commutes on the member the object has and the class's validators agree *)
Theorem C19_parse_cls_members : forall SC classify pre post f c c0 (h : str -> json -> json) (g : string -> mval -> mval) ms,
  lookup_cls SC c = Some c0 ->
  pre c (JObj (ren_members h ms)) = pre c (JObj ms) ->
  (forall fl, In fl (c_fields c0) -> h (str_of_string (f_alias fl)) JNull = JNull) ->
  (forall fl, In fl (c_fields c0) ->
     AcceptMono.parse_value (parse_kind SC classify pre post f) fl (h (str_of_string (f_alias fl)) (AcceptMono.field_raw ms fl))
     = omap (g (f_name fl)) (AcceptMono.parse_value (parse_kind SC classify pre post f) fl (AcceptMono.field_raw ms fl))) ->
  (forall fs, mapM (AcceptMono.parse_field (parse_kind SC classify pre post f) ms) (c_fields c0) = Ok fs ->
     post c (JObj (ren_members h ms)) (mapf g fs) = post c (JObj ms) fs) ->
  parse_cls SC classify pre post (S f) c (JObj (ren_members h ms))
  = omap (on_fields g) (parse_cls SC classify pre post (S f) c (JObj ms)).
Proof. exact pc_members. Qed.
Print Assumptions C19_parse_cls_members.

(* ================================================================== non-vacuity *)
Definition jsx (x : string) : json := JStr (str_of_string x).
Definition jox (l : list (string * json)) : json := JObj (map (fun kv => (str_of_string (fst kv), snd kv)) l).

(* rho_s = [rho_rev], "spell the name backwards" (injective, keeps length and characters, changes the sort
   order); rho_e = [rho_swap a b], exchange two names; [rho_tbl], a finite table extended by the identity
   (RenameStepsProofs.v) *)
Definition rho_e_ex : str -> str := rho_swap $"JobEnv" $"Warm".

Example rho_e_ex_inj : injective rho_e_ex.
Proof. intros a b. apply rho_swap_inj. Qed.

Example rho_e_ex_fine : forall n, name_fine (rho_e_ex n) = name_fine n.
Proof. apply rho_swap_fine. vm_compute. reflexivity. Qed.

(* a step: name, dependencies, step environments *)
Definition ex_step (name : string) (deps : list string) (envs : list string) : json :=
  jox ([("name", jsx name);
        ("script", jox [("actions", jox [("onRun", jox [("command", jsx "run")])])])]
       ++ (match deps with [] => [] | _ => [("dependencies", JArr (map (fun d => jox [("dependsOn", jsx d)]) deps))] end)
       ++ (match envs with [] => [] | _ => [("stepEnvironments",
                                            JArr (map (fun e => jox [("name", jsx e); ("variables", jox [("V", jsx "1")])]) envs))] end)).

(* three steps; the dependencies are listed out of order (the first step depends on the two that follow);
   a job environment and step environments.  Step names Az < Bx < Cy; spelled backwards: xB < yC < zA *)
Definition ex_tmpl (last_deps : list string) : json :=
  jox [("specificationVersion", jsx "jobtemplate-2023-09");
       ("name", jsx "Job");
       ("jobEnvironments", JArr [jox [("name", jsx "JobEnv"); ("variables", jox [("V", jsx "1")])]]);
       ("steps", JArr [ex_step "Cy" ["Bx"; "Az"] ["Warm"; "Cold"];
                       ex_step "Az" [] [];
                       ex_step "Bx" last_deps ["Warm"]])].

Definition ex_good : json := ex_tmpl ["Az"].
Definition ex_dup : json := ex_tmpl ["Az"; "Az"].          (* duplicate dependency *)
Definition ex_cycle : json := ex_tmpl ["Cy"].               (* Cy -> Bx -> Cy *)
Definition ex_unknown : json := ex_tmpl ["Nope"].           (* dependsOn an unknown step *)

Definition step_names (j : json) : list json :=
  match jget "steps" j with JArr l => map (jget "name") l | _ => [] end.

Example C19_rename_steps_nonvacuous :
  (* the hypotheses hold ... *)
  injective rho_rev /\ injective rho_e_ex /\
  (forall n, name_fine (rho_rev n) = name_fine n) /\ (forall n, name_fine (rho_e_ex n) = name_fine n) /\
  (* ... the renaming changes the document: the step names, in document order, and their sort order ... *)
  step_names ex_good = [jsx "Cy"; jsx "Az"; jsx "Bx"] /\
  step_names (rename_steps_envs rho_rev rho_e_ex ex_good) = [jsx "yC"; jsx "zA"; jsx "xB"] /\
  jget "dependencies" (match jget "steps" (rename_steps_envs rho_rev rho_e_ex ex_good) with JArr (s :: _) => s | _ => JNull end)
  = JArr [jox [("dependsOn", jsx "xB")]; jox [("dependsOn", jsx "zA")]] /\
  jget "jobEnvironments" (rename_steps_envs rho_rev rho_e_ex ex_good)
  = JArr [jox [("name", jsx "Warm"); ("variables", jox [("V", jsx "1")])]] /\
  (* ... accepted before and after ... *)
  is_ok (decode_job ascii_class ex_good) = true /\
  is_ok (decode_job ascii_class (rename_steps_envs rho_rev rho_e_ex ex_good)) = true /\
  (* ... and each of the three name-based rejections is a rejection before and after *)
  decode_job ascii_class ex_dup = Raise ValueError /\
  decode_job ascii_class (rename_steps_envs rho_rev rho_e_ex ex_dup) = Raise ValueError /\
  decode_job ascii_class ex_cycle = Raise ValueError /\
  decode_job ascii_class (rename_steps_envs rho_rev rho_e_ex ex_cycle) = Raise ValueError /\
  decode_job ascii_class ex_unknown = Raise ValueError /\
  decode_job ascii_class (rename_steps_envs rho_rev rho_e_ex ex_unknown) = Raise ValueError.
Proof.
  split; [exact rho_rev_inj|]. split; [exact rho_e_ex_inj|]. split; [exact rho_rev_fine|].
  split; [exact rho_e_ex_fine|].
  (* the conjuncts are split off one at a time: [split] on an equation would try to close it by [eq_refl], and
     that conversion test is far slower than the evaluation *)
  do 11 (split; [vm_compute; reflexivity|]). vm_compute; reflexivity.
Qed.

(* the conclusion on this instance, obtained FROM the theorem: the accepted model of the renamed document is
   the renamed model *)
Example C19_rename_steps_instance :
  decode_job ascii_class (rename_steps_envs rho_rev rho_e_ex ex_good)
  = omap (mrename_job rho_rev rho_e_ex) (decode_job ascii_class ex_good) /\
  is_ok (decode_job ascii_class (rename_steps_envs rho_rev rho_e_ex ex_dup)) = false.
Proof.
  split.
  - apply C19_rename_steps_decode; [exact rho_rev_inj|exact rho_e_ex_inj|exact rho_rev_fine|exact rho_e_ex_fine].
  - rewrite (C19_rename_steps_decode ascii_class rho_rev rho_e_ex ex_dup rho_rev_inj rho_e_ex_inj rho_rev_fine
               rho_e_ex_fine).
    rewrite is_ok_omap. vm_compute. reflexivity.
Qed.

(* the [_on] theorems: a harness-style renaming "the names of the document onto fresh names, identity elsewhere".
   It is NOT injective (Step_1 and Az have the same image) but it is injective on the strings of the document *)
Definition rho_fresh : str -> str := rho_tbl [($"Az", $"Step_1"); ($"Bx", $"Step_2"); ($"Cy", $"Step_0")].
Definition rho_fresh_e : str -> str := rho_tbl [($"JobEnv", $"Env_9"); ($"Warm", $"Env_1"); ($"Cold", $"Env_0")].

Example C19_rename_steps_on_nonvacuous :
  ~ injective rho_fresh /\
  InjOn rho_fresh (jstrings ex_good) /\ InjOn rho_fresh_e (jstrings ex_good) /\
  (forall n, name_fine (rho_fresh n) = name_fine n) /\ (forall n, name_fine (rho_fresh_e n) = name_fine n) /\
  step_names (rename_steps_envs rho_fresh rho_fresh_e ex_good) = [jsx "Step_0"; jsx "Step_1"; jsx "Step_2"] /\
  is_ok (decode_job ascii_class ex_good) = true /\
  is_ok (decode_job ascii_class (rename_steps_envs rho_fresh rho_fresh_e ex_good)) = true.
Proof.
  (* that ex_good is accepted has been evaluated for C19_rename_steps_nonvacuous *)
  destruct C19_rename_steps_nonvacuous as (_ & _ & _ & _ & _ & _ & _ & _ & Hgood & _).
  assert (Is : InjOn rho_fresh (jstrings ex_good)) by (apply inj_onb_sound; vm_compute; reflexivity).
  assert (Ie : InjOn rho_fresh_e (jstrings ex_good)) by (apply inj_onb_sound; vm_compute; reflexivity).
  assert (Fs : forall n, name_fine (rho_fresh n) = name_fine n) by (apply rho_tbl_fine; vm_compute; reflexivity).
  assert (Fe : forall n, name_fine (rho_fresh_e n) = name_fine n) by (apply rho_tbl_fine; vm_compute; reflexivity).
  split; [intros H; specialize (H $"Az" $"Step_1" eq_refl); discriminate H|].
  split; [exact Is|]. split; [exact Ie|]. split; [exact Fs|]. split; [exact Fe|].
  split; [vm_compute; reflexivity|]. split; [exact Hgood|].
  rewrite (C19_rename_steps_on ascii_class rho_fresh rho_fresh_e ex_good Is Ie Fs Fe). exact Hgood.
Qed.

(* environment template *)
Definition ex_envt : json :=
  jox [("specificationVersion", jsx "environment-2023-09");
       ("environment", jox [("name", jsx "JobEnv"); ("variables", jox [("V", jsx "1")])])].

Example C19_rename_env_nonvacuous :
  jget "name" (jget "environment" (rename_env_name rho_e_ex ex_envt)) = jsx "Warm" /\
  is_ok (decode_env ascii_class ex_envt) = true /\
  is_ok (decode_env ascii_class (rename_env_name rho_e_ex ex_envt)) = true.
Proof. split; [vm_compute; reflexivity|]. split; vm_compute; reflexivity. Qed.

(* create_job on the example: a Job is produced; the Job of the renamed template is the renamed Job *)
Example C19_rename_steps_create_job_nonvacuous :
  (exists job, create_job_docs ascii_class [] ex_good [] = Ok (Ok job) /\
               step_names job = [jsx "Cy"; jsx "Az"; jsx "Bx"] /\
               create_job_docs ascii_class [] (rename_steps_envs rho_rev rho_e_ex ex_good) []
               = Ok (Ok (rename_steps_envs rho_rev rho_e_ex job)) /\
               step_names (rename_steps_envs rho_rev rho_e_ex job) = [jsx "yC"; jsx "zA"; jsx "xB"]).
Proof.
  (* the Job is evaluated once; the Job of the renamed template then comes from the theorem *)
  refine (ex_intro _ ?[job] _).
  assert (E : create_job_docs ascii_class [] ex_good [] = Ok (Ok ?job)) by (vm_compute; reflexivity).
  split; [exact E|]. split; [vm_compute; reflexivity|]. split; [|vm_compute; reflexivity].
  rewrite (C19_rename_steps_create_job_docs ascii_class rho_rev rho_e_ex [] ex_good []
             rho_rev_inj rho_e_ex_inj rho_rev_fine rho_e_ex_fine), E. reflexivity.
Qed.

(* the side conditions are not decorative.  Injectivity: mapping two step names to one turns an accepted
   template into a rejected one *)
Example C19_rename_steps_noninjective_counterexample :
  let rho0 : str -> str := fun _ => $"S" in
  (forall n, name_fine n = true -> name_fine (rho0 n) = true) /\
  is_ok (decode_job ascii_class ex_good) = true /\
  is_ok (decode_job ascii_class (rename_steps_envs rho0 (fun s => s) ex_good)) = false.
Proof.
  destruct C19_rename_steps_nonvacuous as (_ & _ & _ & _ & _ & _ & _ & _ & Hgood & _).
  cbv zeta. split; [intros n _; vm_compute; reflexivity|]. split; [exact Hgood|vm_compute; reflexivity].
Qed.

(* the names' own rule: an injective renaming that makes a name too long (65 characters) turns acceptance
   into rejection *)
Definition pad64 : str := repeat 95%N 64.
Example C19_rename_steps_unfine_counterexample :
  let rho1 : str -> str := fun s => s ++ pad64 in
  injective rho1 /\
  is_ok (decode_job ascii_class ex_good) = true /\
  is_ok (decode_job ascii_class (rename_steps_envs rho1 (fun s => s) ex_good)) = false.
Proof.
  destruct C19_rename_steps_nonvacuous as (_ & _ & _ & _ & _ & _ & _ & _ & Hgood & _).
  cbv zeta. split; [intros a b H; exact (app_inv_tail _ _ _ H)|]. split; [exact Hgood|vm_compute; reflexivity].
Qed.
