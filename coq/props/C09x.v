(* props/C09x.v — C09 as a theorem about the WHOLE create_job pipeline.

   Model: theories/CreateJobFull.v, [create_job_full classify envs template vals : outcome mval]
          (decode -> definitions -> merge -> preprocess -> symbol table -> instantiate_model -> job-side
           coercion -> every node validated by its target class), the one function props/C06x.v is about.
   Predicates: Glue.conforms_job / Glue.conforms_task (INT = Python int() numeral, FLOAT = finite Decimal
          numeral, STRING / PATH task values at most 1024 characters), the predicates of props/C09.v.
   Readers (theories/Conform.v, written from the property text and the job-side schema):
     [job_parameters_of job]          (name, type, value) for every entry of Job.parameters;
     [task_values_of classify job]    (step, parameter, type, value) for every item of every range list and
                                      every str(i) a range expression enumerates, for every step;
     [job_wf classify job]            the readers' defaults are never used: Job.parameters is None or a dict of
                                      JobParameter with str type and value, every step has a str name and its
                                      parameterSpace is None or a StepParameterSpace whose definitions have a
                                      str type and either a list of str items (one of the three range-list
                                      classes) or a range string that IS a range expression.
   Proofs: theories/ConformTyped.v (decoded trees are well typed), ConformInst.v (shape of the instantiated
   and coerced Job), ConformNodes.v (nodes_ok => each node passed its class => the validators of
   props/C09.v hold of the very items the reader returns), ConformPrep.v (prep_full: RawParam.<n> was
   checked against the merged definition, which has the template's type), ConformProofs.v (composition).

   The environment templates are ARBITRARY in the main statements (no acceptance premise is needed: a Job is
   only returned when their definitions could be read and merged); the forms with the premise
   [accepted_envs] (every environment template accepted by decode_env) follow and are stated too. *)
From Coq Require Import List NArith ZArith Bool String.
Import ListNotations.
Require Import OJD.Base OJD.Lexer OJD.Json OJD.Schema OJD.Generated OJD.Numerals OJD.FormatStr
               OJD.CreateJob OJD.Parse OJD.Validators OJD.Accept OJD.Export OJD.Glue
               OJD.CreateJobFull OJD.CreateJobFullProofs OJD.Conform OJD.ConformProofs.
Local Open Scope string_scope.
Local Open Scope list_scope.

(* ------------------------------------------------------------------ the theorems *)

(* every job parameter value of every returned Job conforms to the type the Job declares for it *)
Theorem C09_full_job_params : forall classify j t envs vals job,
  decode_job classify j = Ok t ->
  create_job_full classify envs t vals = Ok job ->
  forall name ty v, In (name, ty, v) (job_parameters_of job) -> conforms_job ty v = true.
Proof. exact full_job_params. Qed.
Print Assumptions C09_full_job_params.

(* every task parameter value (range-list item, or value enumerated by a range expression) of every step of
   every returned Job conforms to the type its definition declares *)
Theorem C09_full_task_params : forall classify j t envs vals job,
  decode_job classify j = Ok t ->
  create_job_full classify envs t vals = Ok job ->
  forall step p ty v, In (step, p, ty, v) (task_values_of classify job) -> conforms_task ty v = true.
Proof. exact full_task_params. Qed.
Print Assumptions C09_full_task_params.

(* the two lists above are ALL the values of the Job: nothing sits in a place or a representation the
   readers skip *)
Theorem C09_full_readers_total : forall classify j t envs vals job,
  decode_job classify j = Ok t ->
  create_job_full classify envs t vals = Ok job ->
  job_wf classify job = true.
Proof. exact full_job_wf. Qed.
Print Assumptions C09_full_readers_total.

(* the same with accepted environment templates as a premise *)
Theorem C09_full_job_params_envs : forall classify j t envs vals job,
  decode_job classify j = Ok t -> accepted_envs classify envs ->
  create_job_full classify envs t vals = Ok job ->
  forall name ty v, In (name, ty, v) (job_parameters_of job) -> conforms_job ty v = true.
Proof. intros classify j t envs vals job Hd _. exact (full_job_params classify j t envs vals job Hd). Qed.
Print Assumptions C09_full_job_params_envs.

Theorem C09_full_task_params_envs : forall classify j t envs vals job,
  decode_job classify j = Ok t -> accepted_envs classify envs ->
  create_job_full classify envs t vals = Ok job ->
  forall step p ty v, In (step, p, ty, v) (task_values_of classify job) -> conforms_task ty v = true.
Proof. intros classify j t envs vals job Hd _. exact (full_task_params classify j t envs vals job Hd). Qed.
Print Assumptions C09_full_task_params_envs.

(* from the raw documents (create_job_docs returns the exported Job; the statement is about the instance) *)
Theorem C09_full_docs : forall classify env_docs doc vals t envs job,
  decode_job classify doc = Ok t -> mapM (decode_env classify) env_docs = Ok envs ->
  create_job_full classify envs t vals = Ok job ->
  (forall name ty v, In (name, ty, v) (job_parameters_of job) -> conforms_job ty v = true) /\
  (forall step p ty v, In (step, p, ty, v) (task_values_of classify job) -> conforms_task ty v = true) /\
  job_wf classify job = true /\
  create_job_docs classify env_docs doc vals = Ok (Ok (export job)).
Proof.
  intros classify env_docs doc vals t envs job Hd He H.
  split; [exact (full_job_params classify doc t envs vals job Hd H)|].
  split; [exact (full_task_params classify doc t envs vals job Hd H)|].
  split; [exact (full_job_wf classify doc t envs vals job Hd H)|].
  unfold create_job_docs. rewrite Hd, He. cbn [bind]. rewrite H. reflexivity.
Qed.
Print Assumptions C09_full_docs.

(* ------------------------------------------------------------------ non-vacuity *)
Definition js (x : string) : json := JStr (str_of_string x).
Definition jo (l : list (string * json)) : json := JObj (map (fun kv => (str_of_string (fst kv), snd kv)) l).
Definition vs (l : list (string * string)) : list (str * str) := map (fun kv => ($(fst kv), $(snd kv))) l.
Definition tp (n t : string) (r : json) : json := jo [("name", js n); ("type", js t); ("range", r)].
Definition run : json := jo [("actions", jo [("onRun", jo [("command", js "c")])])].

(* job parameters of all four types (two defaulted); task parameters of all four types: an INT range
   EXPRESSION and INT / FLOAT / STRING / PATH range LISTS mixing literals (a number, a lenient numeral " 4 ",
   a Decimal) with references to job parameters; a second step without parameter space *)
Definition ydoc : json :=
  jo [("specificationVersion", js "jobtemplate-2023-09");
      ("name", js "J");
      ("parameterDefinitions",
       JArr [jo [("name", js "Frames"); ("type", js "INT"); ("default", JInt 7)];
             jo [("name", js "Scale"); ("type", js "FLOAT")];
             jo [("name", js "Tag"); ("type", js "STRING"); ("default", js "ab")];
             jo [("name", js "Out"); ("type", js "PATH")]]);
      ("steps",
       JArr [jo [("name", js "A");
                 ("parameterSpace",
                  jo [("taskParameterDefinitions",
                       JArr [tp "X" "INT" (js "1-{{Param.Frames}}:3");
                             tp "Y" "INT" (JArr [JInt 1; js "{{Param.Frames}}"; js " 4 "]);
                             tp "Z" "FLOAT" (JArr [JDec 15 (-1); js "{{Param.Scale}}"]);
                             tp "S" "STRING" (JArr [js "lit"; js "{{Param.Tag}}x"]);
                             tp "P" "PATH" (JArr [js "{{RawParam.Out}}"])]);
                      ("combination", js "(X,Y) * Z * S * P")]);
                 ("script", run)];
             jo [("name", js "B"); ("script", run)]])].

Definition yvals : list (str * str) := vs [("Scale", "2.50"); ("Out", "a/b")].

(* the hypotheses are met, and the readers read the Job: these are exactly the (name, type, value) triples of
   job.parameters and the distinct (step, name, type, value) of StepParameterSpaceIterator over job.steps that
   the REAL create_job returns for this template and these values (replayed with /repo; harness/c09.py reads
   the same places) *)
Example C09_full_nonvacuous :
  exists t job,
    decode_job ascii_class ydoc = Ok t /\
    create_job_full ascii_class [] t yvals = Ok job /\
    job_parameters_of job
    = [($"Frames", $"INT", $"7"); ($"Scale", $"FLOAT", $"2.50"); ($"Tag", $"STRING", $"ab"); ($"Out", $"PATH", $"a/b")] /\
    task_values_of ascii_class job
    = [($"A", $"X", $"INT", $"1"); ($"A", $"X", $"INT", $"4"); ($"A", $"X", $"INT", $"7");
       ($"A", $"Y", $"INT", $"1"); ($"A", $"Y", $"INT", $"7"); ($"A", $"Y", $"INT", $"4");
       ($"A", $"Z", $"FLOAT", $"1.5"); ($"A", $"Z", $"FLOAT", $"2.50");
       ($"A", $"S", $"STRING", $"lit"); ($"A", $"S", $"STRING", $"abx");
       ($"A", $"P", $"PATH", $"a/b")] /\
    job_wf ascii_class job = true.
Proof.
  eexists. eexists. split; [vm_compute; reflexivity|]. split; [vm_compute; reflexivity|].
  vm_compute. repeat split.
Qed.

(* the property's own counterexamples are refused by the pipeline (no Job, so nothing to conform): the
   historical one — range ['{{Param.S}}'] of an INT task parameter with S = "abc" —, its FLOAT analogue with
   "NaN", a STRING item that grows beyond 1024 characters by substitution, a non-numeral reaching a range
   expression, and a FLOAT job parameter given "Infinity";  the same templates with conforming values return
   a Job *)
Definition zdoc (pt tt : string) (r : json) : json :=
  jo [("specificationVersion", js "jobtemplate-2023-09"); ("name", js "n");
      ("parameterDefinitions", JArr [jo [("name", js "S"); ("type", js pt)]]);
      ("steps", JArr [jo [("name", js "s"); ("script", run);
                          ("parameterSpace", jo [("taskParameterDefinitions", JArr [tp "T" tt r])])]])].

Definition long (n : nat) : json := JStr (repeat 120%N n ++ $"{{Param.S}}").

Example C09_full_refusals_nonvacuous :
  create_job_docs ascii_class [] (zdoc "STRING" "INT" (JArr [js "{{Param.S}}"])) (vs [("S", "abc")]) = Ok (Raise DecodeValidationError) /\
  create_job_docs ascii_class [] (zdoc "STRING" "FLOAT" (JArr [js "{{Param.S}}"])) (vs [("S", "NaN")]) = Ok (Raise DecodeValidationError) /\
  create_job_docs ascii_class [] (zdoc "STRING" "STRING" (JArr [long 1020])) (vs [("S", "12345")]) = Ok (Raise DecodeValidationError) /\
  create_job_docs ascii_class [] (zdoc "STRING" "INT" (js "1-{{Param.S}}")) (vs [("S", "x")]) = Ok (Raise DecodeValidationError) /\
  create_job_docs ascii_class [] (zdoc "FLOAT" "INT" (JArr [JInt 1])) (vs [("S", "Infinity")]) = Ok (Raise DecodeValidationError) /\
  (forall d v, In (d, v) [(zdoc "STRING" "INT" (JArr [js "{{Param.S}}"]), " 5 ");
                          (zdoc "STRING" "FLOAT" (JArr [js "{{Param.S}}"]), "1e2");
                          (zdoc "STRING" "STRING" (JArr [long 1020]), "1234");
                          (zdoc "STRING" "INT" (js "1-{{Param.S}}"), "3");
                          (zdoc "FLOAT" "INT" (JArr [JInt 1]), "1.5")] ->
     exists o, create_job_docs ascii_class [] d (vs [("S", v)]) = Ok (Ok o)).
Proof.
  split; [vm_compute; reflexivity|]. split; [vm_compute; reflexivity|]. split; [vm_compute; reflexivity|].
  split; [vm_compute; reflexivity|]. split; [vm_compute; reflexivity|].
  intros d v [E|[E|[E|[E|[E|[]]]]]]; injection E as <- <-; eexists; vm_compute; reflexivity.
Qed.

(* the predicates do discriminate on the values involved *)
Example C09_full_predicates_nonvacuous :
  conforms_task $"INT" $"abc" = false /\ conforms_task $"INT" $" 5 " = true /\
  conforms_task $"FLOAT" $"NaN" = false /\ conforms_task $"FLOAT" $"1e2" = true /\
  conforms_job $"FLOAT" $"Infinity" = false /\ conforms_job $"FLOAT" $"1.5" = true /\
  conforms_task $"STRING" (repeat 120%N 1025) = false /\ conforms_task $"PATH" (repeat 120%N 1024) = true.
Proof. vm_compute. repeat split. Qed.
