(* props/C06x.v — C06 for create_job AS A WHOLE: one Coq function, one exception-family theorem.

   Model (theories/CreateJobFull.v):
     [pdef_of_mval]      a decoded Job{Int,Float,String,Path}ParameterDefinition instance -> the record
                         JobParams.pdef (the attribute reads of merging / preprocessing);
     [defs_of_template]  template.parameterDefinitions of a decoded JobTemplate / EnvironmentTemplate;
     [merge_definitions] merge_job_parameter_definitions (environment templates first, job template last,
                         grouped by name in order of first occurrence, Merge.merge per group, the
                         CompatibilityErrors of all groups collected);
     [preprocess_server] preprocess_job_parameters as create_job calls it (Path() for both directories,
                         walk-up allowed: Paths.server_value / Paths.server_default);
     [prep_full]         the try/except block of create_job: any ValueError -> DecodeValidationError;
     [create_job_full classify envs template vals]
                         prep_full, CreateJob.symtab_of, CreateJob.inst, CreateJob.coerce_job,
                         Export.nodes_ok:  Ok job | Raise DecodeValidationError | Raise e (e escapes);
     [create_job_docs]   the same from the RAW documents (Accept.decode_job / decode_env first).
   Vocabulary: DecodeValidationError is the one documented family of create_job (the ValueError of
   preprocess_job_parameters is translated into it by the code itself); RuntimeError is not a Python
   exception but the structural pydantic model's "outside the modelled domain" (Parse.unsupported).
   Proofs: theories/CreateJobFullProofs.v, theories/CreateJobNoRT.v.  Correspondence with the implementation: harness/c06full.py. *)
From Coq Require Import List NArith ZArith Bool String.
Import ListNotations.
Require Import OJD.Base OJD.Lexer OJD.Json OJD.Schema OJD.Generated OJD.Numerals OJD.FormatStr
               OJD.CreateJob OJD.CreateJobProofs OJD.Parse OJD.Validators OJD.Accept OJD.Export OJD.CreateExn
               OJD.JobParams OJD.Merge OJD.MergeSpec OJD.Paths OJD.NoMissingVar OJD.CreateJobNoRT
               OJD.CreateJobFull OJD.CreateJobFullProofs.
Local Open Scope string_scope.
Local Open Scope list_scope.

(* ------------------------------------------------------------------ reading the definitions is total *)

(* every job parameter definition of an ACCEPTED job template is read by [pdef_of_mval] (the composition
   adds no failure mode of its own); the default text of a numeric definition is the text of a number of
   its type; and the names are exactly those instantiate_model will look up as RawParam.<name> *)
Theorem C06_full_pdef_total : forall classify j t, decode_job classify j = Ok t ->
  exists ds, defs_of_template t = Ok ds /\ Forall wf_default ds /\
             adds_names Generated.schema t = map pname ds.
Proof. exact decode_job_defs. Qed.
Print Assumptions C06_full_pdef_total.

Theorem C06_full_pdef_total_env : forall classify j t, decode_env classify j = Ok t ->
  exists ds, defs_of_template t = Ok ds /\ Forall wf_default ds.
Proof. exact decode_env_defs. Qed.
Print Assumptions C06_full_pdef_total_env.

(* one definition object of either template kind (the discriminated union on "type") *)
Theorem C06_full_pdef_one : forall classify f item y,
  parse_kind Generated.schema classify pre_hook (post_hook classify) f params_kind item = Ok y ->
  exists d, pdef_of_mval y = Ok d /\ wf_default d /\ adds_names Generated.schema y = [pname d].
Proof. exact disc_param_pdef. Qed.
Print Assumptions C06_full_pdef_one.

(* ------------------------------------------------------------------ the stages *)

(* merging the definitions of all templates: CompatibilityError or nothing *)
Theorem C06_full_merge_exn : forall eds jd e,
  Forall (Forall wf_default) eds -> Forall wf_default jd ->
  merge_definitions eds jd = Raise e -> e = CompatibilityError.
Proof. exact merge_definitions_raise. Qed.
Print Assumptions C06_full_merge_exn.

(* ... and every definition's name has a merged definition *)
Theorem C06_full_merge_names : forall eds jd defs, merge_definitions eds jd = Ok defs ->
  forall d, In d (List.concat eds ++ jd) -> In (pname d) (map pname defs).
Proof. exact merge_definitions_names. Qed.
Print Assumptions C06_full_merge_names.

(* preprocessing in create_job's mode: ValueError or nothing, whatever the definitions and values *)
Theorem C06_full_preprocess_exn : forall defs vals e, preprocess_server defs vals = Raise e -> e = ValueError.
Proof. exact preprocess_server_raise. Qed.
Print Assumptions C06_full_preprocess_exn.

(* the whole try/except block: DecodeValidationError, or a value for every parameter of the job template
   (what instantiate_model needs in order not to raise KeyError) *)
Theorem C06_full_prep : forall classify j t envs vals,
  decode_job classify j = Ok t -> accepted_envs classify envs ->
  (forall e, prep_full envs t vals = Raise e -> e = DecodeValidationError) /\
  (forall pvals, prep_full envs t vals = Ok pvals ->
     forall n, In n (adds_names Generated.schema t) -> In n (map v_name pvals)).
Proof. exact prep_full_spec. Qed.
Print Assumptions C06_full_prep.

(* ------------------------------------------------------------------ create_job *)

(* [accepted_envs classify envs] : every element of envs is the result of decode_env on some document.

   THE THEOREM.  For every job template accepted by decode_job, all environment templates accepted by
   decode_env and EVERY list of caller values: whatever leaves create_job_full is DecodeValidationError.
   Never KeyError (missing RawParam.<n>), never FormatStringError (missing variable), never TypeError /
   AttributeError (reshape key), never CompatibilityError / ValueError (both translated by the code), and
   never the model's own RuntimeError marker ("outside the modelled pydantic domain" / fuel). *)
Theorem C06_full_exn : forall classify j t envs vals e,
  decode_job classify j = Ok t -> accepted_envs classify envs ->
  create_job_full classify envs t vals = Raise e -> e = DecodeValidationError.
Proof. exact create_job_full_exn_strict. Qed.
Print Assumptions C06_full_exn.

(* equivalently: a Job or DecodeValidationError *)
Theorem C06_full_total : forall classify j t envs vals,
  decode_job classify j = Ok t -> accepted_envs classify envs ->
  (exists job, create_job_full classify envs t vals = Ok job) \/
  create_job_full classify envs t vals = Raise DecodeValidationError.
Proof. exact create_job_full_total. Qed.
Print Assumptions C06_full_total.

(* the same from the raw documents: decode the job template, decode the environment templates, create *)
Theorem C06_full_docs_exn : forall classify env_docs doc vals e,
  create_job_docs classify env_docs doc vals = Ok (Raise e) -> e = DecodeValidationError.
Proof. exact create_job_docs_exn_strict. Qed.
Print Assumptions C06_full_docs_exn.

(* nodes_ok never returns RuntimeError: the job-side
   re-validation of the instantiated tree of an accepted template stays inside the modelled domain, for ANY
   resolver and symbol table.  Proof (theories/CreateJobNoRT.v): decoded trees carry floats only below
   fields instantiate_model drops (userInterface), so the instantiated tree has none and its export has no
   non-integer number; the classes of its nodes form a set closed under "class of a field" without float
   and lax-bool fields ([safe_closed], checked on Generated.schema); the structural model answers
   "unsupported" nowhere else; and the tree is not deeper than the template, so the fuels suffice. *)
Theorem C06_full_revalidation_in_domain : forall classify j t resolve sigma job,
  decode_job classify j = Ok t ->
  inst Generated.schema resolve sigma (S (mval_depth t)) t = Ok job ->
  nodes_ok classify (S (S (S (mval_depth t)))) (coerce_job (S (mval_depth t)) job) <> Raise RuntimeError.
Proof. exact CreateJobNoRT.accepted_nodes_no_rt. Qed.
Print Assumptions C06_full_revalidation_in_domain.

(* ... hence the full statement C06_create_exn_full: with the
   IMPLEMENTATION's preprocessed values (harness/c06.py), nothing at all escapes from the verdict model *)
Theorem C06_create_exn_full : forall classify j t vals,
  decode_job classify j = Ok t -> NoMissingVar.covers (jget "parameterDefinitions" j) vals ->
  exists b, create_job_verdict classify vals t = Ok b.
Proof. exact accepted_verdict_total. Qed.
Print Assumptions C06_create_exn_full.

(* the weaker form with the provenance of the residue; its proof does not use CreateJobNoRT *)
Theorem C06_full_exn_weak : forall classify j t envs vals e,
  decode_job classify j = Ok t -> accepted_envs classify envs ->
  create_job_full classify envs t vals = Raise e ->
  e = DecodeValidationError \/ (e = RuntimeError /\ revalidation_outside_domain classify envs t vals).
Proof. exact create_job_full_exn. Qed.
Print Assumptions C06_full_exn_weak.

(* create_job_full is the verdict model of props/C06.v (Export.create_job_verdict) applied to the values
   the MODEL preprocessed (harness/c06.py feeds it the implementation's) *)
Theorem C06_full_is_verdict : forall classify envs t vals,
  match prep_full envs t vals with
  | Ok pvals =>
    match create_job_verdict classify pvals t with
    | Ok true => exists job, create_job_full classify envs t vals = Ok job
    | Ok false => create_job_full classify envs t vals = Raise DecodeValidationError
    | Raise e => create_job_full classify envs t vals = Raise e
    end
  | Raise e => create_job_full classify envs t vals = Raise e
  end.
Proof. exact create_job_full_verdict. Qed.
Print Assumptions C06_full_is_verdict.

(* ------------------------------------------------------------------ non-vacuity *)
Definition js (x : string) : json := JStr (str_of_string x).
Definition jo (l : list (string * json)) : json := JObj (map (fun kv => (str_of_string (fst kv), snd kv)) l).
Definition vs (l : list (string * string)) : list (str * str) := map (fun kv => ($(fst kv), $(snd kv))) l.

(* INT, FLOAT, STRING and PATH parameters; the job name and a task parameter range refer to them *)
Definition xdoc : json :=
  jo [("specificationVersion", js "jobtemplate-2023-09");
      ("name", js "Job {{Param.Frames}} {{RawParam.Out}}");
      ("parameterDefinitions",
       JArr [jo [("name", js "Frames"); ("type", js "INT"); ("minValue", JInt 1); ("default", js "7")];
             jo [("name", js "Scale"); ("type", js "FLOAT"); ("maxValue", js "2.50"); ("allowedValues", JArr [JDec 15 (-1); JInt 2])];
             jo [("name", js "Tag"); ("type", js "STRING"); ("maxLength", JInt 5); ("default", js "ab")];
             jo [("name", js "Out"); ("type", js "PATH"); ("objectType", js "DIRECTORY"); ("dataFlow", js "OUT")]]);
      ("steps",
       JArr [jo [("name", js "A");
                 ("parameterSpace",
                  jo [("taskParameterDefinitions",
                       JArr [jo [("name", js "X"); ("type", js "INT"); ("range", js "1-{{Param.Frames}}")]])]);
                 ("script", jo [("actions", jo [("onRun", jo [("command", js "{{Param.Out}}")])])])]])].

(* an environment template that re-constrains Frames (maxValue 10) and adds a parameter of its own *)
Definition xenv (frames_max : Z) : json :=
  jo [("specificationVersion", js "environment-2023-09");
      ("parameterDefinitions",
       JArr [jo [("name", js "Frames"); ("type", js "INT"); ("maxValue", JInt frames_max)];
             jo [("name", js "Extra"); ("type", js "STRING"); ("default", js "e")]]);
      ("environment", jo [("name", js "E"); ("variables", jo [("A", js "b")])])].

(* the hypotheses are met, the four definitions are read, the merged + preprocessed values are as expected
   (the relative PATH value is normalised by Path() / v; Frames and Tag default; Extra comes from the
   environment template), and a Job is returned *)
Example C06_full_accepted_nonvacuous :
  exists t e,
    decode_job ascii_class xdoc = Ok t /\ decode_env ascii_class (xenv 10) = Ok e /\ accepted_envs ascii_class [e] /\
    (exists ds, defs_of_template t = Ok ds /\ map pname ds = [$"Frames"; $"Scale"; $"Tag"; $"Out"] /\
                map ptyp ds = [INT; FLOAT; STRING; PATH]) /\
    prep_full [e] t (vs [("Scale", "1.5"); ("Out", "a//b/./c")])
    = Ok [($"Frames", $"INT", $"7"); ($"Extra", $"STRING", $"e"); ($"Scale", $"FLOAT", $"1.5");
          ($"Tag", $"STRING", $"ab"); ($"Out", $"PATH", $"a/b/c")] /\
    is_ok (create_job_full ascii_class [e] t (vs [("Scale", "1.5"); ("Out", "a//b/./c")])) = true.
Proof.
  eexists. eexists. split; [vm_compute; reflexivity|]. split; [vm_compute; reflexivity|].
  split; [constructor; [exists (xenv 10); vm_compute; reflexivity|constructor]|].
  split; [eexists; split; [vm_compute; reflexivity|split; vm_compute; reflexivity]|].
  split; vm_compute; reflexivity.
Qed.

(* values refused, one case per way into DecodeValidationError:
     the merged definition refuses the value (11 > the environment template's maxValue 10);
     a value is missing (Scale has no default);  an unknown name is supplied;
     the definitions cannot be merged (environment maxValue 0 < job minValue 1);
     preprocessing succeeds but the instantiated Job is refused (the resolved range "1-0" is not a range) *)
Example C06_full_refused_nonvacuous :
  create_job_docs ascii_class [xenv 10] xdoc (vs [("Scale", "1.5"); ("Out", "a"); ("Frames", "11")]) = Ok (Raise DecodeValidationError) /\
  create_job_docs ascii_class [xenv 10] xdoc (vs [("Out", "a")]) = Ok (Raise DecodeValidationError) /\
  create_job_docs ascii_class [xenv 10] xdoc (vs [("Scale", "1.5"); ("Out", "a"); ("Nope", "1")]) = Ok (Raise DecodeValidationError) /\
  create_job_docs ascii_class [xenv 0] xdoc (vs [("Scale", "1.5"); ("Out", "a")]) = Ok (Raise DecodeValidationError) /\
  create_job_docs ascii_class [] (jo [("specificationVersion", js "jobtemplate-2023-09"); ("name", js "J");
      ("parameterDefinitions", JArr [jo [("name", js "N"); ("type", js "STRING")]]);
      ("steps", JArr [jo [("name", js "A");
                          ("parameterSpace", jo [("taskParameterDefinitions",
                             JArr [jo [("name", js "X"); ("type", js "INT"); ("range", js "1-{{Param.N}}")]])]);
                          ("script", jo [("actions", jo [("onRun", jo [("command", js "c")])])])]])])
    (vs [("N", "0")]) = Ok (Raise DecodeValidationError).
Proof. vm_compute. repeat split. Qed.

(* the merge stage on its own: two compatible groups and one conflicting group *)
Definition dI (mn mx : option Z) : pdef :=
  mkDef $"I" INT (option_map num_of_Z mn) (option_map num_of_Z mx) None None None None None None None.
Example C06_full_merge_nonvacuous :
  Forall (Forall wf_default) [[dI None (Some 10%Z)]] /\ Forall wf_default [dI (Some 1%Z) None] /\
  is_ok (merge_definitions [[dI None (Some 10%Z)]] [dI (Some 1%Z) None]) = true /\
  merge_definitions [[dI None (Some 0%Z)]] [dI (Some 1%Z) None] = Raise CompatibilityError.
Proof.
  assert (W : forall a b, wf_default (dI a b)) by (intros a b _ t E; discriminate E).
  split; [repeat constructor; apply W|]. split; [repeat constructor; apply W|].
  split; vm_compute; reflexivity.
Qed.
