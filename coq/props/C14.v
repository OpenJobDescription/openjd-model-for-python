(* props/C14.v — Combination expressions: exact grammar, and size rules enforced on Jobs.
   Statements only; the proofs of the theorems are terms over lemmas of CombProofs.v. *)
From Coq Require Import List NArith ZArith Bool Permutation.
Import ListNotations.
Require Import OJD.Base OJD.Lexer OJD.Generated OJD.Comb OJD.CombSpec OJD.CombProofs.

(* 1. The LL(1) parser of the code accepts exactly the token lists that derive from
        expr := elem ('*' elem)* ;  elem := identifier | '(' expr (',' expr)+ ')'
      and returns the tree of the derivation; every failure is in the ExpressionError family
      (TokenError is a subclass) — in particular the model's fuel is never exhausted
      (is_expression_error RuntimeError = false).  All token lists, any length. *)
Theorem C14_grammar : forall ts : list tok,
  (forall t, parse ts = Ok t <-> Expr ts t) /\
  (forall e, parse ts = Raise e -> is_expression_error e = true).
Proof.
  exact (fun ts => conj (parse_iff_Expr ts) (parse_error_family ts)).
Qed.
Print Assumptions C14_grammar.

(* the grammar is unambiguous: a token list has at most one tree *)
Theorem C14_grammar_unambiguous : forall ts t t', Expr ts t -> Expr ts t' -> t = t'.
Proof. exact Expr_deterministic. Qed.
Print Assumptions C14_grammar_unambiguous.

(* 2. Printing a parsed tree (__str__, at token level) and parsing it again gives the same
      tree; parsed trees are canonical, and every canonical tree is a fixed point. *)
Theorem C14_print_parse :
  (forall ts t, parse ts = Ok t -> Canonical t /\ parse (to_tokens t) = Ok t) /\
  (forall t, Canonical t -> parse (to_tokens t) = Ok t).
Proof. exact (conj parse_print_parse print_parse_canonical). Qed.
Print Assumptions C14_print_parse.

(* 3. Template validation (as coded now: [pinned_comb_accounting = false]) accepts the
      combination string s of a step with (distinct) task parameters [params] exactly when s is
      at most 1280 characters, consists of the field's characters, lexes to a token list that
      derives from the grammar, and the tree names each declared parameter exactly once.
      Any character classification [classify] (the lexer is parametrised by it). *)
Theorem C14_template_accept : forall classify params s,
  NoDup params ->
  (template_check false classify params s = true <->
   length s <= max_len /\ charset s /\
   exists ts t, lex_for classify comb_kinds s = Ok ts /\ Expr ts t /\ each_once params t).
Proof. exact template_accept_iff. Qed.
Print Assumptions C14_template_accept.

(* 4. _validate_expr_tree returns n exactly when every association of the tree has operands
      of equal size and n is the size of the space; on a parsed (canonical) tree that is not
      balanced it raises ExpressionError, which create_job turns into DecodeValidationError. *)
Theorem C14_dims : forall lens t,
  covered lens t ->
  (forall n, dims lens t = Ok n <-> assoc_balanced lens t /\ n = tree_len lens t) /\
  (Canonical t -> ~ assoc_balanced lens t ->
   dims lens t = Raise ExpressionError /\ job_dims lens t = Raise DecodeValidationError).
Proof.
  exact (fun lens t H => conj (dims_ok_iff lens t H) (dims_unbalanced lens t H)).
Qed.
Print Assumptions C14_dims.

(* "A Job is created only if ... otherwise create_job raises DecodeValidationError":
   the two cases are exhaustive for every parsed tree whose identifiers all have a range. *)
Theorem C14_create_job : forall lens t,
  covered lens t -> Canonical t ->
  (assoc_balanced lens t /\ job_dims lens t = Ok (tree_len lens t)) \/
  (~ assoc_balanced lens t /\ job_dims lens t = Raise DecodeValidationError).
Proof. exact dims_decides. Qed.
Print Assumptions C14_create_job.

(* Regression documentation: the accounting of the code before commit 5fdbd84 (comparison of
   the NUMBER of distinct names) accepts "A * C" over the parameters {A, B}. *)
Theorem C14_pinned_accounting_refuted :
  exists params s,
    NoDup params /\
    template_check true ascii_class params s = true /\
    ~ (length s <= max_len /\ charset s /\
       exists ts t, lex_for ascii_class comb_kinds s = Ok ts /\ Expr ts t /\ each_once params t).
Proof. exact pinned_accounting_refuted. Qed.
Print Assumptions C14_pinned_accounting_refuted.

(* ---------- non-vacuity ---------- *)
Local Open Scope N_scope.
Definition nA : str := [65].
Definition nB : str := [66; 98].          (* "Bb" *)
Definition nC : str := [67; 95; 49].      (* "C_1" *)

(* "(A, Bb * C_1) * A": tokens, tree *)
Definition ex_ts : list tok :=
  [TLParen; TName nA; TComma; TName nB; TStar; TName nC; TRParen; TStar; TName nA].
Definition ex_t : ctree := Prod [Assoc [Id nA; Prod [Id nB; Id nC]]; Id nA].

Example C14_grammar_nonvacuous :
  parse ex_ts = Ok ex_t /\ parse [TLParen; TName nA; TRParen] = Raise ExpressionError /\
  parse [TName nA; TName nB] = Raise TokenError.
Proof. vm_compute. repeat split. Qed.

Example C14_print_parse_nonvacuous : to_tokens ex_t = ex_ts /\ parse (to_tokens ex_t) = Ok ex_t.
Proof. vm_compute. split; reflexivity. Qed.

(* "(A, Bb) * C_1" over {C_1, A, Bb} is accepted; "A * A * Bb" over {A, Bb} is not *)
Example C14_template_accept_nonvacuous :
  NoDup [nC; nA; nB] /\
  template_check false ascii_class [nC; nA; nB]
    [40; 65; 44; 32; 66; 98; 41; 32; 42; 32; 67; 95; 49] = true /\
  template_check false ascii_class [nA; nB] [65; 32; 42; 32; 65; 32; 42; 32; 66; 98] = false.
Proof.
  split; [|vm_compute; split; reflexivity].
  repeat constructor; cbn; intuition discriminate.
Qed.

Definition ex_lens (s : str) : option N :=
  lookup_len [(nA, 6); (nB, 2); (nC, 3)] s.

(* (A, Bb * C_1) with |A| = 6, |Bb| = 2, |C_1| = 3 is balanced: 6 tasks *)
Example C14_dims_nonvacuous :
  covered ex_lens (Assoc [Id nA; Prod [Id nB; Id nC]]) /\
  dims ex_lens (Assoc [Id nA; Prod [Id nB; Id nC]]) = Ok 6 /\
  dims ex_lens (Assoc [Id nA; Id nB]) = Raise ExpressionError.
Proof.
  split; [|vm_compute; split; reflexivity].
  intros s Hin. cbn in Hin.
  destruct Hin as [E|[E|[E|F]]]; try contradiction F; subst s; vm_compute; discriminate.
Qed.
