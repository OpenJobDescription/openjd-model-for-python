(* props/C10x.v — C10 / C11 / C12 for preprocess_job_parameters AS A WHOLE, on raw documents: one Coq function.

   Model (theories/PreprocessFull.v):
     [preprocess_docs classify mode template_dir cwd walk_up env_docs doc vals]
         : outcome (outcome (list (name * (type * value))))
       decode_job / decode_env (Accept.v) on the raw documents          outer Raise = a template is not accepted
       defs_of_template + merge_definitions (CreateJobFull.v, Merge.v)  read the definitions, group by name, merge
       JobParams.preprocess with the PATH rules of the call              extra / defaults / checks / missing
         dir_ok       := negb (Paths.dir_check dir walkup)               "template dir must be absolute"
         path_in      := Paths.path_supplied cwd                         relative supplied PATH value -> cwd / v
         path_default := Paths.default_body dir walkup                   PATH default: joined, contained unless walk-up
       mode Client: (dir, cwd, walkup) are the caller's;  mode Server: ("", "", true), what create_job passes.
     [docs_sources classify env_docs doc]  every definition that takes part, in merge order;
     [docs_merged classify env_docs doc]   the merged definitions the call works on.
   Vocabulary (theories/PreprocessFullSpec.v): accepted, group_of, merged_from, dir_rule_ok, path_in_of,
   path_default_of; sat / final / no_extra / no_missing / path_defaults_ok / all_sat are C10's (JobParamsSpec.v),
   contained / spec_supplied C11's (PathsSpec.v), last_given_default C12's (MergeSpec.v).
   Proofs: theories/PreprocessFullProofs.v, theories/PreprocessFullLib.v.
   Correspondence with the implementation: harness/c10full.py (the model is fed ONLY the raw documents, the value
   map, the two directories, the flag and the mode). *)
From Coq Require Import List NArith ZArith Bool String.
Import ListNotations.
Require Import OJD.Base OJD.Lexer OJD.Json OJD.Numerals OJD.NumeralsSpec OJD.CreateJob OJD.Accept
               OJD.JobParams OJD.JobParamsSpec OJD.Merge OJD.MergeSpec OJD.Paths OJD.PathsSpec OJD.PathsProofs
               OJD.CreateJobFull OJD.PreprocessFull OJD.PreprocessFullSpec OJD.PreprocessFullLib OJD.PreprocessFullProofs.
Local Open Scope string_scope.
Local Open Scope list_scope.

(* ------------------------------------------------------------------ reading the documents *)

(* on accepted documents reading the definitions cannot fail, and every definition read is what C10 / C12 assume
   of a definition (allowedValues non-empty, maxLength <> 0; numeric defaults are numerals of their type):
   [wf_def] is PROVED of the decoder here, it is not a premise about the harness' conversion *)
Theorem C10_full_sources_total : forall classify env_docs doc, accepted classify env_docs doc ->
  exists srcs, docs_sources classify env_docs doc = Ok srcs /\ Forall wf_def srcs /\ Forall wf_default srcs.
Proof. exact docs_sources_total. Qed.
Print Assumptions C10_full_sources_total.

(* ------------------------------------------------------------------ C10 *)

(* success <-> the definitions merge, and for the MERGED definitions: the template-directory rule holds, no
   undefined name is supplied, every parameter without default is supplied, every PATH default that is used can be
   joined, and every final value satisfies its definition *)
Theorem C10_full_iff : forall classify mode template_dir cwd walk_up env_docs doc vals,
  accepted classify env_docs doc ->
  ((exists r, preprocess_docs classify mode template_dir cwd walk_up env_docs doc vals = Ok (Ok r)) <->
   exists defs, docs_merged classify env_docs doc = Ok defs /\
     dir_rule_ok (eff_dir mode template_dir) (eff_walk mode walk_up) defs /\
     no_extra defs vals /\ no_missing defs vals /\
     path_defaults_ok (path_default_of mode template_dir walk_up) defs vals /\
     all_sat (path_in_of mode cwd) (path_default_of mode template_dir walk_up) defs vals).
Proof. intros classify mode template_dir cwd walk_up env_docs doc vals _. apply preprocess_docs_iff. Qed.
Print Assumptions C10_full_iff.

(* ... and in terms of the SOURCE definitions (C12_sound + C12_complete through the composition): every final value
   is accepted by EVERY individual definition of its parameter, in every template that defines it *)
Theorem C10_full_iff_sources : forall classify mode template_dir cwd walk_up env_docs doc vals srcs,
  docs_sources classify env_docs doc = Ok srcs ->
  ((exists r, preprocess_docs classify mode template_dir cwd walk_up env_docs doc vals = Ok (Ok r)) <->
   exists defs, docs_merged classify env_docs doc = Ok defs /\
     dir_rule_ok (eff_dir mode template_dir) (eff_walk mode walk_up) defs /\
     no_extra defs vals /\ no_missing defs vals /\
     path_defaults_ok (path_default_of mode template_dir walk_up) defs vals /\
     (forall d v, In d defs -> final (path_in_of mode cwd) (path_default_of mode template_dir walk_up) vals d v ->
                  Forall (fun s => sat s v) (group_of (pname d) srcs))).
Proof. exact preprocess_docs_iff_sources. Qed.
Print Assumptions C10_full_iff_sources.

(* on success: exactly one entry per merged definition, in definition order, typed as declared, carrying the final
   value; supplied values win and are returned as given, defaults otherwise (PATH joining aside) *)
Theorem C10_full_result : forall classify mode template_dir cwd walk_up env_docs doc vals r,
  preprocess_docs classify mode template_dir cwd walk_up env_docs doc vals = Ok (Ok r) ->
  exists defs, docs_merged classify env_docs doc = Ok defs /\
    Forall2 (fun d (e : str * (ptype * str)) =>
               fst e = pname d /\ fst (snd e) = ptyp d /\
               final (path_in_of mode cwd) (path_default_of mode template_dir walk_up) vals d (snd (snd e))) defs r /\
    (forall d v, In d defs -> is_path d = false -> lookup (pname d) vals = Some v ->
                 lookup (pname d) r = Some (ptyp d, v)) /\
    (forall d t, In d defs -> is_path d = false -> lookup (pname d) vals = None -> pdefault d = Some t ->
                 lookup (pname d) r = Some (ptyp d, t)).
Proof. exact preprocess_docs_result. Qed.
Print Assumptions C10_full_result.

(* whatever leaves preprocess_job_parameters is a ValueError: never CompatibilityError (translated by the code),
   never the model's RuntimeError marker (reading the definitions of accepted templates is total) *)
Theorem C10_full_error : forall classify mode template_dir cwd walk_up env_docs doc vals e,
  preprocess_docs classify mode template_dir cwd walk_up env_docs doc vals = Ok (Raise e) -> e = ValueError.
Proof. exact preprocess_docs_error. Qed.
Print Assumptions C10_full_error.

(* ------------------------------------------------------------------ C12 *)

(* the merged definitions: one per distinct name, each the merge (Merge.merge, props/C12.v) of ALL the source
   definitions of its name in merge order, no name lost; they are well formed *)
Theorem C12_full_merged : forall classify env_docs doc srcs defs,
  docs_sources classify env_docs doc = Ok srcs -> docs_merged classify env_docs doc = Ok defs ->
  merged_from srcs defs /\ Forall wf_def defs.
Proof. exact docs_merged_spec. Qed.
Print Assumptions C12_full_merged.

(* the merge succeeds exactly when the definitions of EVERY name can be merged; otherwise CompatibilityError *)
Theorem C12_full_merge_iff : forall classify env_docs doc srcs,
  docs_sources classify env_docs doc = Ok srcs ->
  ((exists defs, docs_merged classify env_docs doc = Ok defs) <->
   (forall k, In k (map pname srcs) -> exists m, merge false (group_of k srcs) = Ok m)).
Proof. exact docs_merged_ok_iff. Qed.
Print Assumptions C12_full_merge_iff.

Theorem C12_full_merge_error : forall classify env_docs doc e, accepted classify env_docs doc ->
  docs_merged classify env_docs doc = Raise e -> e = CompatibilityError.
Proof. exact docs_merged_error. Qed.
Print Assumptions C12_full_merge_error.

(* a merged definition accepts exactly what every source of its name accepts; its default is the last one given *)
Theorem C12_full_sat : forall srcs defs m v, Forall wf_def srcs -> merged_from srcs defs -> In m defs ->
  (sat m v <-> Forall (fun d => sat d v) (group_of (pname m) srcs)) /\
  pdefault m = last_given_default (group_of (pname m) srcs).
Proof. exact merged_sat. Qed.
Print Assumptions C12_full_sat.

(* ONE parameter whose definitions cannot be merged (types / objectType / dataFlow differ, or no value satisfies
   all constraints: the C12_refuse theorems) makes the whole call a ValueError, in either mode, whatever the values *)
Theorem C12_full_refused : forall classify mode template_dir cwd walk_up env_docs doc vals srcs k,
  docs_sources classify env_docs doc = Ok srcs -> In k (map pname srcs) ->
  merge false (group_of k srcs) = Raise CompatibilityError ->
  preprocess_docs classify mode template_dir cwd walk_up env_docs doc vals = Ok (Raise ValueError).
Proof. exact preprocess_docs_refused_name. Qed.
Print Assumptions C12_full_refused.

(* ------------------------------------------------------------------ C11 *)

(* client mode, walk-up disallowed: every PATH default of the result is "" (an empty default) or an absolute path
   lexically inside the template directory without ".." (C11_contained, transported) *)
Theorem C11_full_contained : forall classify template_dir cwd env_docs doc vals r,
  preprocess_docs classify Client template_dir cwd false env_docs doc vals = Ok (Ok r) ->
  exists defs, docs_merged classify env_docs doc = Ok defs /\
    forall d t, In d defs -> ptyp d = PATH -> lookup (pname d) vals = None -> pdefault d = Some t ->
      exists v, lookup (pname d) r = Some (PATH, v) /\
                ((t = [] /\ v = []) \/ (t <> [] /\ contained template_dir v)).
Proof. exact preprocess_docs_contained. Qed.
Print Assumptions C11_full_contained.

(* a relative template directory never yields a result once ANY template defines a parameter *)
Theorem C11_full_reldir : forall classify template_dir cwd env_docs doc vals defs,
  docs_merged classify env_docs doc = Ok defs -> defs <> [] -> is_absolute template_dir = false ->
  preprocess_docs classify Client template_dir cwd false env_docs doc vals = Ok (Raise ValueError).
Proof. exact preprocess_docs_reldir. Qed.
Print Assumptions C11_full_reldir.

(* supplied PATH values: joined to the working directory of the call when relative and non-empty (client), to ""
   in server mode; PathsSpec.spec_supplied *)
Theorem C11_full_supplied : forall classify mode template_dir cwd walk_up env_docs doc vals r,
  preprocess_docs classify mode template_dir cwd walk_up env_docs doc vals = Ok (Ok r) ->
  exists defs, docs_merged classify env_docs doc = Ok defs /\
    forall d v, In d defs -> ptyp d = PATH -> lookup (pname d) vals = Some v ->
      lookup (pname d) r = Some (PATH, spec_supplied (eff_cwd mode cwd) v).
Proof. exact preprocess_docs_supplied_path. Qed.
Print Assumptions C11_full_supplied.

(* server mode: every default (PATH included) is returned verbatim *)
Theorem C11_full_server_default : forall classify template_dir cwd walk_up env_docs doc vals r,
  preprocess_docs classify Server template_dir cwd walk_up env_docs doc vals = Ok (Ok r) ->
  exists defs, docs_merged classify env_docs doc = Ok defs /\
    forall d t, In d defs -> lookup (pname d) vals = None -> pdefault d = Some t ->
      lookup (pname d) r = Some (ptyp d, t).
Proof. exact preprocess_docs_server_default. Qed.
Print Assumptions C11_full_server_default.

(* the Server mode IS the preprocessing step of the create_job model of props/C06x.v *)
Theorem C10_full_server_is_create_job : forall classify template_dir cwd walk_up env_docs doc vals t envs,
  decode_job classify doc = Ok t -> mapM (decode_env classify) env_docs = Ok envs ->
  match preprocess_docs classify Server template_dir cwd walk_up env_docs doc vals with
  | Ok (Ok r) => prep_full envs t vals = Ok (pvals_of r)
  | Ok (Raise _) => prep_full envs t vals = Raise DecodeValidationError
  | Raise _ => False
  end.
Proof. exact preprocess_docs_server_is_prep_full. Qed.
Print Assumptions C10_full_server_is_create_job.

(* ------------------------------------------------------------------ non-vacuity *)
Definition js (x : string) : json := JStr (str_of_string x).
Definition jo (l : list (string * json)) : json := JObj (map (fun kv => (str_of_string (fst kv), snd kv)) l).
Definition vs (l : list (string * string)) : list (str * str) := map (fun kv => ($(fst kv), $(snd kv))) l.
Definition xstep : json := jo [("name", js "A"); ("script", jo [("actions", jo [("onRun", jo [("command", js "c")])])])].

(* a job template with an INT parameter (minValue 1, default 7), a PATH parameter with a relative default and a
   required PATH parameter *)
Definition xdoc (out_default : string) : json :=
  jo [("specificationVersion", js "jobtemplate-2023-09"); ("name", js "J");
      ("parameterDefinitions",
       JArr [jo [("name", js "Frames"); ("type", js "INT"); ("minValue", JInt 1); ("default", js "7")];
             jo [("name", js "Out"); ("type", js "PATH"); ("default", js out_default)];
             jo [("name", js "In"); ("type", js "PATH"); ("maxLength", JInt 12)]]);
      ("steps", JArr [xstep])].

(* an environment template that re-constrains Frames (maxValue) and adds a parameter of its own *)
Definition xenv (frames_max : Z) : json :=
  jo [("specificationVersion", js "environment-2023-09");
      ("parameterDefinitions",
       JArr [jo [("name", js "Frames"); ("type", js "INT"); ("maxValue", JInt frames_max)];
             jo [("name", js "Extra"); ("type", js "STRING"); ("default", js "e")]]);
      ("environment", jo [("name", js "E"); ("variables", jo [("A", js "b")])])].

(* the hypotheses are met: both documents are accepted, five source definitions are read (environment template
   first), four merged definitions result, Frames carrying both bounds and the job template's default *)
Example C10_full_hypotheses_nonvacuous :
  accepted ascii_class [xenv 10] (xdoc "out/./x") /\
  (exists srcs, docs_sources ascii_class [xenv 10] (xdoc "out/./x") = Ok srcs /\
     map pname srcs = [$"Frames"; $"Extra"; $"Frames"; $"Out"; $"In"] /\
     map pname (group_of $"Frames" srcs) = [$"Frames"; $"Frames"]) /\
  (exists defs, docs_merged ascii_class [xenv 10] (xdoc "out/./x") = Ok defs /\
     map pname defs = [$"Frames"; $"Extra"; $"Out"; $"In"] /\ map ptyp defs = [INT; STRING; PATH; PATH] /\
     map pminv defs = [Some (num_of_Z 1); None; None; None] /\ map pmaxv defs = [Some (num_of_Z 10); None; None; None] /\
     map pdefault defs = [Some $"7"; Some $"e"; Some $"out/./x"; None]).
Proof.
  eassert (S : docs_sources ascii_class [xenv 10] (xdoc "out/./x") = Ok _) by (vm_compute; reflexivity).
  split; [exact (docs_sources_accepted _ _ _ _ S)|].
  split; [eexists; (split; [exact S|]); repeat split; vm_compute; reflexivity|].
  eexists; (split; [vm_compute; reflexivity|]); repeat split; vm_compute; reflexivity.
Qed.

(* accepted value lists: client mode (the default is joined to /t/dir and tidied, the supplied value joined to
   /cwd), server mode (default verbatim, supplied value tidied), and walk-up allowed with a relative directory *)
Example C10_full_accepted_nonvacuous :
  preprocess_docs ascii_class Client $"/t/dir" $"/cwd" false [xenv 10] (xdoc "out/./x") (vs [("In", "a//b")])
  = Ok (Ok [($"Frames", (INT, $"7")); ($"Extra", (STRING, $"e")); ($"Out", (PATH, $"/t/dir/out/x")); ($"In", (PATH, $"/cwd/a/b"))]) /\
  contained $"/t/dir" $"/t/dir/out/x" /\
  preprocess_docs ascii_class Client $"/t/dir" $"/cwd" false [xenv 10] (xdoc "out/./x") (vs [("In", "/abs"); ("Frames", "10"); ("Extra", "")])
  = Ok (Ok [($"Frames", (INT, $"10")); ($"Extra", (STRING, $"")); ($"Out", (PATH, $"/t/dir/out/x")); ($"In", (PATH, $"/abs"))]) /\
  preprocess_docs ascii_class Server $"/t/dir" $"/cwd" false [xenv 10] (xdoc "out/./x") (vs [("In", "a//b")])
  = Ok (Ok [($"Frames", (INT, $"7")); ($"Extra", (STRING, $"e")); ($"Out", (PATH, $"out/./x")); ($"In", (PATH, $"a/b"))]) /\
  preprocess_docs ascii_class Client $"t/dir" $"/cwd" true [xenv 10] (xdoc "../x") (vs [("In", "a")])
  = Ok (Ok [($"Frames", (INT, $"7")); ($"Extra", (STRING, $"e")); ($"Out", (PATH, $"../x")); ($"In", (PATH, $"/cwd/a"))]).
Proof.
  (* the documents are decoded and merged once; each call is then [preprocess_defs] on four definitions *)
  eassert (M : docs_merged ascii_class [xenv 10] (xdoc "out/./x") = Ok _) by (vm_compute; reflexivity).
  eassert (M' : docs_merged ascii_class [xenv 10] (xdoc "../x") = Ok _) by (vm_compute; reflexivity).
  rewrite !(preprocess_docs_with _ _ _ _ M), (preprocess_docs_with _ _ _ _ M').
  split; [vm_compute; reflexivity|]. split; [apply containedb_contained; vm_compute; reflexivity|].
  repeat split; vm_compute; reflexivity.
Qed.

(* refused value lists, one per way into ValueError:
     the environment template's maxValue 10 refuses Frames = 11;   the job template's minValue 1 refuses 0;
     a required parameter is missing;   an unknown name is supplied;
     the stored PATH value "/cwd/a/b/c/d/e" is longer than maxLength 12 although the supplied text is not;
     the PATH default climbs out of the template directory;   the PATH default is absolute;
     the template directory is relative;
     the definitions cannot be merged (environment maxValue 0 < job minValue 1) — in server mode too *)
Example C10_full_refused_nonvacuous :
  let run := fun d env doc v => preprocess_docs ascii_class Client d $"/cwd" false [env] doc (vs v) in
  run $"/t/dir" (xenv 10) (xdoc "out/./x") [("In", "a"); ("Frames", "11")] = Ok (Raise ValueError) /\
  run $"/t/dir" (xenv 10) (xdoc "out/./x") [("In", "a"); ("Frames", "0")] = Ok (Raise ValueError) /\
  run $"/t/dir" (xenv 10) (xdoc "out/./x") [] = Ok (Raise ValueError) /\
  run $"/t/dir" (xenv 10) (xdoc "out/./x") [("In", "a"); ("Nope", "1")] = Ok (Raise ValueError) /\
  run $"/t/dir" (xenv 10) (xdoc "out/./x") [("In", "a/b/c/d/e")] = Ok (Raise ValueError) /\
  run $"/t/dir" (xenv 10) (xdoc "out/../../x") [("In", "a")] = Ok (Raise ValueError) /\
  run $"/t/dir" (xenv 10) (xdoc "/t/dir/x") [("In", "a")] = Ok (Raise ValueError) /\
  run $"t/dir" (xenv 10) (xdoc "out/./x") [("In", "a")] = Ok (Raise ValueError) /\
  run $"/t/dir" (xenv 0) (xdoc "out/./x") [("In", "a")] = Ok (Raise ValueError) /\
  preprocess_docs ascii_class Server [] [] true [xenv 0] (xdoc "out/./x") (vs [("In", "a")]) = Ok (Raise ValueError).
Proof.
  intro run. unfold run. clear run.
  eassert (M1 : docs_merged ascii_class [xenv 10] (xdoc "out/./x") = Ok _) by (vm_compute; reflexivity).
  eassert (M2 : docs_merged ascii_class [xenv 10] (xdoc "out/../../x") = Ok _) by (vm_compute; reflexivity).
  eassert (M3 : docs_merged ascii_class [xenv 10] (xdoc "/t/dir/x") = Ok _) by (vm_compute; reflexivity).
  rewrite !(preprocess_docs_with _ _ _ _ M1), (preprocess_docs_with _ _ _ _ M2), (preprocess_docs_with _ _ _ _ M3).
  eassert (S0 : docs_sources ascii_class [xenv 0] (xdoc "out/./x") = Ok _) by (vm_compute; reflexivity).
  rewrite !(fun m tdir cwd walk vals => preprocess_docs_refused_name ascii_class m tdir cwd walk _ _ vals _ $"Frames" S0
              ltac:(vm_compute; tauto) ltac:(vm_compute; reflexivity)).
  vm_compute. repeat split.
Qed.

(* the premise of C12_full_refused is met by the last two cases: the group of Frames is refused *)
Example C12_full_refused_nonvacuous :
  exists srcs, docs_sources ascii_class [xenv 0] (xdoc "out/./x") = Ok srcs /\ In $"Frames" (map pname srcs) /\
               merge false (group_of $"Frames" srcs) = Raise CompatibilityError.
Proof. eexists. split; [vm_compute; reflexivity|]. split; [vm_compute; tauto|vm_compute; reflexivity]. Qed.

(* a document that is not accepted never reaches the function (outer Raise) *)
Example C10_full_not_accepted :
  is_ok (preprocess_docs ascii_class Client $"/t" $"/c" false [] (jo [("specificationVersion", js "jobtemplate-2023-09")]) []) = false.
Proof. vm_compute. reflexivity. Qed.
