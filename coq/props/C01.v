(* props/C01.v — Accepted templates are well-formed (validation soundness).

   decode_job / decode_env (Accept.v) = version dispatch + the structural layer Parse.v driven by
   the LIVE table Generated.schema + the validators of Validators.v as coded.

   1. C01_table: the live table is below the FROZEN 2023-09 table spec_schema in the order of
      SchemaOrder.v ("accepts no more"); C01_order_sound says what the order means (for ALL
      kinds, any hooks, any fuel); C01_structural is the consequence for documents.  A limit
      loosened in the code breaks C01_table and leaves C02_table alone.
   2. One theorem per validator: the validator as coded accepts only what its declarative rule
      (WF.v, written from the property text / DESIGN Appendix C) allows.  These carry the content.
   3. C01_sound: an accepted document is well-formed: it parses under the frozen table and the
      rule of every visited object holds (WF.WFdoc).  Given 1 and 2 this step is by construction
      (same structural engine on both sides; the engine is validated against pydantic by the
      correspondence check, not verified). *)
From Coq Require Import List NArith ZArith Bool String Permutation.
Import ListNotations.
Require Import OJD.Base OJD.Lexer OJD.Json OJD.Schema OJD.Generated OJD.SchemaSpec OJD.SchemaOrder
               OJD.Charsets OJD.Numerals OJD.FsRefs OJD.CreateJob OJD.RangeExpr OJD.Comb OJD.ScopeWalk
               OJD.DepGraph OJD.DepGraphSpec OJD.Parse OJD.Validators OJD.Accept
               OJD.WF OJD.AcceptMono OJD.AcceptRules OJD.AcceptCap OJD.AcceptDeps OJD.AcceptProofs OJD.AcceptSound.
Local Open Scope string_scope.
Local Open Scope list_scope.
Require Import OJDProps.C01rules.

(* The table-dependent half of C01 (the validator theorems are in props/C01rules.v, shared with C02):
   a LOOSENED limit / kind / required flag in the code breaks exactly these obligations. *)
Theorem C01_table : schema_le Generated.schema spec_schema = true.
Proof. exact table_le_code_spec. Qed.
Print Assumptions C01_table.

(* Every validator the frozen table lists for a class is still attached to that class, under the same name and
   mode (":pre", ":each"): a rule that is REMOVED from the code breaks this obligation even before an input that
   needs it is generated.  (New validators are allowed: the repairs of 0.4 added several.) *)
Definition validators_present (live spec : schema_t) : bool :=
  forallb (fun nc => match lookup_cls live (fst nc) with
                     | Some c => forallb (fun v => existsb (String.eqb v) (c_validators c)) (c_validators (snd nc))
                     | None => false
                     end) spec.

Theorem C01_validators_present : validators_present Generated.schema spec_schema = true.
Proof. vm_compute. reflexivity. Qed.
Print Assumptions C01_validators_present.

Example C01_validators_present_nonvacuous :
  exists c, lookup_cls spec_schema "StepTemplate" = Some c /\ c_validators c <> [].
Proof. eexists. split; [reflexivity|discriminate]. Qed.

Theorem C01_structural : forall classify j v,
  decode_job classify j = Ok v -> decode_job_on spec_schema classify j = Ok v.
Proof. exact structural_code_spec. Qed.
Print Assumptions C01_structural.

Theorem C01_structural_env : forall classify j v,
  decode_env classify j = Ok v -> decode_env_on spec_schema classify j = Ok v.
Proof. exact structural_env_code_spec. Qed.
Print Assumptions C01_structural_env.

Theorem C01_sound : forall classify j v,
  decode_job classify j = Ok v -> WFdoc classify "JobTemplate" j.
Proof. exact job_sound. Qed.
Print Assumptions C01_sound.

Theorem C01_sound_env : forall classify j v,
  decode_env classify j = Ok v -> WFdoc classify "EnvironmentTemplate" j.
Proof. exact env_sound. Qed.
Print Assumptions C01_sound_env.

(* a document that breaks a rule at any visited object is rejected (contrapositive of soundness) *)
Theorem C01_flip : forall classify j,
  ~ WFdoc classify "JobTemplate" j -> forall v, decode_job classify j <> Ok v.
Proof. exact job_flip. Qed.
Print Assumptions C01_flip.

Theorem C01_flip_env : forall classify j,
  ~ WFdoc classify "EnvironmentTemplate" j -> forall v, decode_env classify j <> Ok v.
Proof. exact env_flip. Qed.
Print Assumptions C01_flip_env.

(* the table comparison sees a loosened limit only here (dependsOn 64 -> 65 characters; INT
   range list 1024 -> 2000 items, a NON-LAST union alternative), and does not see a tightened one *)
Example C01_table_nonvacuous :
  dep_len 64 Generated.schema = Generated.schema /\
  int_range_len 1024 Generated.schema = Generated.schema /\
  schema_le (dep_len 65 Generated.schema) spec_schema = false /\
  schema_le (dep_len 63 Generated.schema) spec_schema = true /\
  schema_le (int_range_len 2000 Generated.schema) spec_schema = false /\
  schema_le (int_range_len 1000 Generated.schema) spec_schema = true.
Proof.
  repeat apply conj.
  1, 2: reflexivity.
  all: rewrite schema_le_fix_eq; vm_compute; reflexivity.
Qed.
