(* props/C01rules.v — the theorems about single validators and about the order on tables that
   props/C01.v (soundness) and props/C02.v (completeness) share: each validator as coded against
   its declarative rule of WF.v.  Read the header of props/C01.v. *)
From Coq Require Import List NArith ZArith Bool String Permutation.
Import ListNotations.
Require Import OJD.Base OJD.Lexer OJD.Json OJD.Schema OJD.Generated OJD.SchemaSpec OJD.SchemaOrder
               OJD.Charsets OJD.Numerals OJD.FsRefs OJD.CreateJob OJD.RangeExpr OJD.Comb OJD.ScopeWalk
               OJD.DepGraph OJD.DepGraphSpec OJD.Parse OJD.Validators OJD.Accept
               OJD.WF OJD.AcceptMono OJD.AcceptRules OJD.AcceptCap OJD.AcceptDeps OJD.AcceptProofs.
Local Open Scope string_scope.
Local Open Scope list_scope.

(* ---------------------------------------------------------------- 1. the table *)

Theorem C01_order_sound : forall S1 S2, schema_le S1 S2 = true ->
  forall classify pre post fuel root j v,
    parse_cls S1 classify pre post fuel root j = Ok v ->
    parse_cls S2 classify pre post fuel root j = Ok v.
Proof. exact parse_monotone. Qed.
Print Assumptions C01_order_sound.



(* ---------------------------------------------------------------- 2. the validators *)
Theorem C01_nodup : forall l, nodupb l = true -> NoDup l.
Proof. exact (fun l => proj1 (nodupb_iff l)). Qed.
Print Assumptions C01_nodup.

Theorem C01_unique_names : forall v, unique_names v = true -> UniqueNames v.
Proof. exact (fun v => proj1 (unique_names_iff v)). Qed.
Print Assumptions C01_unique_names.

Theorem C01_embedded_files : forall fs, unique_names (fget "embeddedFiles" fs) = true -> EmbeddedFilesRule fs.
Proof. exact (fun fs => proj1 (embedded_files_rule_iff fs)). Qed.
Print Assumptions C01_embedded_files.

(* unique step names, every dependency names a step, no cycle *)
Theorem C01_deps : forall steps,
  (nodupb (names_of steps)
   && negb (DepGraph.has_cycle (dep_job steps))
   && forallb (fun st => forallb (fun d => mem_str d (names_of steps)) (dep_names st)) (mitems steps)) = true ->
  DepsRule steps.
Proof. exact (fun s => proj1 (deps_rule_iff s)). Qed.
Print Assumptions C01_deps.

(* the same with the dependency relation read on step names, no positions: no step reaches
   itself through dependsOn *)
Theorem C01_deps_names : forall steps,
  (nodupb (names_of steps)
   && negb (DepGraph.has_cycle (dep_job steps))
   && forallb (fun st => forallb (fun d => mem_str d (names_of steps)) (dep_names st)) (mitems steps)) = true ->
  DepsRuleNames steps.
Proof. exact (fun s => proj1 (deps_names_rule_iff s)). Qed.
Print Assumptions C01_deps_names.

Theorem C01_deps_rule_names : forall steps, DepsRule steps <-> DepsRuleNames steps.
Proof. exact deps_rule_names_iff. Qed.
Print Assumptions C01_deps_rule_names.

(* no duplicate dependency, unique step-environment names, no self dependency *)
Theorem C01_step : forall c fs,
  (nodupb (dep_names (MModel c fs)) && unique_names (fget "stepEnvironments" fs)
   && negb (mem_str (mstr (fget "name" fs)) (dep_names (MModel c fs)))) = true -> StepRule fs.
Proof. exact (fun c fs => proj1 (step_rule_iff c fs)). Qed.
Print Assumptions C01_step.

Theorem C01_env_disjoint : forall fs,
  (let jenv := env_names (fget "jobEnvironments" fs) in
   forallb (fun st => forallb (fun e => negb (mem_str e jenv)) (env_names (fget "stepEnvironments" (model_fields st))))
           (mitems (fget "steps" fs))) = true -> EnvDisjointRule fs.
Proof. exact (fun fs => proj1 (env_disjoint_rule_iff fs)). Qed.
Print Assumptions C01_env_disjoint.

Theorem C01_job_template : forall classify raw fs,
  job_template_ok classify raw fs = true -> JobTemplateRule classify raw fs.
Proof. exact (fun cl raw fs => proj1 (job_template_rule_iff cl raw fs)). Qed.
Print Assumptions C01_job_template.

Theorem C01_combination : forall classify fs,
  (nodupb (names_of (fget "taskParameterDefinitions" fs))
   && match fget "combination" fs with
      | MStr s => match Comb.parse_str classify s with
                  | Ok t => Comb.accounting false (names_of (fget "taskParameterDefinitions" fs)) (Comb.collect_ids t)
                  | Raise _ => false
                  end
      | _ => true
      end) = true -> CombinationRule classify fs.
Proof. exact (fun cl fs => proj1 (combination_rule_iff cl fs)). Qed.
Print Assumptions C01_combination.

Theorem C01_string_param : forall fs, string_param_ok fs = true -> StringParamRule fs.
Proof. exact (fun fs => proj1 (string_param_rule_iff fs)). Qed.
Print Assumptions C01_string_param.

Theorem C01_num_param : forall fs, num_param_ok fs = true -> NumParamRule fs.
Proof. exact (fun fs => proj1 (num_param_rule_iff fs)). Qed.
Print Assumptions C01_num_param.

Theorem C01_string_ui : forall fs, string_ui_ok fs = true -> StringUiRule fs.
Proof. exact (fun fs => proj1 (string_ui_rule_iff fs)). Qed.
Print Assumptions C01_string_ui.

Theorem C01_path_ui : forall fs, path_ui_ok fs = true -> PathUiRule fs.
Proof. exact (fun fs => proj1 (path_ui_rule_iff fs)). Qed.
Print Assumptions C01_path_ui.

Theorem C01_num_ui : forall fs, num_ui_ok fs = true -> NumUiRule fs.
Proof. exact (fun fs => proj1 (num_ui_rule_iff fs)). Qed.
Print Assumptions C01_num_ui.

Theorem C01_capability_name : forall classify standard required_prefix name,
  capability_name_ok classify standard required_prefix name = true ->
  CapName classify standard required_prefix name.
Proof. exact (fun cl st p n => proj1 (capability_name_iff cl st p n)). Qed.
Print Assumptions C01_capability_name.

Theorem C01_amount : forall classify fs,
  (capability_name_ok classify Generated.std_amount_caps $"amount." (mstr (fget "name" fs))
   && (match num_of (fget "min" fs) with Some v => num_leb (num_of_Z 0) v | None => true end)
   && (match num_of (fget "max" fs) with Some v => num_ltb (num_of_Z 0) v | None => true end)
   && opt_le (fget "min" fs) (fget "max" fs)) = true -> AmountRule classify fs.
Proof. exact (fun cl fs => proj1 (amount_rule_iff cl fs)). Qed.
Print Assumptions C01_amount.

Theorem C01_attribute_list : forall classify name v is_allof,
  attribute_list_ok classify name v is_allof = true -> AttrListRule classify name v is_allof.
Proof. exact (fun cl n v a => proj1 (attribute_list_rule_iff cl n v a)). Qed.
Print Assumptions C01_attribute_list.

Theorem C01_attribute : forall classify fs,
  (capability_name_ok classify (map fst Generated.std_attr_caps) $"attr." (mstr (fget "name" fs))
   && attribute_list_ok classify (fget "name" fs) (fget "anyOf" fs) false
   && attribute_list_ok classify (fget "name" fs) (fget "allOf" fs) true) = true -> AttributeRule classify fs.
Proof. exact (fun cl fs => proj1 (attribute_rule_iff cl fs)). Qed.
Print Assumptions C01_attribute.

Theorem C01_host_req : forall fs,
  ((match fget "amounts" fs with MList [] => false | _ => true end)
   && (match fget "attributes" fs with MList [] => false | _ => true end)
   && negb (is_none (fget "amounts" fs) && is_none (fget "attributes" fs))
   && N.leb (N.of_nat (List.length (mitems (fget "amounts" fs)) + List.length (mitems (fget "attributes" fs))))
            Generated.max_requirements) = true -> HostReqRule fs.
Proof. exact (fun fs => proj1 (host_req_rule_iff fs)). Qed.
Print Assumptions C01_host_req.

Theorem C01_env : forall fs,
  (match fget "variables" fs with MDict [] => false | _ => true end) = true -> EnvRule fs.
Proof. exact (fun fs => proj1 (env_rule_iff fs)). Qed.
Print Assumptions C01_env.

Theorem C01_int_range : forall classify fs,
  (match fget "range" fs with
   | MList items => forallb (fun it => match it with MFmt s => has_refs classify s | _ => true end) items
   | MFmt s => if has_refs classify s then true
               else range_expr_ok classify s
   | _ => true
   end) = true -> IntRangeRule classify fs.
Proof. exact (fun cl fs => proj1 (int_range_rule_iff cl fs)). Qed.
Print Assumptions C01_int_range.

Theorem C01_float_range : forall classify fs,
  forallb (fun it => match it with MFmt s => has_refs classify s | _ => true end) (mitems (fget "range" fs)) = true
  -> FloatRangeRule classify fs.
Proof. exact (fun cl fs => proj1 (float_range_rule_iff cl fs)). Qed.
Print Assumptions C01_float_range.

(* all of the above, by class: the field/root validators and the pre validators as coded *)
Theorem C01_post_hook : forall classify c raw fs, post_hook classify c raw fs = true -> Rule classify c raw fs.
Proof. exact (fun cl c raw fs => proj1 (post_hook_iff cl c raw fs)). Qed.
Print Assumptions C01_post_hook.

(* "at least one real bound / value list / action / script-or-variables", raw INT types *)
Theorem C01_pre_hook : forall c raw, pre_hook c raw = true -> PreRule c raw.
Proof. exact (fun c raw => proj1 (pre_hook_iff c raw)). Qed.
Print Assumptions C01_pre_hook.

(* ---------------------------------------------------------------- 3. documents *)


(* WFdoc unfolded once: the frozen table with any deciders of the rules = with the coded hooks *)
Theorem C01_WFdoc_meaning : forall classify root j,
  WFdoc classify root j <-> exists v, parse_template_on spec_schema classify root j = Ok v.
Proof. exact WFdoc_iff_spec_parse. Qed.
Print Assumptions C01_WFdoc_meaning.

(* ---------------------------------------------------------------- non-vacuity *)
(* A job template using parameters, a parameter space with a combination and both range forms,
   a host requirement, a dependency. *)
Definition ex_script : json :=
  JObj [($"actions", JObj [($"onRun", JObj [($"command", JStr $"echo");
                                             ($"args", JArr [JStr $"{{Param.P}}"; JStr $"{{Task.Param.A}}"])])])].
Definition ex_script0 : json := JObj [($"actions", JObj [($"onRun", JObj [($"command", JStr $"echo")])])].
Definition ex_stepA (comb : string) : json :=
  JObj [($"name", JStr $"A"); ($"script", ex_script);
        ($"parameterSpace", JObj [($"taskParameterDefinitions",
            JArr [JObj [($"name", JStr $"A"); ($"type", JStr $"INT"); ($"range", JStr $"1-10")];
                  JObj [($"name", JStr $"B_1"); ($"type", JStr $"INT"); ($"range", JArr [JInt 1; JStr $"2"])]]);
            ($"combination", JStr $comb)]);
        ($"hostRequirements", JObj [($"amounts", JArr [JObj [($"name", JStr $"amount.worker.vcpu"); ($"min", JInt 2)]])])].
Definition ex_stepB (name dep : string) : json :=
  JObj [($"name", JStr $name); ($"script", ex_script0); ($"dependencies", JArr [JObj [($"dependsOn", JStr $dep)]])].
Definition ex_doc (comb nameB dep : string) : json :=
  JObj [($"specificationVersion", JStr $"jobtemplate-2023-09"); ($"name", JStr $"Job");
        ($"parameterDefinitions",
           JArr [JObj [($"name", JStr $"P"); ($"type", JStr $"STRING"); ($"minLength", JInt 1); ($"default", JStr $"x")]]);
        ($"steps", JArr [ex_stepA comb; ex_stepB nameB dep])].
Definition ex_good : json := ex_doc "(A, B_1)" "B" "A".

Example C01_sound_nonvacuous : is_ok (decode_job ascii_class ex_good) = true.
Proof. vm_compute. reflexivity. Qed.

Example C01_structural_nonvacuous :
  exists v, decode_job ascii_class ex_good = Ok v /\ decode_job_on spec_schema ascii_class ex_good = Ok v.
Proof. eexists. split; vm_compute; reflexivity. Qed.

(* one-rule mutations of it are rejected: duplicate step name, dangling dependency, self
   dependency, a combination that forgets B_1, one that names an unknown identifier *)
Example C01_mutations_rejected :
  decode_job ascii_class (ex_doc "(A, B_1)" "A" "A") = Raise ValueError /\
  decode_job ascii_class (ex_doc "(A, B_1)" "B" "C") = Raise ValueError /\
  decode_job ascii_class (ex_doc "(A, B_1)" "B" "B") = Raise ValueError /\
  decode_job ascii_class (ex_doc "A" "B" "A") = Raise ValueError /\
  decode_job ascii_class (ex_doc "A * C" "B" "A") = Raise ValueError.
Proof. vm_compute. repeat split. Qed.


(* table surgery used by the non-vacuity examples of C01_table / C02_table *)
Definition set_field (cname fname : string) (k : kind) (S : schema_t) : schema_t :=
  map (fun nc =>
         if String.eqb (fst nc) cname
         then (fst nc,
               mkCls (c_extra_forbid (snd nc)) (c_frozen (snd nc)) (c_scope (snd nc)) (c_defs (snd nc))
                     (c_sources (snd nc)) (c_jcm (snd nc)) (c_validators (snd nc))
                     (map (fun fl => if String.eqb (f_name fl) fname
                                     then mkField (f_name fl) (f_alias fl) (f_required fl) (f_shape fl) k
                                     else fl) (c_fields (snd nc))))
         else nc) S.
Definition dep_len (n : N) : schema_t -> schema_t :=
  set_field "StepDependency" "dependsOn" (KStr true (Some 1%N) (Some n) CS_standard).
Definition int_range_len (n : N) : schema_t -> schema_t :=
  set_field "IntTaskParameterDefinition" "range"
    (KUnion [UList (Some 1%N) (Some n) (KUnion [UScalar (KInt false None None None);
                                                UScalar (KFormat "TaskParameterStringValue" None None CS_any)]);
             UScalar (KFormat "RangeString" (Some 1%N) None CS_any)]).


(* validators: an input on which each answers true *)
Definition named (n : string) : mval := MModel "X" [("name", MStr $n)].
Definition ex_step (n : string) (deps : list string) : mval :=
  MModel "StepTemplate" [("name", MStr $n);
                         ("dependencies", MList (map (fun d => MModel "StepDependency" [("dependsOn", MStr $d)]) deps))].
Definition ex_steps : mval := MList [ex_step "A" []; ex_step "B" ["A"]; ex_step "C" ["A"; "B"]].
Definition ex_steps_cyclic : mval := MList [ex_step "A" ["C"]; ex_step "B" ["A"]; ex_step "C" ["B"]].

Example C01_nodup_nonvacuous : nodupb [$"A"; $"B_1"] = true /\ nodupb [$"A"; $"B"; $"A"] = false.
Proof. vm_compute. split; reflexivity. Qed.
Example C01_unique_names_nonvacuous :
  unique_names (MList [named "A"; named "B"]) = true /\ unique_names (MList [named "A"; named "A"]) = false.
Proof. vm_compute. split; reflexivity. Qed.
Example C01_embedded_files_nonvacuous :
  unique_names (fget "embeddedFiles" [("embeddedFiles", MList [named "f1"; named "f2"])]) = true.
Proof. vm_compute. reflexivity. Qed.

Definition deps_b (steps : mval) : bool :=
  nodupb (names_of steps) && negb (DepGraph.has_cycle (dep_job steps))
  && forallb (fun st => forallb (fun d => mem_str d (names_of steps)) (dep_names st)) (mitems steps).
Example C01_deps_nonvacuous : deps_b ex_steps = true /\ deps_b ex_steps_cyclic = false.
Proof. vm_compute. split; reflexivity. Qed.

Example C01_deps_names_nonvacuous : DepsRuleNames ex_steps /\ ~ DepsRuleNames ex_steps_cyclic.
Proof.
  split; [apply C01_deps_names; vm_compute; reflexivity|].
  intros H. apply deps_names_rule_iff in H. vm_compute in H. discriminate H.
Qed.

Example C01_step_nonvacuous :
  post_hook ascii_class "StepTemplate" JNull (model_fields (ex_step "C" ["A"; "B"])) = true /\
  post_hook ascii_class "StepTemplate" JNull (model_fields (ex_step "C" ["A"; "A"])) = false /\
  post_hook ascii_class "StepTemplate" JNull (model_fields (ex_step "C" ["C"])) = false.
Proof. vm_compute. repeat split. Qed.

Definition ex_env_fs (jenv senv : string) : list (string * mval) :=
  [("steps", MList [MModel "StepTemplate" [("name", MStr $"A"); ("stepEnvironments", MList [named senv])]]);
   ("jobEnvironments", MList [named jenv])].
Definition env_disjoint_b (fs : list (string * mval)) : bool :=
  let jenv := env_names (fget "jobEnvironments" fs) in
  forallb (fun st => forallb (fun e => negb (mem_str e jenv)) (env_names (fget "stepEnvironments" (model_fields st))))
          (mitems (fget "steps" fs)).
Example C01_env_disjoint_nonvacuous : env_disjoint_b (ex_env_fs "E1" "E2") = true /\ env_disjoint_b (ex_env_fs "E" "E") = false.
Proof. vm_compute. split; reflexivity. Qed.

Example C01_job_template_nonvacuous :
  job_template_ok ascii_class (JObj []) [("steps", ex_steps)] = true /\
  job_template_ok ascii_class (JObj []) [("steps", ex_steps_cyclic)] = false.
Proof. vm_compute. split; reflexivity. Qed.

Definition ex_space (comb : string) : list (string * mval) :=
  [("taskParameterDefinitions", MList [named "A"; named "B_1"; named "C"]); ("combination", MStr $comb)].
Example C01_combination_nonvacuous :
  post_hook ascii_class "StepParameterSpaceDefinition" JNull (ex_space "(A, B_1) * C") = true /\
  post_hook ascii_class "StepParameterSpaceDefinition" JNull (ex_space "A * C") = false /\
  post_hook ascii_class "StepParameterSpaceDefinition" JNull (ex_space "A * B_1 * D") = false.
Proof. vm_compute. repeat split. Qed.

Definition ex_sparam (mn mx : Z) (dflt : string) : list (string * mval) :=
  [("minLength", MInt mn); ("maxLength", MInt mx); ("allowedValues", MList [MStr $"ab"; MStr $"abc"]); ("default", MStr $dflt)].
Example C01_string_param_nonvacuous :
  string_param_ok (ex_sparam 2 3 "abc") = true /\ string_param_ok (ex_sparam 3 2 "abc") = false /\
  string_param_ok (ex_sparam 2 3 "zz") = false /\ string_param_ok (ex_sparam 3 3 "abc") = false.
Proof. vm_compute. repeat split. Qed.

(* 0 <= 1.5 with allowed {0, 1.5}: zero bounds are ordinary numbers *)
Definition ex_nparam (mn : Z) (dflt : mval) : list (string * mval) :=
  [("minValue", MInt mn); ("maxValue", MDec 15 (-1)); ("allowedValues", MList [MInt 0; MDec 15 (-1)]); ("default", dflt)].
Example C01_num_param_nonvacuous :
  num_param_ok (ex_nparam 0 (MDec 150 (-2))) = true /\ num_param_ok (ex_nparam 1 (MInt 0)) = false /\
  num_param_ok (ex_nparam 0 (MInt 1)) = false.
Proof. vm_compute. repeat split. Qed.

Definition ex_sui (ctl : string) (allowed : mval) : list (string * mval) :=
  [("userInterface", MModel "UI" [("control", MStr $ctl)]); ("allowedValues", allowed)].
Example C01_string_ui_nonvacuous :
  string_ui_ok (ex_sui "CHECK_BOX" (MList [MStr $"True"; MStr $"false"])) = true /\
  string_ui_ok (ex_sui "CHECK_BOX" (MList [MStr $"yes"; MStr $"false"])) = false /\
  string_ui_ok (ex_sui "CHECK_BOX" MNone) = false /\
  string_ui_ok (ex_sui "LINE_EDIT" (MList [MStr $"a"])) = false /\
  string_ui_ok (ex_sui "DROPDOWN_LIST" MNone) = false.
Proof. vm_compute. repeat split. Qed.

Definition ex_pui (ctl ot : string) (filters : mval) : list (string * mval) :=
  [("userInterface", MModel "UI" [("control", MStr $ctl); ("fileFilters", filters)]); ("objectType", MStr $ot)].
Example C01_path_ui_nonvacuous :
  path_ui_ok (ex_pui "CHOOSE_INPUT_FILE" "FILE" (MList [named "f"])) = true /\
  path_ui_ok (ex_pui "CHOOSE_DIRECTORY" "FILE" MNone) = false /\
  path_ui_ok (ex_pui "CHOOSE_DIRECTORY" "DIRECTORY" (MList [named "f"])) = false /\
  path_ui_ok (ex_pui "CHOOSE_OUTPUT_FILE" "DIRECTORY" MNone) = false.
Proof. vm_compute. repeat split. Qed.

Definition ex_nui (ctl : string) (delta allowed : mval) : list (string * mval) :=
  [("userInterface", MModel "UI" [("control", MStr $ctl); ("singleStepDelta", delta)]); ("allowedValues", allowed)].
Example C01_num_ui_nonvacuous :
  num_ui_ok (ex_nui "SPIN_BOX" (MInt 2) MNone) = true /\
  num_ui_ok (ex_nui "HIDDEN" (MInt 2) MNone) = false /\
  num_ui_ok (ex_nui "SPIN_BOX" MNone (MList [MInt 1])) = false.
Proof. vm_compute. repeat split. Qed.

Example C01_capability_name_nonvacuous :
  capability_name_ok ascii_class Generated.std_amount_caps $"amount." $"amount.worker.vcpu" = true /\
  capability_name_ok ascii_class Generated.std_amount_caps $"amount." $"Acme:amount.license.maya_2" = true /\
  capability_name_ok ascii_class Generated.std_amount_caps $"amount." $"amount.{{Param.P}}" = true /\
  capability_name_ok ascii_class Generated.std_amount_caps $"amount." $"amount.worker.x" = false /\
  capability_name_ok ascii_class Generated.std_amount_caps $"amount." $"attr.custom.x" = false /\
  capability_name_ok ascii_class Generated.std_amount_caps $"amount." $"a:amount.custom" = false.
Proof. vm_compute. repeat split. Qed.

Definition ex_amount (name : string) (mn mx : mval) : list (string * mval) := [("name", MFmt $name); ("min", mn); ("max", mx)].
Example C01_amount_nonvacuous :
  post_hook ascii_class "AmountRequirementTemplate" JNull (ex_amount "amount.worker.vcpu" (MInt 0) (MDec 5 (-1))) = true /\
  post_hook ascii_class "AmountRequirementTemplate" JNull (ex_amount "amount.worker.vcpu" (MInt (-1)) MNone) = false /\
  post_hook ascii_class "AmountRequirementTemplate" JNull (ex_amount "amount.worker.vcpu" MNone (MInt 0)) = false /\
  post_hook ascii_class "AmountRequirementTemplate" JNull (ex_amount "amount.worker.vcpu" (MInt 3) (MInt 2)) = false.
Proof. vm_compute. repeat split. Qed.

Example C01_attribute_list_nonvacuous :
  attribute_list_ok ascii_class (MFmt $"attr.worker.os.family") (MList [MFmt $"linux"]) true = true /\
  attribute_list_ok ascii_class (MFmt $"attr.worker.os.family") (MList [MFmt $"linux"; MFmt $"macos"]) true = false /\
  attribute_list_ok ascii_class (MFmt $"attr.worker.os.family") (MList [MFmt $"beos"]) false = false /\
  attribute_list_ok ascii_class (MFmt $"attr.custom.x") (MList [MFmt $"v-1"; MFmt $"{{Param.P}}"]) false = true /\
  attribute_list_ok ascii_class (MFmt $"attr.custom.x") (MList [MFmt $"9x"]) false = false.
Proof. vm_compute. repeat split. Qed.

Example C01_attribute_nonvacuous :
  post_hook ascii_class "AttributeRequirementTemplate" JNull
    [("name", MFmt $"attr.worker.cpu.arch"); ("anyOf", MList [MFmt $"x86_64"; MFmt $"arm64"])] = true.
Proof. vm_compute. reflexivity. Qed.

Example C01_host_req_nonvacuous :
  post_hook ascii_class "HostRequirementsTemplate" JNull [("amounts", MList [named "a"])] = true /\
  post_hook ascii_class "HostRequirementsTemplate" JNull [] = false /\
  post_hook ascii_class "HostRequirementsTemplate" JNull [("amounts", MList [])] = false.
Proof. vm_compute. repeat split. Qed.

Example C01_env_nonvacuous :
  post_hook ascii_class "Environment" JNull [("variables", MDict [($"K", MFmt $"v")])] = true /\
  post_hook ascii_class "Environment" JNull [("variables", MDict [])] = false.
Proof. vm_compute. split; reflexivity. Qed.

Example C01_int_range_nonvacuous :
  post_hook ascii_class "IntTaskParameterDefinition" JNull [("range", MFmt $"1-10:2,20")] = true /\
  post_hook ascii_class "IntTaskParameterDefinition" JNull [("range", MFmt $"5-3")] = false /\
  post_hook ascii_class "IntTaskParameterDefinition" JNull [("range", MList [MInt 1; MFmt $"{{Param.P}}"])] = true /\
  post_hook ascii_class "IntTaskParameterDefinition" JNull [("range", MList [MFmt $"x"])] = false.
Proof. vm_compute. repeat split. Qed.

Example C01_float_range_nonvacuous :
  post_hook ascii_class "FloatTaskParameterDefinition" JNull [("range", MList [MDec 15 (-1); MFmt $"{{Param.P}}"])] = true /\
  post_hook ascii_class "FloatTaskParameterDefinition" JNull [("range", MList [MFmt $"abc"])] = false.
Proof. vm_compute. split; reflexivity. Qed.

Example C01_post_hook_nonvacuous :
  post_hook ascii_class "JobStringParameterDefinition" JNull
    (ex_sparam 2 3 "abc" ++ [("userInterface", MModel "UI" [("control", MStr $"DROPDOWN_LIST")])]) = true.
Proof. vm_compute. reflexivity. Qed.

(* an explicit null is no bound *)
Example C01_pre_hook_nonvacuous :
  pre_hook "AmountRequirementTemplate" (JObj [($"name", JStr $"amount.x.y"); ($"min", JInt 1)]) = true /\
  pre_hook "AmountRequirementTemplate" (JObj [($"name", JStr $"amount.x.y"); ($"min", JNull)]) = false /\
  pre_hook "AttributeRequirementTemplate" (JObj [($"name", JStr $"attr.x.y"); ($"anyOf", JNull)]) = false /\
  pre_hook "JobIntParameterDefinition" (JObj [($"default", JBool true)]) = false /\
  pre_hook "JobIntParameterDefinition" (JObj [($"default", JStr $"3")]) = true.
Proof. vm_compute. repeat split. Qed.
