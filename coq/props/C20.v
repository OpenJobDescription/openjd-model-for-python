(* props/C20.v — 'Did you mean' suggestions are in-scope nearest names.
   Model: OJD.EditDist (two-row DP, closest, suggest, validate_symbol_refs).
   Spec:  OJD.EditDistSpec (lev = three-way Levenshtein recursion; script; dist m s = lev s m;
          argmin; is_min; min_cost).  The "in scope" half -- the set S handed to
          validate_symbol_refs at a location is the visible set -- is C03's; harness/c20.py checks it
          on real templates against an independent scope table. *)
From Coq Require Import String Ascii.
From Coq Require Import List NArith Arith Bool Lia Permutation.
Import ListNotations.
Require Import OJD.Base OJD.Generated OJD.EditDist OJD.EditDistSpec OJD.EditDistProofs.

(* ---- the distance used is the Levenshtein distance (and the DP never raises IndexError) ---- *)
Theorem C20_lev : forall a b : str, edit_distance a b = Ok (lev a b).
Proof. exact edit_distance_lev. Qed.
Print Assumptions C20_lev.

(* lev itself is "the least cost of an edit script" and is symmetric: the three-way recursion is
   not taken on trust *)
Theorem C20_lev_is_least_script : forall a b : str,
  script a b (lev a b) /\ (forall n, script a b n -> lev a b <= n) /\ lev a b = lev b a.
Proof. exact (fun a b => conj (lev_script a b) (conj (lev_least a b) (lev_sym a b))). Qed.
Print Assumptions C20_lev_is_least_script.

(* ---- closest(symbols, match) ----
   never raises; returns d = min(len(match)+1, min over S of lev) and T = the members of S at
   distance d, without duplicates.  Hence:
   (near)  if the true minimum d0 over S is <= len(match)+1 : d = d0, T = arg-min set, T <> {};
   (far)   if every member of S is farther than len(match)+1 -- in particular S = {} -- the
           initial values (len(match)+1, {}) come back;
   (order) any S' with the same members (permuted, duplicated) gives the same d and the same set. *)
Theorem C20_closest : forall (S : list str) (m : str), exists d T,
  closest S m = Ok (d, T) /\ NoDup T /\
  d = min_cost (length m + 1) S m /\
  (forall t, In t T <-> In t S /\ dist m t = d) /\
  (forall d0, is_min S m d0 -> d0 <= length m + 1 ->
              d = d0 /\ T <> [] /\ forall t, In t T <-> argmin S m t) /\
  ((forall s, In s S -> length m + 1 < dist m s) -> d = length m + 1 /\ T = []) /\
  (forall S', same_set S S' ->
              exists T', closest S' m = Ok (d, T') /\ same_set T T' /\ Permutation T T').
Proof.
  intros S m. destruct (closest_spec S m) as (d & T & E & Hd & HN & HT).
  exists d, T. repeat (split; [assumption|]). split; [|split].
  - intros d0. apply closest_near. exact E.
  - apply closest_far. exact E.
  - intros S' HS. exact (closest_set_invariant S S' m d T HS E).
Qed.
Print Assumptions C20_closest.

Theorem C20_closest_empty : forall m : str, closest [] m = Ok (length m + 1, []).
Proof. exact closest_empty. Qed.
Print Assumptions C20_closest_empty.

(* ---- suggestions ----
   The code's test is `distance < MAX_MATCH_DISTANCE_THRESHOLD` (strict), the constant is read from
   the live package into Generated.max_match_distance. *)
Theorem C20_threshold : max_match_distance = 5.
Proof. reflexivity. Qed.
Print Assumptions C20_threshold.

(* any names suggested are in S, they are ALL the names of S at minimum distance, and that minimum
   is below the threshold *)
Theorem C20_suggest : forall (S : list str) (m : str) (T : list str),
  suggest S m = Ok T -> T <> [] ->
  NoDup T /\
  (forall t, In t T -> In t S) /\
  (forall t, In t T <-> argmin S m t) /\
  exists d, is_min S m d /\ d < max_match_distance /\ forall t, In t T -> dist m t = d.
Proof. exact suggest_sound. Qed.
Print Assumptions C20_suggest.

(* suggest never raises, and a suggestion is made exactly when the minimum over S exists, is below
   the threshold and is within the initial bound len(name)+1 of `closest` *)
Theorem C20_suggest_iff : forall (S : list str) (m : str), exists T,
  suggest S m = Ok T /\
  (T <> [] <-> exists d, is_min S m d /\ d < max_match_distance /\ d <= length m + 1).
Proof. exact suggest_iff. Qed.
Print Assumptions C20_suggest_iff.

(* converse *)
Theorem C20_suggest_converse : forall (S : list str) (m : str) (d : nat),
  is_min S m d -> d < max_match_distance -> d <= length m + 1 ->
  exists T, suggest S m = Ok T /\ T <> [] /\ forall t, In t T <-> argmin S m t.
Proof. exact suggest_complete. Qed.
Print Assumptions C20_suggest_converse.

(* for symbol sets whose names all have >= 2*threshold-3 = 7 code points (every template variable
   name: the shortest is "Param." + one character) the side condition is automatic:
   minimum below the threshold  ==>  the suggestion is exactly the arg-min set *)
Theorem C20_suggest_converse_long_names : forall (S : list str) (m : str) (d : nat),
  is_min S m d -> d < max_match_distance ->
  (forall s, In s S -> 2 * max_match_distance <= length s + 3) ->
  exists T, suggest S m = Ok T /\ T <> [] /\ forall t, In t T <-> argmin S m t.
Proof. exact suggest_complete_long_names. Qed.
Print Assumptions C20_suggest_converse_long_names.

(* validate_symbol_refs: no error iff the name is in S; otherwise the error carries suggest S name *)
Theorem C20_validate : forall (S : list str) (name : str),
  (In name S -> validate_symbol_refs S name = Ok None) /\
  (~ In name S -> exists T, validate_symbol_refs S name = Ok (Some T) /\ suggest S name = Ok T).
Proof. exact validate_symbol_refs_spec. Qed.
Print Assumptions C20_validate.

(* ---- concrete instances ---- *)
Definition s (x : string) : str := map N_of_ascii (list_ascii_of_string x).
(* evaluate lev on closed strings through the (proved equal) polynomial DP, not the exponential recursion *)
Ltac lev_compute := unfold dist; rewrite ?lev_dp_eq; vm_compute.

(* Without the side condition d <= len(name)+1 the converse is FALSE of the code: a 1- or 2-character
   name never gets a suggestion at distance 3 or 4 because `closest` starts from
   best_cost = len(match)+1.  (Not a violation of the property text, which only says "only when";
   unreachable from templates, see C20_suggest_converse_long_names.) *)
Theorem C20_suggest_converse_unbounded_refuted :
  exists (S : list str) (m : str) (d : nat),
    is_min S m d /\ d < max_match_distance /\ suggest S m = Ok [].
Proof.
  exists [s "bbbb"], (s "a"), 4. split; [|split; [vm_compute; reflexivity | vm_compute; reflexivity]].
  split.
  - exists (s "bbbb"). split; [left; reflexivity | lev_compute; reflexivity].
  - intros x [<-|[]]. lev_compute. lia.
Qed.
Print Assumptions C20_suggest_converse_unbounded_refuted.

Example C20_lev_nonvacuous :
  edit_distance (s "Task.Param.Frame") (s "Param.Fraem") = Ok 7 /\
  edit_distance (s "kitten") (s "sitting") = Ok 3.
Proof. split; vm_compute; reflexivity. Qed.

(* ties: both nearest names are returned; a farther one is not *)
Example C20_closest_nonvacuous :
  closest [s "Param.Foo"; s "Param.Bar"; s "Param.Fob"; s "Param.Foo"] (s "Param.Fo")
  = Ok (1, [s "Param.Fob"; s "Param.Foo"]).
Proof. vm_compute. reflexivity. Qed.

Example C20_closest_far_nonvacuous :
  closest [s "Session.WorkingDirectory"] (s "x") = Ok (2, []).
Proof. vm_compute. reflexivity. Qed.

Example C20_suggest_nonvacuous :
  suggest [s "Param.Foo"; s "Param.Bar"; s "Param.Fob"] (s "Param.Fo") = Ok [s "Param.Fob"; s "Param.Foo"] /\
  [s "Param.Fob"; s "Param.Foo"] <> [] /\
  is_min [s "Param.Foo"; s "Param.Bar"; s "Param.Fob"] (s "Param.Fo") 1.
Proof.
  split; [vm_compute; reflexivity|]. split; [discriminate|]. split.
  - exists (s "Param.Foo"). split; [left; reflexivity | lev_compute; reflexivity].
  - intros x [<-|[<-|[<-|[]]]]; lev_compute; lia.
Qed.

(* distance exactly at the threshold: no suggestion (strict comparison); one below: suggestion *)
Example C20_threshold_boundary :
  suggest [s "Param.Frame"] (s "Param.Fxxxxx") = Ok [] /\
  edit_distance (s "Param.Frame") (s "Param.Fxxxxx") = Ok 5 /\
  suggest [s "Param.Frame"] (s "Param.Fxxxx") = Ok [s "Param.Frame"] /\
  edit_distance (s "Param.Frame") (s "Param.Fxxxx") = Ok 4.
Proof.
  split; [vm_compute; reflexivity|]. split; [vm_compute; reflexivity|]. split; vm_compute; reflexivity.
Qed.

Example C20_converse_nonvacuous :
  is_min [s "Param.Frame"; s "RawParam.Frame"] (s "Param.Fxxxx") 4 /\ 4 < max_match_distance /\
  (forall x, In x [s "Param.Frame"; s "RawParam.Frame"] -> 2 * max_match_distance <= length x + 3).
Proof.
  split; [split|split].
  - exists (s "Param.Frame"). split; [left; reflexivity | lev_compute; reflexivity].
  - intros x [<-|[<-|[]]]; lev_compute; lia.
  - vm_compute. lia.
  - intros x [<-|[<-|[]]]; vm_compute; lia.
Qed.

Example C20_validate_nonvacuous :
  validate_symbol_refs [s "Param.Foo"] (s "Param.Foo") = Ok None /\
  validate_symbol_refs [s "Param.Foo"] (s "Param.Fo") = Ok (Some [s "Param.Foo"]).
Proof. split; vm_compute; reflexivity. Qed.
