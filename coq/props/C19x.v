(* props/C19x.v — the two theorems of C19 about whole documents (props/C19.v has the one-object and token-level facts):

     C19_rename           the reference check commutes with a consistent renaming of job parameters,
                          task parameters and embedded files (same error sites, names renamed; verdict
                          unchanged).  Proofs: RenameProofs.v.
     C19_deep_key_order   permuting the members of the objects of a document at EVERY nesting level at
                          once changes the reference walk only by the order of its errors, and does not
                          change the decode verdict (the decoded model is the same up to the member
                          order of dictionaries).  Proofs: DeepKeyOrder.v.

   Both are stated on the document-level specification of ScopeSpec.v AND on the real walker
   [prevalidate Generated.schema] (equal for every document by C03_exact_job / C03_exact_env). *)
From Coq Require Import List NArith ZArith Bool String Permutation.
Import ListNotations.
Require Import OJD.Base OJD.Lexer OJD.Json OJD.Schema OJD.Generated OJD.FormatStr OJD.FsRefs OJD.CreateJob
               OJD.Parse OJD.Validators OJD.Accept OJD.ScopeWalk OJD.ScopeSpec
               OJD.RenameProofs OJD.DeepKeyOrder.
Local Open Scope string_scope.
Local Open Scope list_scope.

(* ================================================================== C19_rename *)

(* [rename_sym rho] maps <prefix><x> to <prefix><rho x> for the prefixes Param. RawParam. Task.Param.
   Task.RawParam. Task.File. Env.File. and is the identity elsewhere (Session names included).  It is
   injective as soon as [rho] is: the six namespaces are disjoint and closed under the renaming, so
   no "reserved name" condition is needed. *)
Theorem C19_rename_sym_injective : forall rho : str -> str,
  (forall a b, rho a = rho b -> a = b) ->
  forall a b, rename_sym rho a = rename_sym rho b -> a = b.
Proof. exact rename_sym_inj. Qed.
Print Assumptions C19_rename_sym_injective.

(* Side conditions: [rho] injective and never producing the empty name.  [rs] renames format-string
   texts, [refs'] is the front end used on the renamed side; the hypothesis ties them on the strings
   that occur in the document (FormatStr.v provides it for refs = refs' = fs_refs classify and
   rs = "rename the name inside each {{ }}" when rho maps identifiers to identifiers; not derived here).
   [rename_job rho rs j] maps the [name] of every job parameter definition, task parameter definition
   and embedded file through rho and every format-string site through rs. *)
Theorem C19_rename : forall (rho rs : str -> str) (refs refs' : str -> option (list str)) (j : json),
  (forall a b, rho a = rho b -> a = b) ->
  (forall c r, rho (c :: r) <> []) ->
  (forall s, In s (jstrings j) -> refs' (rs s) = option_map (map (rename_sym rho)) (refs s)) ->
  spec_job_template refs' (rename_job rho rs j) = map (rename_err rho) (spec_job_template refs j) /\
  spec_env_template refs' (rename_env_template rho rs j) = map (rename_err rho) (spec_env_template refs j).
Proof. exact rename_spec. Qed.
Print Assumptions C19_rename.

(* the same for the real walker (through C03_exact_job / C03_exact_env) *)
Theorem C19_rename_walker : forall (rho rs : str -> str) (refs refs' : str -> option (list str)) (j : json),
  (forall a b, rho a = rho b -> a = b) ->
  (forall c r, rho (c :: r) <> []) ->
  (forall s, In s (jstrings j) -> refs' (rs s) = option_map (map (rename_sym rho)) (refs s)) ->
  prevalidate Generated.schema refs' "JobTemplate" (rename_job rho rs j)
  = map (rename_err rho) (prevalidate Generated.schema refs "JobTemplate" j) /\
  prevalidate Generated.schema refs' "EnvironmentTemplate" (rename_env_template rho rs j)
  = map (rename_err rho) (prevalidate Generated.schema refs "EnvironmentTemplate" j).
Proof. exact rename_walker. Qed.
Print Assumptions C19_rename_walker.

(* in particular the verdict of the reference check is unchanged *)
Theorem C19_rename_verdict : forall (rho rs : str -> str) (refs refs' : str -> option (list str)) (j : json),
  (forall a b, rho a = rho b -> a = b) ->
  (forall c r, rho (c :: r) <> []) ->
  (forall s, In s (jstrings j) -> refs' (rs s) = option_map (map (rename_sym rho)) (refs s)) ->
  (prevalidate Generated.schema refs' "JobTemplate" (rename_job rho rs j) = []
   <-> prevalidate Generated.schema refs "JobTemplate" j = []) /\
  (prevalidate Generated.schema refs' "EnvironmentTemplate" (rename_env_template rho rs j) = []
   <-> prevalidate Generated.schema refs "EnvironmentTemplate" j = []).
Proof. exact rename_verdict. Qed.
Print Assumptions C19_rename_verdict.

(* ================================================================== C19_deep_key_order *)

(* [jperm j j']: same scalars; arrays pointwise; objects: keys of the first distinct, and the members
   of the second are a permutation of the first's members with jperm-related values — at every
   nesting level at once.

   Reference walk: every piece of the specification is EQUAL on jperm-related documents except the
   walk over the members of an Environment's [variables] object, which reports in member order;
   errors carry their location, so the statement is a Permutation of the error lists. *)
Theorem C19_deep_key_order_walk : forall refs j j', jperm j j' ->
  Permutation (spec_job_template refs j) (spec_job_template refs j') /\
  Permutation (spec_env_template refs j) (spec_env_template refs j') /\
  Permutation (prevalidate Generated.schema refs "JobTemplate" j) (prevalidate Generated.schema refs "JobTemplate" j') /\
  Permutation (prevalidate Generated.schema refs "EnvironmentTemplate" j)
              (prevalidate Generated.schema refs "EnvironmentTemplate" j').
Proof. exact deep_key_order_walk. Qed.
Print Assumptions C19_deep_key_order_walk.

Theorem C19_deep_key_order_walk_verdict : forall refs j j', jperm j j' ->
  (prevalidate Generated.schema refs "JobTemplate" j = [] <-> prevalidate Generated.schema refs "JobTemplate" j' = []) /\
  (prevalidate Generated.schema refs "EnvironmentTemplate" j = []
   <-> prevalidate Generated.schema refs "EnvironmentTemplate" j' = []).
Proof. exact deep_key_order_walk_verdict. Qed.
Print Assumptions C19_deep_key_order_walk_verdict.

(* Acceptance model: the outcomes of decoding are related by [olrel mperm]: the same exception, or
   accepted models that are equal up to the member order of dictionaries ([mperm]: MDict members
   permuted, everything else pointwise). *)
Theorem C19_deep_key_order_decode : forall classify j j', jperm j j' ->
  olrel mperm (decode_job classify j) (decode_job classify j') /\
  olrel mperm (decode_env classify j) (decode_env classify j').
Proof. exact deep_key_order_decode. Qed.
Print Assumptions C19_deep_key_order_decode.

(* the verdict *)
Theorem C19_deep_key_order : forall classify j j', jperm j j' ->
  is_ok (decode_job classify j) = is_ok (decode_job classify j') /\
  is_ok (decode_env classify j) = is_ok (decode_env classify j').
Proof. exact deep_key_order_verdict. Qed.
Print Assumptions C19_deep_key_order.

(* the ingredients: no validator of Validators.v depends on the member order of a dictionary.
   pre validators, on jperm-related raw objects: *)
Theorem C19_pre_hook_deep : forall c v v', jperm v v' -> pre_hook c v = pre_hook c v'.
Proof. exact pre_hook_jperm. Qed.
Print Assumptions C19_pre_hook_deep.

(* post validators of every class (template-side and job-side) except the job-side target class
   StepParameterSpace, on jperm-related raw objects and mperm-related parsed fields.  (The excluded
   validator looks members of a dictionary up by key: order-insensitive for the distinct keys a
   Python dict has, but [mperm] does not record distinctness; the class is not below the template
   roots, so decoding never runs it.) *)
Theorem C19_post_hook_deep : forall classify c raw raw' fs fs', c <> "StepParameterSpace" ->
  jperm raw raw' -> Forall2 (mrel mperm) fs fs' ->
  post_hook classify c raw fs = post_hook classify c raw' fs'.
Proof. exact post_hook_mperm. Qed.
Print Assumptions C19_post_hook_deep.

(* ... and that last validator, given the distinct keys a dictionary has *)
Theorem C19_post_hook_sps : forall classify raw raw' fs fs' l,
  Forall2 (mrel mperm) fs fs' -> fget "taskParameterDefinitions" fs = MDict l -> NoDup (map fst l) ->
  post_hook classify "StepParameterSpace" raw fs = post_hook classify "StepParameterSpace" raw' fs'.
Proof. exact post_hook_sps. Qed.
Print Assumptions C19_post_hook_sps.

(* the structural layer, for any schema: on a set R of classes closed under "class of a field" whose
   dictionary-valued fields have string keys and format-string values, with hooks invariant as
   above, parse results on jperm-related values are related, at every fuel *)
Theorem C19_parse_deep : forall SC classify pre post R,
  (forall c c0, In c R -> lookup_cls SC c = Some c0 ->
     forall fl, In fl (c_fields c0) -> incl (dk_kind_classes (f_kind fl)) R /\ dict_simple fl = true) ->
  (forall c v v', jperm v v' -> pre c v = pre c v') ->
  (forall c v v' fs fs', In c R -> jperm v v' -> Forall2 (mrel mperm) fs fs' -> post c v fs = post c v' fs') ->
  forall fuel,
  (forall k v v', incl (dk_kind_classes k) R -> jperm v v' ->
     olrel mperm (parse_kind SC classify pre post fuel k v) (parse_kind SC classify pre post fuel k v')) /\
  (forall c v v', In c R -> jperm v v' ->
     olrel mperm (parse_cls SC classify pre post fuel c v) (parse_cls SC classify pre post fuel c v')).
Proof. exact parse_jperm. Qed.
Print Assumptions C19_parse_deep.

(* a canonical instance: reversing the members of every object at every level *)
Theorem C19_reverse_everywhere : forall j, keys_ok j = true -> jperm j (jrev j).
Proof. exact jperm_jrev. Qed.
Print Assumptions C19_reverse_everywhere.

(* ================================================================== non-vacuity *)
Definition jsx (x : string) : json := JStr (str_of_string x).
Definition jox (l : list (string * json)) : json := JObj (map (fun kv => (str_of_string (fst kv), snd kv)) l).
Definition real_refs := fs_refs ascii_class.

(* ---- renaming: rho appends '_' ; rs rewrites the name inside each {{ }} *)
Definition rho_ex (s : str) : str := s ++ [95%N].

Fixpoint rs_scan (s : str) (acc : option str) : str :=
  match s with
  | [] => match acc with None => [] | Some a => 123%N :: 123%N :: rev a end
  | c :: r =>
    match acc with
    | None =>
      match r with
      | c2 :: r' => if N.eqb c 123 && N.eqb c2 123 then rs_scan r' (Some []) else c :: rs_scan r None
      | [] => [c]
      end
    | Some a =>
      match r with
      | c2 :: r' =>
        if N.eqb c 125 && N.eqb c2 125
        then 123%N :: 123%N :: rename_sym rho_ex (rev a) ++ 125%N :: 125%N :: rs_scan r' None
        else rs_scan r (Some (c :: a))
      | [] => 123%N :: 123%N :: rev (c :: a)
      end
    end
  end.
Definition rs_ex (s : str) : str := rs_scan s None.

(* Frames INT, Out PATH; step A with task parameter X, embedded file run, a step environment with
   embedded file setup.  Three mistakes: Param.Out (PATH) in the job name, the undeclared
   Task.Param.Y, the undeclared Env.File.nope. *)
Definition ex_ren : json :=
  jox [("specificationVersion", jsx "jobtemplate-2023-09");
       ("name", jsx "Job {{Param.Frames}} {{Param.Out}}");
       ("parameterDefinitions",
        JArr [jox [("name", jsx "Frames"); ("type", jsx "INT")];
              jox [("name", jsx "Out"); ("type", jsx "PATH")]]);
       ("steps",
        JArr [jox [("name", jsx "A");
                   ("parameterSpace",
                    jox [("taskParameterDefinitions",
                          JArr [jox [("name", jsx "X"); ("type", jsx "INT"); ("range", jsx "1-{{Param.Frames}}")]])]);
                   ("script",
                    jox [("actions",
                          jox [("onRun", jox [("command", jsx "{{Task.File.run}}");
                                              ("args", JArr [jsx "{{Task.Param.X}}"; jsx "{{Task.Param.Y}}";
                                                             jsx "{{RawParam.Out}}"])])]);
                         ("embeddedFiles",
                          JArr [jox [("name", jsx "run"); ("type", jsx "TEXT");
                                     ("data", jsx "{{Session.WorkingDirectory}} {{Env.File.nope}}")]])]);
                   ("stepEnvironments",
                    JArr [jox [("name", jsx "E");
                               ("variables", jox [("V", jsx "{{Param.Out}}")]);
                               ("script",
                                jox [("actions", jox [("onEnter", jox [("command", jsx "{{Env.File.setup}}")])]);
                                     ("embeddedFiles",
                                      JArr [jox [("name", jsx "setup"); ("type", jsx "TEXT");
                                                 ("data", jsx "x")]])])]])]])].

Lemma rho_ex_inj : forall a b, rho_ex a = rho_ex b -> a = b.
Proof. intros a b H. unfold rho_ex in H. apply app_inj_tail in H. exact (proj1 H). Qed.

Lemma rho_ex_nonempty : forall c r, rho_ex (c :: r) <> [].
Proof. intros c r H. discriminate H. Qed.

Lemma ex_ren_front_end : forall s, In s (jstrings ex_ren) ->
  real_refs (rs_ex s) = option_map (map (rename_sym rho_ex)) (real_refs s).
Proof.
  intros s Hs. vm_compute in Hs.
  repeat (destruct Hs as [<-|Hs]; [vm_compute; reflexivity|]). contradiction.
Qed.

Example C19_rename_nonvacuous :
  (* the hypotheses of C19_rename hold for the real front end ... *)
  (forall a b, rho_ex a = rho_ex b -> a = b) /\
  (forall c r, rho_ex (c :: r) <> []) /\
  (forall s, In s (jstrings ex_ren) -> real_refs (rs_ex s) = option_map (map (rename_sym rho_ex)) (real_refs s)) /\
  (* ... the renaming changes the document ... *)
  jget "name" (rename_job rho_ex rs_ex ex_ren) = jsx "Job {{Param.Frames_}} {{Param.Out_}}" /\
  (* ... and the walker reports the same three sites with the renamed names *)
  prevalidate Generated.schema real_refs "JobTemplate" ex_ren
  = [ERef [key "name"] $"Param.Out";
     ERef [key "steps"; LIdx 0; key "script"; key "actions"; key "onRun"; key "args"; LIdx 1] $"Task.Param.Y";
     ERef [key "steps"; LIdx 0; key "script"; key "embeddedFiles"; LIdx 0; key "data"] $"Env.File.nope"] /\
  prevalidate Generated.schema real_refs "JobTemplate" (rename_job rho_ex rs_ex ex_ren)
  = [ERef [key "name"] $"Param.Out_";
     ERef [key "steps"; LIdx 0; key "script"; key "actions"; key "onRun"; key "args"; LIdx 1] $"Task.Param.Y_";
     ERef [key "steps"; LIdx 0; key "script"; key "embeddedFiles"; LIdx 0; key "data"] $"Env.File.nope_"].
Proof.
  split; [exact rho_ex_inj|]. split; [exact rho_ex_nonempty|]. split; [exact ex_ren_front_end|].
  split; [vm_compute; reflexivity|]. split; vm_compute; reflexivity.
Qed.

(* the conclusion of C19_rename_walker on this instance, obtained FROM the theorem *)
Example C19_rename_instance :
  prevalidate Generated.schema real_refs "JobTemplate" (rename_job rho_ex rs_ex ex_ren)
  = map (rename_err rho_ex) (prevalidate Generated.schema real_refs "JobTemplate" ex_ren).
Proof.
  exact (proj1 (C19_rename_walker rho_ex rs_ex real_refs real_refs ex_ren rho_ex_inj rho_ex_nonempty ex_ren_front_end)).
Qed.

(* rho must be injective: mapping both parameters to one name makes a clash the walker cannot see
   the same way — the hypothesis is not decorative *)
Example C19_rename_noninjective_counterexample :
  let rho0 : str -> str := fun _ => $"P" in
  rename_sym rho0 $"Param.A" = rename_sym rho0 $"Param.B" /\ $"Param.A" <> $"Param.B".
Proof. split; [vm_compute; reflexivity|discriminate]. Qed.

(* ---- deep key order *)
(* a valid template with nested objects and two environment variables *)
Definition ex_ko (v1 v2 : string) : json :=
  jox [("specificationVersion", jsx "jobtemplate-2023-09");
       ("name", jsx "Job {{Param.P}}");
       ("parameterDefinitions", JArr [jox [("name", jsx "P"); ("type", jsx "INT")]]);
       ("steps",
        JArr [jox [("name", jsx "A");
                   ("stepEnvironments",
                    JArr [jox [("name", jsx "E");
                               ("variables", jox [("V1", jsx v1); ("V2", jsx v2)])]]);
                   ("script",
                    jox [("actions", jox [("onRun", jox [("command", jsx "run"); ("args", JArr [jsx "{{Param.P}}"])])])])]])].

Example C19_deep_key_order_nonvacuous :
  let j := ex_ko "{{Param.P}}" "x" in
  keys_ok j = true /\ jperm j (jrev j) /\ j <> jrev j /\
  (* reversed at the root AND inside the step, the script, the action, the environment, the variables *)
  jget "variables" (match jget "stepEnvironments" (match jget "steps" (jrev j) with JArr (s :: _) => s | _ => JNull end) with
                    | JArr (e :: _) => e | _ => JNull end)
  = jox [("V2", jsx "x"); ("V1", jsx "{{Param.P}}")] /\
  is_ok (decode_job ascii_class j) = true /\
  is_ok (decode_job ascii_class (jrev j)) = true.
Proof.
  cbv zeta. assert (Hk : keys_ok (ex_ko "{{Param.P}}" "x") = true) by (vm_compute; reflexivity).
  split; [exact Hk|]. split; [apply jperm_jrev; exact Hk|]. split; [vm_compute; discriminate|].
  split; [vm_compute; reflexivity|]. split; [vm_compute; reflexivity|].
  rewrite <- (proj1 (C19_deep_key_order ascii_class _ _ (jperm_jrev _ Hk))). vm_compute. reflexivity.
Qed.

(* Permutation, not equality, is the right statement for the walk: two offending variables are
   reported in member order *)
Example C19_deep_key_order_errors_reordered :
  let j := ex_ko "{{Task.Param.X}}" "{{Task.Param.Y}}" in
  keys_ok j = true /\
  prevalidate Generated.schema real_refs "JobTemplate" j
  = [ERef [key "steps"; LIdx 0; key "stepEnvironments"; LIdx 0; key "variables"; LKey $"V1"] $"Task.Param.X";
     ERef [key "steps"; LIdx 0; key "stepEnvironments"; LIdx 0; key "variables"; LKey $"V2"] $"Task.Param.Y"] /\
  prevalidate Generated.schema real_refs "JobTemplate" (jrev j)
  = [ERef [key "steps"; LIdx 0; key "stepEnvironments"; LIdx 0; key "variables"; LKey $"V2"] $"Task.Param.Y";
     ERef [key "steps"; LIdx 0; key "stepEnvironments"; LIdx 0; key "variables"; LKey $"V1"] $"Task.Param.X"] /\
  is_ok (decode_job ascii_class j) = false /\ is_ok (decode_job ascii_class (jrev j)) = false.
Proof.
  cbv zeta. split; [vm_compute; reflexivity|]. split; [vm_compute; reflexivity|].
  split; [vm_compute; reflexivity|]. split; vm_compute; reflexivity.
Qed.

(* the distinct-keys premise of jperm is necessary: with a duplicated key the first member wins *)
Example C19_deep_key_order_dup_counterexample :
  let j  := jox [("name", jsx "{{Param.Nope}}"); ("name", jsx "ok")] in
  let j' := jox [("name", jsx "ok"); ("name", jsx "{{Param.Nope}}")] in
  spec_job_template real_refs j <> [] /\ spec_job_template real_refs j' = [].
Proof. cbv zeta. split; [vm_compute; discriminate|vm_compute; reflexivity]. Qed.
