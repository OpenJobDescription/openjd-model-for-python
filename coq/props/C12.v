(* props/C12.v — merged parameter definitions accept exactly what every source accepts.
   Model: theories/Merge.v ([merge pinned ds]; ds = the definitions of ONE parameter in merge
   order: environment templates first, job template last); "accepts" is [sat] of
   theories/JobParamsSpec.v; vocabulary in theories/MergeSpec.v.  The theorems are about the
   code of today ([pinned] = false).
   Premises on the SOURCE definitions are what the decoder guarantees:
     wf_def     allowedValues non-empty, maxLength <> 0
     wf_default the default of an INT/FLOAT definition is the text of an int / finite Decimal
     wf_int     the numbers of an INT definition are integers. *)
From Coq Require Import List NArith ZArith Bool Permutation.
Import ListNotations.
Require Import OJD.Base OJD.Numerals OJD.NumeralsSpec OJD.NumeralsProofs OJD.JobParams OJD.JobParamsSpec
        OJD.JobParamsProofs OJD.Merge OJD.MergeSpec OJD.MergeProofs OJD.MergeOrderProofs.
Local Open Scope Z_scope.

(* a value is never accepted unless every individual definition accepts it *)
Theorem C12_sound : forall ds m v,
  Forall wf_def ds -> merge false ds = Ok m -> sat m v -> Forall (fun d => sat d v) ds.
Proof. exact merge_sound. Qed.
Print Assumptions C12_sound.

(* whenever the merge succeeds every value that all definitions accept is accepted *)
Theorem C12_complete : forall ds m v,
  Forall wf_def ds -> merge false ds = Ok m -> Forall (fun d => sat d v) ds -> sat m v.
Proof. exact merge_complete. Qed.
Print Assumptions C12_complete.

(* the effective default is the last one given *)
Theorem C12_default : forall ds m, merge false ds = Ok m -> pdefault m = last_given_default ds.
Proof. exact merge_default. Qed.
Print Assumptions C12_default.

(* refusal when types differ (no premise; either setting of the historical flag) *)
Theorem C12_refuse_types : forall p ds d d',
  In d ds -> In d' ds -> ptyp d <> ptyp d' -> merge p ds = Raise CompatibilityError.
Proof. exact merge_refuse_types. Qed.
Print Assumptions C12_refuse_types.

(* refusal when objectTypes differ (an absent objectType counts as DIRECTORY, as the code says) *)
Theorem C12_refuse_objtype : forall p ds d d',
  (forall x, In x ds -> ptyp x = PATH) ->
  In d ds -> In d' ds -> eff_objtype d <> eff_objtype d' -> merge p ds = Raise CompatibilityError.
Proof. exact merge_refuse_objtype. Qed.
Print Assumptions C12_refuse_objtype.

(* refusal when two PROVIDED dataFlows differ (an absent dataFlow is compatible with any) *)
Theorem C12_refuse_dataflow : forall p ds d d' a b,
  (forall x, In x ds -> ptyp x = PATH) ->
  In d ds -> In d' ds -> pdataflow d = Some a -> pdataflow d' = Some b -> a <> b ->
  merge p ds = Raise CompatibilityError.
Proof. exact merge_refuse_dataflow. Qed.
Print Assumptions C12_refuse_dataflow.

(* refusal when no value can satisfy all constraints; for any number of definitions, in any order *)
Theorem C12_refuse_unsat : forall ds,
  Forall wf_merge ds -> (forall v, ~ Forall (fun d => sat d v) ds) ->
  merge false ds = Raise CompatibilityError.
Proof. exact merge_refuse_unsat. Qed.
Print Assumptions C12_refuse_unsat.

(* ... equivalently: a merge that succeeds has a value that every source accepts *)
Theorem C12_merged_satisfiable : forall ds m,
  Forall wf_merge ds -> merge false ds = Ok m -> exists v, Forall (fun d => sat d v) ds.
Proof. exact merge_ok_satisfiable. Qed.
Print Assumptions C12_merged_satisfiable.

(* every refusal is a CompatibilityError *)
Theorem C12_error : forall ds e,
  ds <> [] -> Forall wf_default ds -> merge false ds = Raise e -> e = CompatibilityError.
Proof. exact merge_raise. Qed.
Print Assumptions C12_error.

(* what the merged definition accepts does not depend on the order of the sources *)
Theorem C12_order : forall ds ds' m m' v,
  Forall wf_def ds -> Permutation ds ds' ->
  merge false ds = Ok m -> merge false ds' = Ok m' -> (sat m v <-> sat m' v).
Proof. exact merge_order. Qed.
Print Assumptions C12_order.

(* default aside, whether the merge is refused does not depend on the order either (no
   premise on the definitions): for definitions without defaults, success depends only on the
   SET of definitions taking part *)
Theorem C12_order_refusal : forall ds ds',
  Permutation ds ds' -> (forall d, In d ds -> pdefault d = None) ->
  is_ok (merge false ds) = is_ok (merge false ds').
Proof. exact merge_refusal_order. Qed.
Print Assumptions C12_order_refusal.

(* end to end, inside preprocess_job_parameters(environment_templates=...): with the merged
   definition m, a value map is accepted iff the C10 conditions hold for m and EVERY source
   accepts the final value; a refused merge is a ValueError *)
Theorem C12_preprocess_iff : forall (path_in : str -> str) (path_default : str -> outcome str) ds m vals,
  Forall wf_def ds -> merge false ds = Ok m ->
  ((exists r, preprocess_merged true path_in path_default ds vals = Ok r) <->
   no_extra [m] vals /\ no_missing [m] vals /\ path_defaults_ok path_default [m] vals /\
   (forall v, final path_in path_default vals m v -> Forall (fun d => sat d v) ds)).
Proof. exact preprocess_merged_iff. Qed.
Print Assumptions C12_preprocess_iff.

Theorem C12_preprocess_refused : forall (path_in : str -> str) (path_default : str -> outcome str) dir_ok ds vals,
  merge false ds = Raise CompatibilityError ->
  preprocess_merged dir_ok path_in path_default ds vals = Raise ValueError.
Proof. exact preprocess_merged_refused. Qed.
Print Assumptions C12_preprocess_refused.

(* ---------- the historical defect (fixed by 054f475), kept as regression documentation:
   allowedValues [1], [2], [3] merged to [3] ---------- *)
Definition nP : str := [80%N].
Definition d_al (z : Z) : pdef := mkDef nP INT None None (Some [mkNum z 0]) None None None None None None.
Definition s3 : str := [51%N].

Remark wf_d_al : forall z, wf_def (d_al z).
Proof. intro z. repeat split; discriminate. Qed.

Theorem C12_pinned_merge_allowed_refuted :
  exists ds m v, Forall wf_def ds /\ merge true ds = Ok m /\ sat m v /\ ~ Forall (fun d => sat d v) ds.
Proof.
  exists [d_al 1; d_al 2; d_al 3], (d_al 3), s3. split; [|split; [|split]].
  - repeat constructor; discriminate.
  - vm_compute. reflexivity.
  - apply check_constraints_iff; [apply wf_d_al|]. vm_compute. reflexivity.
  - intro H. inversion H as [|x l H1 _]; subst.
    apply check_constraints_iff in H1; [|apply wf_d_al]. vm_compute in H1. discriminate.
Qed.
Print Assumptions C12_pinned_merge_allowed_refuted.

Remark wfm_al : forall z, wf_merge (d_al z).
Proof.
  intro z. split; [apply wf_d_al|]. split.
  - intros _ t E. discriminate.
  - intros _. cbn. split; [exact I|]. split; [exact I|]. constructor; [reflexivity|constructor].
Qed.

(* today the same three definitions are refused *)
Example C12_allowed_123_refused : merge false [d_al 1; d_al 2; d_al 3] = Raise CompatibilityError.
Proof. vm_compute. reflexivity. Qed.

(* ---------- non-vacuity ---------- *)
Definition d_a : pdef := mkDef nP FLOAT (Some (mkNum 0 0)) None (Some [mkNum 10 (-1); mkNum 3 0]) None None None (Some [51%N]) None None.
Definition d_b : pdef := mkDef nP FLOAT None (Some (mkNum 25 (-1))) None None None None (Some [49%N]) None None.
Definition s_1_0 : str := [49%N; 46%N; 48%N].   (* "1.0" *)

Remark wfm_a : wf_merge d_a.
Proof.
  split; [repeat split; discriminate|]. split.
  - intros _ t E. injection E as <-. eexists. vm_compute. reflexivity.
  - intro E. discriminate.
Qed.
Remark wfm_b : wf_merge d_b.
Proof.
  split; [repeat split; discriminate|]. split.
  - intros _ t E. injection E as <-. eexists. vm_compute. reflexivity.
  - intro E. discriminate.
Qed.

(* two FLOAT definitions whose merge is refused: minValue 0 & allowedValues [1.0, 3] with maxValue 2.5
   fails re-validation (3 > 2.5) although "1" satisfies both ... *)
Example C12_over_refusal : merge false [d_a; d_b] = Raise CompatibilityError /\
  Forall (fun d => sat d s_1_0) [d_a; d_b].
Proof.
  split; [vm_compute; reflexivity|].
  repeat constructor; (apply check_constraints_iff; [repeat split; discriminate|vm_compute; reflexivity]).
Qed.

(* ... so the hypotheses of sound/complete/default/order are exercised on a pair that merges *)
Definition d_c : pdef := mkDef nP FLOAT None (Some (mkNum 35 (-1))) None None None None (Some [49%N]) None None.
Remark wfm_c : wf_merge d_c.
Proof.
  split; [repeat split; discriminate|]. split.
  - intros _ t E. injection E as <-. eexists. vm_compute. reflexivity.
  - intro E. discriminate.
Qed.

Example C12_nonvacuous :
  Forall wf_merge [d_a; d_c] /\
  (exists m, merge false [d_a; d_c] = Ok m /\ pdefault m = Some [49%N] /\ sat m s_1_0) /\
  (exists m', merge false [d_c; d_a] = Ok m' /\ pdefault m' = Some [51%N]) /\
  Permutation [d_a; d_c] [d_c; d_a].
Proof.
  split; [constructor; [apply wfm_a|constructor; [apply wfm_c|constructor]]|]. split; [|split].
  - eexists. split; [vm_compute; reflexivity|]. split; [reflexivity|].
    apply check_constraints_iff; [repeat split; discriminate|vm_compute; reflexivity].
  - eexists. split; [vm_compute; reflexivity|reflexivity].
  - apply perm_swap.
Qed.

(* "default aside" is necessary: with defaults the refusal itself depends on the order, because
   the LAST default must satisfy the merged constraints.
   [INT default 5 ; INT maxValue 3 default 1] merges, the reverse order is refused. *)
Definition d_def5 : pdef := mkDef nP INT None None None None None None (Some [53%N]) None None.
Definition d_max3_def1 : pdef := mkDef nP INT None (Some (mkNum 3 0)) None None None None (Some [49%N]) None None.
Example C12_default_makes_order_matter :
  Permutation [d_def5; d_max3_def1] [d_max3_def1; d_def5] /\
  is_ok (merge false [d_def5; d_max3_def1]) = true /\
  merge false [d_max3_def1; d_def5] = Raise CompatibilityError.
Proof. split; [apply perm_swap|]. split; vm_compute; reflexivity. Qed.

(* hypotheses of the refusal theorems are met *)
Example C12_refuse_nonvacuous :
  (exists d d', In d [d_al 1; d_a] /\ In d' [d_al 1; d_a] /\ ptyp d <> ptyp d') /\
  Forall wf_merge [d_al 1; d_al 2] /\ (forall v, ~ Forall (fun d => sat d v) [d_al 1; d_al 2]).
Proof.
  split; [|split].
  - exists (d_al 1), d_a. cbn. intuition discriminate.
  - constructor; [apply wfm_al|constructor; [apply wfm_al|constructor]].
  - intros v H.
    inversion H as [|x l H1 H2]; subst. inversion H2 as [|y l' H3 _]; subst.
    unfold sat in H1, H3. cbn [ptyp d_al] in H1, H3.
    destruct H1 as [z [P1 [_ [_ A1]]]]. destruct H3 as [z' [P3 [_ [_ A3]]]].
    rewrite P1 in P3. injection P3 as <-. cbn in A1, A3.
    destruct A1 as [y1 [[<-|[]] Q1]]. destruct A3 as [y3 [[<-|[]] Q3]].
    apply num_eq_sym in Q1. pose proof (num_eq_trans _ _ _ Q1 Q3) as Q.
    apply num_eqb_spec in Q. vm_compute in Q. discriminate.
Qed.
