(* props/C19xb.v — C19, "changing blanks inside '{{ }}' leaves the verdict unchanged and changes the
   Job only by ...": ONE theorem for a whole format string and for everything that is done with it
   (props/C19.v has the token-level facts and the decomposition).

   Models: FormatStr.v ([mk] = FormatString(value), [expressions], [resolve], [validate_refs]),
   FsRefs.v ([fs_refs]), Lexer.v ([lex] = TokenStream), ScopeWalk.v ([prevalidate]).
   Relation: Reblank.v ([reblank], [blank_step], [blank_edits], [canon]).
   Proofs: ReblankProofs.v, ReblankCanon.v, ReblankWalk.v (on top of FormatStrProofs.v, LexerProofs.v,
   RenameProofs.v).

   [reblank classify s s']: s and s' are read span by span — a literal segment l, the FIRST "{{"
   after it ([lit_seg l]), an expression text up to the NEXT "}}" ([span_text e], [span_text e']) —
   with identical literal segments and, for each span, [lex classify e = lex classify e'] (the two
   texts are blank-separated spellings of the same token list); after the last changed span the
   two strings are equal.  Accepted and rejected strings alike.

   What is NOT true of the model (and of the code), and why the side conditions are there:
     - [lex e = lex e'] alone, for an arbitrary split l ++ "{{" ++ e ++ "}}" ++ r, is not enough:
       see [C19_reblank_span_text_needed] ("{{a}}}" is accepted: reference a, literal "}");
     - deleting a blank is not always harmless when the text contains '}': "{{x} }}" is rejected,
       "{{x}}}" is accepted — the deletion moves the END of the span
       ([C19_reblank_edit_needs_no_rbrace]).  Hence [~ In rbrace e] in [C19_reblank_edit]. *)
From Coq Require Import List NArith ZArith Bool String.
Import ListNotations.
Require Import OJD.Base OJD.Lexer OJD.LexerProofs OJD.Json OJD.Schema OJD.Generated OJD.FormatStr
               OJD.FormatStrSpec OJD.FormatStrProofs OJD.FsRefs OJD.ScopeWalk OJD.RenameProofs
               OJD.Reblank OJD.ReblankProofs OJD.ReblankCanon OJD.ReblankWalk.
Local Open Scope string_scope.
Local Open Scope list_scope.

(* ------------------------------------------------------------------ the format string *)

Theorem C19_reblank_fs : forall classify, ascii_ok classify = true -> forall s s', reblank classify s s' ->
  (* accepted together *)            is_ok (mk classify s) = is_ok (mk classify s') /\
  (* the same referenced names *)    fs_refs classify s = fs_refs classify s' /\
  (* the same check verdict *)       (forall f f' symbols, mk classify s = Ok f -> mk classify s' = Ok f' ->
                                         validate_refs symbols f = validate_refs symbols f') /\
  (* the same resolved text *)       (forall f f' sigma, mk classify s = Ok f -> mk classify s' = Ok f' ->
                                         resolve sigma f = resolve sigma f').
Proof. exact reblank_fs. Qed.
Print Assumptions C19_reblank_fs.

(* rejected together with the same exception *)
Theorem C19_reblank_raise : forall classify, ascii_ok classify = true -> forall s s' e,
  reblank classify s s' -> mk classify s = Raise e -> mk classify s' = Raise e.
Proof. exact reblank_raise. Qed.
Print Assumptions C19_reblank_raise.

(* the FormatString value changes only by the spans and the texts of its references: piece by
   piece the same literals and the same reference names *)
Theorem C19_reblank_value : forall classify, ascii_ok classify = true -> forall s s', reblank classify s s' ->
  forall f f', mk classify s = Ok f -> mk classify s' = Ok f' -> Forall2 item_sim (items f) (items f').
Proof. exact reblank_items. Qed.
Print Assumptions C19_reblank_value.

Theorem C19_reblank_sym : forall classify s s', reblank classify s s' -> reblank classify s' s.
Proof. exact reblank_sym. Qed.
Print Assumptions C19_reblank_sym.

Theorem C19_reblank_trans : forall classify s1 s2 s3,
  reblank classify s1 s2 -> reblank classify s2 s3 -> reblank classify s1 s3.
Proof. intros classify s1 s2 s3 R1 R2. exact (reblank_trans classify s1 s2 R1 s3 R2). Qed.
Print Assumptions C19_reblank_trans.

(* ------------------------------------------------------------------ elementary changes of blanks *)

(* [blank_step] (Reblank.v): delete a blank at either end of the text, before or after a dot, or
   next to another blank; replace a blank by another blank.  [blank_edits]: any sequence of such
   steps, each taken forwards (deletion) or backwards (insertion).  They keep the token list
   (C19_blanks, C19_blanks_around_punct) and cannot create or remove a '}' *)
Theorem C19_blank_edits : forall classify, ascii_ok classify = true -> forall e e',
  ~ In rbrace e -> blank_edits classify e e' ->
  span_text e /\ span_text e' /\ lex classify e = lex classify e'.
Proof. exact blank_edits_span. Qed.
Print Assumptions C19_blank_edits.

(* so: re-spelling the blanks of one expression text (that contains no '}') is a re-blanking *)
Theorem C19_reblank_edit : forall classify, ascii_ok classify = true -> forall l e e' r r',
  lit_seg l -> ~ In rbrace e -> blank_edits classify e e' -> reblank classify r r' ->
  reblank classify (l ++ open2 ++ e ++ close2 ++ r) (l ++ open2 ++ e' ++ close2 ++ r').
Proof. exact reblank_edit. Qed.
Print Assumptions C19_reblank_edit.

(* ------------------------------------------------------------------ a canonical spelling *)

(* [canon classify s]: every reference of an accepted s rewritten "{{name}}" without any blank
   (a rejected s is left alone).  It is a re-blanking of s for EVERY s ... *)
Theorem C19_reblank_canon : forall classify, ascii_ok classify = true ->
  forall s, reblank classify s (canon classify s).
Proof. exact reblank_canon. Qed.
Print Assumptions C19_reblank_canon.

(* ... and re-blanked accepted strings have one and the same canonical spelling *)
Theorem C19_reblank_canon_eq : forall classify, ascii_ok classify = true -> forall s s',
  reblank classify s s' -> is_ok (mk classify s) = true -> canon classify s = canon classify s'.
Proof. exact reblank_canon_eq. Qed.
Print Assumptions C19_reblank_canon_eq.

(* ... so that, for accepted strings, [reblank] is exactly "same canonical spelling" (a decidable
   test: both sides are computable) *)
Theorem C19_reblank_iff_canon : forall classify, ascii_ok classify = true -> forall s s',
  is_ok (mk classify s) = true -> is_ok (mk classify s') = true ->
  (reblank classify s s' <-> canon classify s = canon classify s').
Proof. exact reblank_iff_canon. Qed.
Print Assumptions C19_reblank_iff_canon.

(* ------------------------------------------------------------------ the reference walker *)

(* [reblank_job rs j] / [reblank_env_template rs j]: the document with the string at every
   format-string site mapped through rs, everything else (declared names included) unchanged.
   The walk reads those strings only through the front end: *)
Theorem C19_walker_front_end : forall (rs : str -> str) (refs refs' : str -> option (list str)) (j : json),
  (forall s, In s (jstrings j) -> refs' (rs s) = refs s) ->
  prevalidate Generated.schema refs' "JobTemplate" (reblank_job rs j)
  = prevalidate Generated.schema refs "JobTemplate" j /\
  prevalidate Generated.schema refs' "EnvironmentTemplate" (reblank_env_template rs j)
  = prevalidate Generated.schema refs "EnvironmentTemplate" j.
Proof. exact walker_front_end. Qed.
Print Assumptions C19_walker_front_end.

(* hence a document whose format strings are re-blanked gets the SAME list of reference errors
   (same locations, same names, same order) *)
Theorem C19_reblank_walker : forall classify, ascii_ok classify = true ->
  forall (rs : str -> str) (j : json),
  (forall s, In s (jstrings j) -> reblank classify s (rs s)) ->
  prevalidate Generated.schema (fs_refs classify) "JobTemplate" (reblank_job rs j)
  = prevalidate Generated.schema (fs_refs classify) "JobTemplate" j /\
  prevalidate Generated.schema (fs_refs classify) "EnvironmentTemplate" (reblank_env_template rs j)
  = prevalidate Generated.schema (fs_refs classify) "EnvironmentTemplate" j.
Proof. exact reblank_walker. Qed.
Print Assumptions C19_reblank_walker.

(* no hypothesis on the document: strip every blank inside every '{{ }}' *)
Theorem C19_reblank_walker_canon : forall classify, ascii_ok classify = true -> forall j : json,
  prevalidate Generated.schema (fs_refs classify) "JobTemplate" (reblank_job (canon classify) j)
  = prevalidate Generated.schema (fs_refs classify) "JobTemplate" j /\
  prevalidate Generated.schema (fs_refs classify) "EnvironmentTemplate" (reblank_env_template (canon classify) j)
  = prevalidate Generated.schema (fs_refs classify) "EnvironmentTemplate" j.
Proof. exact reblank_walker_canon. Qed.
Print Assumptions C19_reblank_walker_canon.

(* ------------------------------------------------------------------ non-vacuity *)
Local Open Scope N_scope.

Definition ex_s1 : str := $"a {{Param.X}} b {{  Task . Param .  Y}}".
Definition ex_s2 : str := $"a {{ Param . X }} b {{Task.Param.Y}}".
Definition ex_sigma : symtab := [($"Param.X", $"1"); ($"Task.Param.Y", $"two")].

Lemma ascii_ok_ascii : ascii_ok ascii_class = true.
Proof. vm_compute. reflexivity. Qed.

(* "Param.X" -> " Param . X " by four insertions: at the front, at the end, before and after the dot *)
Example C19_blank_edits_nonvacuous : blank_edits ascii_class $"Param.X" $" Param . X ".
Proof.
  apply (BE_ins ascii_class _ $" Param.X" _ (BS_lead ascii_class 32 $"Param.X" eq_refl)).
  apply (BE_ins ascii_class _ $" Param.X " _ (BS_trail ascii_class 32 $" Param.X" eq_refl)).
  apply (BE_ins ascii_class _ $" Param .X " _ (BS_before_dot ascii_class 32 46 $" Param" $"X " eq_refl eq_refl)).
  apply (BE_ins ascii_class _ $" Param . X " _ (BS_after_dot ascii_class 32 46 $" Param " $"X " eq_refl eq_refl)).
  apply BE_refl.
Qed.

(* the first span through C19_reblank_edit, the second directly from the token lists *)
Example C19_reblank_nonvacuous : reblank ascii_class ex_s1 ex_s2.
Proof.
  change ex_s1 with ($"a " ++ open2 ++ $"Param.X" ++ close2 ++
                     ($" b " ++ open2 ++ $"  Task . Param .  Y" ++ close2 ++ [])).
  change ex_s2 with ($"a " ++ open2 ++ $" Param . X " ++ close2 ++
                     ($" b " ++ open2 ++ $"Task.Param.Y" ++ close2 ++ [])).
  apply (C19_reblank_edit ascii_class ascii_ok_ascii).
  - apply lit_seg_check. vm_compute. reflexivity.
  - vm_compute. intros H. repeat (destruct H as [H|H]; [discriminate H|]). exact H.
  - exact C19_blank_edits_nonvacuous.
  - apply RB_span.
    + apply lit_seg_check. vm_compute. reflexivity.
    + apply span_text_check. vm_compute. reflexivity.
    + apply span_text_check. vm_compute. reflexivity.
    + vm_compute. reflexivity.
    + apply RB_same.
Qed.

Example C19_reblank_fs_nonvacuous :
  reblank ascii_class ex_s1 ex_s2 /\ ex_s1 <> ex_s2 /\
  is_ok (mk ascii_class ex_s1) = true /\ is_ok (mk ascii_class ex_s2) = true /\
  fs_refs ascii_class ex_s1 = Some [$"Param.X"; $"Task.Param.Y"] /\
  fs_refs ascii_class ex_s2 = Some [$"Param.X"; $"Task.Param.Y"] /\
  (* the spans differ ... *)
  option_map expressions (match mk ascii_class ex_s1 with Ok f => Some f | Raise _ => None end)
    = Some [($"Param.X", 2%nat, 13%nat); ($"Task.Param.Y", 16%nat, 39%nat)] /\
  option_map expressions (match mk ascii_class ex_s2 with Ok f => Some f | Raise _ => None end)
    = Some [($"Param.X", 2%nat, 17%nat); ($"Task.Param.Y", 20%nat, 36%nat)] /\
  (* ... the resolved text does not *)
  (do f <- mk ascii_class ex_s1; resolve ex_sigma f) = Ok $"a 1 b two" /\
  (do f <- mk ascii_class ex_s2; resolve ex_sigma f) = Ok $"a 1 b two" /\
  (* the check against a symbol set that lacks Task.Param.Y *)
  (do f <- mk ascii_class ex_s1; Ok (validate_refs [$"Param.X"] f)) = Ok [$"Task.Param.Y"] /\
  (do f <- mk ascii_class ex_s2; Ok (validate_refs [$"Param.X"] f)) = Ok [$"Task.Param.Y"] /\
  canon ascii_class ex_s1 = $"a {{Param.X}} b {{Task.Param.Y}}" /\
  canon ascii_class ex_s2 = $"a {{Param.X}} b {{Task.Param.Y}}".
Proof.
  split; [exact C19_reblank_nonvacuous|]. split; [vm_compute; discriminate|].
  repeat split; vm_compute; reflexivity.
Qed.

(* the conclusions for this pair, obtained FROM the theorem *)
Example C19_reblank_fs_instance :
  fs_refs ascii_class ex_s1 = fs_refs ascii_class ex_s2 /\
  canon ascii_class ex_s1 = canon ascii_class ex_s2.
Proof.
  split.
  - exact (proj1 (proj2 (C19_reblank_fs ascii_class ascii_ok_ascii _ _ C19_reblank_nonvacuous))).
  - apply (C19_reblank_canon_eq ascii_class ascii_ok_ascii _ _ C19_reblank_nonvacuous).
    vm_compute. reflexivity.
Qed.

(* rejected strings are related too (the tail "{{" is unbalanced in both), and rejected together *)
Example C19_reblank_rejected_nonvacuous :
  reblank ascii_class $"{{ A }} {{" $"{{A}} {{" /\
  mk ascii_class $"{{ A }} {{" = Raise FormatStringError /\ mk ascii_class $"{{A}} {{" = Raise FormatStringError.
Proof.
  split; [|split; vm_compute; reflexivity].
  change ($"{{ A }} {{") with ([] ++ open2 ++ $" A " ++ close2 ++ $" {{").
  change ($"{{A}} {{") with ([] ++ open2 ++ $"A" ++ close2 ++ $" {{").
  apply RB_span.
  - apply lit_seg_check. vm_compute. reflexivity.
  - apply span_text_check. vm_compute. reflexivity.
  - apply span_text_check. vm_compute. reflexivity.
  - vm_compute. reflexivity.
  - apply RB_same.
Qed.

(* a blank INSIDE a name is NOT a re-blanking: "{{Pa ram.X}}" and "{{Param.X}}" are not related
   (different token lists; the first is rejected, the second accepted) *)
Example C19_reblank_inside_name_unrelated :
  ~ reblank ascii_class $"{{Pa ram.X}}" $"{{Param.X}}" /\
  lex ascii_class $"Pa ram.X" <> lex ascii_class $"Param.X" /\
  is_ok (mk ascii_class $"{{Pa ram.X}}") = false /\ is_ok (mk ascii_class $"{{Param.X}}") = true.
Proof.
  split.
  - intros R. pose proof (proj1 (C19_reblank_fs ascii_class ascii_ok_ascii _ _ R)) as H.
    vm_compute in H. discriminate H.
  - split; [vm_compute; discriminate|]. split; vm_compute; reflexivity.
Qed.

(* [span_text] cannot be dropped from RB_span: equal lexer results for SOME split of the two
   strings do not make them agree.  l = r = "", e = "a}", e' = "@": both texts fail to lex, but the
   span of "{{a}}}" is "a" (then the literal "}"), and it is accepted; "{{@}}" is not. *)
Example C19_reblank_span_text_needed :
  exists l e e' r, lit_seg l /\ lex ascii_class e = lex ascii_class e' /\
    is_ok (mk ascii_class (l ++ open2 ++ e ++ close2 ++ r)) = true /\
    is_ok (mk ascii_class (l ++ open2 ++ e' ++ close2 ++ r)) = false /\
    ~ span_text e.
Proof.
  exists [], $"a}", $"@", []. split; [apply lit_seg_check; vm_compute; reflexivity|].
  split; [vm_compute; reflexivity|]. split; [vm_compute; reflexivity|]. split; [vm_compute; reflexivity|].
  intros H. apply (H $"a" []). vm_compute. reflexivity.
Qed.

(* [~ In rbrace e] cannot be dropped from C19_reblank_edit: deleting the blank of "{{x} }}" moves
   the end of the span — rejected before, accepted after (reference x, literal "}") *)
Example C19_reblank_edit_needs_no_rbrace :
  blank_step ascii_class $"x} " $"x}" /\
  is_ok (mk ascii_class ([] ++ open2 ++ $"x} " ++ close2 ++ [])) = false /\
  is_ok (mk ascii_class ([] ++ open2 ++ $"x}" ++ close2 ++ [])) = true.
Proof.
  split; [exact (BS_trail ascii_class 32 $"x}" eq_refl)|]. split; vm_compute; reflexivity.
Qed.

(* ---- the walker: a template with re-blanked format strings *)
Definition jsb (x : string) : json := JStr (str_of_string x).
Definition job (l : list (string * json)) : json := JObj (map (fun kv => (str_of_string (fst kv), snd kv)) l).

Definition ex_doc (name arg1 arg2 : string) : json :=
  job [("specificationVersion", jsb "jobtemplate-2023-09");
       ("name", jsb name);
       ("parameterDefinitions", JArr [job [("name", jsb "Frames"); ("type", jsb "INT")]]);
       ("steps",
        JArr [job [("name", jsb "A");
                   ("script",
                    job [("actions",
                          job [("onRun", job [("command", jsb "run");
                                              ("args", JArr [jsb arg1; jsb arg2])])])])]])].

Definition ex_j  : json := ex_doc "Job {{  Param . Frames }}" "{{ Task.Param.Y }}" "{{Param .Nope}}".
Definition ex_j' : json := ex_doc "Job {{Param.Frames}}" "{{Task.Param.Y}}" "{{Param.Nope}}".

Example C19_reblank_walker_nonvacuous :
  (* stripping the blanks changes the document ... *)
  reblank_job (canon ascii_class) ex_j = ex_j' /\ ex_j <> ex_j' /\
  (* ... and the walker reports the same two sites with the same names *)
  prevalidate Generated.schema (fs_refs ascii_class) "JobTemplate" ex_j
  = [ERef [LKey $"steps"; LIdx 0; LKey $"script"; LKey $"actions"; LKey $"onRun"; LKey $"args"; LIdx 0] $"Task.Param.Y";
     ERef [LKey $"steps"; LIdx 0; LKey $"script"; LKey $"actions"; LKey $"onRun"; LKey $"args"; LIdx 1] $"Param.Nope"] /\
  prevalidate Generated.schema (fs_refs ascii_class) "JobTemplate" ex_j'
  = prevalidate Generated.schema (fs_refs ascii_class) "JobTemplate" ex_j.
Proof.
  split; [vm_compute; reflexivity|]. split; [vm_compute; discriminate|]. split; [vm_compute; reflexivity|].
  assert (E : reblank_job (canon ascii_class) ex_j = ex_j') by (vm_compute; reflexivity).
  rewrite <- E. exact (proj1 (C19_reblank_walker_canon ascii_class ascii_ok_ascii ex_j)).
Qed.
