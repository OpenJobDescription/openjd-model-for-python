(* props/C17x.v — C17 "Serialisation is faithful and round-trips": the round trip for EVERY class of the module,
   the two template roots and Job included.

   Lemmas: ExportView.v (what the reference specification of C03 reads of a document is kept by the re-export),
   ExportRoots.v (the hypothesis [prevalidate_stable] of C17_roundtrip_partial, discharged), ExportJob.v (Job and
   the classes below it: the ordered union of two model classes, the pre-validators that re-parse the raw object
   as the template class).  Everything for ALL documents / values / fuels / character tables.

     C17_prevalidate_stable        the reference walk reports nothing on the re-export of an accepted root
     C17_spec_job_stable,
     C17_spec_env_stable           ... because C03's specification is stable under  j |-> export (decode j)
     C17_decimal_text_no_refs      ... and the text of a Decimal never holds a reference
     C17_roundtrip_templates       decode (export M) = M for JobTemplate and EnvironmentTemplate: no hypothesis
     C17_union_same_alternative    the first alternative of RangeList | RangeExpression rejects the export of the second
     C17_requirement_same_export   job-side and template-side parse of one requirement object export alike
     C17_roundtrip_job             parse_model (Job, export J) = J for every decoded Job: no hypothesis
     C17_roundtrip                 the full statement: every root class of the module *)
From Coq Require Import List NArith ZArith Bool String.
Import ListNotations.
Require Import OJD.Base OJD.Lexer OJD.Json OJD.Schema OJD.Generated OJD.Numerals OJD.NumPrint OJD.CreateJob
               OJD.Parse OJD.Validators OJD.Accept OJD.Export OJD.FsRefs OJD.ScopeWalk OJD.ScopeSpec
               OJD.NumRoundtrip OJD.ExportProofs OJD.ExportView OJD.ExportRoots OJD.ExportJob.
Local Open Scope string_scope.
Local Open Scope list_scope.

(* ------------------------------------------------------------------ (A) the template roots *)

(* C03's document-level specification (= the reference walk, C03_exact_job) reports nothing on the re-export
   of a decoded job template when it reported nothing on the source.  [refs] is any format-string front end
   that reads no reference off the text of a Decimal; pre / post are any validators. *)
Theorem C17_spec_job_stable : forall classify pre post refs,
  (forall m e, quiet refs (print_dec m e)) ->
  forall f v x,
    parse_cls Generated.schema classify pre post f "JobTemplate" v = Ok x ->
    spec_job_template refs v = [] ->
    spec_job_template refs (exp Generated.schema x) = [].
Proof. exact spec_job_stable. Qed.
Print Assumptions C17_spec_job_stable.

(* for environment templates the specification's whole report is the same on both documents *)
Theorem C17_spec_env_stable : forall classify pre post refs f v x,
  parse_cls Generated.schema classify pre post f "EnvironmentTemplate" v = Ok x ->
  spec_env_template refs (exp Generated.schema x) = spec_env_template refs v.
Proof. exact spec_env_stable. Qed.
Print Assumptions C17_spec_env_stable.

(* str(Decimal) is made of digits and "-.E+": FormatString(str(d)).expressions is empty, for every lexer table *)
Theorem C17_decimal_text_no_refs : forall classify m e, fs_refs classify (print_dec m e) = Some [].
Proof. intros classify m e. apply okc_no_refs. apply print_dec_okc. Qed.
Print Assumptions C17_decimal_text_no_refs.

(* the hypothesis of C17_roundtrip_partial holds (its definition: C17_prevalidate_stable_def in C17.v) *)
Theorem C17_prevalidate_stable : forall classify, prevalidate_stable classify.
Proof. exact prevalidate_stable_holds. Qed.
Print Assumptions C17_prevalidate_stable.

Theorem C17_roundtrip_templates : forall classify root j v,
  In root ["JobTemplate"; "EnvironmentTemplate"] ->
  parse_any classify root j = Ok v ->
  snd (roundtrip classify root v) = true.
Proof. exact roundtrip_template_roots. Qed.
Print Assumptions C17_roundtrip_templates.

(* ------------------------------------------------------------------ (B) Job *)

(* (i) StepParameterSpace.taskParameterDefinitions : RangeList... | RangeExpression... (ordered).  The export of
   an instance of the SECOND class is rejected by the FIRST with a validation error (never "out of the model's
   domain"), whatever the pre-validators: the re-parse falls through to the alternative that produced it. *)
Theorem C17_union_same_alternative : forall classify pre1 pre2 post g v x,
  parse_cls Generated.schema classify pre1 post g "RangeExpressionTaskParameterDefinition" v = Ok x ->
  exists e, parse_cls Generated.schema classify pre2 post g "RangeListTaskParameterDefinition" (exp Generated.schema x)
            = Raise e /\ e <> RuntimeError.
Proof. exact rl_rejects_re. Qed.
Print Assumptions C17_union_same_alternative.

(* (ii) the object a job-side requirement class accepted, parsed as its template class (what its pre-validator
   does), exports to the same document *)
Theorem C17_requirement_same_export : forall classify pre post f g v x xt,
  (parse_cls Generated.schema classify pre post f "AmountRequirement" v = Ok x ->
   parse_cls Generated.schema classify pre_hook (post_hook classify) g "AmountRequirementTemplate" v = Ok xt ->
   exp Generated.schema x = exp Generated.schema xt)
  /\ (parse_cls Generated.schema classify pre post f "AttributeRequirement" v = Ok x ->
      parse_cls Generated.schema classify pre_hook (post_hook classify) g "AttributeRequirementTemplate" v = Ok xt ->
      exp Generated.schema x = exp Generated.schema xt).
Proof.
  intros classify pre post f g v x xt. split; [apply amount_same_export|apply attribute_same_export].
Qed.
Print Assumptions C17_requirement_same_export.

Theorem C17_roundtrip_job : forall classify j v,
  parse_any classify "Job" j = Ok v -> snd (roundtrip classify "Job" v) = true.
Proof. exact roundtrip_job. Qed.
Print Assumptions C17_roundtrip_job.

(* ------------------------------------------------------------------ the full statement *)

(* every class of the live schema is a template class or one of the classes a Job is made of *)
Lemma all_classes_covered :
  forallb (fun c => mem_s c template_classes || mem_s c job_classes) (map fst Generated.schema) = true.
Proof. vm_compute. reflexivity. Qed.

(* decode (export x) = x as the function [roundtrip] computes it, for parse_model with ANY model class *)
Theorem C17_roundtrip : forall classify root j v,
  parse_any classify root j = Ok v -> snd (roundtrip classify root v) = true.
Proof.
  intros classify root j v Hp.
  assert (Hin : In root (map fst Generated.schema)).
  { unfold parse_any in Hp.
    destruct (parse_cls_inv _ _ _ _ _ _ _ _ Hp) as [f' [k [ms [vals [_ [Hl _]]]]]].
    apply AcceptMono.lookup_cls_In in Hl. apply (in_map fst) in Hl. exact Hl. }
  pose proof all_classes_covered as H. rewrite forallb_forall in H. specialize (H root Hin).
  apply Bool.orb_true_iff in H. destruct H as [H|H]; apply ListLib.mem_s_In in H.
  - eapply roundtrip_all_templates; eassumption.
  - eapply roundtrip_job_classes; eassumption.
Qed.
Print Assumptions C17_roundtrip.

(* ================================================================== non-vacuity *)

(* a job template using the coercions the reference sites can meet: an INT range item given as text, FLOAT range
   items given as a float and an int (exported as Decimal text), a PATH parameter referenced inside a script, a
   null member, variables, embedded files, host requirements *)
Definition exx_run : json :=
  JObj [($"command", JStr $"{{Task.File.run}}");
        ($"args", JArr [JStr $"{{Param.N}}"; JStr $"{{Task.Param.i}}"; JStr $"{{Param.Out}}"]); ($"timeout", JStr $"30")].
Definition exx_tstep : json :=
  JObj [($"name", JStr $"s1");
        ($"description", JNull);
        ($"script", JObj [($"actions", JObj [($"onRun", exx_run)]);
                          ($"embeddedFiles", JArr [JObj [($"name", JStr $"run"); ($"type", JStr $"TEXT");
                                                         ($"data", JStr $"cd {{Session.WorkingDirectory}}; echo {{Task.RawParam.x}}")]])]);
        ($"stepEnvironments", JArr [JObj [($"name", JStr $"e"); ($"variables", JObj [($"OUT", JStr $"{{Param.Out}}")])]]);
        ($"parameterSpace",
         JObj [($"taskParameterDefinitions",
                JArr [JObj [($"name", JStr $"i"); ($"type", JStr $"INT"); ($"range", JArr [JInt 1; JStr $"2"; JStr $"{{Param.N}}"])];
                      JObj [($"name", JStr $"x"); ($"type", JStr $"FLOAT"); ($"range", JArr [JDec 15 (-1); JInt 2; JStr $"{{Param.F}}"])]])]);
        ($"hostRequirements",
         JObj [($"amounts", JArr [JObj [($"name", JStr $"amount.worker.vcpu"); ($"min", JInt 2)]]);
               ($"attributes", JArr [JObj [($"name", JStr $"attr.worker.os.family"); ($"anyOf", JArr [JStr $"linux"])]])])].
Definition exx_doc : json :=
  JObj [($"specificationVersion", JStr $"jobtemplate-2023-09");
        ($"$schema", JStr $"http://example");
        ($"name", JStr $"job {{Param.N}}");
        ($"parameterDefinitions",
         JArr [JObj [($"name", JStr $"N"); ($"type", JStr $"INT"); ($"default", JStr $"5")];
               JObj [($"name", JStr $"F"); ($"type", JStr $"FLOAT"); ($"maxValue", JDec 25 (-1))];
               JObj [($"name", JStr $"Out"); ($"type", JStr $"PATH")]]);
        ($"steps", JArr [exx_tstep])].

Example C17_roundtrip_templates_nonvacuous :
  exists v,
    parse_any ascii_class "JobTemplate" exx_doc = Ok v
    /\ export v <> exx_doc
    /\ spec_job_template (fs_refs ascii_class) exx_doc = []
    /\ prevalidate Generated.schema (fs_refs ascii_class) "JobTemplate" (export v) = []
    /\ snd (roundtrip ascii_class "JobTemplate" v) = true.
Proof.
  eassert (E : parse_any ascii_class "JobTemplate" exx_doc = Ok _) by (vm_compute; reflexivity).
  eexists. split; [exact E|].
  split; [vm_compute; discriminate|].
  split; [vm_compute; reflexivity|].
  split; [vm_compute; reflexivity|].
  eapply C17_roundtrip_templates; [left; reflexivity|exact E].
Qed.

(* the hypothesis of C17_spec_job_stable holds of the real front end *)
Example C17_spec_job_stable_nonvacuous : forall m e, quiet (fs_refs ascii_class) (print_dec m e).
Proof. intros m e. right. apply C17_decimal_text_no_refs. Qed.

Definition exx_env : json :=
  JObj [($"specificationVersion", JStr $"environment-2023-09");
        ($"parameterDefinitions", JArr [JObj [($"name", JStr $"Out"); ($"type", JStr $"PATH"); ($"description", JNull)]]);
        ($"environment",
         JObj [($"name", JStr $"E");
               ($"variables", JObj [($"A", JStr $"{{Param.Out}}")]);
               ($"script",
                JObj [($"actions", JObj [($"onEnter", JObj [($"command", JStr $"{{Env.File.f}}"); ($"timeout", JDec 300 (-1))])]);
                      ($"embeddedFiles", JArr [JObj [($"name", JStr $"f"); ($"type", JStr $"TEXT"); ($"data", JStr $"x")]])])])].

Example C17_roundtrip_env_template_nonvacuous :
  exists v,
    parse_any ascii_class "EnvironmentTemplate" exx_env = Ok v
    /\ export v <> exx_env
    /\ snd (roundtrip ascii_class "EnvironmentTemplate" v) = true.
Proof.
  eassert (E : parse_any ascii_class "EnvironmentTemplate" exx_env = Ok _) by (vm_compute; reflexivity).
  eexists. split; [exact E|].
  split; [vm_compute; discriminate|].
  eapply C17_roundtrip_templates; [right; left; reflexivity|exact E].
Qed.

(* a Job as create_job returns it and model_to_object prints it: a range expression and a range list in one
   parameter space (both alternatives of the union), a discriminated cancelation, amounts and attributes (both
   pre-validators that re-parse as the template class), a lax integer given as text, a Decimal given as an int *)
Definition exx_action : json :=
  JObj [($"command", JStr $"echo"); ($"args", JArr [JStr $"1"]); ($"timeout", JStr $"30");
        ($"cancelation", JObj [($"mode", JStr $"TERMINATE")])].
Definition exx_step : json :=
  JObj [($"name", JStr $"s1");
        ($"script", JObj [($"actions", JObj [($"onRun", exx_action)])]);
        ($"stepEnvironments", JArr [JObj [($"name", JStr $"e"); ($"variables", JObj [($"A", JStr $"b")])]]);
        ($"parameterSpace",
         JObj [($"taskParameterDefinitions",
                JObj [($"i", JObj [($"type", JStr $"INT"); ($"range", JStr $"1-10")]);
                      ($"x", JObj [($"type", JStr $"FLOAT"); ($"range", JArr [JStr $"1.5"; JInt 2])])]);
               ($"combination", JStr $"i * x")]);
        ($"hostRequirements",
         JObj [($"amounts", JArr [JObj [($"name", JStr $"amount.worker.vcpu"); ($"min", JInt 2)]]);
               ($"attributes", JArr [JObj [($"name", JStr $"attr.worker.os.family"); ($"anyOf", JArr [JStr $"linux"])]])])].
Definition exx_job : json :=
  JObj [($"name", JStr $"job"); ($"steps", JArr [exx_step]);
        ($"parameters", JObj [($"N", JObj [($"type", JStr $"INT"); ($"value", JInt 5)])])].

Example C17_roundtrip_job_nonvacuous :
  exists v,
    parse_any ascii_class "Job" exx_job = Ok v
    /\ export v <> exx_job
    /\ snd (roundtrip ascii_class "Job" v) = true.
Proof.
  eassert (E : parse_any ascii_class "Job" exx_job = Ok _) by (vm_compute; reflexivity).
  eexists. split; [exact E|].
  split; [vm_compute; discriminate|].
  eapply C17_roundtrip_job. exact E.
Qed.

(* the job-side requirement pre-validators are really in force: a name that only the template class rejects *)
Example C17_requirement_prevalidator_in_force :
  is_ok (parse_any ascii_class "AmountRequirement" (JObj [($"name", JStr $"amount.worker.vcpu"); ($"min", JInt 2)])) = true
  /\ is_ok (parse_any ascii_class "AmountRequirement" (JObj [($"name", JStr $"vcpu"); ($"min", JInt 2)])) = false
  /\ is_ok (parse_cls Generated.schema ascii_class pre_hook (post_hook ascii_class) 30 "AmountRequirement"
                      (JObj [($"name", JStr $"vcpu"); ($"min", JInt 2)])) = true.
Proof. vm_compute. repeat split. Qed.

Example C17_union_same_alternative_nonvacuous :
  is_ok (parse_cls Generated.schema ascii_class pre_hook (post_hook ascii_class) 10 "RangeExpressionTaskParameterDefinition"
                   (JObj [($"type", JStr $"INT"); ($"range", JStr $"1-10")])) = true.
Proof. vm_compute. reflexivity. Qed.

Example C17_requirement_same_export_nonvacuous :
  is_ok (parse_cls Generated.schema ascii_class pre_hook (post_hook ascii_class) 10 "AttributeRequirement"
                   (JObj [($"name", JStr $"attr.worker.os.family"); ($"anyOf", JArr [JStr $"linux"])])) = true
  /\ is_ok (parse_cls Generated.schema ascii_class pre_hook (post_hook ascii_class) 10 "AttributeRequirementTemplate"
                      (JObj [($"name", JStr $"attr.worker.os.family"); ($"anyOf", JArr [JStr $"linux"])])) = true.
Proof. vm_compute. split; reflexivity. Qed.
