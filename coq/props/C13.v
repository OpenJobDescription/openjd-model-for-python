(* props/C13.v — IntRangeExpr is a consistent finite sequence with a canonical text form.
   IsExpr e (RangeExpr.v) := e was built by IntRangeExpr.__init__ (flag-off mk_expr) from IntRange
   objects; C13_parse_is_expr / C13_from_list show that from_str and from_list produce such e.
   elems e = what iteration yields (chain of the ranges);  elen e = len(e);  getitem e i = e[i];
   expr_tokens e = the tokens of str(e). *)
From Coq Require Import List NArith ZArith.
Import ListNotations.
Require Import OJD.Base OJD.Lexer OJD.RangeExpr OJD.RangeExprSpec OJD.RangeExprProofs.
Local Open Scope Z_scope.

(* "12-12:5,10-1:-3,0" : a one-value stepped range, a descending range, a single value *)
Definition w4 : list tok :=
  [TPosInt 12; THyphen; TPosInt 12; TColon; TPosInt 5; TComma;
   TPosInt 10; THyphen; TPosInt 1; TColon; THyphen; TPosInt 3; TComma; TPosInt 0].

Theorem C13_parse_is_expr : forall ts e, parse_tokens false false ts = Ok e -> IsExpr e.
Proof. exact parse_tokens_IsExpr. Qed.
Print Assumptions C13_parse_is_expr.

(* the hypothesis IsExpr of the theorems below is met by a non-trivial expression *)
Example C13_IsExpr_nonvacuous :
  exists e, IsExpr e /\ elems e = [0; 10; 7; 4; 1; 12] /\ elen e = 6 /\
            getitem e (-2) = Ok 1 /\ getitem e 6 = Raise IndexError /\
            expr_tokens e = [TPosInt 0; TComma; TPosInt 10; THyphen; TPosInt 1; TColon; THyphen; TPosInt 3; TComma; TPosInt 12].
Proof.
  assert (H : exists e, parse_tokens false false w4 = Ok e) by (eexists; vm_compute; reflexivity).
  destruct H as (e & H). exists e. split; [exact (parse_tokens_IsExpr _ _ H)|].
  vm_compute in H. inversion H; subst e. repeat split; vm_compute; reflexivity.
Qed.

(* len(r) = number of values iteration yields *)
Theorem C13_len : forall e, IsExpr e -> elen e = Z.of_nat (length (elems e)).
Proof. exact len_correct. Qed.
Print Assumptions C13_len.

(* r[i] = the i-th iterated value (Python index normalisation) for -len <= i < len, IndexError otherwise *)
Theorem C13_getitem :
  forall e i, IsExpr e ->
    (- elen e <= i < elen e -> getitem e i = Ok (nth (Z.to_nat (i mod elen e)) (elems e) 0)) /\
    (~ (- elen e <= i < elen e) -> getitem e i = Raise IndexError).
Proof. exact getitem_correct. Qed.
Print Assumptions C13_getitem.

(* str(r) is a valid expression that parses back to the same values in the same order *)
Theorem C13_str_roundtrip :
  forall e, IsExpr e ->
    exists e', parse_tokens false false (expr_tokens e) = Ok e' /\ elems e' = elems e.
Proof. exact str_roundtrip. Qed.
Print Assumptions C13_str_roundtrip.

(* from_list of a non-empty list: an IntRangeExpr whose values are the sorted distinct integers *)
Theorem C13_from_list :
  forall vs, vs <> [] ->
    exists e, from_list false false vs = Ok e /\ elems e = sort_dedup vs /\ IsExpr e.
Proof. exact from_list_correct. Qed.
Print Assumptions C13_from_list.

(* ... where sort_dedup vs is THE strictly increasing list with the same members as vs *)
Theorem C13_sort_dedup_spec :
  forall vs,
    strictly_increasing (sort_dedup vs) /\
    (forall x, In x (sort_dedup vs) <-> In x vs) /\
    (forall l, strictly_increasing l -> (forall x, In x l <-> In x vs) -> l = sort_dedup vs).
Proof. exact sort_dedup_spec. Qed.
Print Assumptions C13_sort_dedup_spec.

Example C13_from_list_nonvacuous :
  (exists e, from_list false false [1; 2; 4] = Ok e /\ elems e = [1; 2; 4]) /\
  (exists e, from_list false false [5; 5] = Ok e /\ elems e = [5]) /\
  (exists e, from_list false false [4; -1; 1; 2; 4; 5; 3; 9] = Ok e /\ elems e = [-1; 1; 2; 3; 4; 5; 9]).
Proof.
  split; [|split].
  - eexists. split; [vm_compute; reflexivity|]. vm_compute. reflexivity.
  - eexists. split; [vm_compute; reflexivity|]. vm_compute. reflexivity.
  - eexists. split; [vm_compute; reflexivity|]. vm_compute. reflexivity.
Qed.

(* ---- regression documentation: the pinned (pre-fix) from_list violates the property ---- *)
(* defect #3 (fixed by ec66385): stale `end` after a run; `end` unbound when all values are equal *)
Theorem C13_pinned_from_list_refuted :
  (exists vs, vs <> [] /\ from_list false true vs = Raise ValueError) /\
  (exists vs, vs <> [] /\ from_list false true vs = Raise UnboundLocalError).
Proof.
  split; [exists [1; 2; 4]|exists [5; 5]]; (split; [discriminate|vm_compute; reflexivity]).
Qed.
Print Assumptions C13_pinned_from_list_refuted.
