(* ParamSpaceIdxProofs.v — the length-tree arithmetic (ParamSpaceIdx.v) is the value-list model
   (ParamSpace.v) with the values forgotten: for EVERY tree, [llen (shape t) = node_len t] and
   [lindex (shape t) i] raises exactly when [getitem t i] does and otherwise lists, entry by entry
   and in the same order, the position of the value that [getitem t i] holds.  Plus the closed
   form of pure products (mixed-radix digits). *)
From Coq Require Import ZArith List Bool Lia ZifyBool.
Import ListNotations.
Require Import OJD.Base OJD.ListLib OJD.ParamSpace OJD.ParamSpaceSpec OJD.ParamSpaceProofs
               OJD.ParamSpaceIdx OJD.ParamSpaceIdxSpec.
Local Open Scope Z_scope.

Section LtreeInd.
  Variable P : ltree -> Prop.
  Hypothesis HL : forall n l, P (LLeaf n l).
  Hypothesis HP : forall cs, Forall P cs -> P (LProd cs).
  Hypothesis HA : forall cs, Forall P cs -> P (LAssoc cs).
  Fixpoint ltree_ind2 (t : ltree) : P t :=
    match t with
    | LLeaf n l => HL n l
    | LProd cs => HP cs ((fix go (l : list ltree) : Forall P l :=
                            match l with [] => Forall_nil P | c :: r => Forall_cons c (ltree_ind2 c) (go r) end) cs)
    | LAssoc cs => HA cs ((fix go (l : list ltree) : Forall P l :=
                             match l with [] => Forall_nil P | c :: r => Forall_cons c (ltree_ind2 c) (go r) end) cs)
    end.
End LtreeInd.

Lemma set_is_gset : forall e k v, set e k v = gset e k v.
Proof.
  induction e as [|[k' v'] e IH]; intros k v; [reflexivity|].
  cbn [set gset]. rewrite IH. reflexivity.
Qed.

Lemma update_is_gupdate : forall s e, update e s = gupdate e s.
Proof.
  unfold update, gupdate. induction s as [|kv s IH]; intros e; [reflexivity|].
  cbn [fold_left]. rewrite set_is_gset. apply IH.
Qed.

Section Rel.
  Variables A B : Type.
  Variable R : str * A -> str * B -> Prop.
  Hypothesis Rkey : forall x y, R x y -> fst x = fst y.

  Lemma gset_rel : forall e p k v j,
    Forall2 R e p -> R (k, v) (k, j) -> Forall2 R (gset e k v) (gset p k j).
  Proof.
    intros e p k v j H. induction H as [|[k1 v1] [k2 v2] e p Hxy Hr IH]; intros Hk.
    - cbn [gset]. constructor; [exact Hk | constructor].
    - pose proof (Rkey _ _ Hxy) as Ek. cbn [fst] in Ek. subst k2.
      cbn [gset]. destruct (str_eqb k k1) eqn:E.
      + apply str_eqb_eq in E. subst k1. constructor; [exact Hk | exact Hr].
      + constructor; [exact Hxy | apply IH; exact Hk].
  Qed.

  Lemma gupdate_rel : forall s q e p,
    Forall2 R s q -> Forall2 R e p -> Forall2 R (gupdate e s) (gupdate p q).
  Proof.
    unfold gupdate. intros s q e p H. revert e p.
    induction H as [|[k1 v1] [k2 v2] s q Hxy Hr IH]; intros e p Hep; [exact Hep|].
    pose proof (Rkey _ _ Hxy) as Ek. cbn [fst] in Ek. subst k2.
    cbn [fold_left fst snd]. apply IH. apply gset_rel; assumption.
  Qed.
End Rel.

Lemma llen_loop_shape : forall cs acc,
  Forall (fun c => llen (shape c) = node_len c) cs ->
  llen_loop llen (map shape cs) acc = len_loop node_len cs acc.
Proof.
  induction cs as [|c cs IH]; intros acc H; [reflexivity|].
  inversion H as [|? ? Hc Hr]; subst. cbn [map llen_loop len_loop]. rewrite Hc.
  destruct (node_len c) as [n|x]; cbn [bind]; [apply IH; exact Hr | reflexivity].
Qed.

Theorem llen_shape : forall t, llen (shape t) = node_len t.
Proof.
  induction t as [n ty vs | cs IH | cs IH] using node_ind2.
  - reflexivity.
  - cbn [shape llen node_len]. apply llen_loop_shape. exact IH.
  - destruct cs as [|c cs]; [reflexivity|]. cbn [shape map llen node_len].
    inversion IH as [|? ? Hc _]; subst. exact Hc.
Qed.

Lemma Ent_key : forall t x y, Ent t x y -> fst x = fst y.
Proof. intros t x y [H _]. exact H. Qed.

Lemma Ent_child : forall (mk : list node -> node) cs c x y,
  leaves (mk cs) = flat_map leaves cs -> In c cs -> Ent c x y -> Ent (mk cs) x y.
Proof.
  intros mk cs c x y El Hin [Hk [vs [Hl Hr]]]. split; [exact Hk|]. exists vs. split; [|exact Hr].
  rewrite El. apply in_flat_map. exists c. split; assumption.
Qed.

(* two computations correspond: the same exception, or results related by R *)
Definition Corr {A B : Type} (R : A -> B -> Prop) (o : outcome A) (q : outcome B) : Prop :=
  match q with
  | Ok b => exists a, o = Ok a /\ R a b
  | Raise x => o = Raise x
  end.

Lemma Corr_bind : forall (A B A' B' : Type) (R : A -> B -> Prop) (S : A' -> B' -> Prop) o q f g,
  Corr R o q -> (forall a b, R a b -> Corr S (f a) (g b)) -> Corr S (bind o f) (bind q g).
Proof.
  intros A B A' B' R S o q f g H Hfg. destruct q as [b|x]; cbn [bind].
  - destruct H as [a [-> Hab]]. apply Hfg. exact Hab.
  - rewrite H. reflexivity.
Qed.

Lemma Corr_eq : forall (A : Type) (o : outcome A), Corr eq o o.
Proof. intros A [a|x]; [exists a; split|]; reflexivity. Qed.

Lemma Corr_impl : forall (A B : Type) (R S : A -> B -> Prop) o q, (forall a b, R a b -> S a b) -> Corr R o q -> Corr S o q.
Proof. intros A B R S o [b|x] H Hc; [|exact Hc]. destruct Hc as [a [E Hab]]. exists a. split; [exact E | apply H; exact Hab]. Qed.

Definition CorrR (R : str * pval -> str * Z -> Prop) (c : node) : Prop :=
  forall i, Corr (Forall2 R) (getitem c i) (lindex (shape c) i).

Section Loops.
  Variable R : str * pval -> str * Z -> Prop.
  Hypothesis Rkey : forall x y, R x y -> fst x = fst y.

  Lemma update_corr : forall res pres e pe, Forall2 R res pres -> Forall2 R e pe ->
    Forall2 R (update res e) (gupdate pres pe).
  Proof. intros. rewrite update_is_gupdate. apply gupdate_rel; assumption. Qed.

  Lemma prod_tail_corr : forall cs, Forall (CorrR R) cs ->
    forall index res pres, Forall2 R res pres ->
    Corr (fun a b => fst a = fst b /\ Forall2 R (snd a) (snd b))
         (prod_get_tail getitem cs index res) (lprod_tail lindex (map shape cs) index pres).
  Proof.
    induction cs as [|c cs IH]; intros H index res pres Hres.
    - exists (index, res). repeat split. exact Hres.
    - inversion H as [|? ? Hc Hr]; subst. cbn [map lprod_tail prod_get_tail].
      eapply Corr_bind; [exact (IH Hr index res pres Hres)|]. intros [q e] [q' p] [Eq F]. cbn [fst snd] in *. subst q'.
      rewrite llen_shape. eapply Corr_bind; [apply Corr_eq|]. intros cl _ <-.
      destruct (cl =? 0); [reflexivity|].
      eapply Corr_bind; [apply Hc|]. intros e' pe Fe.
      eexists. split; [reflexivity|]. split; [reflexivity | apply update_corr; assumption].
  Qed.

  Lemma prod_get_corr : forall cs, Forall (CorrR R) cs -> forall index,
    Corr (Forall2 R) (prod_get getitem cs index) (lprod_get lindex (map shape cs) index).
  Proof.
    intros [|c0 rest] H index.
    - exists []. split; [reflexivity | constructor].
    - inversion H as [|? ? Hc Hr]; subst. cbn [map lprod_get prod_get].
      eapply Corr_bind; [exact (prod_tail_corr rest Hr index [] [] (Forall2_nil R))|].
      intros [q e] [q' p] [Eq F]. cbn [fst snd] in *. subst q'.
      eapply Corr_bind; [apply Hc|]. intros e' pe Fe.
      eexists. split; [reflexivity | apply update_corr; assumption].
  Qed.

  Lemma assoc_get_corr : forall cs, Forall (CorrR R) cs ->
    forall i res pres, Forall2 R res pres ->
    Corr (Forall2 R) (assoc_get getitem cs i res) (lassoc_get lindex (map shape cs) i pres).
  Proof.
    induction cs as [|c cs IH]; intros H i res pres Hres.
    - exists res. split; [reflexivity | exact Hres].
    - inversion H as [|? ? Hc Hr]; subst. cbn [map lassoc_get assoc_get].
      eapply Corr_bind; [apply Hc|]. intros e pe Fe. apply (IH Hr). apply update_corr; assumption.
  Qed.
End Loops.

Lemma leaf_pos_spec : forall (vs : list value) i,
  Corr (fun v j => 0 <= j < Z.of_nat (length vs) /\ v = nth (Z.to_nat j) vs [])
       (py_index vs i) (leaf_pos (Z.of_nat (length vs)) i).
Proof.
  intros vs i. unfold leaf_pos, py_index.
  set (len := Z.of_nat (length vs)). set (j := if i <? 0 then len + i else i).
  destruct ((0 <=? j) && (j <? len)) eqn:T; [|reflexivity].
  assert (Hj : 0 <= j < len) by lia. eexists. split; [|split; [exact Hj | reflexivity]].
  rewrite (nth_error_nth' vs []) by (unfold len in Hj; lia). reflexivity.
Qed.

(* EVERY tree (no assumption on names, lengths or arities) and every index *)
Theorem lindex_getitem_rel : forall t i,
  match lindex (shape t) i with
  | Ok pos => exists env, getitem t i = Ok env /\ Forall2 (Ent t) env pos
  | Raise x => getitem t i = Raise x
  end.
Proof.
  intros t. change (CorrR (Ent t) t).
  induction t as [n ty vs | cs IH | cs IH] using node_ind2; intros i.
  - cbn [shape lindex getitem]. eapply Corr_bind; [apply leaf_pos_spec|]. intros v j [Hj ->].
    eexists. split; [reflexivity|]. constructor; [|constructor]. split; [reflexivity|]. exists vs. cbn [fst snd leaves].
    split; [left; reflexivity|]. split; [exact Hj | reflexivity].
  - assert (Hch : Forall (CorrR (Ent (Prod cs))) cs).
    { rewrite Forall_forall in *. intros c Hc j. apply (Corr_impl _ _ (Forall2 (Ent c))); [|exact (IH c Hc j)].
      intros e p. apply Forall2_impl. intros x y. apply (Ent_child Prod); [reflexivity | exact Hc]. }
    cbn [getitem shape lindex]. rewrite <- (llen_shape (Prod cs)). cbn [shape].
    eapply Corr_bind; [apply Corr_eq|]. intros len _ <-.
    cbv zeta. destruct (_ && _); [|reflexivity].
    apply (prod_get_corr _ (Ent_key (Prod cs)) cs Hch).
  - assert (Hch : Forall (CorrR (Ent (Assoc cs))) cs).
    { rewrite Forall_forall in *. intros c Hc j. apply (Corr_impl _ _ (Forall2 (Ent c))); [|exact (IH c Hc j)].
      intros e p. apply Forall2_impl. intros x y. apply (Ent_child Assoc); [reflexivity | exact Hc]. }
    cbn [shape lindex getitem].
    apply (assoc_get_corr _ (Ent_key (Assoc cs)) cs Hch i [] [] (Forall2_nil _)).
Qed.

Lemma value_at_leaf : forall t n ty vs j, NoDup (names t) -> In (n, ty, vs) (leaves t) ->
  value_at t n j = (ty, nth (Z.to_nat j) vs []).
Proof.
  intros t n ty vs j ND Hin. unfold value_at.
  rewrite <- names_of_leaves in ND.
  pose proof (find_param_in (leaves t) (n, ty, vs) ND Hin) as E. unfold pname in E. cbn [fst] in E.
  rewrite E. reflexivity.
Qed.

Lemma Ent_env_at : forall t env pos, NoDup (names t) -> Forall2 (Ent t) env pos -> env = env_at t pos.
Proof.
  intros t env pos ND F. induction F as [|[n [ty v]] [m j] env pos Hxy _ IH]; [reflexivity|].
  unfold env_at. cbn [map fst snd]. fold (env_at t pos). rewrite <- IH.
  destruct Hxy as [Hk [vs [Hl [_ Hv]]]]. cbn [fst snd] in *. subst m.
  rewrite (value_at_leaf t n ty vs j ND Hl). rewrite Hv. reflexivity.
Qed.

(* positions always lie inside the range of a leaf of that name (every tree) *)
Theorem lindex_in_range : forall t i pos, lindex (shape t) i = Ok pos ->
  Forall (fun np => exists ty vs, In (fst np, ty, vs) (leaves t) /\ 0 <= snd np < Z.of_nat (length vs)) pos.
Proof.
  intros t i pos E. pose proof (lindex_getitem_rel t i) as H. rewrite E in H.
  destruct H as [env [_ F]]. clear E. induction F as [|x y env pos Hxy _ IH]; constructor; [|exact IH].
  destruct Hxy as [Hk [vs [Hl [Hr _]]]]. exists (fst (snd x)), vs. rewrite <- Hk. split; assumption.
Qed.

(* distinct parameter names: obj[i] is the dict of positions read through the leaves' ranges *)
Theorem lindex_getitem : forall t i, NoDup (names t) ->
  getitem t i = match lindex (shape t) i with
                | Ok pos => Ok (env_at t pos)
                | Raise x => Raise x
                end.
Proof.
  intros t i ND. pose proof (lindex_getitem_rel t i) as H.
  destruct (lindex (shape t) i) as [pos|x]; [|exact H].
  destruct H as [env [E F]]. rewrite E. f_equal. apply Ent_env_at; assumption.
Qed.

Theorem lindex_getitem_iff : forall t i, NoDup (names t) ->
  (forall env, getitem t i = Ok env <-> exists pos, lindex (shape t) i = Ok pos /\ env = env_at t pos) /\
  (forall x, getitem t i = Raise x <-> lindex (shape t) i = Raise x).
Proof.
  intros t i ND. rewrite (lindex_getitem t i ND). destruct (lindex (shape t) i) as [pos|y]; split.
  - intros env. split.
    + intros E. inversion E; subst. exists pos. split; reflexivity.
    + intros [pos' [E ->]]. inversion E; subst. reflexivity.
  - intros x. split; intros E; discriminate E.
  - intros env. split; [intros E; discriminate E | intros [pos [E _]]; discriminate E].
  - intros x. split; intros E; inversion E; reflexivity.
Qed.

(* valid trees: through C07_getitem, the positions select the (i mod len)-th set of the denotation *)
Theorem lindex_denote : forall t i, valid t ->
  let len := Z.of_nat (length (denote t)) in
  llen (shape t) = Ok len /\
  (- len <= i < len ->
     exists pos, lindex (shape t) i = Ok pos /\ getitem t i = Ok (env_at t pos) /\
                 env_at t pos ≈ nth (Z.to_nat (i mod len)) (denote t) []) /\
  (~ (- len <= i < len) -> lindex (shape t) i = Raise IndexError).
Proof.
  intros t i V len. pose proof V as [ND W].
  destruct (getitem_correct t i V) as [Hin Hout]. fold len in Hin, Hout.
  pose proof (lindex_getitem t i ND) as G.
  split; [rewrite llen_shape; apply len_correct; exact V|]. split; intros H.
  - destruct (Hin H) as [e [Ee Q]]. rewrite Ee in G.
    destruct (lindex (shape t) i) as [pos|x]; [|discriminate G].
    inversion G; subst. exists pos. split; [reflexivity|]. split; [exact Ee | exact Q].
  - rewrite (Hout H) in G. destruct (lindex (shape t) i) as [pos|x]; [discriminate G|].
    inversion G; reflexivity.
Qed.

Definition pkeys {A : Type} (e : list (str * A)) : list str := map fst e.

Lemma pkeys_gset : forall (A : Type) (e : list (str * A)) k v x,
  In x (pkeys (gset e k v)) <-> In x (pkeys e) \/ x = k.
Proof.
  intros A. induction e as [|[k' v'] e IH]; intros k v x; cbn [gset pkeys map fst In].
  - split; [intros [H|[]]; right; symmetry; exact H | intros [[]|H]; left; symmetry; exact H].
  - destruct (str_eqb k k') eqn:E; cbn [map fst In].
    + apply str_eqb_eq in E. subst k'. fold (pkeys e). split; [tauto|]. intros [H|H]; [exact H | left; symmetry; exact H].
    + fold (pkeys (gset e k v)) (pkeys e). rewrite IH. tauto.
Qed.

Lemma NoDup_gset : forall (A : Type) (e : list (str * A)) k v, NoDup (pkeys e) -> NoDup (pkeys (gset e k v)).
Proof.
  intros A. induction e as [|[k' v'] e IH]; intros k v H; cbn [gset].
  - cbn. constructor; [intros [] | constructor].
  - cbn [pkeys map fst] in H. inversion H as [|? ? Hn Hd]; subst. fold (pkeys e) in Hn, Hd.
    destruct (str_eqb k k') eqn:E; cbn [pkeys map fst].
    + constructor; assumption.
    + fold (pkeys (gset e k v)). constructor; [|apply IH; exact Hd].
      rewrite pkeys_gset. intros [Hx|Hx]; [contradiction|]. subst k'. rewrite str_eqb_refl in E. discriminate E.
Qed.

Lemma pkeys_gupdate : forall (A : Type) (s e : list (str * A)) x,
  In x (pkeys (gupdate e s)) <-> In x (pkeys e) \/ In x (pkeys s).
Proof.
  intros A. unfold gupdate. induction s as [|[k v] s IH]; intros e x; cbn [fold_left fst snd].
  - cbn. tauto.
  - rewrite IH, pkeys_gset. cbn [pkeys map fst In]. fold (pkeys s). split; intros H; [|destruct H as [H|[H|H]]; auto].
    destruct H as [[H|H]|H]; auto.
Qed.

Lemma NoDup_gupdate : forall (A : Type) (s e : list (str * A)), NoDup (pkeys e) -> NoDup (pkeys (gupdate e s)).
Proof.
  intros A. unfold gupdate. induction s as [|[k v] s IH]; intros e H; [exact H|].
  cbn [fold_left fst snd]. apply IH. apply NoDup_gset. exact H.
Qed.

Definition Keyed (res : penv) (ns : list str) (p : penv) : Prop :=
  NoDup (pkeys p) /\ forall n, In n (pkeys p) <-> In n (pkeys res) \/ In n ns.

Definition KeysOK (c : ltree) : Prop := forall i p, lindex c i = Ok p -> Keyed [] (lnames c) p.

Lemma Keyed_update : forall res ns p c pe, Keyed res ns p -> Keyed [] (lnames c) pe ->
  Keyed res (lnames c ++ ns) (gupdate p pe).
Proof.
  intros res ns p c pe [N K] [_ Kc]. split; [apply NoDup_gupdate; exact N|].
  intros n. rewrite pkeys_gupdate, K, Kc, in_app_iff. cbn. tauto.
Qed.

Lemma lprod_tail_keys : forall cs, Forall KeysOK cs -> forall index res q p,
  NoDup (pkeys res) -> lprod_tail lindex cs index res = Ok (q, p) -> Keyed res (flat_map lnames cs) p.
Proof.
  induction cs as [|c cs IH]; intros H index res q p Hres E.
  - cbn in E. inversion E; subst. split; [exact Hres|]. intros n. cbn. tauto.
  - inversion H as [|? ? Hc Hr]; subst. cbn [lprod_tail] in E.
    apply bind_ok in E. destruct E as [[q1 p1] [Et E]]. apply bind_ok in E. destruct E as [cl [_ E]].
    destruct (cl =? 0); [discriminate E|]. apply bind_ok in E. destruct E as [pe [Ec E]].
    inversion E; subst. apply Keyed_update; [exact (IH Hr _ _ _ _ Hres Et) | exact (Hc _ _ Ec)].
Qed.

Lemma lassoc_get_keys : forall cs, Forall KeysOK cs -> forall i res p,
  NoDup (pkeys res) -> lassoc_get lindex cs i res = Ok p -> Keyed res (flat_map lnames cs) p.
Proof.
  induction cs as [|c cs IH]; intros H i res p Hres E.
  - cbn in E. inversion E; subst. split; [exact Hres|]. intros n. cbn. tauto.
  - inversion H as [|? ? Hc Hr]; subst. cbn [lassoc_get] in E. apply bind_ok in E. destruct E as [pe [Ec E]].
    destruct (Hc _ _ Ec) as [_ Kc].
    destruct (IH Hr i _ p (NoDup_gupdate _ pe res Hres) E) as [N1 K1].
    split; [exact N1|]. intros n. rewrite K1, pkeys_gupdate, Kc. cbn [flat_map]. rewrite in_app_iff. cbn. tauto.
Qed.

Lemma lindex_keyed : forall c, KeysOK c.
Proof.
  induction c as [n l | cs IH | cs IH] using ltree_ind2; intros i p E; cbn [lindex] in E.
  - apply bind_ok in E. destruct E as [j [_ E]]. inversion E; subst. unfold Keyed. cbn.
    split; [constructor; [intros [] | constructor] | tauto].
  - apply bind_ok in E. destruct E as [len [_ E]]. cbv zeta in E. destruct (_ && _); [|discriminate E].
    destruct cs as [|c0 rest]; cbn [lprod_get] in E.
    + inversion E; subst. unfold Keyed. cbn. split; [constructor | tauto].
    + inversion IH as [|? ? H0 Hr]; subst. apply bind_ok in E. destruct E as [[q1 p1] [Et E]].
      apply bind_ok in E. destruct E as [pe [Ec E]]. inversion E; subst. cbn [fst snd lnames flat_map].
      apply Keyed_update; [exact (lprod_tail_keys rest Hr _ [] q1 p1 (NoDup_nil _) Et) | exact (H0 _ _ Ec)].
  - exact (lassoc_get_keys cs IH i [] p (NoDup_nil _) E).
Qed.

(* every leaf gets a position and nothing else does; a name is never listed twice (every length tree) *)
Theorem lindex_keys : forall c i p, lindex c i = Ok p ->
  NoDup (pkeys p) /\ forall n, In n (pkeys p) <-> In n (lnames c).
Proof. intros c i p E. destruct (lindex_keyed c i p E) as [N K]. split; [exact N|]. intros n. rewrite K. cbn. tauto. Qed.

Lemma lnames_shape : forall t, lnames (shape t) = names t.
Proof.
  induction t as [n ty vs | cs IH | cs IH] using node_ind2; [reflexivity| |];
    cbn [shape lnames names]; induction IH as [|c cs Hc _ IHl]; cbn [map flat_map]; try reflexivity;
    rewrite Hc, IHl; reflexivity.
Qed.

Lemma llen_loop_nonzero : forall cs acc v, llen_loop llen cs acc = Ok v -> v <> 0 ->
  acc <> 0 /\ Forall (fun c => exists l, llen c = Ok l /\ l <> 0) cs.
Proof.
  induction cs as [|c cs IH]; intros acc v E Hv; cbn [llen_loop] in E.
  - inversion E; subst. split; [exact Hv | constructor].
  - apply bind_ok in E. destruct E as [n [En E]].
    destruct (IH _ _ E Hv) as [Hacc HF]. split; [nia|]. constructor; [exists n; split; [exact En | nia] | exact HF].
Qed.

Lemma llen_raises : forall t, OnlyIndexError (llen t).
Proof.
  induction t as [n l | cs IH | cs IH] using ltree_ind2; cbn [llen].
  - apply OnlyIndexError_ok.
  - generalize 1. induction IH as [|c cs Hc _ IHl]; intros acc; cbn [llen_loop]; [apply OnlyIndexError_ok|].
    apply OnlyIndexError_bind; [exact Hc|]. intros n _. apply IHl.
  - destruct IH as [|c cs Hc _]; [intros x E; congruence | exact Hc].
Qed.

Lemma lprod_tail_raises : forall cs,
  Forall (fun c => exists l, llen c = Ok l /\ l <> 0) cs ->
  Forall (fun c => forall i, OnlyIndexError (lindex c i)) cs ->
  forall index res, OnlyIndexError (lprod_tail lindex cs index res).
Proof.
  induction cs as [|c cs IH]; intros Hl H index res; [apply OnlyIndexError_ok|].
  inversion Hl as [|? ? [l [El Hnz]] Hlr]; inversion H as [|? ? Hc Hr]; subst. cbn [lprod_tail].
  apply OnlyIndexError_bind; [apply (IH Hlr Hr)|]. intros ir _. rewrite El. cbn [bind].
  destruct (Z.eqb_spec l 0) as [|_]; [contradiction|].
  apply OnlyIndexError_bind; [apply Hc|]. intros e _. apply OnlyIndexError_ok.
Qed.

(* every length tree, negative "lengths" included: obj[i] raises nothing but IndexError; past the bounds
   test the product of the child lengths is not zero, so no child length is *)
Theorem lindex_raises : forall t i, OnlyIndexError (lindex t i).
Proof.
  induction t as [n l | cs IH | cs IH] using ltree_ind2; intros i; cbn [lindex].
  - apply OnlyIndexError_bind; [|intros j _; apply OnlyIndexError_ok].
    unfold leaf_pos. destruct (_ && _); intros x E; congruence.
  - apply OnlyIndexError_bind; [apply llen_raises|]. intros len EL. cbv zeta.
    destruct (_ && _) eqn:T; [|intros x E; congruence].
    destruct (llen_loop_nonzero cs 1 len EL ltac:(lia)) as [_ Hnz].
    destruct cs as [|c0 rest]; cbn [lprod_get]; [apply OnlyIndexError_ok|].
    inversion IH as [|? ? H0 Hrest]; inversion Hnz as [|? ? _ Hnzr]; subst.
    apply OnlyIndexError_bind; [apply lprod_tail_raises; assumption|]. intros ir _.
    apply OnlyIndexError_bind; [apply H0|]. intros e _. apply OnlyIndexError_ok.
  - generalize (@nil (str * Z)). induction IH as [|c cs Hc _ IHl]; intros res; cbn [lassoc_get]; [apply OnlyIndexError_ok|].
    apply OnlyIndexError_bind; [apply Hc|]. intros e _. apply IHl.
Qed.

(* ZeroDivisionError (modelled as RuntimeError) is unreachable *)
Theorem lindex_no_zero_division : forall t i, lindex t i <> Raise RuntimeError.
Proof. intros t i E. apply lindex_raises in E. discriminate E. Qed.

Lemma zprod_cons : forall l ls, zprod (l :: ls) = l * zprod ls.
Proof. reflexivity. Qed.

Lemma zprod_pos : forall lens, Forall (fun l => 0 < l) lens -> 0 < zprod lens.
Proof.
  induction lens as [|l ls IH]; intros H; [cbn; lia|].
  inversion H as [|? ? Hl Hr]; subst. rewrite zprod_cons. specialize (IH Hr). nia.
Qed.

Lemma radix_length : forall lens j, length (radix lens j) = length lens.
Proof. induction lens as [|l ls IH]; intros j; cbn [radix length]; [reflexivity | rewrite IH; reflexivity]. Qed.

Lemma radix_range : forall lens j, Forall (fun l => 0 < l) lens ->
  Forall2 (fun d l => 0 <= d < l) (radix lens j) lens.
Proof.
  induction lens as [|l ls IH]; intros j H; cbn [radix]; [constructor|].
  inversion H as [|? ? Hl Hr]; subst. constructor; [apply Z.mod_pos_bound; exact Hl | apply IH; exact Hr].
Qed.

Lemma horner_radix : forall lens j, Forall (fun l => 0 < l) lens ->
  horner lens (radix lens j) = j mod zprod lens.
Proof.
  induction lens as [|l ls IH]; intros j H.
  - cbn [radix horner zprod fold_right]. rewrite Z.mod_1_r. reflexivity.
  - inversion H as [|? ? Hl Hr]; subst. cbn [radix horner]. rewrite (IH j Hr), zprod_cons.
    pose proof (zprod_pos ls Hr) as HP.
    rewrite (Z.mul_comm l (zprod ls)), Z.rem_mul_r by lia. ring.
Qed.

Lemma horner_bound : forall lens ds, Forall2 (fun d l => 0 <= d < l) ds lens ->
  0 <= horner lens ds < zprod lens.
Proof.
  intros lens ds F. induction F as [|d l ds ls Hd _ IH].
  - cbn. lia.
  - cbn [horner]. rewrite zprod_cons. nia.
Qed.

Lemma radix_shift : forall lens j k, Forall (fun l => 0 < l) lens ->
  radix lens (j + k * zprod lens) = radix lens j.
Proof.
  induction lens as [|l ls IH]; intros j k H; [reflexivity|].
  inversion H as [|? ? Hl Hr]; subst. pose proof (zprod_pos ls Hr) as HP.
  cbn [radix]. rewrite zprod_cons.
  replace (j + k * (l * zprod ls)) with (j + (k * l) * zprod ls) by ring.
  rewrite (IH j (k * l) Hr). f_equal.
  rewrite Z.div_add by lia. apply Z.mod_add. lia.
Qed.

Lemma radix_horner : forall lens ds, Forall2 (fun d l => 0 <= d < l) ds lens ->
  radix lens (horner lens ds) = ds.
Proof.
  intros lens ds F. induction F as [|d l ds ls Hd Fr IH]; [reflexivity|].
  assert (Hpos : Forall (fun l => 0 < l) ls).
  { clear - Fr. induction Fr as [|d l ds ls Hd _ IH]; constructor; [lia | exact IH]. }
  pose proof (zprod_pos ls Hpos) as HP. pose proof (horner_bound ls ds Fr) as HB.
  cbn [horner radix]. f_equal.
  - rewrite (Z.add_comm (d * zprod ls)), Z.div_add by lia. rewrite (Z.div_small (horner ls ds)) by lia.
    apply Z.mod_small. lia.
  - rewrite (Z.add_comm (d * zprod ls)), radix_shift by exact Hpos. exact IH.
Qed.

(* the digits of j: the unique list of in-range digits whose nested multiply-add is j *)
Theorem radix_spec : forall lens j, Forall (fun l => 0 < l) lens -> 0 <= j < zprod lens ->
  Forall2 (fun d l => 0 <= d < l) (radix lens j) lens /\
  horner lens (radix lens j) = j /\
  forall ds, Forall2 (fun d l => 0 <= d < l) ds lens -> horner lens ds = j -> ds = radix lens j.
Proof.
  intros lens j H Hj. split; [apply radix_range; exact H|]. split.
  - rewrite horner_radix by exact H. apply Z.mod_small. exact Hj.
  - intros ds F E. rewrite <- E. symmetry. apply radix_horner. exact F.
Qed.

Lemma llen_loop_leaves : forall nls acc,
  llen_loop llen (map lleaf_of nls) acc = Ok (acc * zprod (map snd nls)).
Proof.
  induction nls as [|[n l] nls IH]; intros acc.
  - cbn. f_equal. lia.
  - cbn [map llen_loop lleaf_of llen bind fst snd]. rewrite IH, zprod_cons. f_equal. ring.
Qed.

Lemma gset_fresh : forall (A : Type) (e : list (str * A)) k v, ~ In k (pkeys e) -> gset e k v = e ++ [(k, v)].
Proof.
  intros A. induction e as [|[k' v'] e IH]; intros k v H; [reflexivity|].
  cbn [gset]. cbn [pkeys map fst In] in H. destruct (str_eqb k k') eqn:E.
  - apply str_eqb_eq in E. exfalso. apply H. left. symmetry. exact E.
  - cbn [app]. f_equal. apply IH. intro Hin. apply H. right. exact Hin.
Qed.

Lemma leaf_pos_in : forall l j, 0 <= j < l -> leaf_pos l j = Ok j.
Proof.
  intros l j H. unfold leaf_pos. destruct (j <? 0) eqn:E; [lia|].
  destruct ((0 <=? j) && (j <? l)) eqn:T; [reflexivity | lia].
Qed.

Lemma in_pkeys_combine : forall (ns : list str) (ds : list Z) res n,
  In n (pkeys (res ++ rev (combine ns ds))) -> In n (pkeys res) \/ In n ns.
Proof.
  intros ns ds res n H. unfold pkeys in *. rewrite map_app, in_app_iff in H.
  destruct H as [H|H]; [left; exact H | right].
  rewrite map_rev, <- in_rev in H. apply in_map_iff in H. destruct H as [[a b] [Ea Hab]].
  apply in_combine_l in Hab. cbn [fst] in Ea. subst a. exact Hab.
Qed.

Lemma lprod_tail_leaves : forall nls index res,
  Forall (fun nl => 0 < snd nl) nls ->
  NoDup (map fst nls) -> (forall n, In n (map fst nls) -> ~ In n (pkeys res)) ->
  lprod_tail lindex (map lleaf_of nls) index res
  = Ok (index / zprod (map snd nls), res ++ rev (combine (map fst nls) (radix (map snd nls) index))).
Proof.
  induction nls as [|[n l] nls IH]; intros index res H ND Hf.
  - cbn [map lprod_tail zprod fold_right radix combine rev]. rewrite Z.div_1_r, app_nil_r. reflexivity.
  - inversion H as [|? ? Hl Hr]; subst. cbn [map fst snd] in *. inversion ND as [|? ? Hn Hd]; subst.
    assert (Hpos : Forall (fun l => 0 < l) (map snd nls)) by (rewrite Forall_map; exact Hr).
    pose proof (zprod_pos _ Hpos) as HP.
    cbn [lprod_tail]. rewrite (IH index res Hr Hd) by (intros m Hm; apply Hf; right; exact Hm).
    cbn [bind fst snd lleaf_of llen]. destruct (l =? 0) eqn:Ez; [lia|].
    unfold lleaf_of. cbn [fst snd lindex]. rewrite leaf_pos_in by (apply Z.mod_pos_bound; lia). cbn [bind].
    unfold gupdate. cbn [fold_left fst snd]. rewrite gset_fresh.
    + f_equal. f_equal.
      * rewrite zprod_cons, Z.div_div by lia. f_equal. ring.
      * cbn [radix combine rev]. rewrite app_assoc. reflexivity.
    + intro Hin. apply in_pkeys_combine in Hin. destruct Hin as [Hin|Hin]; [|contradiction].
      apply (Hf n); [left; reflexivity | exact Hin].
Qed.

(* A1 * A2 * ... * Ak over leaves of lengths l1 .. lk > 0 with distinct names: len is the product, and
   obj[i] selects in leaf Am the digit (j / (l(m+1) * ... * lk)) mod lm of j = i mod len (the dict lists the
   right-most leaf first: that is the order of the result.update calls) *)
Theorem lindex_product : forall nls i,
  NoDup (map fst nls) -> Forall (fun nl => 0 < snd nl) nls ->
  let total := zprod (map snd nls) in
  llen (lprod_of nls) = Ok total /\
  (- total <= i < total ->
     lindex (lprod_of nls) i = Ok (rev (combine (map fst nls) (radix (map snd nls) (i mod total))))) /\
  (~ (- total <= i < total) -> lindex (lprod_of nls) i = Raise IndexError).
Proof.
  intros nls i ND H total. unfold lprod_of.
  assert (Hlen : llen (LProd (map lleaf_of nls)) = Ok total).
  { cbn [llen]. rewrite llen_loop_leaves. f_equal. unfold total. lia. }
  split; [exact Hlen|].
  cbn [lindex]. rewrite Hlen. cbn [bind].
  destruct (index_bounds penv (lprod_get lindex (map lleaf_of nls)) total i) as [Hin Hout].
  split; intros Hi; [|exact (Hout Hi)]. rewrite (Hin Hi).
  pose proof (Z.mod_pos_bound i total ltac:(lia)) as Hj. revert Hj. generalize (i mod total) as j. intros j Hj.
  destruct nls as [|[n0 l0] rest]; [reflexivity|].
  inversion H as [|? ? Hl Hr]; subst. cbn [map fst snd] in *. inversion ND as [|? ? Hn Hd]; subst.
  assert (Hpos : Forall (fun l => 0 < l) (map snd rest)) by (rewrite Forall_map; exact Hr).
  pose proof (zprod_pos _ Hpos) as HP.
  cbn [lprod_get]. rewrite (lprod_tail_leaves rest j [] Hr Hd) by (intros m _ []).
  cbn [bind fst snd app]. unfold lleaf_of. cbn [fst snd lindex].
  unfold total in Hj. rewrite zprod_cons in Hj.
  assert (Hq : 0 <= j / zprod (map snd rest) < l0).
  { split; [apply Z.div_pos; lia | apply Z.div_lt_upper_bound; lia]. }
  rewrite leaf_pos_in by exact Hq. cbn [bind]. unfold gupdate. cbn [fold_left fst snd].
  rewrite gset_fresh.
  - cbn [radix combine rev]. rewrite (Z.mod_small _ _ Hq). reflexivity.
  - intro Hin'. apply (in_pkeys_combine _ _ []) in Hin'. destruct Hin' as [[]|Hin']. contradiction.
Qed.

Theorem vprod_valid : forall nls,
  nls <> [] -> NoDup (map fst nls) -> Forall (fun nl => 0 < snd nl) nls ->
  valid (vprod_of nls) /\ shape (vprod_of nls) = lprod_of nls.
Proof.
  intros nls Hne ND H. unfold vprod_of, lprod_of. split; [split|].
  - cbn [names]. replace (flat_map names (map vleaf_of nls)) with (map fst nls); [exact ND|].
    clear. induction nls as [|[n l] nls IH]; [reflexivity|]. cbn [map flat_map vleaf_of names fst app]. rewrite <- IH. reflexivity.
  - apply WfProd; [destruct nls; [congruence | discriminate]|].
    rewrite Forall_map. rewrite Forall_forall in *. intros [n l] Hin. specialize (H _ Hin). cbn [snd] in H.
    unfold vleaf_of. cbn [fst snd]. apply WfLeaf.
    destruct (Z.to_nat l) as [|k] eqn:E; [lia | discriminate].
  - cbn [shape]. f_equal. rewrite map_map. apply map_ext_in. intros [n l] Hin.
    rewrite Forall_forall in H. specialize (H _ Hin). cbn [snd] in H.
    unfold vleaf_of, lleaf_of. cbn [fst snd shape]. rewrite repeat_length, Z2Nat.id by lia. reflexivity.
Qed.
