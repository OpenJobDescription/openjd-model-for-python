(* UsableParse.v — what "the node is accepted by its own class" (Export.parse_any on the node's export, the
   job-side re-validation of create_job) says for the two kinds of node of a parameter space:

     expr_def_node   a RangeExpressionTaskParameterDefinition node: its range string is a range expression
                     (Validators.range_expr_ok, the _validate_range_expression validator);
     space_node      a StepParameterSpace node with a combination: the dimension check
                     (StepParameterSpace._validate_parameter_space = Comb.dims_str) returns, over the lengths
                     [sps_entry] reads from the node's OWN definitions (the validator reads them from the
                     re-parsed copy; the two agree).
   The parser is inverted on the exported object (ConformNodes.cls2_open), for any pre-validator table and
   any fuel. *)
From Coq Require Import List NArith ZArith Bool String.
Import ListNotations.
Require Import OJD.Base OJD.Lexer OJD.Json OJD.Schema OJD.Charsets OJD.CreateJob OJD.Parse OJD.Validators
               OJD.AcceptMono OJD.DecodeInv OJD.CreateJobExactLib OJD.CreateJobExactCarried OJD.Comb
               OJD.ListLib OJD.ConformTyped OJD.ConformNodes OJD.UsableShape.
Local Open Scope string_scope.
Local Open Scope list_scope.

Definition def_alts : kind :=
  KUnion [UScalar (KModel "RangeListTaskParameterDefinition"); UScalar (KModel "RangeExpressionTaskParameterDefinition")].

Section DefClasses.
  Variable classify : N -> cclass.
  Variable pre : string -> json -> bool.
  Notation pk := (parse_kind G classify pre (post_hook classify)).
  Notation pc := (parse_cls G classify pre (post_hook classify)).

  Lemma expr_cls_inv : forall f ty r v',
    pc f "RangeExpressionTaskParameterDefinition" (JObj [($"type", JStr ty); ($"range", r)]) = Ok v' ->
    r <> JNull ->
    exists rs t', r = JStr rs /\ v' = MModel "RangeExpressionTaskParameterDefinition" [("type", t'); ("range", MFmt rs)].
  Proof.
    intros f ty r v' H Hn. destruct (range_expr_open _ _ _ _ _ _ _ H) as [f' [t' [x [-> [Hx _]]]]].
    apply parse_value_single in Hx; [|reflexivity|exact Hn]. apply kformat_inv in Hx. destruct Hx as [rs [-> ->]].
    exists rs, t'. split; reflexivity.
  Qed.

  Lemma list_cls_inv : forall f c ty r v', In c list_classes ->
    pc f c (JObj [($"type", JStr ty); ($"range", r)]) = Ok v' ->
    r <> JNull ->
    exists its t' l', r = JArr its /\ v' = MModel c [("type", t'); ("range", MList l')] /\
                      List.length l' = List.length its.
  Proof.
    intros f c ty r v' Hc H Hn. destruct (range_list_open _ _ _ _ _ _ _ _ Hc H) as [f' [t' [x [-> [Hx _]]]]].
    destruct (parse_value_ok _ _ _ _ Hx) as [[E _]|K]; [contradiction|].
    destruct (list_items_ok _ _ _ _ _ _ K) as [its [l' [-> [Hm ->]]]].
    exists its, t', l'. split; [reflexivity|]. split; [reflexivity|]. exact (mapM_length _ _ _ _ _ Hm).
  Qed.

  Lemma def_union_inv : forall f ty r y,
    pk f def_alts (JObj [($"type", JStr ty); ($"range", r)]) = Ok y -> r <> JNull ->
    (exists rs t', r = JStr rs /\ y = MModel "RangeExpressionTaskParameterDefinition" [("type", t'); ("range", MFmt rs)]) \/
    (exists its t' l', r = JArr its /\ y = MModel "RangeListTaskParameterDefinition" [("type", t'); ("range", MList l')] /\
                       List.length l' = List.length its).
  Proof.
    intros f ty r y H Hn. destruct f as [|f]; [discriminate H|]. unfold def_alts in H. rewrite parse_kind_S in H.
    apply try_alts_inv in H. destruct H as [a [Ha H]].
    destruct Ha as [<-|[<-|[]]]; cbn [alt_res] in H; (destruct f as [|f]; [discriminate H|]); rewrite parse_kind_S in H.
    - right. exact (list_cls_inv f _ ty r y (or_intror (or_intror (or_introl eq_refl))) H Hn).
    - left. exact (expr_cls_inv f ty r y H Hn).
  Qed.
End DefClasses.

Section SpaceNode.
  Variable classify : N -> cclass.

  Definition sps_entry (kv : str * mval) : list (str * N) :=
    match fget "range" (model_fields (snd kv)) with
    | MList items => [(fst kv, N.of_nat (List.length items))]
    | MFmt r | MStr r =>
      match RangeExpr.from_str false false classify r with
      | Ok e => if Z.ltb (RangeExpr.elen e) (2 ^ 63) then [(fst kv, Z.to_N (RangeExpr.elen e))] else []
      | Raise _ => []
      end
    | _ => []
    end.

  Lemma sps_post : forall raw l' s,
    post_hook classify "StepParameterSpace" raw [("taskParameterDefinitions", MDict l'); ("combination", MStr s)] =
    match Comb.dims_str classify (Comb.lookup_len (flat_map sps_entry l')) s with Ok _ => true | Raise _ => false end.
  Proof. reflexivity. Qed.

  Lemma tobj_space : forall kys s,
    tobj G (MModel "StepParameterSpace" [("taskParameterDefinitions", MDict kys); ("combination", MStr s)])
    = JObj [($"taskParameterDefinitions", tobj G (MDict kys)); ($"combination", JStr s)].
  Proof. reflexivity. Qed.

  Lemma tobj_expr_def : forall ty rs,
    tobj G (MModel "RangeExpressionTaskParameterDefinition" [("type", MStr ty); ("range", MStr rs)])
    = JObj [($"type", JStr ty); ($"range", JStr rs)].
  Proof. reflexivity. Qed.

  Lemma tobj_defs : forall P kys, Forall (fun kv => def_shape P (snd kv)) kys ->
    tobj G (MDict kys) = JObj (map (fun kv => (fst kv, tobj G (snd kv))) kys).
  Proof.
    intros P kys H. cbn [tobj]. f_equal. induction H as [|[k d] r Hd _ IH]; [reflexivity|].
    cbn [flat_map map fst snd]. rewrite IH. cbn [snd] in Hd. destruct Hd; reflexivity.
  Qed.
End SpaceNode.

Lemma dict_entries_inv : forall (pkf : kind -> json -> outcome mval) kk k members l',
  mapM (dict_entry pkf kk k) members = Ok l' ->
  Forall2 (fun m ky => fst ky = fst m /\ pkf k (snd m) = Ok (snd ky)) members l'.
Proof.
  intros pkf kk k members l' H. apply mapM_Forall2 in H. revert H. apply Forall2_impl. intros m ky E.
  apply dict_entry_ok in E. destruct E as [x [Hx ->]]. split; [reflexivity|exact Hx].
Qed.

Section SpaceParse.
  Variable classify : N -> cclass.
  Variable pre : string -> json -> bool.
  Notation pk := (parse_kind G classify pre (post_hook classify)).
  Notation pc := (parse_cls G classify pre (post_hook classify)).

  Lemma entries_eq : forall f kys l',
    Forall (fun kv => def_shape is_mstr (snd kv)) kys ->
    Forall2 (fun m ky => fst ky = fst m /\ pk f def_alts (snd m) = Ok (snd ky))
            (map (fun kv => (fst kv, tobj G (snd kv))) kys) l' ->
    flat_map (sps_entry classify) l' = flat_map (sps_entry classify) kys.
  Proof.
    intros f kys. induction kys as [|[k d] r IH]; intros l' HD HF.
    - inversion HF. reflexivity.
    - cbn [map fst snd] in HF. inversion HF as [|m [k' y] ms l'' [Hk Hy] HF']; subst. cbn [fst snd] in Hk, Hy. subst k'.
      inversion HD as [|? ? Hd HD']; subst. cbn [snd] in Hd.
      cbn [flat_map]. rewrite (IH l'' HD' HF'). f_equal.
      destruct Hd as [ty rs Hty|c ty items Hc Hty Hne Hit].
      + rewrite tobj_expr_def in Hy.
        destruct (def_union_inv classify pre f ty (JStr rs) y Hy ltac:(discriminate)) as [[rs' [t' [E ->]]]|[its [t' [l0 [E _]]]]];
          [|discriminate E]. injection E as <-. reflexivity.
      + rewrite (tobj_list_def c ty items Hc) in Hy.
        destruct (def_union_inv classify pre f ty (JArr (map (tobj G) items)) y Hy ltac:(discriminate))
          as [[rs' [t' [E _]]]|[its [t' [l0 [E [-> Hl]]]]]]; [discriminate E|]. injection E as <-.
        unfold sps_entry. cbn [fget mfield lookup_s model_fields snd fst String.eqb Ascii.eqb Bool.eqb].
        rewrite Hl, map_length. reflexivity.
  Qed.

  Lemma space_cls_inv : forall f kys s v',
    Forall (fun kv => def_shape is_mstr (snd kv)) kys ->
    pc f "StepParameterSpace" (JObj [($"taskParameterDefinitions", tobj G (MDict kys)); ($"combination", JStr s)]) = Ok v' ->
    exists n, Comb.dims_str classify (Comb.lookup_len (flat_map (sps_entry classify) kys)) s = Ok n.
  Proof.
    intros f kys s v' HD H. rewrite (tobj_defs is_mstr kys HD) in H.
    eapply cls2_open in H; [|vm_compute; reflexivity|reflexivity].
    destruct H as [f' [x1 [x2 [_ [_ [Hv1 [Hv2 Hpost]]]]]]]. cbn [f_name] in Hpost.
    change (field_raw _ _) with (JObj (map (fun kv => (fst kv, tobj G (snd kv))) kys)) in Hv1.
    change (field_raw _ _) with (JStr s) in Hv2.
    cbn [parse_value f_shape f_kind f_required] in Hv1, Hv2.
    destruct (mapM _ _) as [l'|e] eqn:Em in Hv1; cbn [bind] in Hv1; [|discriminate Hv1].
    injection Hv1 as <-. apply dict_entries_inv in Em.
    destruct f' as [|f2]; [discriminate Hv2|]. rewrite parse_kind_S in Hv2. cbn [parse_scalar] in Hv2.
    apply check_str_ok in Hv2. destruct Hv2 as [-> _].
    rewrite sps_post in Hpost.
    rewrite (entries_eq (S f2) kys l' HD Em) in Hpost.
    destruct (dims_str classify (lookup_len (flat_map (sps_entry classify) kys)) s) as [n|e]; [exists n; reflexivity|discriminate Hpost].
  Qed.
End SpaceParse.

Section Nodes.
  Variable classify : N -> cclass.

  Theorem expr_def_node : forall ty rs,
    node_accepted classify (MModel "RangeExpressionTaskParameterDefinition" [("type", MStr ty); ("range", MStr rs)]) ->
    range_expr_ok classify rs = true.
  Proof. intros ty rs [v' H]. exact (range_expr_accepted classify ty rs v' H). Qed.

  Theorem space_node : forall kys s,
    Forall (fun kv => def_shape is_mstr (snd kv)) kys ->
    node_accepted classify
      (MModel "StepParameterSpace" [("taskParameterDefinitions", MDict kys); ("combination", MStr s)]) ->
    exists n, Comb.dims_str classify (Comb.lookup_len (flat_map (sps_entry classify) kys)) s = Ok n.
  Proof.
    intros kys s HD [v' H]. rewrite ExportProofs.export_tobj, tobj_space in H. apply parse_any_cls in H. destruct H as [F H].
    exact (space_cls_inv classify _ F kys s v' HD H).
  Qed.
End Nodes.
