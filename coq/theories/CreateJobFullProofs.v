(* CreateJobFullProofs.v — lemmas behind props/C06x.v:
     1. what the acceptance model puts into the fields of a decoded instance (a shape per field kind);
     2. [pdef_of_mval] succeeds on every decoded job parameter definition, gives a well-formed default
        text, a definition that is [wf_def] (allowedValues non-empty: the conlist(min_items=1) of the field;
        maxLength <> 0: the validator _validate_max_length) and the name instantiate_model looks up; hence
        [defs_of_template] is total on accepted job / environment templates;
     3. grouping + merging: only CompatibilityError, and every definition's name survives;
     4. preprocessing: only ValueError, and every definition has a value afterwards;
     5. the composition [create_job_full]: DecodeValidationError, or RuntimeError of the job-side
        re-validation (outside the modelled pydantic domain); nothing else;
     6. with CreateJobNoRT.v (that re-validation never leaves the domain): DecodeValidationError only. *)
From Coq Require Import List NArith ZArith Bool String Lia.
Import ListNotations.
Require Import OJD.Base OJD.Lexer OJD.Json OJD.Schema OJD.Generated OJD.Charsets OJD.Numerals OJD.NumPrint OJD.NumRoundtrip
               OJD.FormatStr OJD.CreateJob OJD.CreateJobProofs OJD.Parse OJD.Validators OJD.Accept OJD.AcceptMono
               OJD.Export OJD.ParseOutcomes OJD.CreateExn OJD.DecodeInv OJD.WellKeyed
               OJD.JobParams OJD.JobParamsSpec OJD.JobParamsProofs OJD.Merge OJD.MergeSpec OJD.MergeProofs OJD.Paths OJD.PathsProofs
               OJD.CreateJobFull OJD.NoMissingVar OJD.CreateJobNoRT OJD.ListLib.
Local Open Scope string_scope.
Local Open Scope list_scope.

(* ------------------------------------------------------------------ 1. shapes of decoded fields *)

(* the value has the shape of the kind that produced it *)
Definition shaped (k : kind) (m : mval) : Prop := kind_valb k m = true.

Definition field_typed : field -> string * mval -> Prop := field_is shaped.

Section Typed.
  Variable SC : schema_t.
  Variable classify : N -> cclass.
  Variable pre : string -> json -> bool.
  Variable post : string -> json -> list (string * mval) -> bool.
  Notation pk := (parse_kind SC classify pre post).
  Notation pc := (parse_cls SC classify pre post).

  Lemma pk_valb : forall f k v m, pk f k v = Ok m -> kind_valb k m = true.
  Proof.
    intros f k v m H. destruct f as [|f]; [rewrite parse_kind_O in H; discriminate H|].
    rewrite parse_kind_S in H.
    destruct k as [lit|enum|strict lo hi cs|c lo hi cs|strict|strict ge le gt|gt| |c|key mp|alts];
      try reflexivity; eapply parse_scalar_valb; exact H.
  Qed.

  Theorem parse_cls_typed : forall f c v y, pc f c v = Ok y ->
    exists c0 fs, lookup_cls SC c = Some c0 /\ y = MModel c fs /\ Forall2 field_typed (c_fields c0) fs.
  Proof.
    intros f c v y H. apply parse_cls_ok_inv in H. destruct H as (f' & c0 & ms & fs & _ & El & _ & _ & _ & Hm & _ & ->).
    exists c0, fs. split; [exact El|]. split; [reflexivity|]. apply ListLib.mapM_Forall2 in Hm.
    eapply Forall2_impl; [|exact Hm]. intros fl fv. apply parse_field_is. intros v' m. apply pk_valb.
  Qed.
End Typed.

(* ------------------------------------------------------------------ 2. reading the decoded definitions *)

Lemma rd_opt_single : forall (A : Type) (f : mval -> option A) (P : A -> Prop) k x,
  is_none x || kind_valb k x = true ->
  (forall m, kind_valb k m = true -> exists a, f m = Some a /\ P a) ->
  exists r, rd_opt f x = Ok r /\ (forall a, r = Some a -> P a).
Proof.
  intros A f P k x H Hf.
  destruct (is_none x) eqn:En.
  - destruct x; try discriminate En. exists None. split; [reflexivity|]. intros a Ha. discriminate Ha.
  - cbn [orb] in H. destruct (Hf x H) as [a [Ha Pa]].
    exists (Some a). split.
    + unfold rd_opt. destruct x; try discriminate En; rewrite Ha; reflexivity.
    + intros a' E. injection E as <-. exact Pa.
Qed.

Lemma opt_list_total : forall (A : Type) (f : mval -> option A) l,
  (forall m, In m l -> exists a, f m = Some a) -> exists r, opt_list (map f l) = Some r.
Proof.
  intros A f. induction l as [|m r IH]; intros H; [exists []; reflexivity|].
  destruct (H m (or_introl eq_refl)) as [a Ha]. destruct IH as [rs Hrs]; [intros m' Hm'; apply H; right; exact Hm'|].
  exists (a :: rs). cbn [map opt_list]. rewrite Ha, Hrs. reflexivity.
Qed.

Lemma rd_opt_list : forall (A : Type) (f : mval -> option A) k x,
  is_none x || match x with MList l => forallb (kind_valb k) l | _ => false end = true ->
  (forall m, kind_valb k m = true -> exists a, f m = Some a) ->
  exists r, rd_opt (as_list f) x = Ok r.
Proof.
  intros A f k x H Hf.
  destruct x as [ | | | | | | |l| | ]; cbn [is_none orb] in H; try discriminate H.
  - exists None. reflexivity.
  - destruct (opt_list_total A f l) as [r Hr].
    { intros m Hm. apply Hf. rewrite forallb_forall in H. apply H. exact Hm. }
    exists (Some r). unfold rd_opt, as_list. rewrite Hr. reflexivity.
Qed.

Lemma kv_int : forall st ge le gt m, kind_valb (KInt st ge le gt) m = true -> exists z, m = MInt z.
Proof. intros st ge le gt m H. destruct m; try discriminate H. eexists. reflexivity. Qed.
Lemma kv_dec : forall m, kind_valb KDec m = true -> exists a e, m = MDec a e.
Proof. intros m H. destruct m; try discriminate H. eexists. eexists. reflexivity. Qed.
Lemma kv_str : forall st lo hi cs m, kind_valb (KStr st lo hi cs) m = true -> exists s, m = MStr s.
Proof. intros st lo hi cs m H. destruct m; try discriminate H. eexists. reflexivity. Qed.
Lemma kv_lit : forall lit m, kind_valb (KLiteral lit) m = true -> m = MStr (str_of_string lit).
Proof. intros lit m H. destruct m; try discriminate H. cbn [kind_valb] in H. apply str_eqb_eq in H. subst. reflexivity. Qed.

Definition wf_name (d : pdef) (fs : list (string * mval)) : Prop := mfield "name" fs = MStr (pname d).

(* the decoded value of the field named [n] has the shape of that field's kind *)
Lemma typed_mfield : forall fls fs n fl, Forall2 field_typed fls fs ->
  List.find (fun fl => String.eqb (f_name fl) n) fls = Some fl -> value_is shaped fl (mfield n fs).
Proof.
  intros fls fs n fl H. unfold mfield. induction H as [|fl0 [n0 x] fls fs [Hn Hv] _ IH]; intros Hf; [discriminate Hf|].
  cbn [List.find] in Hf. cbn [lookup_s]. cbn [fst snd] in *. rewrite Hn.
  destruct (String.eqb (f_name fl0) n); [injection Hf as <-; exact Hv|exact (IH Hf)].
Qed.

Lemma typed_required : forall fls fs n fl, Forall2 field_typed fls fs ->
  List.find (fun fl => String.eqb (f_name fl) n) fls = Some fl -> f_required fl = true -> f_shape fl = Single ->
  kind_valb (f_kind fl) (mfield n fs) = true.
Proof.
  intros fls fs n fl HF Hf Hq Hs. destruct (typed_mfield _ _ _ _ HF Hf) as [(Hq' & _)|Hv]; [congruence|].
  rewrite Hs in Hv. exact Hv.
Qed.

(* one `do r <- rd_opt f (mfield n fs); ...` step of pdef_of_fields: [P] is what is recorded about the value read *)
Lemma rd_field_single : forall (A : Type) (f : mval -> option A) (P : A -> Prop) fls fs n fl,
  Forall2 field_typed fls fs -> List.find (fun fl => String.eqb (f_name fl) n) fls = Some fl -> f_shape fl = Single ->
  (forall m, kind_valb (f_kind fl) m = true -> exists a, f m = Some a /\ P a) ->
  exists r, rd_opt f (mfield n fs) = Ok r /\ (forall a, r = Some a -> P a).
Proof.
  intros A f P fls fs n fl HF Hf Hs Hk. apply (rd_opt_single A f P (f_kind fl)); [|exact Hk].
  destruct (typed_mfield _ _ _ _ HF Hf) as [(_ & ->)|Hv]; [reflexivity|]. rewrite Hs in Hv. rewrite Hv. apply orb_true_r.
Qed.

(* ... when nothing is recorded about the value *)
Lemma rd_field_plain : forall (A : Type) (f : mval -> option A) fls fs n fl,
  Forall2 field_typed fls fs -> List.find (fun fl => String.eqb (f_name fl) n) fls = Some fl -> f_shape fl = Single ->
  (forall m, kind_valb (f_kind fl) m = true -> exists a, f m = Some a) ->
  exists r, rd_opt f (mfield n fs) = Ok r.
Proof.
  intros A f fls fs n fl HF Hf Hs Hk. destruct (rd_field_single A f (fun _ => True) fls fs n fl HF Hf Hs) as (r & Hr & _).
  - intros m Hm. destruct (Hk m Hm) as [a Ha]. exists a. auto.
  - exists r. exact Hr.
Qed.

Lemma rd_field_list : forall (A : Type) (f : mval -> option A) fls fs n fl lo hi,
  Forall2 field_typed fls fs -> List.find (fun fl => String.eqb (f_name fl) n) fls = Some fl -> f_shape fl = ListOf lo hi ->
  (forall m, kind_valb (f_kind fl) m = true -> exists a, f m = Some a) ->
  exists r, rd_opt (as_list f) (mfield n fs) = Ok r.
Proof.
  intros A f fls fs n fl lo hi HF Hf Hs Hk. apply (rd_opt_list A f (f_kind fl)); [|exact Hk].
  destruct (typed_mfield _ _ _ _ HF Hf) as [(_ & ->)|Hv]; [reflexivity|]. rewrite Hs in Hv. destruct Hv as (l & -> & Hl).
  apply forallb_forall. rewrite Forall_forall in Hl. exact Hl.
Qed.

Lemma num_int_ok : forall m, kind_valb (KInt false None None None) m = true -> exists a, as_num INT m = Some a.
Proof. intros m H. apply kv_int in H. destruct H as [z ->]. eexists. reflexivity. Qed.
Lemma num_dec_ok : forall m, kind_valb KDec m = true -> exists a, as_num FLOAT m = Some a.
Proof. intros m H. apply kv_dec in H. destruct H as [a [e ->]]. eexists. reflexivity. Qed.
Lemma len_ok_int : forall m, kind_valb (KInt true None None None) m = true -> exists a, as_int m = Some a.
Proof. intros m H. apply kv_int in H. destruct H as [z ->]. eexists. reflexivity. Qed.
Lemma str_ok : forall st lo hi cs m, kind_valb (KStr st lo hi cs) m = true -> exists a, as_str m = Some a.
Proof. intros st lo hi cs m H. apply kv_str in H. destruct H as [s ->]. eexists. reflexivity. Qed.

Lemma text_int_ok : forall m, kind_valb (KInt false None None None) m = true ->
  exists a, as_text INT m = Some a /\ (exists x, default_num INT a = Some x).
Proof.
  intros m H. apply kv_int in H. destruct H as [z ->]. exists (print_Z z). split; [reflexivity|].
  unfold default_num. rewrite parse_int_print_Z. eexists. reflexivity.
Qed.

Lemma text_dec_ok : forall m, kind_valb KDec m = true ->
  exists a, as_text FLOAT m = Some a /\ (exists x, default_num FLOAT a = Some x).
Proof.
  intros m H. apply kv_dec in H. destruct H as [a [e ->]]. exists (print_dec a e). split; [reflexivity|].
  unfold default_num. rewrite parse_dec_print_dec. eexists. reflexivity.
Qed.

Lemma text_str_ok : forall t st lo hi cs, t = STRING \/ t = PATH ->
  forall m, kind_valb (KStr st lo hi cs) m = true -> exists a, as_text t m = Some a.
Proof.
  intros t st lo hi cs Ht m H. apply kv_str in H. destruct H as [s ->].
  destruct Ht as [-> | ->]; eexists; reflexivity.
Qed.

Lemma objtype_ok : forall m, kind_valb (KEnum ["FILE"; "DIRECTORY"]) m = true -> exists a, as_objtype m = Some a.
Proof.
  intros m H. destruct m; try discriminate H. cbn [kind_valb existsb] in H. unfold as_objtype.
  destruct (str_eqb s $"FILE"); [eexists; reflexivity|].
  destruct (str_eqb s $"DIRECTORY"); [eexists; reflexivity|]. discriminate H.
Qed.

Lemma dataflow_ok : forall m, kind_valb (KEnum ["NONE"; "IN"; "OUT"; "INOUT"]) m = true -> exists a, as_dataflow m = Some a.
Proof.
  intros m H. destruct m; try discriminate H. cbn [kind_valb existsb] in H. unfold as_dataflow.
  destruct (str_eqb s $"NONE"); [eexists; reflexivity|].
  destruct (str_eqb s $"IN"); [eexists; reflexivity|].
  destruct (str_eqb s $"OUT"); [eexists; reflexivity|].
  destruct (str_eqb s $"INOUT"); [eexists; reflexivity|]. discriminate H.
Qed.

Definition nonempty_list_or_none (x : mval) : Prop := x = MNone \/ exists a l, x = MList (a :: l).

Lemma opt_list_nil : forall (A : Type) (l : list (option A)), opt_list l = Some [] -> l = [].
Proof.
  intros A [|[a|] r] H; [reflexivity| |discriminate H].
  cbn [opt_list] in H. destruct (opt_list r); discriminate H.
Qed.

Lemma rd_list_nonempty : forall (A : Type) (f : mval -> option A) x al,
  nonempty_list_or_none x -> rd_opt (as_list f) x = Ok al -> al <> Some [].
Proof.
  intros A f x al [->|[a [l ->]]] H.
  - injection H as <-. discriminate.
  - unfold rd_opt, as_list in H. destruct (opt_list (map f (a :: l))) as [r|] eqn:E; [|discriminate H].
    injection H as <-. intro K. injection K as ->. apply opt_list_nil in E. discriminate E.
Qed.

(* what [wf_def] needs to know about the fields pdef_of_fields reads *)
Lemma pdef_fields_wf : forall fs d, pdef_of_fields fs = Ok d ->
  nonempty_list_or_none (mfield "allowedValues" fs) ->
  (forall z, mfield "maxLength" fs = MInt z -> z <> 0%Z) ->
  wf_def d.
Proof.
  intros fs d H NE ML. unfold pdef_of_fields in H.
  destruct (mfield "name" fs) as [ | | | | |n| | | | ]; try discriminate H.
  destruct (mfield "type" fs) as [ | | | | |ts| | | | ]; try discriminate H.
  destruct (ptype_of_str ts) as [t|]; [|discriminate H].
  destruct (rd_opt (as_text t) (mfield "default" fs)) as [df|e]; cbn [bind] in H; [|discriminate H].
  destruct (is_numeric t).
  - destruct (rd_opt (as_num t) (mfield "minValue" fs)) as [mn|e]; cbn [bind] in H; [|discriminate H].
    destruct (rd_opt (as_num t) (mfield "maxValue" fs)) as [mx|e]; cbn [bind] in H; [|discriminate H].
    destruct (rd_opt (as_list (as_num t)) (mfield "allowedValues" fs)) as [al|e] eqn:Ea; cbn [bind] in H; [|discriminate H].
    injection H as <-. unfold wf_def. cbn [pallowed_n pallowed_s pmaxlen].
    split; [eapply rd_list_nonempty; eassumption|]. split; discriminate.
  - destruct (rd_opt as_int (mfield "minLength" fs)) as [mn|e]; cbn [bind] in H; [|discriminate H].
    destruct (rd_opt as_int (mfield "maxLength" fs)) as [mx|e] eqn:Em; cbn [bind] in H; [|discriminate H].
    destruct (rd_opt (as_list as_str) (mfield "allowedValues" fs)) as [al|e] eqn:Ea; cbn [bind] in H; [|discriminate H].
    destruct (if ptype_eqb t PATH then rd_opt as_objtype (mfield "objectType" fs) else Ok None) as [ot|e]; cbn [bind] in H; [|discriminate H].
    destruct (if ptype_eqb t PATH then rd_opt as_dataflow (mfield "dataFlow" fs) else Ok None) as [fl|e]; cbn [bind] in H; [|discriminate H].
    injection H as <-. unfold wf_def. cbn [pallowed_n pallowed_s pmaxlen].
    split; [discriminate|]. split; [eapply rd_list_nonempty; eassumption|].
    intro K. subst mx. unfold rd_opt in Em.
    destruct (mfield "maxLength" fs) as [ | |z| | | | | | | ] eqn:Ef; try discriminate Em.
    cbn [as_int] in Em. injection Em as ->. exact (ML 0%Z eq_refl eq_refl).
Qed.

Section Defs.
  Variable classify : N -> cclass.
  Notation pk := (parse_kind Generated.schema classify pre_hook (post_hook classify)).
  Notation pc := (parse_cls Generated.schema classify pre_hook (post_hook classify)).

  Definition def_read (c : string) (y : mval) : Prop :=
    exists fs d, y = MModel c fs /\ pdef_of_fields fs = Ok d /\ wf_name d fs /\ wf_default d.

  (* the decoded instance has the class's fields, in order, each of its kind's shape *)
  Lemma def_read_intro : forall c c0 f ims y, pc f c (JObj ims) = Ok y -> lookup_cls Generated.schema c = Some c0 ->
    (forall fs, Forall2 field_typed (c_fields c0) fs -> exists d, pdef_of_fields fs = Ok d /\ wf_name d fs /\ wf_default d) ->
    def_read c y.
  Proof.
    intros c c0 f ims y H El K. apply parse_cls_typed in H. destruct H as (c1 & fs & El' & -> & HF).
    rewrite El in El'. injection El' as <-. destruct (K fs HF) as (d & Hd). exists fs, d. auto.
  Qed.

  (* the two fields every definition class has: a name, and the literal that selects the class *)
  Lemma name_type_read : forall fls fs fn ft st lo hi cs lit, Forall2 field_typed fls fs ->
    List.find (fun fl => String.eqb (f_name fl) "name") fls = Some (mkField "name" fn true Single (KStr st lo hi cs)) ->
    List.find (fun fl => String.eqb (f_name fl) "type") fls = Some (mkField "type" ft true Single (KLiteral lit)) ->
    exists n, mfield "name" fs = MStr n /\ mfield "type" fs = MStr (str_of_string lit).
  Proof.
    intros fls fs fn ft st lo hi cs lit HF Hn Ht.
    destruct (kv_str _ _ _ _ _ (typed_required _ _ _ _ HF Hn eq_refl eq_refl)) as [n En].
    exists n. split; [exact En|]. exact (kv_lit _ _ (typed_required _ _ _ _ HF Ht eq_refl eq_refl)).
  Qed.

  Lemma int_def_pdef : forall f ims y, pc f "JobIntParameterDefinition" (JObj ims) = Ok y ->
    def_read "JobIntParameterDefinition" y.
  Proof.
    intros f ims y H. eapply (def_read_intro _ _ _ _ _ H); [vm_compute; reflexivity|]. intros fs HF.
    destruct (name_type_read _ _ _ _ _ _ _ _ _ HF eq_refl eq_refl) as (n & En & Et).
    unfold pdef_of_fields, wf_name. rewrite En, Et. change (ptype_of_str (str_of_string "INT")) with (Some INT). cbv iota. cbn [is_numeric].
    destruct (rd_field_single _ (as_text INT) (fun a => exists q, default_num INT a = Some q) _ _ "default" _ HF eq_refl eq_refl text_int_ok)
      as (df & -> & Hdf).
    destruct (rd_field_plain _ (as_num INT) _ _ "minValue" _ HF eq_refl eq_refl num_int_ok) as (mn & ->).
    destruct (rd_field_plain _ (as_num INT) _ _ "maxValue" _ HF eq_refl eq_refl num_int_ok) as (mx & ->).
    destruct (rd_field_list _ (as_num INT) _ _ "allowedValues" _ _ _ HF eq_refl eq_refl num_int_ok) as (al & ->).
    eexists. split; [reflexivity|]. split; [reflexivity|].
    intros _ t Ht. apply Hdf. exact Ht.
  Qed.

  Lemma float_def_pdef : forall f ims y, pc f "JobFloatParameterDefinition" (JObj ims) = Ok y ->
    def_read "JobFloatParameterDefinition" y.
  Proof.
    intros f ims y H. eapply (def_read_intro _ _ _ _ _ H); [vm_compute; reflexivity|]. intros fs HF.
    destruct (name_type_read _ _ _ _ _ _ _ _ _ HF eq_refl eq_refl) as (n & En & Et).
    unfold pdef_of_fields, wf_name. rewrite En, Et. change (ptype_of_str (str_of_string "FLOAT")) with (Some FLOAT). cbv iota. cbn [is_numeric].
    destruct (rd_field_single _ (as_text FLOAT) (fun a => exists q, default_num FLOAT a = Some q) _ _ "default" _ HF eq_refl eq_refl text_dec_ok)
      as (df & -> & Hdf).
    destruct (rd_field_plain _ (as_num FLOAT) _ _ "minValue" _ HF eq_refl eq_refl num_dec_ok) as (mn & ->).
    destruct (rd_field_plain _ (as_num FLOAT) _ _ "maxValue" _ HF eq_refl eq_refl num_dec_ok) as (mx & ->).
    destruct (rd_field_list _ (as_num FLOAT) _ _ "allowedValues" _ _ _ HF eq_refl eq_refl num_dec_ok) as (al & ->).
    eexists. split; [reflexivity|]. split; [reflexivity|].
    intros _ t Ht. apply Hdf. exact Ht.
  Qed.

  Lemma string_def_pdef : forall f ims y, pc f "JobStringParameterDefinition" (JObj ims) = Ok y ->
    def_read "JobStringParameterDefinition" y.
  Proof.
    intros f ims y H. eapply (def_read_intro _ _ _ _ _ H); [vm_compute; reflexivity|]. intros fs HF.
    destruct (name_type_read _ _ _ _ _ _ _ _ _ HF eq_refl eq_refl) as (n & En & Et).
    unfold pdef_of_fields, wf_name. rewrite En, Et. change (ptype_of_str (str_of_string "STRING")) with (Some STRING). cbv iota. cbn [is_numeric ptype_eqb].
    destruct (rd_field_plain _ (as_text STRING) _ _ "default" _ HF eq_refl eq_refl (text_str_ok STRING _ _ _ _ (or_introl eq_refl))) as (df & ->).
    destruct (rd_field_plain _ as_int _ _ "minLength" _ HF eq_refl eq_refl len_ok_int) as (mn & ->).
    destruct (rd_field_plain _ as_int _ _ "maxLength" _ HF eq_refl eq_refl len_ok_int) as (mx & ->).
    destruct (rd_field_list _ as_str _ _ "allowedValues" _ _ _ HF eq_refl eq_refl (str_ok _ _ _ _)) as (al & ->).
    eexists. split; [reflexivity|]. split; [reflexivity|].
    intros Hnum. discriminate Hnum.
  Qed.

  Lemma path_def_pdef : forall f ims y, pc f "JobPathParameterDefinition" (JObj ims) = Ok y ->
    def_read "JobPathParameterDefinition" y.
  Proof.
    intros f ims y H. eapply (def_read_intro _ _ _ _ _ H); [vm_compute; reflexivity|]. intros fs HF.
    destruct (name_type_read _ _ _ _ _ _ _ _ _ HF eq_refl eq_refl) as (n & En & Et).
    unfold pdef_of_fields, wf_name. rewrite En, Et. change (ptype_of_str (str_of_string "PATH")) with (Some PATH). cbv iota. cbn [is_numeric ptype_eqb].
    destruct (rd_field_plain _ (as_text PATH) _ _ "default" _ HF eq_refl eq_refl (text_str_ok PATH _ _ _ _ (or_intror eq_refl))) as (df & ->).
    destruct (rd_field_plain _ as_int _ _ "minLength" _ HF eq_refl eq_refl len_ok_int) as (mn & ->).
    destruct (rd_field_plain _ as_int _ _ "maxLength" _ HF eq_refl eq_refl len_ok_int) as (mx & ->).
    destruct (rd_field_list _ as_str _ _ "allowedValues" _ _ _ HF eq_refl eq_refl (str_ok _ _ _ _)) as (al & ->).
    destruct (rd_field_plain _ as_objtype _ _ "objectType" _ HF eq_refl eq_refl objtype_ok) as (ot & ->).
    destruct (rd_field_plain _ as_dataflow _ _ "dataFlow" _ HF eq_refl eq_refl dataflow_ok) as (dfl & ->).
    eexists. split; [reflexivity|]. split; [reflexivity|].
    intros Hnum. discriminate Hnum.
  Qed.

  (* ---------------- the definitions read are [wf_def]: allowedValues is a conlist(min_items=1), and the two
     classes with a maxLength field run _validate_max_length *)
  Definition min_items_pos (s : shape) : bool :=
    match s with ListOf (Some lo) _ => (0 <? lo)%N | _ => false end.

  Lemma parse_value_nonempty : forall f fl raw x,
    min_items_pos (f_shape fl) = true -> parse_value (pk f) fl raw = Ok x -> nonempty_list_or_none x.
  Proof.
    intros f fl raw x Hs Ev. unfold parse_value in Ev.
    destruct (f_shape fl) as [|[lo|] hi|]; try discriminate Hs.
    destruct raw as [|b|z|a e|s|items|ms']; cbn [list_items] in Ev; try discriminate Ev.
    - destruct (f_required fl); [discriminate Ev|]. injection Ev as <-. left. reflexivity.
    - destruct (len_ok_n (Some lo) hi (List.length items)) eqn:El; [|discriminate Ev].
      destruct items as [|it r].
      + apply andb_true_iff in El. destruct El as [El _]. apply N.leb_le in El. apply N.ltb_lt in Hs. cbn in El. lia.
      + destruct (mapM (pk f (f_kind fl)) (it :: r)) as [l'|e] eqn:Em; cbn [bind] in Ev; [|discriminate Ev].
        injection Ev as <-. apply mapM_cons_ok in Em. destruct Em as [y0 [ys [_ [_ ->]]]].
        right. eexists. eexists. reflexivity.
  Qed.

  Lemma post_string : forall raw fs,
    post_hook classify "JobStringParameterDefinition" raw fs = string_param_ok fs && string_ui_ok fs.
  Proof. reflexivity. Qed.
  Lemma post_path : forall raw fs,
    post_hook classify "JobPathParameterDefinition" raw fs = string_param_ok fs && path_ui_ok fs.
  Proof. reflexivity. Qed.

  Lemma string_param_ok_maxlen : forall fs, string_param_ok fs = true ->
    forall z, mfield "maxLength" fs = MInt z -> z <> 0%Z.
  Proof.
    intros fs H z E. unfold string_param_ok in H.
    apply andb_true_iff in H. destruct H as [H _]. apply andb_true_iff in H. destruct H as [H _].
    apply andb_true_iff in H. destruct H as [H _]. apply andb_true_iff in H. destruct H as [_ H].
    unfold fget in H. rewrite E in H. apply Z.ltb_lt in H. lia.
  Qed.

  (* an accepted instance of a class: its fields parsed in the order of the class, and the post hook passed *)
  Lemma inst_fields : forall f c ms y, pc (S f) c (JObj ms) = Ok y ->
    exists c0 fields, lookup_cls Generated.schema c = Some c0 /\
      mapM (parse_field (pk f) ms) (c_fields c0) = Ok fields /\
      post_hook classify c (JObj ms) fields = true /\ y = MModel c fields.
  Proof.
    intros f c ms y H.
    destruct (parse_cls_ok_inv _ _ _ _ _ _ _ _ H) as (f' & c0 & ms' & fs & Ef & El & Ev & _ & _ & Hm & Hp & ->).
    injection Ef as <-. injection Ev as <-. exists c0, fs. auto.
  Qed.

  (* a class without a field named [n]: [mfield n] of an instance is None *)
  Lemma mfield_absent : forall f ms n fls fs, mapM (parse_field (pk f) ms) fls = Ok fs ->
    List.find (fun fl => String.eqb (f_name fl) n) fls = None -> mfield n fs = MNone.
  Proof.
    intros f ms n. unfold mfield. induction fls as [|fl r IH]; intros fs H Hf.
    - injection H as <-. reflexivity.
    - apply mapM_cons_ok in H. destruct H as (y & ys & Hy & Hr & ->).
      apply parse_field_ok in Hy. destruct Hy as (x & _ & ->). cbn [List.find] in Hf. cbn [lookup_s].
      destruct (String.eqb (f_name fl) n); [discriminate Hf|exact (IH _ Hr Hf)].
  Qed.

  Definition param_fields_ok (c : string) : bool :=
    match lookup_cls Generated.schema c with
    | None => false
    | Some c0 =>
      match List.find (fun fl => String.eqb (f_name fl) "allowedValues") (c_fields c0) with
      | Some fl => min_items_pos (f_shape fl)
      | None => true
      end &&
      match List.find (fun fl => String.eqb (f_name fl) "maxLength") (c_fields c0) with
      | Some _ => mem_s c ["JobStringParameterDefinition"; "JobPathParameterDefinition"]
      | None => true
      end
    end.

  Lemma param_classes_fields_ok : forallb param_fields_ok param_classes = true.
  Proof. vm_compute. reflexivity. Qed.

  Lemma param_def_fields_wf : forall c', In c' param_classes -> forall f ims fs,
    pc f c' (JObj ims) = Ok (MModel c' fs) ->
    nonempty_list_or_none (mfield "allowedValues" fs) /\ (forall z, mfield "maxLength" fs = MInt z -> z <> 0%Z).
  Proof.
    intros c' Hin f ims fs H. destruct f as [|f]; [discriminate H|].
    pose proof (proj1 (forallb_forall _ _) param_classes_fields_ok c' Hin) as K. unfold param_fields_ok in K.
    apply inst_fields in H. destruct H as [c0 [fields [El [Em [Hp E]]]]]. injection E as <-.
    rewrite El in K. apply andb_true_iff in K. destruct K as [Ka Km]. split.
    - destruct (List.find _ (c_fields c0)) as [fl|] eqn:Ef in Ka; [|left; exact (mfield_absent _ _ _ _ _ Em Ef)].
      destruct (fields_find _ _ _ _ _ _ Em Ef) as (x & Hx & <-). exact (parse_value_nonempty _ _ _ _ Ka Hx).
    - intros z E. destruct (List.find _ (c_fields c0)) eqn:Ef in Km; [|rewrite (mfield_absent _ _ _ _ _ Em Ef) in E; discriminate E].
      apply (string_param_ok_maxlen fs); [|exact E].
      apply mem_s_In in Km. destruct Km as [<-|[<-|[]]]; [rewrite post_string in Hp|rewrite post_path in Hp];
        apply andb_true_iff in Hp; apply Hp.
  Qed.

  (* ---------------- any of the four classes: the record, well formed, and the name create_job looks up *)
  Definition def_ok (y : mval) (d : pdef) : Prop :=
    pdef_of_mval y = Ok d /\ wf_default d /\ wf_def d /\ adds_names Generated.schema y = [pname d].

  Lemma param_def_pdef : forall c', In c' param_classes -> forall f ims y, pc f c' (JObj ims) = Ok y ->
    exists d, def_ok y d.
  Proof.
    intros c' Hin f ims y H.
    destruct (param_def_inv classify c' Hin f ims y H) as [c [r [_ Ha]]].
    destruct (param_class_shape c' Hin) as (c0 & rest & El & _ & _ & Ej).
    assert (R : def_read c' y).
    { unfold param_classes in Hin. destruct Hin as [<-|[<-|[<-|[<-|[]]]]].
      - eapply int_def_pdef; exact H.
      - eapply float_def_pdef; exact H.
      - eapply string_def_pdef; exact H.
      - eapply path_def_pdef; exact H. }
    destruct R as [fs [d [-> [Hp [Hn Hw]]]]]. destruct (param_def_fields_wf c' Hin f ims fs H) as [NE ML].
    exists d. split; [exact Hp|]. split; [exact Hw|]. split; [exact (pdef_fields_wf fs d Hp NE ML)|].
    unfold wf_name in Hn. cbn [adds_names] in *. unfold jcm_of in *. rewrite El in *. rewrite Hn, Ej in *. cbn [app] in *.
    injection Ha as _ E2. rewrite E2. reflexivity.
  Qed.

  Definition params_kind : kind :=
    KDisc "type" [("INT", "JobIntParameterDefinition"); ("FLOAT", "JobFloatParameterDefinition");
                  ("STRING", "JobStringParameterDefinition"); ("PATH", "JobPathParameterDefinition")].

  (* one definition object: the discriminated union on "type" *)
  Lemma disc_param_read : forall f item y, pk f params_kind item = Ok y -> exists d, def_ok y d.
  Proof.
    intros f item y H. destruct f as [|f]; [discriminate H|]. unfold params_kind in H. rewrite parse_kind_S in H.
    apply disc_res_ok in H. destruct H as (ims & s & kc & -> & _ & Hin & _ & H).
    exact (param_def_pdef (snd kc) (in_map snd _ _ Hin) f ims y H).
  Qed.

  Lemma disc_param_pdef : forall f item y, pk f params_kind item = Ok y ->
    exists d, pdef_of_mval y = Ok d /\ wf_default d /\ adds_names Generated.schema y = [pname d].
  Proof. intros f item y H. destruct (disc_param_read f item y H) as (d & Hd & Hw & _ & Ha). exists d. auto. Qed.

  Lemma params_items_defs : forall f items l', mapM (pk f params_kind) items = Ok l' ->
    exists ds, mapM pdef_of_mval l' = Ok ds /\ Forall wf_default ds /\ Forall wf_def ds /\
               flat_map (adds_names Generated.schema) l' = map pname ds.
  Proof.
    intros f. induction items as [|item r IH]; intros l' H.
    - injection H as <-. exists []. repeat split; constructor.
    - apply mapM_cons_ok in H. destruct H as [y [ys [Hy [Hr ->]]]].
      destruct (disc_param_read f item y Hy) as (d & Hd & Hw & Hf & Ha).
      destruct (IH ys Hr) as (ds & Hds & Hws & Hfs & Has).
      exists (d :: ds). split; [cbn [mapM]; rewrite Hd, Hds; reflexivity|].
      split; [constructor; assumption|]. split; [constructor; assumption|].
      cbn [flat_map map]. rewrite Ha, Has. reflexivity.
  Qed.

  (* the parameterDefinitions field of either root class *)
  Lemma params_value_defs : forall f fl raw x, is_params fl = true -> parse_value (pk f) fl raw = Ok x ->
    exists ds, defs_of_value x = Ok ds /\ Forall wf_default ds /\ Forall wf_def ds /\
               adds_names Generated.schema x = map pname ds.
  Proof.
    intros f fl raw x Hp H. apply is_params_spec in Hp. destruct Hp as (_ & _ & (lo & hi & Hs) & Hk).
    apply parse_value_ok in H. destruct H as [(_ & _ & ->)|H]; [exists []; repeat split; constructor|].
    rewrite Hs, Hk in H. apply list_items_ok in H. destruct H as (items & l & _ & Hm & ->).
    cbn [defs_of_value adds_names]. eapply params_items_defs. exact Hm.
  Qed.

  (* ---------------- the two roots ---------------- *)
  Lemma root_defs : forall c f ms t, params_root c = true -> pc f c (JObj ms) = Ok t ->
    exists ds, defs_of_template t = Ok ds /\ Forall wf_default ds /\ Forall wf_def ds /\
               adds_names Generated.schema t = map pname ds.
  Proof.
    intros c f ms t Hr H. destruct (root_params classify _ _ _ _ Hr H) as (f' & fs & fl & x & -> & Hp & Hx & Hf & Ha).
    destruct (params_value_defs _ _ _ _ Hp Hx) as (ds & Hds & Hw & Hn). exists ds.
    unfold defs_of_template. rewrite Hf, Ha. auto.
  Qed.

  (* an accepted job / environment template: its definitions are read, and are what C10 / C12 assume *)
  Lemma decode_job_defs_all : forall j t, decode_job classify j = Ok t ->
    exists ds, defs_of_template t = Ok ds /\ Forall wf_default ds /\ Forall wf_def ds /\
               adds_names Generated.schema t = map pname ds.
  Proof.
    intros j t H. apply decode_job_ok in H. destruct H as (ms & f & -> & H).
    pose proof roots_params as Hr. apply andb_true_iff in Hr. exact (root_defs _ _ _ _ (proj1 Hr) H).
  Qed.

  Lemma decode_env_defs_all : forall j t, decode_env classify j = Ok t ->
    exists ds, defs_of_template t = Ok ds /\ Forall wf_default ds /\ Forall wf_def ds.
  Proof.
    intros j t H. apply decode_env_ok in H. destruct H as (ms & f & -> & H).
    pose proof roots_params as Hr. apply andb_true_iff in Hr.
    destruct (root_defs _ _ _ _ (proj2 Hr) H) as (ds & Hds & Hw & Hf & _). exists ds. auto.
  Qed.

  Theorem decode_job_defs : forall j t, decode_job classify j = Ok t ->
    exists ds, defs_of_template t = Ok ds /\ Forall wf_default ds /\
               adds_names Generated.schema t = map pname ds.
  Proof. intros j t H. destruct (decode_job_defs_all j t H) as (ds & Hds & Hw & _ & Ha). exists ds. auto. Qed.

  Theorem decode_env_defs : forall j t, decode_env classify j = Ok t ->
    exists ds, defs_of_template t = Ok ds /\ Forall wf_default ds.
  Proof. intros j t H. destruct (decode_env_defs_all j t H) as (ds & Hds & Hw & _). exists ds. auto. Qed.
End Defs.

(* ------------------------------------------------------------------ 3. grouping and merging *)

Section Groups.
  Variable P : pdef -> Prop.

  Definition groups_good (gs : list (str * list pdef)) : Prop :=
    forall k g, In (k, g) gs -> g <> [] /\ Forall P g.

  Lemma group_add_good : forall d gs, P d -> groups_good gs -> groups_good (group_add d gs).
  Proof.
    intros d gs Pd. induction gs as [|[k0 g0] r IH]; intros G k g Hin.
    - cbn [group_add] in Hin. destruct Hin as [E|[]]. injection E as <- <-.
      split; [discriminate|]. constructor; [exact Pd|constructor].
    - cbn [group_add] in Hin. destruct (str_eqb (pname d) k0).
      + destruct Hin as [E|Hin].
        * injection E as <- <-. destruct (G k0 g0 (or_introl eq_refl)) as [_ F]. split.
          -- intros E. apply app_eq_nil in E. destruct E as [_ E]. discriminate E.
          -- apply Forall_app. split; [exact F|]. constructor; [exact Pd|constructor].
        * apply (G k g). right. exact Hin.
      + destruct Hin as [E|Hin].
        * injection E as <- <-. apply (G k0 g0). left. reflexivity.
        * apply (IH (fun k' g' H' => G k' g' (or_intror H')) k g Hin).
  Qed.

  Lemma collect_good : forall ds gs, Forall P ds -> groups_good gs ->
    groups_good (fold_left (fun gs d => group_add d gs) ds gs).
  Proof.
    induction ds as [|d r IH]; intros gs F G; [exact G|].
    cbn [fold_left]. apply IH; [inversion F; assumption|]. apply group_add_good; [inversion F; assumption|exact G].
  Qed.
End Groups.

Definition in_groups (x : pdef) (gs : list (str * list pdef)) : Prop := exists k g, In (k, g) gs /\ In x g.

Lemma group_add_self : forall d gs, in_groups d (group_add d gs).
Proof.
  intros d. induction gs as [|[k0 g0] r IH].
  - exists (pname d), [d]. split; left; reflexivity.
  - cbn [group_add]. destruct (str_eqb (pname d) k0).
    + exists k0, (g0 ++ [d]). split; [left; reflexivity|]. apply in_or_app. right. left. reflexivity.
    + destruct IH as [k [g [H1 H2]]]. exists k, g. split; [right; exact H1|exact H2].
Qed.

Lemma group_add_keeps : forall d x gs, in_groups x gs -> in_groups x (group_add d gs).
Proof.
  intros d x. induction gs as [|[k0 g0] r IH]; intros [k [g [H1 H2]]]; [destruct H1|].
  cbn [group_add]. destruct (str_eqb (pname d) k0).
  - destruct H1 as [E|H1].
    + injection E as <- <-. exists k0, (g0 ++ [d]). split; [left; reflexivity|]. apply in_or_app. left. exact H2.
    + exists k, g. split; [right; exact H1|exact H2].
  - destruct H1 as [E|H1].
    + injection E as <- <-. exists k0, g0. split; [left; reflexivity|exact H2].
    + destruct (IH (ex_intro _ k (ex_intro _ g (conj H1 H2)))) as [k' [g' [H1' H2']]].
      exists k', g'. split; [right; exact H1'|exact H2'].
Qed.

Lemma collect_covers : forall ds gs x, In x ds \/ in_groups x gs ->
  in_groups x (fold_left (fun gs d => group_add d gs) ds gs).
Proof.
  induction ds as [|d r IH]; intros gs x H.
  - destruct H as [[]|H]. exact H.
  - cbn [fold_left]. apply IH. destruct H as [[<-|H]|H].
    + right. apply group_add_self.
    + left. exact H.
    + right. apply group_add_keeps. exact H.
Qed.

(* a merged definition carries the name of every definition that went into it *)
Lemma merge_ok_name : forall g m, merge false g = Ok m -> forall d, In d g -> pname d = pname m.
Proof.
  intros g m H d Hd. unfold merge in H.
  destruct (last_opt g) as [dl|]; [|discriminate H].
  destruct (forallb (fun x => str_eqb (pname x) (pname dl)) g) eqn:Fn; cbn [negb] in H; [|discriminate H].
  destruct (negb (forallb (fun x => ptype_eqb (ptyp x) (ptyp dl)) g)); [discriminate H|].
  destruct (merge_errors false g dl); [discriminate H|].
  destruct (revalidate (candidate false g dl)) as [u|e]; [|discriminate H]. injection H as <-.
  rewrite forallb_forall in Fn. specialize (Fn d Hd). apply str_eqb_eq in Fn. exact Fn.
Qed.

Lemma merge_groups_total : forall gs, groups_good wf_default gs -> exists x, merge_groups gs = Ok x.
Proof.
  induction gs as [|[k g] r IH]; intros G; [eexists; reflexivity|].
  destruct IH as [x Hx]; [intros k' g' H'; apply (G k' g'); right; exact H'|].
  destruct (G k g (or_introl eq_refl)) as [NE W].
  cbn [merge_groups]. destruct (merge false g) as [m|e] eqn:Em.
  - rewrite Hx. eexists. reflexivity.
  - rewrite (merge_raise g e NE W Em). rewrite Hx. eexists. reflexivity.
Qed.

Lemma merge_groups_clean : forall gs ms, merge_groups gs = Ok (ms, false) ->
  forall k g, In (k, g) gs -> exists m, In m ms /\ merge false g = Ok m.
Proof.
  induction gs as [|[k0 g0] r IH]; intros ms H k g Hin; [destruct Hin|].
  cbn [merge_groups] in H. destruct (merge false g0) as [m|e] eqn:Em.
  - destruct (merge_groups r) as [[ms' b]|e'] eqn:Er; cbn [bind fst snd] in H; [|discriminate H].
    injection H as <- ->. destruct Hin as [E|Hin].
    + injection E as <- <-. exists m. split; [left; reflexivity|exact Em].
    + destruct (IH ms' eq_refl k g Hin) as [m' [H1 H2]]. exists m'. split; [right; exact H1|exact H2].
  - destruct e; try discriminate H.
    destruct (merge_groups r) as [[ms' b]|e'] eqn:Er; cbn [bind fst snd] in H; discriminate H.
Qed.

Theorem merge_definitions_raise : forall eds jd e,
  Forall (Forall wf_default) eds -> Forall wf_default jd ->
  merge_definitions eds jd = Raise e -> e = CompatibilityError.
Proof.
  intros eds jd e We Wj H. unfold merge_definitions in H.
  assert (G : groups_good wf_default (collect_groups (List.concat eds ++ jd))).
  { unfold collect_groups. apply collect_good.
    - apply Forall_app. split; [|exact Wj]. apply Forall_concat. exact We.
    - intros k g []. }
  destruct (merge_groups_total _ G) as [[ms b] Hx]. rewrite Hx in H. cbn [bind fst snd] in H.
  destruct b; [injection H as <-; reflexivity|discriminate H].
Qed.

Theorem merge_definitions_names : forall eds jd defs, merge_definitions eds jd = Ok defs ->
  forall d, In d (List.concat eds ++ jd) -> In (pname d) (map pname defs).
Proof.
  intros eds jd defs H d Hd. unfold merge_definitions in H.
  destruct (merge_groups (collect_groups (List.concat eds ++ jd))) as [[ms b]|e] eqn:Em; cbn [bind fst snd] in H; [|discriminate H].
  destruct b; [discriminate H|]. injection H as <-.
  destruct (collect_covers (List.concat eds ++ jd) [] d (or_introl Hd)) as [k [g [Hg Hdg]]].
  destruct (merge_groups_clean _ _ Em k g Hg) as [m [Hm Hok]].
  rewrite (merge_ok_name g m Hok d Hdg). apply in_map. exact Hm.
Qed.

(* ------------------------------------------------------------------ 4. preprocessing *)

Theorem preprocess_server_raise : forall defs vals e, preprocess_server defs vals = Raise e -> e = ValueError.
Proof.
  intros defs vals e H. unfold preprocess_server in H. eapply preprocess_error; [|exact H].
  intros t e' Ht. rewrite server_default_verbatim in Ht. discriminate Ht.
Qed.

(* after a successful preprocessing every definition has an entry *)
Theorem preprocess_all_named : forall dir_ok path_in path_default defs vals r,
  preprocess false dir_ok path_in path_default defs vals = Ok r ->
  forall d, In d defs -> In (pname d) (map fst r).
Proof.
  intros dir_ok path_in path_default defs vals r H d Hd. unfold preprocess in H.
  destruct defs as [|d0 ds] eqn:Edefs; [destruct Hd|]. rewrite <- Edefs in *. clear Edefs.
  destruct (JobParams.collect_defaults dir_ok path_in path_default defs vals) as [rv|x].
  - destruct (check_all false defs rv) as [u|x].
    + apply finish_ok in H. destruct H as [Hz ->].
      assert (M : collect_missing defs rv = []) by (apply count_if_zero; lia).
      unfold collect_missing in M. rewrite filter_nil_iff in M.
      specialize (M (pname d) (in_map pname defs d Hd)).
      apply negb_false_iff in M. apply ListLib.mem_str_In in M. exact M.
    + destruct x; try discriminate H. apply finish_ok in H. destruct H as [Hz _]. lia.
  - destruct x; try discriminate H. apply finish_ok in H. destruct H as [Hz _]. lia.
Qed.

Lemma pvals_names : forall r, map v_name (pvals_of r) = map fst r.
Proof. intros r. unfold pvals_of. rewrite map_map. apply map_ext. intros [n [t v]]. reflexivity. Qed.

(* ------------------------------------------------------------------ 5. the composition *)

Definition accepted_envs (classify : N -> cclass) (envs : list mval) : Prop :=
  Forall (fun et => exists ej, decode_env classify ej = Ok et) envs.

Lemma env_defs_total : forall classify envs, accepted_envs classify envs ->
  exists eds, mapM defs_of_template envs = Ok eds /\ Forall (Forall wf_default) eds.
Proof.
  intros classify envs H. induction H as [|et r [ej Hej] _ IH].
  - exists []. split; [reflexivity|constructor].
  - destruct (decode_env_defs classify ej et Hej) as [ds [Hds Hw]]. destruct IH as [eds [Heds Hws]].
    exists (ds :: eds). split; [cbn [mapM]; rewrite Hds, Heds; reflexivity|constructor; assumption].
Qed.

(* the preprocessing block of create_job: DecodeValidationError or values for all parameters of the template *)
Theorem prep_full_spec : forall classify j t envs vals,
  decode_job classify j = Ok t -> accepted_envs classify envs ->
  (forall e, prep_full envs t vals = Raise e -> e = DecodeValidationError) /\
  (forall pvals, prep_full envs t vals = Ok pvals ->
     forall n, In n (adds_names Generated.schema t) -> In n (map v_name pvals)).
Proof.
  intros classify j t envs vals Hd He.
  destruct (env_defs_total classify envs He) as [eds [Heds Hwe]].
  destruct (decode_job_defs classify j t Hd) as [jd [Hjd [Hwj Ha]]].
  unfold prep_full. rewrite Heds, Hjd. cbn [bind].
  destruct (merge_definitions eds jd) as [defs|e0] eqn:Em.
  - destruct (preprocess_server defs vals) as [r|e1] eqn:Ep.
    + split; [intros e H; discriminate H|]. intros pvals H n Hn. injection H as <-.
      rewrite pvals_names. rewrite Ha in Hn. apply in_map_iff in Hn. destruct Hn as [d [<- Hdj]].
      assert (Hin : In (pname d) (map pname defs)).
      { eapply merge_definitions_names; [exact Em|]. apply in_or_app. right. exact Hdj. }
      apply in_map_iff in Hin. destruct Hin as [m [Enm Hm]]. rewrite <- Enm.
      unfold preprocess_server in Ep. eapply preprocess_all_named; eassumption.
    + apply preprocess_server_raise in Ep. subst e1. split; [|intros pvals H; discriminate H].
      intros e H. injection H as <-. reflexivity.
  - pose proof (merge_definitions_raise eds jd e0 Hwe Hwj Em) as ->. split; [|intros pvals H; discriminate H].
    intros e H. injection H as <-. reflexivity.
Qed.

(* instantiate_model on an accepted template with a value for each of its parameters *)
Lemma inst_only_fse : forall classify j t pvals e,
  decode_job classify j = Ok t ->
  (forall n, In n (adds_names Generated.schema t) -> In n (map v_name pvals)) ->
  inst Generated.schema (Export.fs_resolve classify) (symtab_of pvals) (S (mval_depth t)) t = Raise e ->
  e = FormatStringError.
Proof.
  intros classify j t pvals e Hd Hc H.
  assert (Hres : forall s e', Export.fs_resolve classify (symtab_of pvals) s = Raise e' -> e' = FormatStringError).
  { intros s e'. apply fs_resolve_only_fse. }
  destruct (inst_wk_raises Generated.schema _ _ Hres _ t (accepted_wk classify j t Hd) e H) as [E|[E|E]].
  - exact E.
  - exfalso. subst e. exact (inst_no_keyerror Generated.schema _ pvals Hres _ t Hc H).
  - exfalso. subst e. apply (inst_fuel_enough Generated.schema _ _ Hres (S (mval_depth t)) t); [lia|exact H].
Qed.

(* where a RuntimeError of the model can come from: only the job-side re-validation of the instantiated tree *)
Definition revalidation_outside_domain (classify : N -> cclass) (envs : list mval) (t : mval) (vals : list (str * str)) : Prop :=
  exists pvals job,
    prep_full envs t vals = Ok pvals /\
    inst Generated.schema (Export.fs_resolve classify) (symtab_of pvals) (S (mval_depth t)) t = Ok job /\
    nodes_ok classify (S (S (S (mval_depth t)))) (coerce_job (S (mval_depth t)) job) = Raise RuntimeError.

Theorem create_job_full_exn : forall classify j t envs vals e,
  decode_job classify j = Ok t -> accepted_envs classify envs ->
  create_job_full classify envs t vals = Raise e ->
  e = DecodeValidationError \/ (e = RuntimeError /\ revalidation_outside_domain classify envs t vals).
Proof.
  intros classify j t envs vals e Hd He H.
  destruct (prep_full_spec classify j t envs vals Hd He) as [Pr Pn].
  unfold create_job_full in H.
  destruct (prep_full envs t vals) as [pvals|e0] eqn:Ep; cbn [bind] in H.
  - destruct (inst Generated.schema (Export.fs_resolve classify) (symtab_of pvals) (S (mval_depth t)) t) as [job|e1] eqn:Ei.
    + destruct (nodes_ok classify (S (S (S (mval_depth t)))) (coerce_job (S (mval_depth t)) job)) as [b|e2] eqn:En.
      * destruct b; [discriminate H|]. injection H as <-. left. reflexivity.
      * injection H as <-. pose proof (nodes_ok_raises _ _ _ _ En) as ->. right. split; [reflexivity|].
        exists pvals, job. repeat split; assumption.
    + pose proof (inst_only_fse classify j t pvals e1 Hd (Pn pvals eq_refl) Ei) as ->.
      injection H as <-. left. reflexivity.
  - injection H as <-. left. apply Pr. reflexivity.
Qed.

(* the verdict of the whole function is the verdict model of Export.v on the model's own preprocessed values *)
Theorem create_job_full_verdict : forall classify envs t vals,
  match prep_full envs t vals with
  | Ok pvals =>
    match create_job_verdict classify pvals t with
    | Ok true => exists job, create_job_full classify envs t vals = Ok job
    | Ok false => create_job_full classify envs t vals = Raise DecodeValidationError
    | Raise e => create_job_full classify envs t vals = Raise e
    end
  | Raise e => create_job_full classify envs t vals = Raise e
  end.
Proof.
  intros classify envs t vals. unfold create_job_full, create_job_verdict.
  destruct (prep_full envs t vals) as [pvals|e0]; cbn [bind]; [|reflexivity].
  destruct (inst Generated.schema (Export.fs_resolve classify) (symtab_of pvals) (S (mval_depth t)) t) as [job|e1].
  - destruct (nodes_ok classify (S (S (S (mval_depth t)))) (coerce_job (S (mval_depth t)) job)) as [[|]|e2];
      [eexists; reflexivity|reflexivity|reflexivity].
  - destruct e1; reflexivity.
Qed.

(* from the raw documents *)
Lemma mapM_decode_envs : forall classify docs envs, mapM (decode_env classify) docs = Ok envs -> accepted_envs classify envs.
Proof.
  intros classify. induction docs as [|dj r IH]; intros envs H.
  - injection H as <-. constructor.
  - apply mapM_cons_ok in H. destruct H as [y [ys [Hy [Hr ->]]]]. constructor; [exists dj; exact Hy|apply IH; exact Hr].
Qed.

(* ------------------------------------------------------------------ 6. with CreateJobNoRT: no residue *)

(* the job-side re-validation never leaves the modelled domain (CreateJobNoRT.accepted_nodes_no_rt), so: *)
Theorem create_job_full_exn_strict : forall classify j t envs vals e,
  decode_job classify j = Ok t -> accepted_envs classify envs ->
  create_job_full classify envs t vals = Raise e -> e = DecodeValidationError.
Proof.
  intros classify j t envs vals e Hd He H.
  destruct (create_job_full_exn classify j t envs vals e Hd He H) as [E|[_ [pvals [job [_ [Hi Hn]]]]]]; [exact E|].
  exfalso. exact (accepted_nodes_no_rt classify j t _ _ job Hd Hi Hn).
Qed.

Theorem create_job_docs_exn_strict : forall classify env_docs doc vals e,
  create_job_docs classify env_docs doc vals = Ok (Raise e) -> e = DecodeValidationError.
Proof.
  intros classify env_docs doc vals e H. unfold create_job_docs in H.
  destruct (decode_job classify doc) as [t|e0] eqn:Ed; cbn [bind] in H; [|discriminate H].
  destruct (mapM (decode_env classify) env_docs) as [envs|e1] eqn:Ee; cbn [bind] in H; [|discriminate H].
  injection H as H.
  destruct (create_job_full classify envs t vals) as [job|e2] eqn:Ec; [discriminate H|]. injection H as <-.
  exact (create_job_full_exn_strict classify doc t envs vals e2 Ed (mapM_decode_envs _ _ _ Ee) Ec).
Qed.

Theorem create_job_docs_exn : forall classify env_docs doc vals e,
  create_job_docs classify env_docs doc vals = Ok (Raise e) ->
  e = DecodeValidationError \/ e = RuntimeError.
Proof. intros classify env_docs doc vals e H. left. exact (create_job_docs_exn_strict _ _ _ _ _ H). Qed.

(* create_job_full on accepted templates is total in the sense of the property: a Job or DecodeValidationError *)
Theorem create_job_full_total : forall classify j t envs vals,
  decode_job classify j = Ok t -> accepted_envs classify envs ->
  (exists job, create_job_full classify envs t vals = Ok job) \/
  create_job_full classify envs t vals = Raise DecodeValidationError.
Proof.
  intros classify j t envs vals Hd He.
  destruct (create_job_full classify envs t vals) as [job|e] eqn:Ec; [left; exists job; reflexivity|].
  right. rewrite (create_job_full_exn_strict classify j t envs vals e Hd He Ec). reflexivity.
Qed.

(* C06_create_exn_full (props/C06x.v): on an accepted template, with the
   implementation's preprocessed values covering the declarations, the verdict model answers, always *)
Theorem accepted_verdict_total : forall classify j t vals,
  decode_job classify j = Ok t -> covers (jget "parameterDefinitions" j) vals ->
  exists b, create_job_verdict classify vals t = Ok b.
Proof.
  intros classify j t vals Hd Hc.
  destruct (create_job_verdict classify vals t) as [b|e] eqn:Ev; [exists b; reflexivity|exfalso].
  pose proof (accepted_create_exn classify j t vals e Hd Hc Ev) as ->.
  unfold create_job_verdict in Ev.
  destruct (inst Generated.schema (Export.fs_resolve classify) (symtab_of vals) (S (mval_depth t)) t) as [job|e0] eqn:Ei.
  - exact (accepted_nodes_no_rt classify j t _ _ job Hd Ei Ev).
  - pose proof (accepted_inst_raises classify j t vals e0 Hd Hc Ei) as ->. discriminate Ev.
Qed.
