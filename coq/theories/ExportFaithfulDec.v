(* ExportFaithfulDec.v — C17 "faithful": [jequiv] (ExportFaithful.v) is decidable.  [jequivb] (defined there) is the
   function [equiv] of harness/c17.py transcribed (mappings by key set with null members left out, lists
   pointwise, scalars by value / numeric reading / str(bool)); it is extracted (extract/ExtractFaithful.v) and
   can be run by the harness.

     jequivb_sound      jequivb a b = true -> jequiv a b                              (all documents)
     jequivb_complete   jequiv a b -> jequivb a b = true    when the member names of a and b are distinct at
                        every level ([keys_ok]: what a parsed JSON / YAML mapping is)
     jequivb_false      jequivb a b = false -> ~ jequiv a b                           (same side condition)
   Without distinct member names the relation reads a mapping through its FIRST member of a name and says
   nothing about later ones; the function looks at every member. *)
From Coq Require Import List NArith ZArith Bool String Lia.
Import ListNotations.
Require OJD.ListLib OJD.JsonEquiv.
Require Import OJD.Base OJD.Json OJD.Numerals OJD.Validators OJD.DeepKeyOrder
               OJD.ExportFaithful OJD.ExportFaithfulNum.
Local Open Scope list_scope.

Lemma num_equivb_true : forall a b, num_equivb a b = true ->
  exists x y, as_num a = Some x /\ as_num b = Some y /\ num_eqb x y = true.
Proof.
  intros a b H. unfold num_equivb in H. destruct (as_num a) as [x|]; [|discriminate].
  destruct (as_num b) as [y|]; [|discriminate]. exists x, y. repeat split. exact H.
Qed.

Lemma num_equivb_intro : forall a b x y,
  as_num a = Some x -> as_num b = Some y -> num_eqb x y = true -> num_equivb a b = true.
Proof. intros a b x y Ha Hb H. unfold num_equivb. rewrite Ha, Hb. exact H. Qed.

Lemma je_of_num : forall a b, num_equivb a b = true -> bool_vs_str a b = false -> jequiv a b.
Proof.
  intros a b H Hb. destruct (num_equivb_true _ _ H) as [x [y [Ha [Hy Hxy]]]]. eapply JE_num; eassumption.
Qed.

Lemma scalar_equivb_sound : forall a b, scalar_equivb a b = true -> jequiv a b.
Proof.
  intros a b H.
  destruct a as [|x|z|m e|s|l|ms]; destruct b as [|y|z'|m' e'|t|l'|ms']; cbn [scalar_equivb] in H;
    try (apply je_of_num; [exact H|reflexivity]).
  - apply JE_null.
  - apply ListLib.str_eqb_eq in H. subst t. apply JE_bool_str.
  - apply ListLib.str_eqb_eq in H. subst s. apply JE_str_bool.
  - apply orb_true_iff in H. destruct H as [H|H].
    + apply ListLib.str_eqb_eq in H. subst t. apply JE_str.
    + apply je_of_num; [exact H|reflexivity].
Qed.

Definition is_container (j : json) : bool := match j with JArr _ | JObj _ => true | _ => false end.

Lemma scalar_equivb_complete : forall a b, is_container a = false -> jequiv a b -> scalar_equivb a b = true.
Proof.
  intros a b Hc H.
  inversion H as [|x|s|x|x|a0 b0 p q Ha Hb Hpq Hbs E1 E2|l l' HF|ms ms' H1 H2]; subst; try discriminate Hc.
  - reflexivity.
  - cbn [scalar_equivb]. eapply num_equivb_intro; [reflexivity|reflexivity|apply num_eqb_refl].
  - cbn [scalar_equivb]. rewrite ListLib.str_eqb_refl. reflexivity.
  - cbn [scalar_equivb]. apply ListLib.str_eqb_refl.
  - cbn [scalar_equivb]. apply ListLib.str_eqb_refl.
  - pose proof (num_equivb_intro _ _ _ _ Ha Hb Hpq) as Hn.
    destruct a as [|x|z|m e|s|l|ms]; destruct b as [|y|z'|m' e'|t|l'|ms']; cbn [scalar_equivb];
      try exact Hn; try discriminate Hbs; try discriminate Ha; try discriminate Hb.
    rewrite Hn. apply orb_true_r.
Qed.

Lemma jlook_some_inv : forall k ms v, jlook k ms = Some v -> assoc k ms = Some v /\ is_null v = false.
Proof.
  intros k ms v H. unfold jlook in H. destruct (assoc k ms) as [w|]; [|discriminate].
  destruct w; inversion H; subst; split; reflexivity.
Qed.

Lemma jlook_of_assoc : forall k ms v, assoc k ms = Some v -> is_null v = false -> jlook k ms = Some v.
Proof. intros k ms v H Hn. unfold jlook. rewrite H. destruct v; try reflexivity. discriminate Hn. Qed.

Lemma forallb_live : forall (q : str * json -> bool) ms k v,
  forallb (fun kv => is_null (snd kv) || q kv) ms = true -> jlook k ms = Some v -> q (k, v) = true.
Proof.
  intros q ms k v H Hv. destruct (jlook_some_inv _ _ _ Hv) as [Ea Hn]. apply ListLib.assoc_In in Ea.
  rewrite forallb_forall in H. specialize (H _ Ea). cbn [snd] in H. rewrite Hn in H. exact H.
Qed.

Theorem jequivb_sound : forall a b, jequivb a b = true -> jequiv a b.
Proof.
  intros a. induction a as [|x|z|m e|s|l IH|ms IH] using json_ind2; intros b H;
    try (apply scalar_equivb_sound; exact H).
  - (* lists *)
    destruct b as [| | | | |l'|]; try (apply scalar_equivb_sound; exact H).
    cbn [jequivb] in H. apply JE_arr. revert l' H.
    induction IH as [|x l Hx _ IHl]; intros l' H.
    + destruct l'; [constructor|discriminate H].
    + destruct l' as [|y l']; [discriminate H|]. cbn [all2b] in H. apply andb_true_iff in H.
      destruct H as [H1 H2]. constructor; [apply Hx; exact H1|apply IHl; exact H2].
  - (* mappings *)
    destruct b as [| | | | | |ms']; try (apply scalar_equivb_sound; exact H).
    cbn [jequivb] in H. apply andb_true_iff in H. destruct H as [Hb Ha].
    rewrite Forall_forall in IH. apply JE_obj.
    + intros k. split; intros Hk.
      * destruct (jlook k ms') as [v'|] eqn:E'; [|reflexivity]. exfalso.
        pose proof (forallb_live _ _ _ _ Hb E') as Hl. cbn [fst] in Hl. unfold live in Hl. rewrite Hk in Hl. discriminate Hl.
      * destruct (jlook k ms) as [v|] eqn:E; [|reflexivity]. exfalso.
        pose proof (forallb_live _ _ _ _ Ha E) as Hl. cbn [fst] in Hl. rewrite Hk in Hl. discriminate Hl.
    + intros k v v' Hv Hv'. pose proof (forallb_live _ _ _ _ Ha Hv) as Hkv. cbn [fst snd] in Hkv.
      rewrite Hv' in Hkv. destruct (jlook_some_inv _ _ _ Hv) as [Ea _]. apply ListLib.assoc_In in Ea.
      apply (IH _ Ea). exact Hkv.
Qed.

Lemma keys_ok_obj : forall ms, keys_ok (JObj ms) = true ->
  NoDup (map fst ms) /\ forall kv, In kv ms -> keys_ok (snd kv) = true.
Proof.
  intros ms H. cbn [keys_ok] in H. apply andb_true_iff in H. destruct H as [H1 H2].
  split; [apply nodupb_NoDup; exact H1|]. rewrite forallb_forall in H2. exact H2.
Qed.

Theorem jequivb_complete : forall a b,
  keys_ok a = true -> keys_ok b = true -> jequiv a b -> jequivb a b = true.
Proof.
  intros a. induction a as [|x|z|m e|s|l IH|ms IH] using json_ind2; intros b Ka Kb H;
    try (apply scalar_equivb_complete; [reflexivity|exact H]).
  - (* lists *)
    inversion H as [| | | | |a0 b0 p q Ha Hb Hpq Hbs E1 E2|l0 l' HF|]; subst; [discriminate Ha|].
    cbn [jequivb]. cbn [keys_ok] in Ka, Kb. clear H. revert Ka Kb.
    induction HF as [|x y l l' Hxy HF IHF]; intros Ka Kb; [reflexivity|].
    cbn [forallb] in Ka, Kb. apply andb_true_iff in Ka. apply andb_true_iff in Kb.
    destruct Ka as [Kx Kl]. destruct Kb as [Ky Kl'].
    inversion IH as [|x0 l0 Hx Hl]. subst x0 l0.
    cbn [all2b]. rewrite (Hx y Kx Ky Hxy). cbn [andb]. apply IHF; assumption.
  - (* mappings *)
    inversion H as [| | | | |a0 b0 p q Ha Hb Hpq Hbs E1 E2| |ms0 ms' H1 H2]; subst; [discriminate Ha|].
    destruct (keys_ok_obj _ Ka) as [Nd Kv]. destruct (keys_ok_obj _ Kb) as [Nd' Kv'].
    rewrite Forall_forall in IH.
    cbn [jequivb]. apply andb_true_iff. split; rewrite forallb_forall.
    + intros [k v'] Hin. cbn [fst snd]. destruct (is_null v') eqn:En; [reflexivity|]. cbn [orb].
      pose proof (jlook_of_assoc _ _ _ (JsonEquiv.in_assoc_nodup _ _ _ _ Nd' Hin) En) as Hl'.
      unfold live. destruct (jlook k ms) as [v|] eqn:El; [reflexivity|].
      apply H1 in El. rewrite El in Hl'. discriminate Hl'.
    + intros [k v] Hin. cbn [fst snd]. destruct (is_null v) eqn:En; [reflexivity|]. cbn [orb].
      pose proof (jlook_of_assoc _ _ _ (JsonEquiv.in_assoc_nodup _ _ _ _ Nd Hin) En) as Hl.
      destruct (jlook k ms') as [v'|] eqn:El'.
      * apply (IH _ Hin); [apply (Kv _ Hin)| |apply (H2 k); assumption].
        destruct (jlook_some_inv _ _ _ El') as [Ea' _]. apply ListLib.assoc_In in Ea'. apply (Kv' _ Ea').
      * apply H1 in El'. rewrite El' in Hl. discriminate Hl.
Qed.

Corollary jequivb_false : forall a b,
  keys_ok a = true -> keys_ok b = true -> jequivb a b = false -> ~ jequiv a b.
Proof.
  intros a b Ka Kb H Hj. rewrite (jequivb_complete _ _ Ka Kb Hj) in H. discriminate H.
Qed.

Corollary jequivb_iff : forall a b,
  keys_ok a = true -> keys_ok b = true -> (jequivb a b = true <-> jequiv a b).
Proof. intros a b Ka Kb. split; [apply jequivb_sound|apply jequivb_complete; assumption]. Qed.
