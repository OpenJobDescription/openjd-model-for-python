(* DecodeInv.v — inversion of the acceptance model on the live schema, for props/C06.v:
   what an ACCEPTED job template looks like as an instance tree, as far as create_job's failure
   modes need it:
     * [accepted_ind]: to show a property of every value the structural parser accepts it suffices
       to show it for scalars, lists, dictionaries, models and unions; the invariants of WellKeyed.v,
       CreateJobNoRT.v and [parse_classes] below are instances;
     * which classes can occur below a kind (closure of the schema's class graph);
     * the job parameter definitions of the tree are the declared parameters of the document
       (so: with a value for every declared parameter, create_job never raises KeyError);
     * the job name of the tree is the document's name string (so: it resolves). *)
From Coq Require Import List NArith ZArith Bool String Lia.
Import ListNotations.
Require Import OJD.Base OJD.Lexer OJD.Json OJD.Schema OJD.Generated OJD.Charsets OJD.Numerals OJD.NumPrint
               OJD.FormatStr OJD.FormatStrProofs OJD.FsRefs OJD.CreateJob OJD.CreateJobProofs OJD.Parse
               OJD.Validators OJD.Accept OJD.SchemaOrder OJD.AcceptMono OJD.Export OJD.ScopeWalk OJD.ScopeSpec
               OJD.ParseOutcomes OJD.NoMissingVar OJD.CreateExn OJD.ListLib.
Local Open Scope string_scope.
Local Open Scope list_scope.

Lemma flat_map_nil_all : forall (A B : Type) (f : A -> list B) l,
  (forall x, In x l -> f x = []) -> flat_map f l = [].
Proof.
  induction l as [|a r IH]; intros H; [reflexivity|].
  cbn [flat_map]. rewrite (H a (or_introl eq_refl)). cbn [app]. apply IH. intros x Hx. apply H. right. exact Hx.
Qed.

Lemma adds_names_nil : forall SC x,
  (forall c, In c (classes_in x) -> j_adds_value (jcm_of SC c) = false) -> adds_names SC x = [].
Proof.
  intros SC x. induction x as [ | | | | | | |l IH|l IH|c fs IH] using mval_ind3; intros H; try reflexivity.
  - cbn [adds_names]. apply flat_map_nil_all. intros y Hy.
    rewrite Forall_forall in IH. apply (IH y Hy). intros c Hc. apply H.
    cbn [classes_in]. apply in_flat_map. exists y. split; assumption.
  - cbn [adds_names]. apply flat_map_nil_all. intros kv Hkv.
    rewrite Forall_forall in IH. apply (IH kv Hkv). intros c Hc. apply H.
    cbn [classes_in]. apply in_flat_map. exists kv. split; assumption.
  - cbn [adds_names]. rewrite (H c) by (cbn [classes_in]; left; reflexivity). cbn [app].
    apply flat_map_nil_all. intros kv Hkv.
    rewrite Forall_forall in IH. apply (IH kv Hkv). intros c' Hc. apply H.
    cbn [classes_in]. right. apply in_flat_map. exists kv. split; assumption.
Qed.

(* ------------------------------------------------------------------ what an accepted value is made of *)

(* the instance value a kind of the scalar layer produces (no claim for models and unions) *)
Definition kind_valb (k : kind) (m : mval) : bool :=
  match k with
  | KLiteral lit => match m with MStr s => str_eqb s (str_of_string lit) | _ => false end
  | KEnum members => match m with MStr s => existsb (fun x => str_eqb s (str_of_string x)) members | _ => false end
  | KStr _ _ _ _ => match m with MStr _ => true | _ => false end
  | KFormat _ _ _ _ => match m with MFmt _ => true | _ => false end
  | KBool _ => match m with MBool _ => true | _ => false end
  | KInt _ _ _ _ => match m with MInt _ => true | _ => false end
  | KFloat _ => match m with MFloat _ _ => true | _ => false end
  | KDec => match m with MDec _ _ => true | _ => false end
  | KModel _ | KDisc _ _ | KUnion _ => true
  end.

Lemma check_str_ok : forall lo hi cs s m, check_str lo hi cs s = Ok m -> m = MStr s /\ len_ok lo hi s = true.
Proof.
  intros lo hi cs s m H. unfold check_str in H.
  destruct (len_ok lo hi s && cs_ok cs s) eqn:E; [|discriminate H]. injection H as <-.
  apply andb_true_iff in E. destruct E as [E _]. split; [reflexivity|exact E].
Qed.

Lemma parse_scalar_valb : forall classify k v m, parse_scalar classify k v = Ok m -> kind_valb k m = true.
Proof.
  intros classify k v m H.
  destruct k as [lit|enum|strict lo hi cs|c lo hi cs|strict|strict ge le gt|gt| |c|key mp|alts];
    cbn [parse_scalar] in H; cbn [kind_valb]; try reflexivity.
  - destruct v as [|b|z|dm de|s|l|members]; try discriminate H.
    destruct (str_eqb s (str_of_string lit)) eqn:E; [|discriminate H]. injection H as <-. exact E.
  - destruct v as [|b|z|dm de|s|l|members]; try discriminate H.
    destruct (existsb _ enum) eqn:E; [|discriminate H]. injection H as <-. exact E.
  - destruct v as [|b|z|dm de|s|l|members]; try discriminate H; try (destruct strict; try discriminate H);
      apply check_str_ok in H; destruct H as [-> _]; reflexivity.
  - destruct v as [|b|z|dm de|s|l|members]; try discriminate H.
    destruct (len_ok lo hi s && cs_ok cs s && fs_ok classify s); [|discriminate H]. injection H as <-. reflexivity.
  - destruct v; try (destruct strict; discriminate H). injection H as <-. reflexivity.
  - assert (F : forall z, (if zopt_ok ge le gt z then Ok (MInt z) else reject) = Ok m ->
                          match m with MInt _ => true | _ => false end = true).
    { intros z Hz. destruct (zopt_ok ge le gt z); [|discriminate Hz]. injection Hz as <-. reflexivity. }
    destruct v as [|b|z|dm de|s|l|members]; try discriminate H; try (destruct strict; try discriminate H); try (eapply F; exact H).
    + destruct (dec_integral dm de); [eapply F; exact H|discriminate H].
    + destruct (parse_int s); [eapply F; exact H|discriminate H].
  - assert (F : forall a x, match gt with
                            | Some b => if num_ltb (num_of_Z b) (mkNum a x) then Ok (MFloat a x) else reject
                            | None => Ok (MFloat a x)
                            end = Ok m -> match m with MFloat _ _ => true | _ => false end = true).
    { intros a x Hz. destruct gt as [b|]; [|injection Hz as <-; reflexivity].
      destruct (num_ltb (num_of_Z b) (mkNum a x)); [|discriminate Hz]. injection Hz as <-. reflexivity. }
    destruct v; try discriminate H; eapply F; exact H.
  - destruct v as [|b|z|dm de|s|l|members]; try discriminate H; try (injection H as <-; reflexivity).
    destruct (parse_dec s) as [[a x|b|]|]; try discriminate H. injection H as <-. reflexivity.
Qed.

Definition scalar_mval (m : mval) : Prop :=
  match m with MList _ | MDict _ | MModel _ _ => False | _ => True end.

Lemma scalar_valb : forall k m, is_scalar k = true -> kind_valb k m = true -> scalar_mval m.
Proof. intros k m Hk H. destruct k; try discriminate Hk; destruct m; try discriminate H; exact I. Qed.

Lemma parse_scalar_ok_scalar : forall classify k v m, parse_scalar classify k v = Ok m -> scalar_mval m.
Proof.
  intros classify k v m H. apply (scalar_valb k); [destruct k; try reflexivity; discriminate H|].
  exact (parse_scalar_valb _ _ _ _ H).
Qed.

(* a field value all of whose parts of the field's kind satisfy [P] *)
Definition value_is (P : kind -> mval -> Prop) (fl : field) (x : mval) : Prop :=
  (f_required fl = false /\ x = MNone) \/
  match f_shape fl with
  | Single => P (f_kind fl) x
  | ListOf _ _ => exists l, x = MList l /\ Forall (P (f_kind fl)) l
  | DictOf _ => exists l, x = MDict l /\ Forall (fun kv => P (f_kind fl) (snd kv)) l
  end.

Definition field_is (P : kind -> mval -> Prop) (fl : field) (fv : string * mval) : Prop :=
  fst fv = f_name fl /\ value_is P fl (snd fv).

Section Accepted.
  Variable SC : schema_t.
  Variable classify : N -> cclass.
  Variable pre : string -> json -> bool.
  Variable post : string -> json -> list (string * mval) -> bool.
  Notation pk := (parse_kind SC classify pre post).
  Notation pc := (parse_cls SC classify pre post).

  Variable P : kind -> mval -> Prop.

  Lemma list_items_all : forall f lo hi k v m, (forall v m, pk f k v = Ok m -> P k m) ->
    list_items (pk f) lo hi k v = Ok m -> exists l, m = MList l /\ Forall (P k) l.
  Proof.
    intros f lo hi k v m IH H. apply list_items_ok in H. destruct H as (items & l & _ & Hm & ->).
    exists l. split; [reflexivity|]. apply Forall_forall. intros y Hy.
    destruct (mapM_ok_in _ _ _ _ _ Hm y Hy) as (x & _ & Hx). exact (IH _ _ Hx).
  Qed.

  Lemma parse_field_is : forall f ms fl y, (forall v m, pk f (f_kind fl) v = Ok m -> P (f_kind fl) m) ->
    parse_field (pk f) ms fl = Ok y -> field_is P fl y.
  Proof.
    intros f ms fl y IH H. apply parse_field_ok in H. destruct H as (x & Hx & ->). split; [reflexivity|]. cbn [snd].
    apply parse_value_ok in Hx. destruct Hx as [(_ & Hq & ->)|Hx]; [left; auto|right].
    destruct (f_shape fl) as [|lo hi|kk].
    - exact (IH _ _ Hx).
    - exact (list_items_all _ _ _ _ _ _ IH Hx).
    - destruct Hx as (ms' & l & _ & Hl & ->). exists l. split; [reflexivity|]. apply Forall_forall. intros kv' Hkv'.
      destruct (mapM_ok_in _ _ _ _ _ Hl kv' Hkv') as (kv & _ & Hkv). apply dict_entry_ok in Hkv.
      destruct Hkv as (y & Hy & ->). exact (IH _ _ Hy).
  Qed.

  (* To show [P] of every accepted value (and [PC] of every accepted object of a class) it suffices to
     show it for scalars of the kind's shape, and to pass it up through models, unions and classes. *)
  Variable PC : string -> mval -> Prop.
  Hypothesis Hscalar : forall k m, is_scalar k = true -> kind_valb k m = true -> P k m.
  Hypothesis Hmodel : forall c m, PC c m -> P (KModel c) m.
  Hypothesis Hdisc : forall key mp kc m, In kc mp -> PC (snd kc) m -> P (KDisc key mp) m.
  Hypothesis Hunion : forall alts k m, In (UScalar k) alts -> P k m -> P (KUnion alts) m.
  Hypothesis Hunion_list : forall alts lo hi k l, In (UList lo hi k) alts -> Forall (P k) l -> P (KUnion alts) (MList l).
  Hypothesis Hcls : forall c c0 fs, lookup_cls SC c = Some c0 -> Forall2 (field_is P) (c_fields c0) fs -> PC c (MModel c fs).

  Theorem accepted_ind : forall fuel,
    (forall k v m, pk fuel k v = Ok m -> P k m) /\ (forall c v m, pc fuel c v = Ok m -> PC c m).
  Proof.
    induction fuel as [|f [IHk IHc]]; [split; intros x v m H; discriminate H|]. split.
    - intros k v m H. rewrite parse_kind_S in H.
      destruct k; try (apply Hscalar; [reflexivity|exact (parse_scalar_valb _ _ _ _ H)]).
      + apply Hmodel. exact (IHc _ _ _ H).
      + apply disc_res_ok in H. destruct H as (ms & s & kc & _ & _ & Hin & _ & H). exact (Hdisc _ _ _ _ Hin (IHc _ _ _ H)).
      + apply try_alts_inv in H. destruct H as ([k'|lo hi k'] & Hin & H); cbn [alt_res] in H.
        * exact (Hunion _ _ _ Hin (IHk _ _ _ H)).
        * apply list_items_all in H; [|apply IHk]. destruct H as (l & -> & Hl). exact (Hunion_list _ _ _ _ _ Hin Hl).
    - intros c v m H. apply parse_cls_ok_inv in H. destruct H as (f' & c0 & ms & fs & E & El & _ & _ & _ & Hm & _ & ->).
      injection E as <-. apply (Hcls c c0 fs El). apply ListLib.mapM_Forall2 in Hm.
      eapply Forall2_impl; [|exact Hm]. intros fl fv. apply parse_field_is. apply IHk.
  Qed.
End Accepted.

(* ------------------------------------------------------------------ classes below a kind *)
Fixpoint kind_classes (k : kind) : list string :=
  match k with
  | KModel c => [c]
  | KDisc _ mapping => map snd mapping
  | KUnion alts =>
    (fix go (l : list ualt) : list string :=
       match l with
       | [] => []
       | a :: r => ualt_classes a ++ go r
       end) alts
  | _ => []
  end
with ualt_classes (a : ualt) : list string :=
  match a with
  | UScalar k => kind_classes k
  | UList _ _ k => kind_classes k
  end.

Lemma kind_classes_union : forall alts, kind_classes (KUnion alts) = flat_map ualt_classes alts.
Proof. induction alts as [|a r IH]; [reflexivity|]. cbn [flat_map]. rewrite <- IH. reflexivity. Qed.

Lemma scalar_classes : forall m, scalar_mval m -> classes_in m = [].
Proof. intros m H. destruct m; try reflexivity; destruct H. Qed.

Section Classes.
  Variable SC : schema_t.
  Variable classify : N -> cclass.
  Variable pre : string -> json -> bool.
  Variable post : string -> json -> list (string * mval) -> bool.
  Notation pk := (parse_kind SC classify pre post).
  Notation pc := (parse_cls SC classify pre post).

  Variable R : list string.
  (* R is closed under "class of a field" *)
  Hypothesis closed : forall c c0, In c R -> lookup_cls SC c = Some c0 ->
    forall fl, In fl (c_fields c0) -> incl (kind_classes (f_kind fl)) R.

  Definition below (k : kind) (m : mval) : Prop := incl (kind_classes k) R -> incl (classes_in m) R.

  Lemma incl_flat_map : forall (A : Type) (g : A -> list string) l, Forall (fun x => incl (g x) R) l -> incl (flat_map g l) R.
  Proof.
    intros A g l H c Hc. apply in_flat_map in Hc. destruct Hc as (x & Hx & Hc).
    rewrite Forall_forall in H. exact (H x Hx c Hc).
  Qed.

  Lemma value_below : forall fl x, value_is below fl x -> incl (kind_classes (f_kind fl)) R -> incl (classes_in x) R.
  Proof.
    intros fl x [(_ & ->)|H] Hk; [intros c []|].
    destruct (f_shape fl); [exact (H Hk)| |]; destruct H as (l & -> & Hl); cbn [classes_in]; apply incl_flat_map;
      (eapply Forall_impl; [|exact Hl]); intros a Ha; exact (Ha Hk).
  Qed.

  Theorem parse_classes : forall fuel,
    (forall k v m, pk fuel k v = Ok m -> incl (kind_classes k) R -> incl (classes_in m) R) /\
    (forall c v m, pc fuel c v = Ok m -> In c R -> incl (classes_in m) R).
  Proof.
    apply (accepted_ind SC classify pre post below (fun c m => In c R -> incl (classes_in m) R)).
    - intros k m Hk Hv _. rewrite (scalar_classes m (scalar_valb k m Hk Hv)). intros c [].
    - intros c m H Hk. apply H. apply Hk. left. reflexivity.
    - intros key mp kc m Hin H Hk. apply H. apply Hk. cbn [kind_classes]. apply in_map. exact Hin.
    - intros alts k m Hin H Hk. apply H. intros c Hc. apply Hk. rewrite kind_classes_union.
      apply in_flat_map. exists (UScalar k). auto.
    - intros alts lo hi k l Hin H Hk. cbn [classes_in]. apply incl_flat_map. eapply Forall_impl; [|exact H].
      intros m Hm. apply Hm. intros c Hc. apply Hk. rewrite kind_classes_union. apply in_flat_map. exists (UList lo hi k). auto.
    - intros c c0 fs El H Hc. cbn [classes_in]. apply incl_cons; [exact Hc|]. apply incl_flat_map.
      apply Forall_forall. intros fv Hfv. destruct (Forall2_in_r _ _ _ _ _ fv H Hfv) as (fl & Hfl & _ & Hv).
      exact (value_below fl _ Hv (closed c c0 Hc El fl Hfl)).
  Qed.
End Classes.

(* boolean form of the closure condition *)
Definition closedb (SC : schema_t) (R : list string) : bool :=
  forallb (fun c => match lookup_cls SC c with
                    | Some c0 => forallb (fun fl => forallb (fun x => mem_s x R) (kind_classes (f_kind fl))) (c_fields c0)
                    | None => true
                    end) R.

Lemma mem_s_In : forall x l, mem_s x l = true <-> In x l.
Proof. exact ListLib.mem_s_In. Qed.

Lemma closedb_sound : forall SC R, closedb SC R = true ->
  forall c c0, In c R -> lookup_cls SC c = Some c0 ->
  forall fl, In fl (c_fields c0) -> incl (kind_classes (f_kind fl)) R.
Proof.
  intros SC R H c c0 Hc El fl Hfl x Hx. unfold closedb in H. rewrite forallb_forall in H.
  specialize (H c Hc). rewrite El in H. rewrite forallb_forall in H. specialize (H fl Hfl).
  rewrite forallb_forall in H. apply mem_s_In. apply H. exact Hx.
Qed.

(* ------------------------------------------------------------------ the live schema *)

Definition param_classes : list string :=
  ["JobIntParameterDefinition"; "JobFloatParameterDefinition"; "JobStringParameterDefinition"; "JobPathParameterDefinition"].

(* every class except the job parameter definitions and the two template roots *)
Definition R0 : list string :=
  filter (fun c => negb (mem_s c param_classes) && negb (mem_s c ["JobTemplate"; "EnvironmentTemplate"]))
         (map fst Generated.schema).

Lemma R0_closed : closedb Generated.schema R0 = true.
Proof. vm_compute. reflexivity. Qed.

Lemma R0_no_adds : forallb (fun c => negb (j_adds_value (jcm_of Generated.schema c))) R0 = true.
Proof. vm_compute. reflexivity. Qed.

Lemma R0_adds_nil : forall x, incl (classes_in x) R0 -> adds_names Generated.schema x = [].
Proof.
  intros x H. apply adds_names_nil. intros c Hc. pose proof R0_no_adds as E. rewrite forallb_forall in E.
  specialize (E c (H c Hc)). destruct (j_adds_value (jcm_of Generated.schema c)); [discriminate E|reflexivity].
Qed.

(* the field's kind stays inside R0 *)
Definition inside (fl : field) : bool := forallb (fun x => mem_s x R0) (kind_classes (f_kind fl)).

Definition params_mapping : list (string * string) :=
  [("INT", "JobIntParameterDefinition"); ("FLOAT", "JobFloatParameterDefinition");
   ("STRING", "JobStringParameterDefinition"); ("PATH", "JobPathParameterDefinition")].

(* the optional list field "parameterDefinitions" of the two template roots *)
Definition is_params (fl : field) : bool :=
  String.eqb (f_alias fl) "parameterDefinitions" && negb (f_required fl) &&
  match f_shape fl, f_kind fl with
  | ListOf _ _, KDisc key mp => String.eqb key "type" && mapping_eqb mp params_mapping
  | _, _ => false
  end.

Lemma is_params_spec : forall fl, is_params fl = true ->
  f_alias fl = "parameterDefinitions" /\ f_required fl = false /\
  (exists lo hi, f_shape fl = ListOf lo hi) /\ f_kind fl = KDisc "type" params_mapping.
Proof.
  intros [n a r sh k]. unfold is_params. cbn [f_alias f_required f_shape f_kind]. intros H.
  apply andb_true_iff in H. destruct H as [H H3]. apply andb_true_iff in H. destruct H as [H1 H2].
  apply String.eqb_eq in H1. apply negb_true_iff in H2.
  destruct sh as [|lo hi|]; try discriminate H3. destruct k as [| | | | | | | | |key mp|]; try discriminate H3.
  apply andb_true_iff in H3. destruct H3 as [H3 H4]. apply String.eqb_eq in H3. apply mapping_eqb_eq in H4.
  subst. eauto 6.
Qed.

(* the field named [n] is the parameter definitions; every other field stays inside R0 *)
Fixpoint one_outside (n : string) (fls : list field) : bool :=
  match fls with
  | [] => false
  | fl :: r => if String.eqb (f_name fl) n then is_params fl && forallb inside r else inside fl && one_outside n r
  end.

(* a template root: no value of its own, parameter definitions in the field of that name only *)
Definition params_root (c : string) : bool :=
  match lookup_cls Generated.schema c with
  | Some c0 => negb (j_adds_value (c_jcm c0)) && one_outside "parameterDefinitions" (c_fields c0)
  | None => false
  end.

Lemma roots_params : params_root "JobTemplate" && params_root "EnvironmentTemplate" = true.
Proof. vm_compute. reflexivity. Qed.

(* the required constr-identifier "name" field every parameter definition class starts with *)
Definition name_field : field := mkField "name" "name" true Single (KStr true (Some 1%N) (Some 64%N) CS_identifier).

Definition is_name_field (fl : field) : bool :=
  String.eqb (f_name fl) "name" && String.eqb (f_alias fl) "name" && f_required fl &&
  match f_shape fl, f_kind fl with
  | Single, KStr st (Some lo) (Some hi) cs => st && N.eqb lo 1 && N.eqb hi 64 && charset_eqb cs CS_identifier
  | _, _ => false
  end.

Lemma is_name_field_spec : forall fl, is_name_field fl = true -> fl = name_field.
Proof.
  intros [n a r sh k]. unfold is_name_field. cbn [f_name f_alias f_required f_shape f_kind]. intros H.
  apply andb_true_iff in H. destruct H as [H H4]. apply andb_true_iff in H. destruct H as [H H3].
  apply andb_true_iff in H. destruct H as [H1 H2]. apply String.eqb_eq in H1. apply String.eqb_eq in H2.
  destruct sh; try discriminate H4. destruct k as [| |st [lo|] [hi|] cs| | | | | | | |]; try discriminate H4.
  apply andb_true_iff in H4. destruct H4 as [H4 H8]. apply andb_true_iff in H4. destruct H4 as [H4 H7].
  apply andb_true_iff in H4. destruct H4 as [H5 H6]. apply N.eqb_eq in H6. apply N.eqb_eq in H7.
  apply charset_eqb_eq in H8. subst. reflexivity.
Qed.

(* a job parameter definition class: adds a value; its name first, nothing below the other fields *)
Definition param_cls_ok (c : string) : bool :=
  match lookup_cls Generated.schema c with
  | Some c0 => j_adds_value (c_jcm c0) &&
               match c_fields c0 with fl :: rest => is_name_field fl && forallb inside rest | [] => false end
  | None => false
  end.

Lemma param_classes_ok : forallb param_cls_ok param_classes = true.
Proof. vm_compute. reflexivity. Qed.

Lemma param_class_shape : forall c, In c param_classes ->
  exists c0 rest, lookup_cls Generated.schema c = Some c0 /\ c_fields c0 = name_field :: rest /\
                  forallb inside rest = true /\ j_adds_value (c_jcm c0) = true.
Proof.
  intros c Hc. pose proof param_classes_ok as H. rewrite forallb_forall in H. specialize (H c Hc).
  unfold param_cls_ok in H. destruct (lookup_cls Generated.schema c) as [c0|]; [|discriminate H].
  apply andb_true_iff in H. destruct H as [Hj H]. destruct (c_fields c0) as [|fl rest] eqn:Ef; [discriminate H|].
  apply andb_true_iff in H. destruct H as [Hn Hr]. apply is_name_field_spec in Hn. subst fl. exists c0, rest. auto.
Qed.

(* the job template's "name": a required format string under that alias *)
Definition is_fmt_name (fl : field) : bool :=
  String.eqb (f_alias fl) "name" && f_required fl &&
  match f_shape fl, f_kind fl with Single, KFormat _ _ _ _ => true | _, _ => false end.

Definition job_name_ok : bool :=
  match lookup_cls Generated.schema "JobTemplate" with
  | Some c0 => match List.find (fun fl => String.eqb (f_name fl) "name") (c_fields c0) with
               | Some fl => is_fmt_name fl
               | None => false
               end
  | None => false
  end.

Lemma job_name_field : forall c0, lookup_cls Generated.schema "JobTemplate" = Some c0 ->
  exists c lo hi cs,
    List.find (fun fl => String.eqb (f_name fl) "name") (c_fields c0) = Some (mkField "name" "name" true Single (KFormat c lo hi cs)).
Proof.
  assert (H : job_name_ok = true) by (vm_compute; reflexivity).
  intros c0 El. unfold job_name_ok in H. rewrite El in H.
  destruct (List.find _ (c_fields c0)) as [[n a r sh k]|] eqn:Ef; [|discriminate H].
  apply find_some in Ef. destruct Ef as [_ En]. apply String.eqb_eq in En. unfold is_fmt_name in H. cbn in En, H.
  apply andb_true_iff in H. destruct H as [H Hk]. apply andb_true_iff in H. destruct H as [Ha Hr].
  apply String.eqb_eq in Ha. destruct sh; try discriminate Hk. destruct k; try discriminate Hk. subst. eauto.
Qed.

Section Live.
  Variable classify : N -> cclass.
  Notation pk := (parse_kind Generated.schema classify pre_hook (post_hook classify)).
  Notation pc := (parse_cls Generated.schema classify pre_hook (post_hook classify)).

  Lemma pk_classes_R0 : forall f k v m, pk f k v = Ok m -> incl (kind_classes k) R0 -> incl (classes_in m) R0.
  Proof.
    intros f. exact (proj1 (parse_classes Generated.schema classify pre_hook (post_hook classify) R0
                                          (closedb_sound _ _ R0_closed) f)).
  Qed.

  (* a parsed field whose kind stays inside R0 contributes no job parameter definition *)
  Lemma field_adds_nil : forall f ms fl y,
    parse_field (pk f) ms fl = Ok y ->
    forallb (fun x => mem_s x R0) (kind_classes (f_kind fl)) = true ->
    adds_names Generated.schema (snd y) = [].
  Proof.
    intros f ms fl y H Hk. apply R0_adds_nil.
    pose proof (parse_field_is Generated.schema classify pre_hook (post_hook classify) (below R0) f ms fl y
                               (fun v m => pk_classes_R0 f (f_kind fl) v m) H) as [_ Hv].
    apply (value_below R0 fl); [exact Hv|]. intros c Hc. apply mem_s_In. rewrite forallb_forall in Hk. exact (Hk c Hc).
  Qed.

  Lemma fields_adds_nil : forall f ms fls fs,
    mapM (parse_field (pk f) ms) fls = Ok fs -> forallb inside fls = true ->
    flat_map (fun kv => adds_names Generated.schema (snd kv)) fs = [].
  Proof.
    intros f ms fls fs Hm Hk. apply flat_map_nil_all. intros kv Hkv.
    destruct (mapM_ok_in _ _ _ _ _ Hm kv Hkv) as [fl [Hfl Hp]].
    rewrite forallb_forall in Hk. eapply field_adds_nil; [exact Hp|apply Hk; exact Hfl].
  Qed.

  Lemma fields_one_outside : forall f ms n fls fs,
    mapM (parse_field (pk f) ms) fls = Ok fs -> one_outside n fls = true ->
    exists fl x, is_params fl = true /\ parse_value (pk f) fl (field_raw ms fl) = Ok x /\ mfield n fs = x /\
                 flat_map (fun kv => adds_names Generated.schema (snd kv)) fs = adds_names Generated.schema x.
  Proof.
    intros f ms n. unfold mfield. induction fls as [|fl r IH]; intros fs H Ho; [discriminate Ho|].
    apply mapM_cons_ok in H. destruct H as (y & ys & Hy & Hr & ->). cbn [one_outside] in Ho. cbn [flat_map].
    pose proof Hy as Hy'. apply parse_field_ok in Hy'. destruct Hy' as (x & Hx & ->). cbn [lookup_s snd].
    destruct (String.eqb (f_name fl) n); apply andb_true_iff in Ho; destruct Ho as [H1 H2].
    - exists fl, x. rewrite (fields_adds_nil _ _ _ _ Hr H2), app_nil_r. auto.
    - destruct (IH _ Hr H2) as (fl' & x' & Hp & Hx' & Hm & Ha). exists fl', x'.
      pose proof (field_adds_nil _ _ _ _ Hy H1) as E. cbn [snd] in E. rewrite E. auto.
  Qed.

  (* an accepted template root *)
  Lemma root_params : forall c f ms t, params_root c = true -> pc f c (JObj ms) = Ok t ->
    exists f' fs fl x, t = MModel c fs /\ is_params fl = true /\ parse_value (pk f') fl (field_raw ms fl) = Ok x /\
                       mfield "parameterDefinitions" fs = x /\ adds_names Generated.schema t = adds_names Generated.schema x.
  Proof.
    intros c f ms t Hc H. apply parse_cls_ok_inv in H. destruct H as (f' & c0 & ms' & fs & _ & El & E & _ & _ & Hm & _ & ->).
    injection E as <-. unfold params_root in Hc. rewrite El in Hc. apply andb_true_iff in Hc. destruct Hc as [Hj Ho].
    destruct (fields_one_outside _ _ _ _ _ Hm Ho) as (fl & x & Hp & Hx & Hf & Ha).
    exists f', fs, fl, x. cbn [adds_names]. unfold jcm_of. rewrite El. apply negb_true_iff in Hj. rewrite Hj. auto.
  Qed.

  Lemma name_field_inv : forall f ms y,
    parse_field (pk f) ms name_field = Ok y ->
    exists c r, y = ("name", MStr (c :: r)) /\ jget "name" (JObj ms) = JStr (c :: r).
  Proof.
    intros f ms y H. unfold parse_field, parse_value, field_raw in H. cbn [name_field f_alias f_required f_shape f_kind f_name] in H.
    cbn [jget]. change (str_of_string "name") with ($"name") in *.
    destruct (assoc $"name" ms) as [raw|]; [|discriminate H].
    destruct f as [|f']; [destruct raw; discriminate H|].
    rewrite parse_kind_S in H. cbn [parse_scalar] in H.
    destruct raw as [|b|z|a e|s|l|ms']; try discriminate H.
    destruct (check_str (Some 1%N) (Some 64%N) CS_identifier s) as [x|e] eqn:Ec; cbn [bind] in H; [|discriminate H].
    injection H as <-. apply check_str_ok in Ec. destruct Ec as [-> Hl].
    destruct s as [|c r]; [vm_compute in Hl; discriminate Hl|]. exists c, r. split; reflexivity.
  Qed.

  (* one job parameter definition object *)
  Lemma param_def_inv : forall c', In c' param_classes -> forall f ims y,
    pc f c' (JObj ims) = Ok y ->
    exists c r, jget "name" (JObj ims) = JStr (c :: r) /\ adds_names Generated.schema y = [c :: r].
  Proof.
    intros c' Hin f ims y H. destruct (param_class_shape c' Hin) as (c0 & rest & El & Ef & Hr & Hj).
    apply parse_cls_ok_inv in H. destruct H as (f' & c1 & ms & fs & _ & El' & E & _ & _ & Hm & _ & ->).
    rewrite El in El'. injection El' as <-. injection E as <-. rewrite Ef in Hm.
    apply mapM_cons_ok in Hm. destruct Hm as (y1 & fs' & H1 & Hm & ->).
    apply name_field_inv in H1. destruct H1 as (c & r & -> & Hn). exists c, r. split; [exact Hn|].
    cbn [adds_names]. unfold jcm_of. rewrite El, Hj. unfold mfield. cbn [lookup_s String.eqb Ascii.eqb Bool.eqb flat_map snd adds_names].
    rewrite (fields_adds_nil _ _ _ _ Hm Hr). reflexivity.
  Qed.

  Lemma disc_param_inv : forall f item y, pk f (KDisc "type" params_mapping) item = Ok y ->
    exists n, adds_names Generated.schema y = [n] /\ has_param_type item = true /\ decl_name item = Some n.
  Proof.
    intros f item y H. destruct f as [|f]; [discriminate H|]. rewrite parse_kind_S in H.
    apply disc_res_ok in H. destruct H as (ims & s & [k' c'] & -> & Ea & Hin & <- & H). cbn [fst snd] in *.
    assert (Hc : In c' param_classes /\ has_param_type (JObj ims) = true).
    { unfold has_param_type, type_is. cbn [jget]. rewrite Ea.
      destruct Hin as [E|[E|[E|[E|[]]]]]; injection E as <- <-; split; try (vm_compute; tauto); reflexivity. }
    destruct Hc as [Hc Ht].
    destruct (param_def_inv c' Hc f ims y H) as [c [r [Hn Ha]]].
    exists (c :: r). split; [exact Ha|]. split; [exact Ht|]. unfold decl_name. rewrite Hn. reflexivity.
  Qed.

  (* ---------------- the root ---------------- *)
  Lemma params_value_adds : forall f fl raw x, is_params fl = true -> parse_value (pk f) fl raw = Ok x ->
    incl (adds_names Generated.schema x) (all_params raw).
  Proof.
    intros f fl raw x Hp H. apply is_params_spec in Hp. destruct Hp as (_ & Hq & (lo & hi & Hs) & Hk).
    apply parse_value_ok in H. destruct H as [(_ & _ & ->)|H]; [intros n []|]. rewrite Hs, Hk in H.
    apply list_items_ok in H. destruct H as (items & l & -> & Hm & ->). cbn [adds_names]. intros n Hin.
    apply in_flat_map in Hin. destruct Hin as [m [Hm' Hnm]]. destruct (mapM_ok_in _ _ _ _ _ Hm m Hm') as [item [Hitem Hpi]].
    apply disc_param_inv in Hpi. destruct Hpi as [n' [Hadds [Ht Hd]]]. rewrite Hadds in Hnm. destruct Hnm as [<-|[]].
    unfold all_params, declared. cbn [obj_list]. apply in_flat_map. exists item. split; [exact Hitem|].
    rewrite Ht, Hd. left. reflexivity.
  Qed.

  Lemma format_field_inv : forall f ms fname falias c lo hi cs y,
    parse_field (pk f) ms (mkField fname falias true Single (KFormat c lo hi cs)) = Ok y ->
    exists s, y = (fname, MFmt s) /\ assoc (str_of_string falias) ms = Some (JStr s) /\ fs_ok classify s = true.
  Proof.
    intros f ms fname falias c lo hi cs y H. unfold parse_field, parse_value, field_raw in H.
    cbn [f_alias f_required f_shape f_kind f_name] in H.
    destruct (assoc (str_of_string falias) ms) as [raw|]; [|discriminate H].
    destruct f as [|f']; [destruct raw; discriminate H|].
    rewrite parse_kind_S in H. cbn [parse_scalar] in H.
    destruct raw as [|b|z|a e|s|l|ms']; try discriminate H.
    destruct (len_ok lo hi s && cs_ok cs s && fs_ok classify s) eqn:E; cbn [bind] in H; [|discriminate H].
    injection H as <-. apply andb_true_iff in E. destruct E as [_ E]. exists s. repeat split. exact E.
  Qed.

  Lemma decode_job_ok : forall j t, decode_job classify j = Ok t -> exists ms f, j = JObj ms /\ pc f "JobTemplate" j = Ok t.
  Proof.
    intros j t H. unfold decode_job in H. destruct j as [| | | | | |ms]; try discriminate H.
    destruct (version_ok Generated.job_template_versions (JObj ms)); [|discriminate H]. exists ms, (parse_fuel (JObj ms)). auto.
  Qed.

  Lemma decode_env_ok : forall j t, decode_env classify j = Ok t -> exists ms f, j = JObj ms /\ pc f "EnvironmentTemplate" j = Ok t.
  Proof.
    intros j t H. unfold decode_env in H. destruct j as [| | | | | |ms]; try discriminate H.
    destruct (version_ok Generated.env_template_versions (JObj ms)); [|discriminate H]. exists ms, (parse_fuel (JObj ms)). auto.
  Qed.

  (* what the create_job model needs to know about an accepted job template *)
  Theorem decode_job_inv : forall j t, decode_job classify j = Ok t ->
    exists ms fields s,
      j = JObj ms /\ t = MModel "JobTemplate" fields /\
      jget "name" j = JStr s /\ mfield "name" fields = MFmt s /\ fs_ok classify s = true /\
      incl (adds_names Generated.schema t) (all_params (jget "parameterDefinitions" j)).
  Proof.
    intros j t H. apply decode_job_ok in H. destruct H as (ms & f & -> & H).
    pose proof roots_params as Hr. apply andb_true_iff in Hr. destruct Hr as [Hr _].
    destruct (root_params _ _ _ _ Hr H) as (f1 & fs1 & fl & x & _ & Hp & Hx & _ & Ha).
    apply parse_cls_ok_inv in H. destruct H as (f' & c0 & ms' & fs & _ & El & E & _ & _ & Hm & _ & ->). injection E as <-.
    destruct (job_name_field c0 El) as (c & lo & hi & cs & Hf).
    destruct (fields_find _ _ _ _ _ _ Hm Hf) as (s' & Hs & Hn).
    assert (Hs' : parse_field (pk f') ms (mkField "name" "name" true Single (KFormat c lo hi cs)) = Ok ("name", s'))
      by (unfold parse_field; rewrite Hs; reflexivity).
    apply format_field_inv in Hs'. destruct Hs' as (s & E & Has & Hfs). injection E as ->.
    exists ms, fs, s. cbn [jget]. change ($"name") with (str_of_string "name"). rewrite Has.
    repeat (split; [first [reflexivity|assumption]|]).
    rewrite Ha. destruct (is_params_spec fl Hp) as (Hal & _). unfold field_raw in Hx. rewrite Hal in Hx.
    exact (params_value_adds _ _ _ _ Hp Hx).
  Qed.
End Live.

(* ------------------------------------------------------------------ end to end *)

(* an accepted template, values for all its declared parameters: create_job never raises KeyError *)
Theorem accepted_no_keyerror : forall classify j t vals,
  decode_job classify j = Ok t -> covers (jget "parameterDefinitions" j) vals ->
  create_job_verdict classify vals t <> Raise KeyError.
Proof.
  intros classify j t vals Hd [C1 _] H.
  destruct (create_job_verdict_raises classify vals t KeyError H) as [_ [_ K]].
  destruct (K eq_refl) as [n [Hn Hnot]].
  destruct (decode_job_inv classify j t Hd) as [ms [fields [s [_ [_ [_ [_ [_ Hincl]]]]]]]].
  apply Hnot. apply C1. apply Hincl. exact Hn.
Qed.

(* ... and the job name of the decoded template is the document's name, a well-formed format
   string all of whose references are bound: create_job's resolve of it succeeds *)
Theorem accepted_name_resolves : forall classify j t vals,
  decode_job classify j = Ok t -> covers (jget "parameterDefinitions" j) vals ->
  exists fields s r, t = MModel "JobTemplate" fields /\ mfield "name" fields = MFmt s /\
                     jget "name" j = JStr s /\ Export.fs_resolve classify (symtab_of vals) s = Ok r.
Proof.
  intros classify j t vals Hd Hc.
  destruct (decode_job_inv classify j t Hd) as [ms [fields [s [Hj [Ht [Hn [Hm [Hfs _]]]]]]]].
  pose proof (decode_job_prevalidated classify j t Hd) as Hp.
  unfold fs_ok in Hfs. destruct (mk classify s) as [f|e] eqn:Emk; [|discriminate Hfs].
  assert (Hr : fs_refs classify s = Some (FormatStrProofs.names f)) by (unfold fs_refs; rewrite Emk; reflexivity).
  assert (Hs : In (JStr s) (template_sites j)) by (unfold template_sites; left; exact Hn).
  destruct (sites_bound classify j vals Hc Hp s Hs _ Hr) as [_ [r Hok]].
  exists fields, s, r. repeat split; assumption.
Qed.
