(* AcceptMono.v — the structural parser of Parse.v as the proofs see it, and C01/C02 part A.

   1. The parser in named pieces with its one-step equations ([parse_kind_S], [parse_cls_S]) and the
      inversion of every piece on success and on failure: every file that reasons about decoding goes
      through these instead of unfolding [parse_kind].
   2. One step of two parsers under any bind-compatible relation on outcomes, and its instances; among them
      the soundness of the table order of SchemaOrder.v:

        parse_monotone : schema_le S1 S2 = true ->
           parse_cls S1 classify pre post fuel root j = Ok v ->
           parse_cls S2 classify pre post fuel root j = Ok v

      for ALL kinds of Schema.v (unions, discriminated unions, models, dictionaries included), any
      hooks, any fuel.  This is what gives C01_table / C02_table their meaning.
   3. The order evaluated on concrete tables ([rigid_fix], [schema_le_fix_eq]). *)
From Coq Require Import List NArith ZArith Bool String Lia.
Import ListNotations.
Require Import OJD.Base OJD.Lexer OJD.Json OJD.Schema OJD.Charsets OJD.Numerals OJD.NumPrint
               OJD.FormatStr OJD.CreateJob OJD.Parse OJD.SchemaOrder OJD.ListLib.
Local Open Scope string_scope.
Local Open Scope list_scope.

(* ------------------------------------------------------------------ *)
(* 1. One-step unfolding of the structural layer, in named pieces       *)
(* ------------------------------------------------------------------ *)

(* the kinds that do not recurse: independent of the table and of the fuel *)
Definition parse_scalar (classify : N -> cclass) (k : kind) (v : json) : outcome mval :=
  match k with
  | KLiteral lit => match v with JStr s => if str_eqb s (str_of_string lit) then Ok (MStr s) else reject | _ => reject end
  | KEnum members =>
    match v with
    | JStr s => if existsb (fun m => str_eqb s (str_of_string m)) members then Ok (MStr s) else reject
    | _ => reject
    end
  | KStr strict minl maxl cs =>
    match v with
    | JStr s => check_str minl maxl cs s
    | JInt z => if strict then reject else check_str minl maxl cs (print_Z z)
    | JBool b => if strict then reject else check_str minl maxl cs (if b then s_True else s_False)
    | JDec _ _ => if strict then reject else unsupported
    | _ => reject
    end
  | KFormat _ minl maxl cs =>
    match v with
    | JStr s => if len_ok minl maxl s && cs_ok cs s && fs_ok classify s then Ok (MFmt s) else reject
    | _ => reject
    end
  | KBool strict =>
    match v with
    | JBool b => Ok (MBool b)
    | _ => if strict then reject else unsupported
    end
  | KInt strict ge le gt =>
    let fin (z : Z) : outcome mval := if zopt_ok ge le gt z then Ok (MInt z) else reject in
    match v with
    | JInt z => fin z
    | JBool b => if strict then reject else fin (if b then 1 else 0)%Z
    | JStr s => if strict then reject else match parse_int s with Some z => fin z | None => reject end
    | JDec m e => if strict then reject else if dec_integral m e then fin (trunc_dec m e) else reject
    | _ => reject
    end
  | KFloat gt =>
    let fin (m e : Z) : outcome mval :=
      match gt with
      | Some b => if num_ltb (num_of_Z b) (mkNum m e) then Ok (MFloat m e) else reject
      | None => Ok (MFloat m e)
      end in
    match v with
    | JInt z => fin z 0%Z
    | JDec m e => fin m e
    | JBool b => fin (if b then 1 else 0)%Z 0%Z
    | JStr _ => unsupported
    | _ => reject
    end
  | KDec =>
    match v with
    | JInt z => Ok (MDec z 0)
    | JDec m e => Ok (MDec m e)
    | JStr s => match parse_dec s with Some (Fin m e) => Ok (MDec m e) | _ => reject end
    | _ => reject
    end
  | KModel _ | KDisc _ _ | KUnion _ => unsupported
  end.

Definition is_scalar (k : kind) : bool :=
  match k with KModel _ | KDisc _ _ | KUnion _ => false | _ => true end.

Lemma not_scalar_inv k : is_scalar k = false ->
  (exists c, k = KModel c) \/ (exists key m, k = KDisc key m) \/ (exists alts, k = KUnion alts).
Proof. destruct k; try discriminate; intros _; eauto. Qed.

Section Pieces.
  Variable pkf : kind -> json -> outcome mval.      (* parse_kind at the smaller fuel *)
  Variable pcf : string -> json -> outcome mval.    (* parse_cls at the smaller fuel *)

  Definition list_items (lo hi : option N) (k : kind) (v : json) : outcome mval :=
    match v with
    | JArr items =>
      if len_ok_n lo hi (List.length items)
      then do l' <- mapM (pkf k) items; Ok (MList l')
      else reject
    | _ => reject
    end.

  Definition alt_res (a : ualt) (v : json) : outcome mval :=
    match a with
    | UScalar k' => pkf k' v
    | UList lo hi k' => list_items lo hi k' v
    end.

  Definition try_alts (v : json) : list ualt -> outcome mval :=
    fix go (l : list ualt) : outcome mval :=
      match l with
      | [] => reject
      | a :: r =>
        match alt_res a v with
        | Ok x => Ok x
        | Raise RuntimeError => Raise RuntimeError
        | Raise _ => go r
        end
      end.

  Lemma try_alts_nil v : try_alts v [] = reject.
  Proof. reflexivity. Qed.
  Lemma try_alts_cons v a r :
    try_alts v (a :: r) =
    match alt_res a v with
    | Ok x => Ok x
    | Raise RuntimeError => Raise RuntimeError
    | Raise _ => try_alts v r
    end.
  Proof. reflexivity. Qed.

  Definition disc_res (key : string) (mapping : list (string * string)) (v : json) : outcome mval :=
    match v with
    | JObj ms =>
      match assoc (str_of_string key) ms with
      | Some (JStr s) =>
        match List.find (fun kc => str_eqb (str_of_string (fst kc)) s) mapping with
        | Some (_, c) => pcf c v
        | None => reject
        end
      | _ => reject
      end
    | _ => reject
    end.

  Definition dict_entry (kk k : kind) (kv : str * json) : outcome (str * mval) :=
    do _ <- pkf kk (JStr (fst kv));
    do y <- pkf k (snd kv);
    Ok (fst kv, y).

  Definition parse_value (fl : field) (raw : json) : outcome mval :=
    match raw with
    | JNull => if f_required fl then reject else Ok MNone
    | _ =>
      match f_shape fl with
      | Single => pkf (f_kind fl) raw
      | ListOf minl maxl => list_items minl maxl (f_kind fl) raw
      | DictOf kk =>
        match raw with
        | JObj members => do l' <- mapM (dict_entry kk (f_kind fl)) members; Ok (MDict l')
        | _ => reject
        end
      end
    end.

  Definition field_raw (ms : list (str * json)) (fl : field) : json :=
    match assoc (str_of_string (f_alias fl)) ms with Some x => x | None => JNull end.

  Definition parse_field (ms : list (str * json)) (fl : field) : outcome (string * mval) :=
    do x <- parse_value fl (field_raw ms fl); Ok (f_name fl, x).
End Pieces.

Definition alias_known (fields : list field) (k : str) : bool :=
  existsb (fun fl => str_eqb k (str_of_string (f_alias fl))) fields.

Definition extra_bad (c : cls) (ms : list (str * json)) : bool :=
  c_extra_forbid c && negb (forallb (fun kv => alias_known (c_fields c) (fst kv)) ms).

Section Unfold.
  Variable SC : schema_t.
  Variable classify : N -> cclass.
  Variable pre : string -> json -> bool.
  Variable post : string -> json -> list (string * mval) -> bool.
  Notation pk := (parse_kind SC classify pre post).
  Notation pc := (parse_cls SC classify pre post).

  Lemma parse_kind_O k v : pk 0 k v = Raise RuntimeError.
  Proof. reflexivity. Qed.
  Lemma parse_cls_O c v : pc 0 c v = Raise RuntimeError.
  Proof. reflexivity. Qed.

  Lemma parse_kind_S f k v :
    pk (S f) k v =
    match k with
    | KModel c => pc f c v
    | KDisc key mapping => disc_res (pc f) key mapping v
    | KUnion alts => try_alts (pk f) v alts
    | _ => parse_scalar classify k v
    end.
  Proof. destruct k; reflexivity. Qed.

  Lemma parse_cls_S f c v :
    pc (S f) c v =
    match lookup_cls SC c, v with
    | Some c0, JObj ms =>
      if negb (pre c v) then reject
      else if extra_bad c0 ms then reject
      else do fields <- mapM (parse_field (pk f) ms) (c_fields c0);
           if post c v fields then Ok (MModel c fields) else reject
    | Some _, _ => reject
    | None, _ => Raise RuntimeError
    end.
  Proof.
    (* the pieces are unfolded first: left to itself the conversion unfolds the parser's fixpoints instead *)
    unfold parse_field, parse_value, field_raw, list_items, dict_entry, extra_bad, alias_known. reflexivity.
  Qed.

  (* what a successful class parse went through *)
  Lemma parse_cls_ok_inv f c v x :
    pc f c v = Ok x ->
    exists f' c0 ms fields,
      f = S f' /\ lookup_cls SC c = Some c0 /\ v = JObj ms /\ pre c v = true /\ extra_bad c0 ms = false /\
      mapM (parse_field (pk f') ms) (c_fields c0) = Ok fields /\ post c v fields = true /\ x = MModel c fields.
  Proof.
    destruct f as [|f']; [discriminate|]. rewrite parse_cls_S.
    destruct (lookup_cls SC c) as [c0|]; [|discriminate]. destruct v as [| | | | | |ms]; try discriminate.
    destruct (pre c (JObj ms)); [|discriminate]. destruct (extra_bad c0 ms) eqn:Hx; [discriminate|]. cbn [negb].
    destruct (mapM _ (c_fields c0)) as [fields|] eqn:Hm; [|discriminate]. cbn [bind].
    destruct (post c (JObj ms) fields) eqn:Hp; [|discriminate].
    intros E. injection E as <-. exists f', c0, ms, fields. repeat split; assumption.
  Qed.
  Lemma parse_cls_raise : forall f c v e, pc f c v = Raise e ->
    e = ValueError \/ (e = RuntimeError /\ (f = 0 \/ lookup_cls SC c = None)) \/
    exists f' c0 ms fl, f = S f' /\ lookup_cls SC c = Some c0 /\ v = JObj ms /\ In fl (c_fields c0) /\
                        parse_value (pk f') fl (field_raw ms fl) = Raise e.
  Proof.
    intros [|f] c v e H; [injection H as <-; auto|]. rewrite parse_cls_S in H. unfold reject in H.
    destruct (lookup_cls SC c) as [c0|] eqn:El; [|injection H as <-; auto].
    destruct v as [| | | | | |ms]; try (left; congruence).
    destruct (negb (pre c (JObj ms))); [left; congruence|]. destruct (extra_bad c0 ms); [left; congruence|].
    destruct (mapM (parse_field (pk f) ms) (c_fields c0)) as [fs|e'] eqn:Em; cbn [bind] in H.
    - destruct (post c (JObj ms) fs); [discriminate H|left; congruence].
    - injection H as ->. apply mapM_raise_in in Em. destruct Em as (fl & Hfl & Efl). unfold parse_field in Efl.
      destruct (parse_value (pk f) fl (field_raw ms fl)) as [x|e'] eqn:Ev; [discriminate Efl|]. injection Efl as ->.
      right. right. exists f, c0, ms, fl. auto.
  Qed.
End Unfold.

(* success of each piece of the structural layer, read backwards *)
Section PieceInv.
  Variable p : kind -> json -> outcome mval.

  Lemma list_items_ok : forall lo hi k v m, list_items p lo hi k v = Ok m ->
    exists items l, v = JArr items /\ mapM (p k) items = Ok l /\ m = MList l.
  Proof.
    intros lo hi k v m H. unfold list_items in H. destruct v as [| | | | |items|]; try discriminate H.
    destruct (len_ok_n lo hi (List.length items)); [|discriminate H].
    destruct (mapM (p k) items) as [l|e] eqn:Em; [|discriminate H]. injection H as <-. exists items, l. auto.
  Qed.

  Lemma try_alts_inv : forall v alts m, try_alts p v alts = Ok m -> exists a, In a alts /\ alt_res p a v = Ok m.
  Proof.
    intros v alts m. induction alts as [|a r IH]; intros H; [discriminate H|].
    rewrite try_alts_cons in H. destruct (alt_res p a v) as [x|e] eqn:Ea.
    - injection H as <-. exists a. split; [left; reflexivity|exact Ea].
    - assert (Hr : try_alts p v r = Ok m) by (destruct e; try exact H; discriminate H).
      destruct (IH Hr) as [a' [Hin Ha']]. exists a'. split; [right; exact Hin|exact Ha'].
  Qed.

  Lemma try_alts_raise : forall v alts e, try_alts p v alts = Raise e ->
    e = ValueError \/ exists a, In a alts /\ alt_res p a v = Raise e.
  Proof.
    intros v alts e. induction alts as [|a r IH]; intros H; [left; injection H as <-; reflexivity|].
    rewrite try_alts_cons in H. destruct (alt_res p a v) as [x|e'] eqn:Ea; [discriminate H|].
    assert (K : e' = RuntimeError /\ e = RuntimeError \/ try_alts p v r = Raise e)
      by (destruct e'; try (right; exact H); left; split; [reflexivity|injection H as <-; reflexivity]).
    destruct K as [[-> ->]|K]; [right; exists a; split; [left; reflexivity|exact Ea]|].
    destruct (IH K) as [E|(a' & Hin & Ha')]; [left; exact E|right; exists a'; split; [right; exact Hin|exact Ha']].
  Qed.

  Lemma dict_entry_ok : forall kk k kv y, dict_entry p kk k kv = Ok y -> exists x, p k (snd kv) = Ok x /\ y = (fst kv, x).
  Proof.
    intros kk k kv y H. unfold dict_entry in H.
    destruct (p kk (JStr (fst kv))); [|discriminate H]. cbn [bind] in H.
    destruct (p k (snd kv)) as [x|] eqn:Ex; [|discriminate H]. injection H as <-. exists x. auto.
  Qed.

  Lemma parse_value_ok : forall fl raw x, parse_value p fl raw = Ok x ->
    (raw = JNull /\ f_required fl = false /\ x = MNone) \/
    match f_shape fl with
    | Single => p (f_kind fl) raw = Ok x
    | ListOf lo hi => list_items p lo hi (f_kind fl) raw = Ok x
    | DictOf kk => exists ms l, raw = JObj ms /\ mapM (dict_entry p kk (f_kind fl)) ms = Ok l /\ x = MDict l
    end.
  Proof.
    intros fl raw x H. unfold parse_value in H.
    destruct raw as [| | | | | |ms]; [destruct (f_required fl); [discriminate H|injection H as <-; left; auto]|..];
      right; destruct (f_shape fl) as [|lo hi|kk]; try exact H; try discriminate H.
    destruct (mapM (dict_entry p kk (f_kind fl)) ms) as [l|] eqn:Em; [|discriminate H]. injection H as <-. exists ms, l. auto.
  Qed.

  Lemma parse_field_ok : forall ms fl y, parse_field p ms fl = Ok y ->
    exists x, parse_value p fl (field_raw ms fl) = Ok x /\ y = (f_name fl, x).
  Proof.
    intros ms fl y H. unfold parse_field in H.
    destruct (parse_value p fl (field_raw ms fl)) as [x|] eqn:Ex; [|discriminate H]. injection H as <-. exists x. auto.
  Qed.

  (* failure of each piece: rejected here (ValueError), or the failure of a part *)
  Lemma list_items_raise : forall lo hi k v e, list_items p lo hi k v = Raise e ->
    e = ValueError \/ exists items x, v = JArr items /\ In x items /\ p k x = Raise e.
  Proof.
    intros lo hi k v e H. unfold list_items, reject in H. destruct v as [| | | | |items|]; try (left; congruence).
    destruct (len_ok_n lo hi (List.length items)); [|left; congruence].
    destruct (mapM (p k) items) as [l|e'] eqn:Em; [discriminate H|]. injection H as ->.
    apply mapM_raise_in in Em. destruct Em as (x & Hx & Ex). right. exists items, x. auto.
  Qed.

  Lemma parse_value_raise : forall fl raw e, parse_value p fl raw = Raise e ->
    e = ValueError \/
    raw <> JNull /\
    match f_shape fl with
    | Single => p (f_kind fl) raw = Raise e
    | ListOf _ _ => exists items x, raw = JArr items /\ In x items /\ p (f_kind fl) x = Raise e
    | DictOf kk => exists ms kv, raw = JObj ms /\ In kv ms /\
                                 (p kk (JStr (fst kv)) = Raise e \/ p (f_kind fl) (snd kv) = Raise e)
    end.
  Proof.
    intros fl raw e H. unfold parse_value, reject in H.
    destruct raw as [| | | | | |ms]; [destruct (f_required fl); [left; congruence|discriminate H]|..];
      (destruct (f_shape fl) as [|lo hi|kk];
       [right; split; [discriminate|exact H]
       |apply list_items_raise in H; destruct H as [H|H]; [left; exact H|right; split; [discriminate|exact H]]
       |try (left; congruence)]).
    destruct (mapM (dict_entry p kk (f_kind fl)) ms) as [l|e'] eqn:Em; [discriminate H|]. injection H as ->.
    apply mapM_raise_in in Em. destruct Em as (kv & Hkv & Ekv). right. split; [discriminate|]. exists ms, kv.
    split; [reflexivity|]. split; [exact Hkv|]. unfold dict_entry in Ekv.
    destruct (p kk (JStr (fst kv))) as [y1|e1]; cbn [bind] in Ekv; [|left; congruence].
    destruct (p (f_kind fl) (snd kv)) as [y2|e2]; cbn [bind] in Ekv; [discriminate Ekv|right; congruence].
  Qed.

  (* the field of a given name, among the parsed fields *)
  Lemma fields_find : forall ms n fls fs fl, mapM (parse_field p ms) fls = Ok fs ->
    List.find (fun fl => String.eqb (f_name fl) n) fls = Some fl ->
    exists x, parse_value p fl (field_raw ms fl) = Ok x /\ mfield n fs = x.
  Proof.
    intros ms n. unfold mfield. induction fls as [|fl0 r IH]; intros fs fl H Hf; [discriminate Hf|].
    apply mapM_cons_ok in H. destruct H as (y & ys & Hy & Hr & ->).
    apply parse_field_ok in Hy. destruct Hy as (x & Hx & ->). cbn [List.find] in Hf. cbn [lookup_s].
    destruct (String.eqb (f_name fl0) n); [injection Hf as <-; exists x; auto|exact (IH _ _ Hr Hf)].
  Qed.
End PieceInv.

Lemma disc_res_ok : forall pcf key mp v m, disc_res pcf key mp v = Ok m ->
  exists ms s kc, v = JObj ms /\ assoc (str_of_string key) ms = Some (JStr s) /\ In kc mp /\
                  str_of_string (fst kc) = s /\ pcf (snd kc) v = Ok m.
Proof.
  intros pcf key mp v m H. unfold disc_res in H. destruct v as [| | | | | |ms]; try discriminate H.
  destruct (assoc (str_of_string key) ms) as [[| | | |s| |]|] eqn:Ea; try discriminate H.
  destruct (List.find _ mp) as [[k c]|] eqn:Ef; [|discriminate H]. apply find_some in Ef. destruct Ef as [Hin Hs].
  apply ListLib.str_eqb_eq in Hs. exists ms, s, (k, c). auto.
Qed.

Lemma disc_res_raise : forall pcf key mp v e, disc_res pcf key mp v = Raise e ->
  e = ValueError \/ exists kc, In kc mp /\ pcf (snd kc) v = Raise e.
Proof.
  intros pcf key mp v e H. unfold disc_res, reject in H. destruct v as [| | | | | |ms]; try (left; congruence).
  destruct (assoc (str_of_string key) ms) as [[| | | |s| |]|]; try (left; congruence).
  destruct (List.find _ mp) as [[k c]|] eqn:Ef; [|left; congruence]. apply find_some in Ef.
  right. exists (k, c). split; [exact (proj1 Ef)|exact H].
Qed.


(* ------------------------------------------------------------------ *)
(* 2. Small facts about the comparisons                                  *)
(* ------------------------------------------------------------------ *)
Lemma optN_eqb_eq a b : optN_eqb a b = true -> a = b.
Proof. destruct a, b; cbn; intros H; try discriminate; [apply N.eqb_eq in H; subst|]; reflexivity. Qed.
Lemma optZ_eqb_eq a b : optZ_eqb a b = true -> a = b.
Proof. destruct a, b; cbn; intros H; try discriminate; [apply Z.eqb_eq in H; subst|]; reflexivity. Qed.
Lemma charset_eqb_eq a b : charset_eqb a b = true -> a = b.
Proof. destruct a, b; cbn; intros H; try discriminate; reflexivity. Qed.
Lemma strs_eqb_eq a : forall b, strs_eqb a b = true -> a = b.
Proof.
  induction a as [|x r IH]; intros [|y s] H; cbn in H; try discriminate; [reflexivity|].
  apply andb_true_iff in H. destruct H as [H1 H2]. apply String.eqb_eq in H1. subst y.
  f_equal. apply IH. exact H2.
Qed.
Lemma mapping_eqb_eq a : forall b, mapping_eqb a b = true -> a = b.
Proof.
  induction a as [|[k c] r IH]; intros [|[k' c'] s] H; cbn in H; try discriminate; [reflexivity|].
  apply andb_true_iff in H. destruct H as [H H3]. apply andb_true_iff in H. destruct H as [H1 H2].
  apply String.eqb_eq in H1. apply String.eqb_eq in H2. subst k' c'. f_equal. apply IH. exact H3.
Qed.
Lemma bool_eqb_eq a b : Bool.eqb a b = true -> a = b.
Proof. apply Bool.eqb_prop. Qed.

Lemma len_ok_n_le lo1 hi1 lo2 hi2 n :
  lo_le lo1 lo2 = true -> hi_le hi1 hi2 = true ->
  len_ok_n lo1 hi1 n = true -> len_ok_n lo2 hi2 n = true.
Proof.
  unfold lo_le, hi_le, len_ok_n. intros Hl Hh H.
  apply andb_true_iff in H. destruct H as [H1 H2]. apply andb_true_iff. split.
  - destruct lo2 as [y|]; [|reflexivity]. destruct lo1 as [x|].
    + apply N.leb_le in Hl. apply N.leb_le in H1. apply N.leb_le. lia.
    + apply N.eqb_eq in Hl. apply N.leb_le. lia.
  - destruct hi2 as [y|]; [|reflexivity]. destruct hi1 as [x|]; [|discriminate].
    apply N.leb_le in Hh. apply N.leb_le in H2. apply N.leb_le. lia.
Qed.

Lemma len_ok_le lo1 hi1 lo2 hi2 s :
  lo_le lo1 lo2 = true -> hi_le hi1 hi2 = true ->
  len_ok lo1 hi1 s = true -> len_ok lo2 hi2 s = true.
Proof. intros Hl Hh. exact (len_ok_n_le lo1 hi1 lo2 hi2 (List.length s) Hl Hh). Qed.

Lemma zopt_ok_le g1 l1 t1 g2 l2 t2 z :
  zlo_le g1 g2 = true -> zhi_le l1 l2 = true -> zlo_le t1 t2 = true ->
  zopt_ok g1 l1 t1 z = true -> zopt_ok g2 l2 t2 z = true.
Proof.
  unfold zlo_le, zhi_le, zopt_ok. intros Hg Hl Ht H.
  apply andb_true_iff in H. destruct H as [H H3]. apply andb_true_iff in H. destruct H as [H1 H2].
  repeat (apply andb_true_iff; split).
  - destruct g2 as [y|]; [|reflexivity]. destruct g1 as [x|]; [|discriminate].
    apply Z.leb_le in Hg. apply Z.leb_le in H1. apply Z.leb_le. lia.
  - destruct l2 as [y|]; [|reflexivity]. destruct l1 as [x|]; [|discriminate].
    apply Z.leb_le in Hl. apply Z.leb_le in H2. apply Z.leb_le. lia.
  - destruct t2 as [y|]; [|reflexivity]. destruct t1 as [x|]; [|discriminate].
    apply Z.leb_le in Ht. apply Z.ltb_lt in H3. apply Z.ltb_lt. lia.
Qed.

(* an integer bound below a decimal: lowering the bound keeps it below *)
Lemma num_ltb_Z_le x y m e :
  (y <= x)%Z -> num_ltb (num_of_Z x) (mkNum m e) = true -> num_ltb (num_of_Z y) (mkNum m e) = true.
Proof.
  unfold num_ltb, num_cmp, num_of_Z. cbn [mant expo]. intros Hle H.
  set (k := Z.min 0 e) in *.
  destruct (Z.compare_spec (x * 10 ^ (0 - k)) (m * 10 ^ (e - k))) as [E|L|G]; try discriminate.
  assert (Hp : (0 <= 10 ^ (0 - k))%Z) by (apply Z.pow_nonneg; lia).
  assert (Hm : (y * 10 ^ (0 - k) <= x * 10 ^ (0 - k))%Z) by (apply Z.mul_le_mono_nonneg_r; assumption).
  destruct (Z.compare_spec (y * 10 ^ (0 - k)) (m * 10 ^ (e - k))) as [E'|L'|G']; [lia|reflexivity|lia].
Qed.

Lemma enum_le s a b :
  forallb (fun m => mem_s m b) a = true ->
  existsb (fun m => str_eqb s (str_of_string m)) a = true ->
  existsb (fun m => str_eqb s (str_of_string m)) b = true.
Proof.
  intros Hsub Hex. apply existsb_exists in Hex. destruct Hex as (m & Hin & Hm).
  rewrite forallb_forall in Hsub. apply existsb_exists. exists m. split; [apply mem_s_In, Hsub, Hin|exact Hm].
Qed.

Lemma mapping_sub_find m1 m2 s k c :
  mapping_sub m1 m2 = true ->
  List.find (fun kc => str_eqb (str_of_string (fst kc)) s) m1 = Some (k, c) ->
  exists k', List.find (fun kc => str_eqb (str_of_string (fst kc)) s) m2 = Some (k', c).
Proof.
  intros Hsub Hf. apply find_some in Hf. destruct Hf as [Hin Hk]. cbn [fst] in Hk.
  apply str_eqb_eq in Hk. subst s.
  unfold mapping_sub in Hsub. rewrite forallb_forall in Hsub. specialize (Hsub (k, c) Hin).
  cbn [fst snd] in Hsub.
  destruct (List.find (fun kc' => str_eqb (str_of_string (fst kc')) (str_of_string k)) m2) as [[k' c']|];
    [|discriminate].
  apply String.eqb_eq in Hsub. subst c'. exists k'. reflexivity.
Qed.

Lemma forallb_ext' {A} (f g : A -> bool) l : (forall x, f x = g x) -> forallb f l = forallb g l.
Proof. intros H. induction l as [|a r IH]; [reflexivity|]. cbn [forallb]. rewrite H, IH. reflexivity. Qed.

(* ------------------------------------------------------------------ *)
(* 3. One step of two parsers                                            *)
(* ------------------------------------------------------------------ *)
(* Two runs of the structural layer are compared below in two ways: "the same outcome, errors
   included" (rigid classes) and "what the first accepts the second accepts with the same value"
   (the order).  Both comparisons go through a class, its fields and their shapes in the same
   way.  That part is done once, for any reflexive relation on outcomes that [bind] respects. *)
Record orel := {
  oq : forall A, outcome A -> outcome A -> Prop;
  oq_refl : forall A (o : outcome A), oq A o o;
  oq_bind : forall A B (o1 o2 : outcome A) (k1 k2 : A -> outcome B),
      oq A o1 o2 -> (forall x, oq B (k1 x) (k2 x)) -> oq B (bind o1 k1) (bind o2 k2) }.
Arguments oq _ {A}.

(* two guards are related when the outcomes they decide are *)
Definition og (O : orel) (b1 b2 : bool) : Prop :=
  oq O (if b1 then Ok tt else reject) (if b2 then Ok tt else reject).

Lemma eq_bind A B (o1 o2 : outcome A) (k1 k2 : A -> outcome B) :
  o1 = o2 -> (forall x, k1 x = k2 x) -> bind o1 k1 = bind o2 k2.
Proof. intros <- H. destruct o1; [apply H|reflexivity]. Qed.

Definition same_rel : orel :=
  {| oq := fun A => @eq (outcome A); oq_refl := fun A => @eq_refl (outcome A); oq_bind := eq_bind |}.

Definition ole {A} (o1 o2 : outcome A) : Prop := forall x, o1 = Ok x -> o2 = Ok x.

Lemma ole_refl A (o : outcome A) : ole o o.
Proof. intros x H. exact H. Qed.

Lemma ole_bind A B (o1 o2 : outcome A) (k1 k2 : A -> outcome B) :
  ole o1 o2 -> (forall x, ole (k1 x) (k2 x)) -> ole (bind o1 k1) (bind o2 k2).
Proof. intros H1 H2 y. destruct o1 as [x|]; [|discriminate]. rewrite (H1 x eq_refl). apply H2. Qed.

Lemma ole_guard A (b1 b2 : bool) (x y : outcome A) :
  (b1 = true -> b2 = true) -> ole x y -> ole (if b1 then x else reject) (if b2 then y else reject).
Proof. intros Hb H r. destruct b1; [|discriminate]. rewrite (Hb eq_refl). apply H. Qed.

Definition le_rel : orel :=
  {| oq := @ole; oq_refl := ole_refl; oq_bind := ole_bind |}.

Lemma og_le (a b : bool) : (a = true -> b = true) -> og le_rel a b.
Proof. intros H x. destruct a; [rewrite (H eq_refl); exact (fun E => E)|discriminate]. Qed.

Section Step.
  Variable O : orel.
  Variables S1 S2 : schema_t.
  Variable classify : N -> cclass.
  Variables pre1 pre2 : string -> json -> bool.
  Variables post1 post2 : string -> json -> list (string * mval) -> bool.
  Hypothesis Hpre : forall c raw, pre1 c raw = pre2 c raw.
  Hypothesis Hpost : forall c raw fs, post1 c raw fs = post2 c raw fs.
  Variable KR : kind -> kind -> Prop.
  Variable f : nat.
  Notation pk1 := (parse_kind S1 classify pre1 post1 f).
  Notation pk2 := (parse_kind S2 classify pre2 post2 f).
  Hypothesis IHk : forall k1 k2 v, KR k1 k2 -> oq O (pk1 k1 v) (pk2 k2 v).

  Lemma oq_guard A (b1 b2 : bool) (x y : outcome A) :
    og O b1 b2 -> oq O x y -> oq O (if b1 then x else reject) (if b2 then y else reject).
  Proof.
    intros Hg Hq. pose proof (oq_bind O _ _ _ _ (fun _ => x) (fun _ => y) Hg (fun _ => Hq)) as H.
    destruct b1, b2; exact H.
  Qed.

  Lemma oq_guard_neg A (b1 b2 : bool) (x y : outcome A) :
    og O (negb b1) (negb b2) -> oq O x y -> oq O (if b1 then reject else x) (if b2 then reject else y).
  Proof. intros Hg Hq. pose proof (oq_guard A _ _ x y Hg Hq) as H. destruct b1, b2; exact H. Qed.

  Lemma oq_mapM A B (g1 g2 : A -> outcome B) l1 l2 :
    Forall2 (fun a b => oq O (g1 a) (g2 b)) l1 l2 -> oq O (mapM g1 l1) (mapM g2 l2).
  Proof.
    induction 1 as [|a b r s Hab _ IH]; [apply oq_refl|]. cbn [mapM].
    apply oq_bind; [exact Hab|]. intros y. apply oq_bind; [exact IH|]. intros ys. apply oq_refl.
  Qed.

  Definition bounds_rel (lo1 hi1 lo2 hi2 : option N) : Prop :=
    forall n, og O (len_ok_n lo1 hi1 n) (len_ok_n lo2 hi2 n).

  Lemma rel_list_items lo1 hi1 lo2 hi2 k1 k2 v :
    bounds_rel lo1 hi1 lo2 hi2 -> KR k1 k2 ->
    oq O (list_items pk1 lo1 hi1 k1 v) (list_items pk2 lo2 hi2 k2 v).
  Proof.
    intros Hb Hk. unfold list_items. destruct v; try apply oq_refl.
    apply oq_guard; [apply Hb|]. apply oq_bind; [|intros; apply oq_refl].
    apply oq_mapM, Forall2_refl_in, Forall_forall. intros x _. apply IHk, Hk.
  Qed.

  Definition shape_rel (s1 s2 : shape) : Prop :=
    match s1, s2 with
    | Single, Single => True
    | ListOf lo1 hi1, ListOf lo2 hi2 => bounds_rel lo1 hi1 lo2 hi2
    | DictOf k1, DictOf k2 => KR k1 k2
    | _, _ => False
    end.

  (* same attribute name and input key; the rest related *)
  Definition field_rel (a b : field) : Prop :=
    f_name a = f_name b /\ f_alias a = f_alias b /\ og O (negb (f_required a)) (negb (f_required b)) /\
    shape_rel (f_shape a) (f_shape b) /\ KR (f_kind a) (f_kind b).

  Definition cls_rel (c1 c2 : cls) : Prop :=
    og O (negb (c_extra_forbid c1)) (negb (c_extra_forbid c2)) /\ Forall2 field_rel (c_fields c1) (c_fields c2).

  Lemma rel_field ms a b : field_rel a b -> oq O (parse_field pk1 ms a) (parse_field pk2 ms b).
  Proof.
    intros (En & Ea & Hr & Hs & Hk). unfold parse_field, field_raw. rewrite En, Ea.
    apply oq_bind; [|intros; apply oq_refl].
    generalize (match assoc (str_of_string (f_alias b)) ms with Some x => x | None => JNull end). intros raw.
    unfold parse_value.
    destruct (f_shape a) as [|lo1 hi1|kk1], (f_shape b) as [|lo2 hi2|kk2]; cbn [shape_rel] in Hs; try contradiction;
      destruct raw; try (apply oq_guard_neg; [exact Hr|apply oq_refl]);
      try (apply IHk, Hk); try (apply rel_list_items; assumption); try apply oq_refl.
    apply oq_bind; [|intros; apply oq_refl]. apply oq_mapM, Forall2_refl_in, Forall_forall. intros kv _.
    unfold dict_entry. apply oq_bind; [apply IHk, Hs|]. intros _. apply oq_bind; [apply IHk, Hk|]. intros y. apply oq_refl.
  Qed.

  Lemma rel_alias l1 l2 k : Forall2 field_rel l1 l2 -> alias_known l1 k = alias_known l2 k.
  Proof.
    induction 1 as [|a b r s (_ & Ea & _) _ IH]; [reflexivity|].
    unfold alias_known. cbn [existsb]. rewrite Ea. f_equal. exact IH.
  Qed.

  Lemma rel_cls_S c c1 c2 v :
    lookup_cls S1 c = Some c1 -> lookup_cls S2 c = Some c2 -> cls_rel c1 c2 ->
    oq O (parse_cls S1 classify pre1 post1 (S f) c v) (parse_cls S2 classify pre2 post2 (S f) c v).
  Proof.
    intros L1 L2 [Hx Hf]. rewrite !parse_cls_S, L1, L2. destruct v; try apply oq_refl.
    rewrite Hpre. destruct (negb (pre2 c (JObj members))); [apply oq_refl|].
    apply oq_guard_neg.
    - unfold extra_bad. rewrite (forallb_ext' _ _ members (fun kv => rel_alias _ _ (fst kv) Hf)).
      destruct (forallb _ members); cbn [negb]; rewrite ?andb_true_r, ?andb_false_r; [apply oq_refl|exact Hx].
    - apply oq_bind; [apply oq_mapM, (Forall2_impl _ _ _ _ (rel_field members)), Hf|].
      intros fields. rewrite Hpost. apply oq_refl.
  Qed.
End Step.

(* ------------------------------------------------------------------ *)
(* 4. The rigid part: same definitions -> same outcome, errors included  *)
(* ------------------------------------------------------------------ *)
Lemma same_scalar R k1 k2 : kind_same R k1 k2 = true -> is_scalar k1 = true -> k1 = k2.
Proof.
  destruct k1, k2; cbn [kind_same is_scalar]; intros H Hs; try discriminate;
    repeat match goal with
           | H : _ && _ = true |- _ => apply andb_true_iff in H; destruct H
           end;
    repeat match goal with
           | H : String.eqb _ _ = true |- _ => apply String.eqb_eq in H
           | H : Bool.eqb _ _ = true |- _ => apply bool_eqb_eq in H
           | H : optN_eqb _ _ = true |- _ => apply optN_eqb_eq in H
           | H : optZ_eqb _ _ = true |- _ => apply optZ_eqb_eq in H
           | H : charset_eqb _ _ = true |- _ => apply charset_eqb_eq in H
           | H : strs_eqb _ _ = true |- _ => apply strs_eqb_eq in H
           end; subst; reflexivity.
Qed.

Lemma field_same_inv R a b : field_same R a b = true ->
  f_name a = f_name b /\ f_alias a = f_alias b /\ f_required a = f_required b /\
  shape_same R (f_shape a) (f_shape b) = true /\ kind_same R (f_kind a) (f_kind b) = true.
Proof.
  unfold field_same. rewrite !andb_true_iff, !String.eqb_eq. intros [[[[En Ea] Er] Hs] Hk].
  apply bool_eqb_eq in Er. auto.
Qed.

Lemma field_le_inv R a b : field_le R a b = true ->
  f_name a = f_name b /\ f_alias a = f_alias b /\ implb (f_required b) (f_required a) = true /\
  shape_le R (f_shape a) (f_shape b) = true /\ kind_le R (f_kind a) (f_kind b) = true.
Proof. unfold field_le. rewrite !andb_true_iff, !String.eqb_eq. intros [[[[En Ea] Er] Hs] Hk]. auto. Qed.

Section Rigid.
  Variables S1 S2 : schema_t.
  Variable R : list string.
  Variable classify : N -> cclass.
  Variable pre : string -> json -> bool.
  Variable post : string -> json -> list (string * mval) -> bool.
  Hypothesis HR : rigid_ok R S1 S2 = true.
  Notation pk1 := (parse_kind S1 classify pre post).
  Notation pk2 := (parse_kind S2 classify pre post).
  Notation pc1 := (parse_cls S1 classify pre post).
  Notation pc2 := (parse_cls S2 classify pre post).
  Notation KS := (fun k1 k2 => kind_same R k1 k2 = true).

  Lemma rigid_lookup c : mem_s c R = true ->
    match lookup_cls S1 c, lookup_cls S2 c with
    | Some c1, Some c2 => cls_same R c1 c2 = true
    | None, None => True
    | _, _ => False
    end.
  Proof.
    intros Hin. apply mem_s_In in Hin.
    unfold rigid_ok in HR. rewrite forallb_forall in HR. specialize (HR c Hin).
    destruct (lookup_cls S1 c), (lookup_cls S2 c); try discriminate; auto.
  Qed.

  Lemma bounds_same lo1 hi1 lo2 hi2 :
    optN_eqb lo1 lo2 && optN_eqb hi1 hi2 = true -> bounds_rel same_rel lo1 hi1 lo2 hi2.
  Proof.
    intros H n. apply andb_true_iff in H. destruct H as [E1 E2].
    apply optN_eqb_eq in E1. apply optN_eqb_eq in E2. subst. reflexivity.
  Qed.

  Lemma fields_same_rel l1 : forall l2,
    fields_same R l1 l2 = true -> Forall2 (field_rel same_rel KS) l1 l2.
  Proof.
    induction l1 as [|a r IH]; intros [|b s] H; cbn [fields_same] in H; try discriminate; constructor.
    - apply andb_true_iff in H. destruct (field_same_inv _ _ _ (proj1 H)) as (En & Ea & Er & Hs & Hk).
      repeat split; try assumption; [cbn; rewrite Er; reflexivity|].
      destruct (f_shape a), (f_shape b); try discriminate Hs; cbn; auto using bounds_same.
    - apply IH. apply andb_true_iff in H. apply H.
  Qed.

  Section Kinds.
    Variable f : nat.
    Hypothesis IHk : forall k1 k2 v, kind_same R k1 k2 = true -> pk1 f k1 v = pk2 f k2 v.
    Hypothesis IHc : forall c v, mem_s c R = true -> pc1 f c v = pc2 f c v.

    Lemma same_alt a1 a2 v : ualt_same R a1 a2 = true -> alt_res (pk1 f) a1 v = alt_res (pk2 f) a2 v.
    Proof.
      destruct a1 as [k1|lo1 hi1 k1], a2 as [k2|lo2 hi2 k2]; cbn [ualt_same alt_res]; intros H;
        try discriminate.
      - apply IHk. exact H.
      - apply andb_true_iff in H. destruct H as [Hb Hk].
        exact (rel_list_items same_rel S1 S2 classify pre pre post post KS f IHk _ _ _ _ _ _ v (bounds_same _ _ _ _ Hb) Hk).
    Qed.

    Lemma same_try v l1 : forall l2,
      alts_same R l1 l2 = true -> try_alts (pk1 f) v l1 = try_alts (pk2 f) v l2.
    Proof.
      induction l1 as [|a r IH]; intros [|b s] H; cbn [alts_same] in H; try discriminate; [reflexivity|].
      apply andb_true_iff in H. destruct H as [Ha Hr]. rewrite !try_alts_cons.
      rewrite (same_alt a b v Ha). rewrite (IH s Hr). reflexivity.
    Qed.

    Lemma same_disc key m v :
      forallb (fun kc => mem_s (snd kc) R) m = true ->
      disc_res (pc1 f) key m v = disc_res (pc2 f) key m v.
    Proof.
      intros Hm. unfold disc_res. destruct v; try reflexivity.
      destruct (assoc (str_of_string key) members) as [[]|]; try reflexivity.
      destruct (List.find (fun kc => str_eqb (str_of_string (fst kc)) s) m) as [[k c]|] eqn:Ef; [|reflexivity].
      apply find_some in Ef. destruct Ef as [Hin _].
      rewrite forallb_forall in Hm. specialize (Hm (k, c) Hin). cbn [snd] in Hm.
      apply IHc. exact Hm.
    Qed.

    Lemma same_kind_S k1 k2 v : kind_same R k1 k2 = true -> pk1 (S f) k1 v = pk2 (S f) k2 v.
    Proof.
      intros H. rewrite !parse_kind_S.
      destruct (is_scalar k1) eqn:Es.
      - pose proof (same_scalar R k1 k2 H Es) as E. subst k2. destruct k1; try discriminate; reflexivity.
      - destruct (not_scalar_inv k1 Es) as [(c1 & ->)|[(key1 & m1 & ->)|(alts1 & ->)]];
          destruct k2 as [| | | | | | | |c2|key2 m2|alts2]; try discriminate H.
        + cbn [kind_same] in H. apply andb_true_iff in H. destruct H as [E Hm].
          apply String.eqb_eq in E. subst c2. apply IHc. exact Hm.
        + cbn [kind_same] in H. apply andb_true_iff in H. destruct H as [H Hm].
          apply andb_true_iff in H. destruct H as [E1 E2].
          apply String.eqb_eq in E1. apply mapping_eqb_eq in E2. subst key2 m2.
          apply same_disc. exact Hm.
        + apply same_try. exact H.
    Qed.

    Lemma same_cls_S c v : mem_s c R = true -> pc1 (S f) c v = pc2 (S f) c v.
    Proof.
      intros Hm. pose proof (rigid_lookup c Hm) as HL.
      destruct (lookup_cls S1 c) as [c1|] eqn:L1, (lookup_cls S2 c) as [c2|] eqn:L2; try contradiction.
      - apply andb_true_iff in HL. destruct HL as [He Hf]. apply bool_eqb_eq in He.
        apply (rel_cls_S same_rel S1 S2 classify pre pre post post (fun _ _ => eq_refl) (fun _ _ _ => eq_refl)
                         KS f IHk c c1 c2 v L1 L2).
        split; [cbn; rewrite He; reflexivity|apply fields_same_rel, Hf].
      - rewrite !parse_cls_S, L1, L2. reflexivity.
    Qed.
  End Kinds.

  Lemma rigid_same : forall f,
    (forall k1 k2 v, kind_same R k1 k2 = true -> pk1 f k1 v = pk2 f k2 v) /\
    (forall c v, mem_s c R = true -> pc1 f c v = pc2 f c v).
  Proof.
    induction f as [|f [IHk IHc]].
    - split; intros; reflexivity.
    - split.
      + intros k1 k2 v H. apply same_kind_S; assumption.
      + intros c v H. apply same_cls_S; assumption.
  Qed.
End Rigid.

(* ------------------------------------------------------------------ *)
(* 5. Monotonicity                                                       *)
(* ------------------------------------------------------------------ *)
Lemma andb_le_l (a a' b : bool) : (a = true -> a' = true) -> a && b = true -> a' && b = true.
Proof. destruct a; [|discriminate]. intros H. rewrite (H eq_refl). exact (fun E => E). Qed.

Lemma check_str_le lo1 hi1 lo2 hi2 cs s :
  lo_le lo1 lo2 = true -> hi_le hi1 hi2 = true -> ole (check_str lo1 hi1 cs s) (check_str lo2 hi2 cs s).
Proof. intros Hl Hh. apply ole_guard; [apply andb_le_l, len_ok_le; assumption|apply ole_refl]. Qed.

Lemma int_fin_le g1 l1 t1 g2 l2 t2 z :
  zlo_le g1 g2 = true -> zhi_le l1 l2 = true -> zlo_le t1 t2 = true ->
  ole (if zopt_ok g1 l1 t1 z then Ok (MInt z) else reject) (if zopt_ok g2 l2 t2 z then Ok (MInt z) else reject).
Proof. intros Hg Hl Ht. apply ole_guard; [apply zopt_ok_le; assumption|apply ole_refl]. Qed.

Lemma float_fin_le t1 t2 m e :
  zlo_le t1 t2 = true ->
  ole (match t1 with
       | Some b => if num_ltb (num_of_Z b) (mkNum m e) then Ok (MFloat m e) else reject
       | None => Ok (MFloat m e)
       end)
      (match t2 with
       | Some b => if num_ltb (num_of_Z b) (mkNum m e) then Ok (MFloat m e) else reject
       | None => Ok (MFloat m e)
       end).
Proof.
  unfold zlo_le. intros H. destruct t2 as [y|].
  - destruct t1 as [b|]; [|discriminate]. apply Z.leb_le in H.
    apply ole_guard; [apply num_ltb_Z_le, H|apply ole_refl].
  - destruct t1 as [b|]; [|apply ole_refl]. intros x. destruct (num_ltb _ _); [exact (fun E => E)|discriminate].
Qed.

Lemma scalar_le R classify k1 k2 v :
  kind_le R k1 k2 = true -> is_scalar k1 = true ->
  ole (parse_scalar classify k1 v) (parse_scalar classify k2 v).
Proof.
  destruct k1, k2; cbn [kind_le is_scalar]; intros H Hs; try discriminate;
    repeat match goal with
           | H : _ && _ = true |- _ => apply andb_true_iff in H; destruct H
           end;
    repeat match goal with
           | H : String.eqb _ _ = true |- _ => apply String.eqb_eq in H
           | H : Bool.eqb _ _ = true |- _ => apply bool_eqb_eq in H
           | H : charset_eqb _ _ = true |- _ => apply charset_eqb_eq in H
           end; subst; cbn [parse_scalar]; try apply ole_refl.
  - (* KEnum *)
    destruct v; try apply ole_refl. apply ole_guard; [apply enum_le; assumption|apply ole_refl].
  - (* KStr *)
    destruct v; try apply ole_refl; try destruct strict0; try apply ole_refl; apply check_str_le; assumption.
  - (* KFormat *)
    destruct v; try apply ole_refl.
    apply ole_guard; [apply andb_le_l, andb_le_l, len_ok_le; assumption|apply ole_refl].
  - (* KInt *)
    destruct v as [|b|z|m e|s| |]; try apply ole_refl; try destruct strict0; try apply ole_refl;
      try (apply int_fin_le; assumption).
    + apply ole_guard; [exact (fun E => E)|apply int_fin_le; assumption].
    + destruct (parse_int s); [apply int_fin_le; assumption|apply ole_refl].
  - (* KFloat *)
    destruct v; try apply ole_refl; apply float_fin_le; assumption.
Qed.

Section Mono.
  Variables S1 S2 : schema_t.
  Variable R : list string.
  Variable classify : N -> cclass.
  Variable pre : string -> json -> bool.
  Variable post : string -> json -> list (string * mval) -> bool.
  Hypothesis HR : rigid_ok R S1 S2 = true.
  Hypothesis HLE : forall c c1, lookup_cls S1 c = Some c1 ->
                     exists c2, lookup_cls S2 c = Some c2 /\ cls_le R c1 c2 = true.
  Notation pk1 := (parse_kind S1 classify pre post).
  Notation pk2 := (parse_kind S2 classify pre post).
  Notation pc1 := (parse_cls S1 classify pre post).
  Notation pc2 := (parse_cls S2 classify pre post).
  Notation KL := (fun k1 k2 => kind_le R k1 k2 = true).

  (* a kind that is not a union never accepts an array *)
  Lemma not_union_noarr f k items x : not_union k = true -> pk1 f k (JArr items) = Ok x -> False.
  Proof.
    intros Hn. destruct f as [|f]; [rewrite parse_kind_O; discriminate|].
    rewrite parse_kind_S.
    destruct k as [| | | |st1| | | |c1| |];
      try discriminate Hn; cbn [parse_scalar disc_res]; try discriminate.
    - destruct st1; discriminate.
    - destruct f as [|f]; [rewrite parse_cls_O; discriminate|]. rewrite parse_cls_S.
      destruct (lookup_cls S1 c1); discriminate.
  Qed.

  Lemma bounds_le lo1 hi1 lo2 hi2 :
    lo_le lo1 lo2 && hi_le hi1 hi2 = true -> bounds_rel le_rel lo1 hi1 lo2 hi2.
  Proof. intros H n. apply andb_true_iff in H. exact (og_le _ _ (len_ok_n_le _ _ _ _ n (proj1 H) (proj2 H))). Qed.

  Lemma fields_le_rel l1 : forall l2,
    fields_le R l1 l2 = true -> Forall2 (field_rel le_rel KL) l1 l2.
  Proof.
    induction l1 as [|a r IH]; intros [|b s] H; cbn [fields_le] in H; try discriminate; constructor.
    - apply andb_true_iff in H. destruct (field_le_inv _ _ _ (proj1 H)) as (En & Ea & Er & Hs & Hk).
      repeat split; try assumption.
      + apply og_le. destruct (f_required a), (f_required b); try discriminate Er; cbn; auto.
      + destruct (f_shape a), (f_shape b); try discriminate Hs; cbn; auto using bounds_le.
    - apply IH. apply andb_true_iff in H. apply H.
  Qed.

  Section Kinds.
    Variable f : nat.
    Hypothesis IHk : forall k1 k2 v, kind_le R k1 k2 = true -> ole (pk1 f k1 v) (pk2 f k2 v).
    Hypothesis IHc : forall c v, ole (pc1 f c v) (pc2 f c v).

    Lemma le_alt a1 a2 v : ualt_le R a1 a2 = true -> ole (alt_res (pk1 f) a1 v) (alt_res (pk2 f) a2 v).
    Proof.
      destruct a1 as [k1|lo1 hi1 k1], a2 as [k2|lo2 hi2 k2]; cbn [ualt_le alt_res]; intros H;
        try discriminate.
      - apply IHk. exact H.
      - apply andb_true_iff in H. destruct H as [Hb Hk].
        exact (rel_list_items le_rel S1 S2 classify pre pre post post KL f IHk _ _ _ _ _ _ v (bounds_le _ _ _ _ Hb) Hk).
    Qed.

    Lemma try_noarr v l x :
      forallb scalar_noarr l = true -> try_alts (pk1 f) v l = Ok x -> forall items, v <> JArr items.
    Proof.
      induction l as [|a r IH]; cbn [forallb]; intros Hn Ht; [discriminate|].
      rewrite try_alts_cons in Ht.
      apply andb_true_iff in Hn. destruct Hn as [Ha Hr].
      destruct (alt_res (pk1 f) a v) as [y|e] eqn:Ea.
      - intros items E. subst v. destruct a as [k|]; [|discriminate Ha]. cbn in Ha, Ea.
        exact (not_union_noarr f k items y Ha Ea).
      - destruct e; try discriminate Ht; apply IH; assumption.
    Qed.

    Lemma le_try v l1 : forall l2,
      alts_le R l1 l2 = true -> ole (try_alts (pk1 f) v l1) (try_alts (pk2 f) v l2).
    Proof.
      induction l1 as [|a r IH]; intros [|b s] H x Ht; cbn [alts_le] in H; try discriminate.
      rewrite try_alts_cons in Ht. rewrite try_alts_cons.
      apply andb_true_iff in H. destruct H as [Hhead Hr].
      destruct r as [|a' r'].
      - (* last alternative *)
        destruct (alt_res (pk1 f) a v) as [y|e] eqn:Ea.
        + rewrite (le_alt a b v Hhead y Ea). exact Ht.
        + destruct e; discriminate Ht.
      - unfold nonlast_ok in Hhead. apply orb_true_iff in Hhead. destruct Hhead as [Hs|Hd].
        + (* the same alternative over rigid classes *)
          rewrite <- (same_alt S1 S2 R classify pre post f (proj1 (rigid_same S1 S2 R classify pre post HR f)) a b v Hs).
          destruct (alt_res (pk1 f) a v) as [y|e]; [exact Ht|].
          destruct e; try discriminate Ht; apply (IH s Hr x Ht).
        + (* a list alternative, disjoint from the later ones *)
          apply andb_true_iff in Hd. destruct Hd as [Hd Hn]. apply andb_true_iff in Hd. destruct Hd as [Hu Hle].
          destruct (alt_res (pk1 f) a v) as [y|e] eqn:Ea.
          * rewrite (le_alt a b v Hle y Ea). exact Ht.
          * assert (Hrest : try_alts (pk1 f) v (a' :: r') = Ok x) by (destruct e; try discriminate Ht; exact Ht).
            pose proof (try_noarr v (a' :: r') x Hn Hrest) as Hna.
            destruct a as [|lo1 hi1 k1]; [discriminate Hu|].
            destruct b as [|lo2 hi2 k2]; [discriminate Hle|].
            assert (Eb : alt_res (pk2 f) (UList lo2 hi2 k2) v = reject).
            { cbn [alt_res]. unfold list_items. destruct v; try reflexivity. exfalso. exact (Hna l eq_refl). }
            rewrite Eb. unfold reject. apply (IH s Hr x Hrest).
    Qed.

    Lemma le_disc key m1 m2 v :
      mapping_sub m1 m2 = true -> ole (disc_res (pc1 f) key m1 v) (disc_res (pc2 f) key m2 v).
    Proof.
      intros Hm x. unfold disc_res. destruct v; try discriminate.
      destruct (assoc (str_of_string key) members) as [[]|]; try discriminate.
      destruct (List.find (fun kc => str_eqb (str_of_string (fst kc)) s) m1) as [[k c]|] eqn:Ef; [|discriminate].
      destruct (mapping_sub_find m1 m2 s k c Hm Ef) as (k' & Ef'). rewrite Ef'. apply IHc.
    Qed.

    Lemma le_kind_S k1 k2 v : kind_le R k1 k2 = true -> ole (pk1 (S f) k1 v) (pk2 (S f) k2 v).
    Proof.
      intros H. rewrite !parse_kind_S.
      destruct (is_scalar k1) eqn:Es.
      - pose proof (scalar_le R classify k1 k2 v H Es) as Hs.
        destruct k1, k2; try discriminate Es; try discriminate H; exact Hs.
      - destruct (not_scalar_inv k1 Es) as [(c1 & ->)|[(key1 & m1 & ->)|(alts1 & ->)]];
          destruct k2 as [| | | | | | | |c2|key2 m2|alts2]; try discriminate H.
        + cbn [kind_le] in H. apply String.eqb_eq in H. subst c2. apply IHc.
        + cbn [kind_le] in H. apply andb_true_iff in H. destruct H as [E Hm].
          apply String.eqb_eq in E. subst key2. apply le_disc. exact Hm.
        + apply le_try. exact H.
    Qed.

    Lemma le_cls_S c v : ole (pc1 (S f) c v) (pc2 (S f) c v).
    Proof.
      destruct (lookup_cls S1 c) as [c1|] eqn:L1.
      - destruct (HLE c c1 L1) as (c2 & L2 & Hle). apply andb_true_iff in Hle. destruct Hle as [He Hf].
        apply (rel_cls_S le_rel S1 S2 classify pre pre post post (fun _ _ => eq_refl) (fun _ _ _ => eq_refl)
                         KL f IHk c c1 c2 v L1 L2).
        split; [|apply fields_le_rel, Hf].
        apply og_le. destruct (c_extra_forbid c1), (c_extra_forbid c2); try discriminate He; cbn; auto.
      - intros x. rewrite parse_cls_S, L1. destruct v; discriminate.
    Qed.
  End Kinds.

  Lemma mono_all : forall f,
    (forall k1 k2 v, kind_le R k1 k2 = true -> ole (pk1 f k1 v) (pk2 f k2 v)) /\
    (forall c v, ole (pc1 f c v) (pc2 f c v)).
  Proof.
    induction f as [|f [IHk IHc]].
    - split; intros; intros x; [rewrite parse_kind_O|rewrite parse_cls_O]; discriminate.
    - split.
      + intros k1 k2 v. apply le_kind_S; assumption.
      + intros c v. apply le_cls_S; assumption.
  Qed.
End Mono.

Lemma lookup_cls_In S : forall c c1, lookup_cls S c = Some c1 -> In (c, c1) S.
Proof.
  induction S as [|[n k] r IH]; intros c c1 H; cbn in H; [discriminate|].
  destruct (String.eqb n c) eqn:E.
  - apply String.eqb_eq in E. inversion H. subst. left. reflexivity.
  - right. apply IH. exact H.
Qed.

(* The order is sound: a document accepted under S1 is accepted under S2 with the same value,
   whatever the hooks and the fuel.  All kinds. *)
Theorem parse_monotone : forall S1 S2, schema_le S1 S2 = true ->
  forall classify pre post fuel root j v,
    parse_cls S1 classify pre post fuel root j = Ok v ->
    parse_cls S2 classify pre post fuel root j = Ok v.
Proof.
  intros S1 S2 H classify pre post fuel root j v.
  unfold schema_le in H. apply andb_true_iff in H. destruct H as [H _].
  apply andb_true_iff in H. destruct H as [HR HC].
  refine (proj2 (mono_all S1 S2 (rigid_set S1 S2) classify pre post HR _ fuel) root j v).
  intros c c1 L. apply lookup_cls_In in L. rewrite forallb_forall in HC. specialize (HC (c, c1) L).
  cbn [fst snd] in HC. destruct (lookup_cls S2 c) as [c2|]; [|discriminate]. exists c2. split; [reflexivity|exact HC].
Qed.

(* Hooks: the structural layer consults the hooks only through their boolean values, so two
   pairs of hooks with the same values give the same outcome, on any table: the step of section 3
   once more, each kind and each class being related to itself.  NOTE: hooks that are merely
   pointwise WEAKER do not accept "the same and more" with the same stored value, because of
   first-match unions; equivalence is needed. *)
Section HooksExt.
  Variable SC : schema_t.
  Variable classify : N -> cclass.
  Variables pre1 pre2 : string -> json -> bool.
  Variables post1 post2 : string -> json -> list (string * mval) -> bool.
  Hypothesis Hpre : forall c raw, pre1 c raw = pre2 c raw.
  Hypothesis Hpost : forall c raw fs, post1 c raw fs = post2 c raw fs.
  Notation pk1 := (parse_kind SC classify pre1 post1).
  Notation pk2 := (parse_kind SC classify pre2 post2).
  Notation pc1 := (parse_cls SC classify pre1 post1).
  Notation pc2 := (parse_cls SC classify pre2 post2).

  Lemma field_rel_refl fl : field_rel same_rel eq fl fl.
  Proof. repeat split. destruct (f_shape fl); cbn; try reflexivity. intros n. reflexivity. Qed.

  Theorem parse_hooks_ext : forall f,
    (forall k v, pk1 f k v = pk2 f k v) /\ (forall c v, pc1 f c v = pc2 f c v).
  Proof.
    induction f as [|f [IHk IHc]]; [split; reflexivity|].
    assert (IHk' : forall k1 k2 v, k1 = k2 -> pk1 f k1 v = pk2 f k2 v) by (intros k1 k2 v <-; apply IHk).
    split.
    - intros k v. rewrite !parse_kind_S. destruct k; try reflexivity.
      + apply IHc.
      + unfold disc_res. destruct v; try reflexivity.
        destruct (assoc (str_of_string key) members) as [[]|]; try reflexivity.
        destruct (List.find _ mapping) as [[]|]; [apply IHc|reflexivity].
      + induction alts as [|a r IH]; [reflexivity|]. rewrite !try_alts_cons, IH.
        replace (alt_res (pk2 f) a v) with (alt_res (pk1 f) a v); [reflexivity|].
        destruct a as [k|lo hi k]; [apply IHk|].
        apply (rel_list_items same_rel SC SC classify pre1 pre2 post1 post2 eq f IHk'); [intros n|]; reflexivity.
    - intros c v. destruct (lookup_cls SC c) as [c0|] eqn:L.
      + apply (rel_cls_S same_rel SC SC classify pre1 pre2 post1 post2 Hpre Hpost eq f IHk' c c0 c0 v L L).
        split; [reflexivity|]. apply Forall2_refl_in, Forall_forall. intros fl _. apply field_rel_refl.
      + rewrite !parse_cls_S, L. reflexivity.
  Qed.
End HooksExt.

(* every class the table mentions is defined in it *)
Definition self_closed (SC : schema_t) : bool := rigid_ok (map fst SC) SC SC.

Theorem parse_cls_hooks_ext : forall SC, self_closed SC = true ->
  forall classify pre1 pre2 post1 post2,
    (forall c raw, pre1 c raw = pre2 c raw) ->
    (forall c raw fs, post1 c raw fs = post2 c raw fs) ->
    forall fuel root j,
      parse_cls SC classify pre1 post1 fuel root j = parse_cls SC classify pre2 post2 fuel root j.
Proof.
  intros SC _ classify pre1 pre2 post1 post2 Hpre Hpost fuel.
  exact (proj2 (parse_hooks_ext SC classify pre1 pre2 post1 post2 Hpre Hpost fuel)).
Qed.

(* ------------------------------------------------------------------ *)
(* 6. Evaluating the order on concrete tables                            *)
(* ------------------------------------------------------------------ *)
(* [rigid_set] applies [rigid_step] once per class of the table, although the set stops shrinking
   after a few rounds.  [rigid_fix] stops at the first round that changes nothing: the same set for
   far fewer look-ups, whatever the tables are. *)
Fixpoint rigid_fix (fuel : nat) (S1 S2 : schema_t) (R : list string) : list string :=
  match fuel with
  | O => R
  | S f => let R' := rigid_step S1 S2 R in if strs_eqb R' R then R else rigid_fix f S1 S2 R'
  end.

Definition schema_le_fix (S1 S2 : schema_t) : bool :=
  let R := rigid_fix (List.length S1) S1 S2 (map fst S1) in
  rigid_ok R S1 S2
  && forallb (fun nc => match lookup_cls S2 (fst nc) with
                        | Some c2 => cls_le R (snd nc) c2
                        | None => false
                        end) S1
  && strs_eqb (map fst S1) (map fst S2).

Lemma iter_shift {A} (f : A -> A) n x : Nat.iter (S n) f x = Nat.iter n f (f x).
Proof.
  induction n as [|n IH]; [reflexivity|].
  change (f (Nat.iter (S n) f x) = f (Nat.iter n f (f x))). rewrite IH. reflexivity.
Qed.

Lemma rigid_fix_iter S1 S2 : forall fuel R, rigid_fix fuel S1 S2 R = Nat.iter fuel (rigid_step S1 S2) R.
Proof.
  induction fuel as [|f IH]; intros R; [reflexivity|]. cbn [rigid_fix].
  destruct (strs_eqb _ R) eqn:E.
  - apply strs_eqb_eq in E. clear IH. symmetry.
    induction (S f) as [|n IHn]; [reflexivity|]. simpl Nat.iter. rewrite IHn. exact E.
  - rewrite IH, iter_shift. reflexivity.
Qed.

Lemma schema_le_fix_eq S1 S2 : schema_le S1 S2 = schema_le_fix S1 S2.
Proof. unfold schema_le, schema_le_fix, rigid_set. rewrite rigid_fix_iter. reflexivity. Qed.
