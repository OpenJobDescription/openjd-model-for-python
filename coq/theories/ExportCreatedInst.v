(* ExportCreatedInst.v — the Job that instantiate_model + the job-side coercion build from a WELL-TYPED job
   template (ConformTyped.tc G "JobTemplate") has the property [SEMC "Job"] of ExportCreatedSem.v: whatever
   parse_model(Job, .) makes of its export is equal to it.  Top-down, class by class, along CreateJobProofs.shape_*:

     JobTemplate -> Job            name resolved (str); steps; description; parameterDefinitions -> parameters
                                   { n : JobParameter {type, description, value} }; jobEnvironments carried over
     StepTemplate -> Step          script / stepEnvironments / dependencies carried over (ExportCreatedCarried.v);
                                   parameterSpace -> StepParameterSpace { p : <subclass per type> }, every range item a
                                   str after coerce_job; hostRequirements -> HostRequirements [AmountRequirement],
                                   [AttributeRequirement] with resolved (str) names and values, Decimal bounds
     the ordered union RangeList | RangeExpression: a definition of EITHER subclass / shape re-parses to an equal
     instance under whichever alternative accepts its export ([sem_tpd]).
   Any resolver, symbol table, validators. *)
From Coq Require Import List NArith ZArith Bool String Lia.
Import ListNotations.
Require Import OJD.Base OJD.Lexer OJD.Json OJD.Schema OJD.CreateJob OJD.CreateJobProofs OJD.ExportProofs
               OJD.CreateJobExactLib OJD.CreateJobExactParams OJD.ConformTyped OJD.ConformInst OJD.ExportCreatedSem OJD.ExportCreatedCarried
               OJD.ListLib.
Local Open Scope string_scope.
Local Open Scope list_scope.

(* the value of a named field in a spelled-out field list; [coerce] on a spelled-out node *)
Ltac pick_field := cbn [f_name]; unfold mfield; cbn [lookup_s String.eqb Ascii.eqb Bool.eqb].
Ltac coerce_node := cbn [coerce map fst snd String.eqb Ascii.eqb Bool.eqb].

Definition opt_strs (x : mval) : Prop := x = MNone \/ exists l, x = MList l /\ Forall (fun y => exists s, y = MStr s) l.

Lemma coerce_strs : forall l, Forall (fun x => exists s, x = MStr s) l -> map coerce l = l.
Proof. intros l H. induction H as [|x r [s ->] _ IH]; [reflexivity|]. cbn [map coerce]. rewrite IH. reflexivity. Qed.

Lemma opt_strs_coerce : forall x, opt_strs x -> coerce x = x.
Proof. intros x [->|[l [-> Hl]]]; [reflexivity|]. cbn [coerce]. rewrite (coerce_strs l Hl). reflexivity. Qed.

Definition tpd_kind : kind :=
  KUnion [UScalar (KModel "RangeListTaskParameterDefinition"); UScalar (KModel "RangeExpressionTaskParameterDefinition")].

Definition tpd_classes : list string :=
  ["IntRangeListTaskParameterDefinition"; "RangeExpressionTaskParameterDefinition";
   "FloatRangeListTaskParameterDefinition"; "RangeListTaskParameterDefinition"].

Lemma jdef_fields : forall y, jdef y ->
  exists c' ty r, y = MModel c' [("type", MStr ty); ("range", r)] /\ In c' tpd_classes /\
                  ((exists ss, r = MList (map MStr ss)) \/ (exists s, r = MStr s)).
Proof.
  intros y H. destruct H as [ss|r|ss|ty ss Hty]; do 3 eexists; (split; [reflexivity|]); (split; [apply mem_s_In; reflexivity|]);
    first [left; eexists; reflexivity|right; eexists; reflexivity].
Qed.

Section Inst.
  Variable classify : N -> cclass.
  Variable pre : string -> json -> bool.
  Variable post : string -> json -> list (string * mval) -> bool.
  Variable resolve : symtab -> str -> outcome str.
  Variable sigma : symtab.
  Notation SEMK := (SEMK classify pre post).
  Notation SEMC := (SEMC classify pre post).
  Notation SEMV := (SEMV classify pre post).
  Notation tk := (tk G). Notation tc := (tc G). Notation tv := (tv G).
  Notation INST := (inst G resolve sigma).

  Lemma semv_opt_text : forall fl x, f_shape fl = Single -> str_kind (f_kind fl) = true -> opt_text x -> SEMV fl x.
  Proof.
    intros fl x Hs Hk [->|[s ->]]; [apply semv_none|]. apply semv_single; [exact Hs|]. eapply sem_text; [exact Hk|reflexivity].
  Qed.

  Lemma semv_opt_dec : forall fl x, f_shape fl = Single -> f_kind fl = KDec -> opt_dec x -> SEMV fl x.
  Proof.
    intros fl x Hs Hk [->|[a [e ->]]]; [apply semv_none|]. apply semv_single; [exact Hs|]. rewrite Hk. apply sem_dec.
  Qed.

  Lemma semv_opt_strs : forall fl lo hi x, f_shape fl = ListOf lo hi -> str_kind (f_kind fl) = true -> opt_strs x -> SEMV fl x.
  Proof.
    intros fl lo hi x Hs Hk [->|[l [-> Hl]]]; [apply semv_none|]. eapply semv_list; [exact Hs|].
    intros y Hy. rewrite Forall_forall in Hl. destruct (Hl y Hy) as [s ->]. eapply sem_text; [exact Hk|reflexivity].
  Qed.

  Lemma semv_inst_items : forall fl lo hi cT cJ rec x e,
    f_shape fl = ListOf lo hi -> f_kind fl = KModel cJ -> opt_items (KModel cT) x ->
    (forall item y, mval_depth item < mval_depth x -> tc cT item -> rec item = Ok y -> SEMC cJ (coerce y)) ->
    elems rec x = Ok e -> SEMV fl (coerce e).
  Proof.
    intros fl lo hi cT cJ rec x e Hs Hk [->|[l [-> Hl]]] Hrec H.
    - cbn [elems] in H. injection H as <-. apply semv_none.
    - destruct (elems_list _ _ _ H) as [l' [-> HF]]. cbn [coerce]. eapply semv_list; [exact Hs|].
      intros y Hy. apply in_map_iff in Hy. destruct Hy as [y0 [<- Hy0]].
      destruct (Forall2_in_r _ _ _ _ _ _ HF Hy0) as [item [Hi Hr]].
      rewrite Forall_forall in Hl. pose proof (Hl item Hi) as Ht. apply tk_model_inv in Ht.
      rewrite (inst_elem_tc _ _ _ Ht) in Hr.
      rewrite Hk. apply sem_model. eapply Hrec; [apply item_depth; exact Hi|exact Ht|exact Hr].
  Qed.

  Lemma semv_inst_single : forall fl cT cJ rec x e,
    f_shape fl = Single -> f_kind fl = KModel cJ -> x = MNone \/ tk (KModel cT) x ->
    (forall item y, tc cT item -> rec item = Ok y -> SEMC cJ (coerce y)) ->
    inst_elem rec x = Ok e -> SEMV fl (coerce e).
  Proof.
    intros fl cT cJ rec x e Hs Hk [->|Ht] Hrec H.
    - cbn [inst_elem] in H. injection H as <-. apply semv_none.
    - apply tk_model_inv in Ht. rewrite (inst_elem_tc _ _ _ Ht) in H.
      apply semv_single; [exact Hs|]. rewrite Hk. apply sem_model. exact (Hrec x e Ht H).
  Qed.

  Lemma semv_keyed : forall fl kk key mp rec kf x t,
    f_shape fl = DictOf kk -> opt_items (KDisc key mp) x ->
    (forall item y, tk (KDisc key mp) item -> rec item = Ok y -> SEMK (f_kind fl) (coerce y) /\ mnone (coerce y) = false) ->
    keyed rec kf x = Ok t -> SEMV fl (coerce t).
  Proof.
    intros fl kk key mp rec kf x t Hs [->|[l [-> Hl]]] Hrec H.
    - cbn [keyed] in H. injection H as <-. apply semv_none.
    - destruct (keyed_dict _ _ _ _ H) as [d ->]. cbn [coerce]. eapply semv_dict; [exact Hs|].
      intros kv Hkv. apply in_map_iff in Hkv. destruct Hkv as [kv0 [<- Hkv0]]. cbn [snd].
      destruct (keyed_in _ _ _ _ H kv0 Hkv0) as [item [Hi [_ Hy]]]. rewrite Forall_forall in Hl. pose proof (Hl item Hi) as Ht.
      pose proof Ht as Hm. apply tk_disc_inv in Hm. destruct Hm as [k0 [c [_ Hm]]]. rewrite (inst_elem_tc _ _ _ Hm) in Hy.
      destruct (Hrec item _ Ht Hy) as [H1 H2]. split; assumption.
  Qed.

  Theorem sem_tpd : forall y, jdef y -> SEMK tpd_kind y /\ mnone y = false.
  Proof.
    intros y Hy. destruct (jdef_fields y Hy) as [c' [ty [r [-> [Hc Hr]]]]]. split; [|reflexivity].
    (* under either alternative: the class has the node's two fields, "type" is a text; "range" is what differs *)
    apply sem_union. intros a Ha. destruct Ha as [<-|[<-|[]]]; apply sema_scalar; apply sem_model;
      (eapply sem_node;
       [vm_compute; reflexivity
       |destruct Hc as [<-|[<-|[<-|[<-|[]]]]]; vm_compute; reflexivity
       |repeat apply Forall_cons; [..|apply Forall_nil]; pick_field;
        [apply semv_single; [reflexivity|]; eapply sem_text; reflexivity|]]).
    - (* RangeListTaskParameterDefinition: a list of str items; a range string is rejected *)
      destruct Hr as [[ss ->]|[s ->]].
      + eapply semv_list; [reflexivity|]. intros x Hx. apply in_map_iff in Hx. destruct Hx as [s [<- _]].
        eapply sem_text; reflexivity.
      + eapply semv_list_reject; [reflexivity|]. intros l. cbn [tobj]. discriminate.
    - (* RangeExpressionTaskParameterDefinition: a range string; a list is rejected *)
      apply semv_single; [reflexivity|]. destruct Hr as [[ss ->]|[s ->]].
      + apply sem_scalar_composite; [reflexivity|]. left. cbn [tobj]. eexists. reflexivity.
      + eapply sem_text; reflexivity.
  Qed.

  Theorem space_sem : forall f ps y, tc "StepParameterSpaceDefinition" ps -> INST f ps = Ok y ->
    SEMC "StepParameterSpace" (coerce y).
  Proof.
    intros f ps y Ht H. destruct f as [|f]; [rewrite inst_O in H; discriminate H|].
    typed_fields Ht. intros tpd Htpd cb Hcb ->.
    eapply tv_items in Htpd; [|reflexivity]. eapply tv_text in Hcb; [|reflexivity..].
    rewrite shape_ParamSpace in H; [|eapply opt_items_list; exact Htpd|apply opt_text_leaf; exact Hcb].
    destruct (keyed (INST f) "name" tpd) as [t'|e] eqn:Ek; cbn [bind] in H; [|discriminate H]. injection H as <-.
    coerce_node. rewrite (leaf_coerce _ (opt_text_leaf _ Hcb)).
    eapply sem_node; [vm_compute; reflexivity|vm_compute; reflexivity|].
    repeat apply Forall_cons; [..|apply Forall_nil]; pick_field.
    - eapply semv_keyed; [reflexivity|exact Htpd| |exact Ek]. intros item y Htk Hy.
      destruct (disc_task_class item Htk) as [c [Hc Htc]].
      exact (sem_tpd _ (coerce_def _ (inst_task_def resolve sigma f c _ _ Hc Htc Hy))).
    - apply semv_opt_text; [reflexivity|reflexivity|exact Hcb].
  Qed.

  Theorem amount_sem : forall f x y, tc "AmountRequirementTemplate" x -> INST f x = Ok y ->
    SEMC "AmountRequirement" (coerce y).
  Proof.
    intros f x y Ht H. destruct f as [|f]; [rewrite inst_O in H; discriminate H|].
    typed_fields Ht. intros nm Hnm a Ha b Hb ->.
    eapply tv_req_fmt in Hnm; [|reflexivity..]. destruct Hnm as [s ->].
    eapply tv_dec in Ha; [|reflexivity..]. eapply tv_dec in Hb; [|reflexivity..].
    rewrite shape_Amount in H; [|apply opt_dec_leaf; assumption..].
    destruct (resolve sigma s) as [r|e]; cbn [bind] in H; [|discriminate H]. injection H as <-.
    coerce_node. rewrite !leaf_coerce by (apply opt_dec_leaf; assumption).
    eapply sem_node; [vm_compute; reflexivity|vm_compute; reflexivity|].
    repeat apply Forall_cons; [..|apply Forall_nil]; pick_field.
    - apply semv_single; [reflexivity|]. eapply sem_text; reflexivity.
    - apply semv_opt_dec; [reflexivity|reflexivity|assumption].
    - apply semv_opt_dec; [reflexivity|reflexivity|assumption].
  Qed.

  Lemma res_elems_strs : forall rec fc a b c x y, opt_items (KFormat fc a b c) x ->
    res_elems resolve sigma rec x = Ok y -> opt_strs y.
  Proof.
    intros rec fc a b c x y [->|[l [-> Hl]]] H.
    - cbn [res_elems] in H. injection H as <-. left. reflexivity.
    - cbn [res_elems] in H. destruct (mapM (res_elem resolve sigma rec) l) as [l'|e] eqn:Em; cbn [bind] in H; [|discriminate H].
      injection H as <-. right. exists l'. split; [reflexivity|].
      eapply res_items; [|exact Hl|exact Em].
      intros x0 y0 Hx Hr. cbv beta in Hx. apply tk_fmt_inv in Hx. destruct Hx as [s ->]. eapply res_fmt. exact Hr.
  Qed.

  Theorem attribute_sem : forall f x y, tc "AttributeRequirementTemplate" x -> INST f x = Ok y ->
    SEMC "AttributeRequirement" (coerce y).
  Proof.
    intros f x y Ht H. destruct f as [|f]; [rewrite inst_O in H; discriminate H|].
    typed_fields Ht. intros nm Hnm any Hany all Hall ->.
    eapply tv_req_fmt in Hnm; [|reflexivity..]. destruct Hnm as [s ->].
    eapply tv_items in Hany; [|reflexivity]. eapply tv_items in Hall; [|reflexivity].
    rewrite shape_Attribute in H; [|eapply opt_items_list; eassumption..].
    destruct (resolve sigma s) as [r|e]; cbn [bind] in H; [|discriminate H].
    destruct (res_elems resolve sigma (INST f) any) as [any'|e] eqn:Ea; cbn [bind] in H; [|discriminate H].
    destruct (res_elems resolve sigma (INST f) all) as [all'|e] eqn:Eb; cbn [bind] in H; [|discriminate H].
    injection H as <-.
    pose proof (res_elems_strs _ _ _ _ _ _ _ Hany Ea) as Sa.
    pose proof (res_elems_strs _ _ _ _ _ _ _ Hall Eb) as Sb.
    coerce_node. rewrite (opt_strs_coerce _ Sa), (opt_strs_coerce _ Sb).
    eapply sem_node; [vm_compute; reflexivity|vm_compute; reflexivity|].
    repeat apply Forall_cons; [..|apply Forall_nil]; pick_field.
    - apply semv_single; [reflexivity|]. eapply sem_text; reflexivity.
    - eapply semv_opt_strs; [reflexivity|reflexivity|exact Sa].
    - eapply semv_opt_strs; [reflexivity|reflexivity|exact Sb].
  Qed.

  Theorem host_sem : forall f hr y, tc "HostRequirementsTemplate" hr -> INST f hr = Ok y ->
    SEMC "HostRequirements" (coerce y).
  Proof.
    intros f hr y Ht H. destruct f as [|f]; [rewrite inst_O in H; discriminate H|].
    typed_fields Ht. intros am Ham at_ Hat ->.
    eapply tv_items in Ham; [|reflexivity]. eapply tv_items in Hat; [|reflexivity].
    rewrite shape_HostReq in H; [|eapply opt_items_list; eassumption..].
    destruct (elems (INST f) am) as [a|e] eqn:Ea; cbn [bind] in H; [|discriminate H].
    destruct (elems (INST f) at_) as [b|e] eqn:Eb; cbn [bind] in H; [|discriminate H].
    injection H as <-. coerce_node.
    eapply sem_node; [vm_compute; reflexivity|vm_compute; reflexivity|].
    repeat apply Forall_cons; [..|apply Forall_nil]; pick_field.
    - eapply semv_inst_items; [reflexivity|reflexivity|exact Ham| |exact Ea].
      intros item y _ Hti Hr. eapply amount_sem; eassumption.
    - eapply semv_inst_items; [reflexivity|reflexivity|exact Hat| |exact Eb].
      intros item y _ Hti Hr. eapply attribute_sem; eassumption.
  Qed.

  Lemma jobparam_sem : forall ty d v, opt_text d ->
    SEMK (KModel "JobParameter") (coerce (MModel "JobParameter" [("type", MStr ty); ("description", d); ("value", MStr v)]))
    /\ mnone (coerce (MModel "JobParameter" [("type", MStr ty); ("description", d); ("value", MStr v)])) = false.
  Proof.
    intros ty d v Hd. coerce_node. rewrite (leaf_coerce _ (opt_text_leaf _ Hd)). split; [|reflexivity].
    apply sem_model. eapply sem_node; [vm_compute; reflexivity|vm_compute; reflexivity|].
    repeat apply Forall_cons; [..|apply Forall_nil]; pick_field.
    - apply semv_single; [reflexivity|]. eapply sem_text; reflexivity.
    - apply semv_single; [reflexivity|]. eapply sem_text; reflexivity.
    - apply semv_opt_text; [reflexivity|reflexivity|exact Hd].
  Qed.

  Theorem param_sem : forall f item y, tk kdisc_params item -> INST f item = Ok y ->
    SEMK (KModel "JobParameter") (coerce y) /\ mnone (coerce y) = false.
  Proof.
    intros f item y Ht H. destruct f as [|f]; [rewrite inst_O in H; discriminate H|].
    destruct (param_def_inst resolve sigma item Ht) as [c [ifs [n [ty [d [_ [_ [_ [Hd E]]]]]]]]]. rewrite E in H. unfold job_parameter in H.
    destruct (st_lookup sigma _); [|discriminate H]. injection H as <-. apply jobparam_sem. exact Hd.
  Qed.

  Lemma fields_depth : forall c (fs : list (string * mval)) f, mval_depth (MModel c fs) <= f ->
    forall kv, In kv fs -> mval_depth (snd kv) < f.
  Proof. intros c fs f H kv Hin. pose proof (field_depth c fs kv Hin). lia. Qed.

  Theorem step_sem : forall f st y, tc "StepTemplate" st -> mval_depth st <= f -> INST (S f) st = Ok y ->
    SEMC "Step" (coerce y).
  Proof.
    intros f st y Ht Hdep H.
    typed_fields Ht. intros n Hn d Hd sc Hsc se Hse ps Hps hr Hhr dp Hdp ->.
    (* script, environments and dependencies are carried over: the Step class declares these three fields as StepTemplate does *)
    destruct (carried_vp classify pre post _ sc Hsc eq_refl) as [Ssc [Csc Isc]].
    destruct (carried_vp classify pre post _ se Hse eq_refl) as [Sse [Cse Ise]].
    destruct (carried_vp classify pre post _ dp Hdp eq_refl) as [Sdp [Cdp Idp]].
    eapply tv_text in Hn; [|reflexivity..]. eapply tv_text in Hd; [|reflexivity..].
    apply tv_req_single in Hsc; [|reflexivity..]. apply tk_model_inv in Hsc.
    eapply tv_items in Hse; [|reflexivity]. eapply tv_items in Hdp; [|reflexivity].
    apply tv_opt_single in Hps; [|reflexivity]. apply tv_opt_single in Hhr; [|reflexivity].
    pose proof (fields_depth _ _ _ Hdep) as Dep.
    rewrite shape_StepTemplate_carried in H;
      [|apply opt_text_leaf; exact Hn
       |apply opt_text_leaf; exact Hd
       |eapply tc_single; exact Hsc
       |eapply opt_items_list; exact Hse
       |eapply opt_model_single; exact Hps
       |eapply opt_model_single; exact Hhr
       |eapply opt_items_list; exact Hdp
       |exact Csc
       |apply (Dep ("script", sc)); do 2 right; left; reflexivity
       |exact Cse
       |apply Nat.lt_le_incl, (Dep ("stepEnvironments", se)); do 3 right; left; reflexivity
       |exact Cdp
       |apply Nat.lt_le_incl, (Dep ("dependencies", dp)); do 6 right; left; reflexivity].
    destruct (inst_elem (INST f) ps) as [ps'|e] eqn:Eps; cbn [bind] in H; [|discriminate H].
    destruct (inst_elem (INST f) hr) as [hr'|e] eqn:Ehr; cbn [bind] in H; [|discriminate H].
    injection H as <-. coerce_node.
    rewrite (leaf_coerce _ (opt_text_leaf _ Hn)), (leaf_coerce _ (opt_text_leaf _ Hd)), Isc, Ise, Idp.
    eapply sem_node; [vm_compute; reflexivity|vm_compute; reflexivity|].
    repeat apply Forall_cons; [..|apply Forall_nil]; pick_field.
    - apply semv_opt_text; [reflexivity|reflexivity|exact Hn].
    - exact Ssc.
    - apply semv_opt_text; [reflexivity|reflexivity|exact Hd].
    - exact Sse.
    - eapply semv_inst_single; [reflexivity|reflexivity|exact Hps| |exact Eps]. intros item y0. apply space_sem.
    - eapply semv_inst_single; [reflexivity|reflexivity|exact Hhr| |exact Ehr]. intros item y0. apply host_sem.
    - exact Sdp.
  Qed.

  Theorem job_sem : forall f t job, tc "JobTemplate" t -> mval_depth t <= f -> INST (S f) t = Ok job ->
    SEMC "Job" (coerce job) /\ exists fs, coerce job = MModel "Job" fs.
  Proof.
    intros f t job Ht Hdep H.
    typed_fields Ht. intros sv _ nm Hnm st Hst d Hd pd Hpd je Hje ss _ ->.
    eapply tv_req_fmt in Hnm; [|reflexivity..]. destruct Hnm as [s ->].
    eapply tv_text in Hd; [|reflexivity..].
    destruct (carried_vp classify pre post _ je Hje eq_refl) as [Sje [Cje Ije]].
    eapply tv_items in Hst; [|reflexivity]. eapply tv_items in Hpd; [|reflexivity]. eapply tv_items in Hje; [|reflexivity].
    pose proof (fields_depth _ _ _ Hdep) as Dep.
    rewrite shape_JobTemplate in H;
      [|eapply opt_items_list; exact Hst|apply opt_text_leaf; exact Hd|eapply opt_items_list; exact Hpd|eapply opt_items_list; exact Hje].
    destruct (resolve sigma s) as [n|e]; cbn [bind] in H; [|discriminate H].
    destruct (elems (INST f) st) as [st'|e] eqn:Est; cbn [bind] in H; [|discriminate H].
    destruct (keyed (INST f) "name" pd) as [p|e] eqn:Ep; cbn [bind] in H; [|discriminate H].
    rewrite (elems_unchanged resolve sigma f) in H;
      [|intros c Hc; apply carried_are_trivial, Cje, Hc
       |apply Nat.lt_le_incl, (Dep ("jobEnvironments", je)); do 5 right; left; reflexivity].
    cbn [bind] in H. injection H as <-.
    coerce_node. rewrite (leaf_coerce _ (opt_text_leaf _ Hd)), Ije.
    split; [|eexists; reflexivity].
    eapply sem_node; [vm_compute; reflexivity|vm_compute; reflexivity|].
    repeat apply Forall_cons; [..|apply Forall_nil]; pick_field.
    - apply semv_single; [reflexivity|]. eapply sem_text; reflexivity.
    - eapply semv_inst_items; [reflexivity|reflexivity|exact Hst| |exact Est]. intros item y Dit Hti Hr.
      pose proof (Dep ("steps", st) ltac:(do 2 right; left; reflexivity)) as Dst. cbn [snd] in Dst.
      destruct f as [|f']; [lia|]. eapply (step_sem f'); [exact Hti|lia|exact Hr].
    - apply semv_opt_text; [reflexivity|reflexivity|exact Hd].
    - eapply semv_keyed; [reflexivity|exact Hpd| |exact Ep]. intros item y. apply param_sem.
    - exact Sje.
  Qed.
End Inst.
