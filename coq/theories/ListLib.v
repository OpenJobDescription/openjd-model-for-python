(* ListLib.v — facts about the utilities of Base.v, Json.v and Schema.v ([str_eqb], [mem_str], [mem_s],
   [assoc], [lookup_s], [mapM], [bind]) that every component's proofs need, and the few facts about
   [Forall2], [forallb], [flat_map] and [NoDup] that the standard library of Coq 8.16 lacks.
   Imports no model beyond those three files. *)
From Coq Require Import List NArith Bool String.
Import ListNotations.
Require Import OJD.Base OJD.Json OJD.Schema.

(* ------------------------------------------------------------------ str_eqb *)
Lemma str_eqb_refl : forall a, str_eqb a a = true.
Proof. induction a as [|x a IH]; cbn; [reflexivity|]. rewrite N.eqb_refl. exact IH. Qed.

Lemma str_eqb_eq : forall a b, str_eqb a b = true <-> a = b.
Proof.
  split; [|intros <-; apply str_eqb_refl].
  revert b. induction a as [|x a IH]; intros [|y b] H; cbn in H; try discriminate; [reflexivity|].
  apply andb_true_iff in H. destruct H as [H1 H2]. apply N.eqb_eq in H1. subst y. f_equal. exact (IH _ H2).
Qed.

Lemma str_eqb_neq : forall a b, str_eqb a b = false <-> a <> b.
Proof.
  intros a b. rewrite <- str_eqb_eq. destruct (str_eqb a b); split; congruence.
Qed.

Lemma str_eqb_sym : forall a b, str_eqb a b = str_eqb b a.
Proof.
  intros a b. destruct (str_eqb b a) eqn:E.
  - apply str_eqb_eq in E. subst. apply str_eqb_refl.
  - apply str_eqb_neq. apply str_eqb_neq in E. congruence.
Qed.

Lemma str_eqb_app_l : forall p a b, str_eqb (p ++ a) (p ++ b) = str_eqb a b.
Proof. induction p as [|x p IH]; intros a b; cbn; [reflexivity|]. rewrite N.eqb_refl. apply IH. Qed.

(* ------------------------------------------------------------------ mem_str, mem_s, assoc *)
Lemma mem_str_In : forall x l, mem_str x l = true <-> In x l.
Proof.
  induction l as [|y l IH]; cbn; [split; [discriminate|tauto]|].
  rewrite orb_true_iff, str_eqb_eq, IH. split; intros [H|H]; auto.
Qed.

Lemma mem_str_false : forall x l, mem_str x l = false <-> ~ In x l.
Proof. intros x l. rewrite <- mem_str_In. destruct (mem_str x l); split; congruence. Qed.

Lemma mem_str_app : forall n a b, mem_str n (a ++ b) = mem_str n a || mem_str n b.
Proof. induction a as [|x a IH]; intros b; cbn; [reflexivity|]. rewrite IH. apply orb_assoc. Qed.

Lemma mem_s_In : forall x l, mem_s x l = true <-> In x l.
Proof.
  intros x l. unfold mem_s. rewrite existsb_exists. split.
  - intros [y [Hy E]]. apply String.eqb_eq in E. subst. exact Hy.
  - intros H. exists x. split; [exact H|apply String.eqb_refl].
Qed.

Lemma assoc_In : forall A k (l : list (str * A)) v, assoc k l = Some v -> In (k, v) l.
Proof.
  induction l as [|[k' v'] l IH]; intros v H; cbn in H; [discriminate|].
  destruct (str_eqb k k') eqn:E.
  - apply str_eqb_eq in E. injection H as <-. subst. left. reflexivity.
  - right. exact (IH _ H).
Qed.

Lemma assoc_None : forall A k (l : list (str * A)), assoc k l = None <-> ~ In k (map fst l).
Proof.
  induction l as [|[k' v'] l IH]; cbn; [tauto|].
  destruct (str_eqb k k') eqn:E.
  - apply str_eqb_eq in E. subst. split; [discriminate|tauto].
  - apply str_eqb_neq in E. rewrite IH. split; [intros H [?|?]; [congruence|tauto]|tauto].
Qed.

(* ------------------------------------------------------------------ mapM *)
Lemma mapM_cons_ok : forall (A B : Type) (f : A -> outcome B) a r ys,
  mapM f (a :: r) = Ok ys -> exists y ys', f a = Ok y /\ mapM f r = Ok ys' /\ ys = y :: ys'.
Proof.
  intros A B f a r ys H. cbn in H. destruct (f a) as [y|]; [|discriminate]. cbn in H.
  destruct (mapM f r) as [ys'|]; [|discriminate]. injection H as <-. eauto.
Qed.

(* success of [mapM] is pointwise success, in order *)
Lemma mapM_Forall2 : forall (A B : Type) (f : A -> outcome B) l ys,
  mapM f l = Ok ys <-> Forall2 (fun x y => f x = Ok y) l ys.
Proof.
  induction l as [|a l IH]; intros ys; cbn.
  - split; [intros [= <-]; constructor|intros H; inversion H; reflexivity].
  - split.
    + intros H. apply mapM_cons_ok in H. destruct H as [y [ys' [E1 [E2 ->]]]]. constructor; [exact E1|]. apply IH. exact E2.
    + intros H. inversion H as [|? y ? ys' E1 E2]; subst. rewrite E1. apply IH in E2. rewrite E2. reflexivity.
Qed.

Lemma mapM_ok_in : forall (A B : Type) (f : A -> outcome B) l ys,
  mapM f l = Ok ys -> forall y, In y ys -> exists x, In x l /\ f x = Ok y.
Proof.
  intros A B f l ys H. apply mapM_Forall2 in H. induction H as [|x y l ys E _ IH]; intros y0 [].
  - subst. exists x. split; [left; reflexivity|exact E].
  - destruct (IH y0 H) as [x0 [Hx E0]]. exists x0. split; [right; exact Hx|exact E0].
Qed.

Lemma mapM_in_ok : forall (A B : Type) (f : A -> outcome B) l ys,
  mapM f l = Ok ys -> forall x, In x l -> exists y, In y ys /\ f x = Ok y.
Proof.
  intros A B f l ys H. apply mapM_Forall2 in H. induction H as [|x y l ys E _ IH]; intros x0 [].
  - subst. exists y. split; [left; reflexivity|exact E].
  - destruct (IH x0 H) as [y0 [Hy E0]]. exists y0. split; [right; exact Hy|exact E0].
Qed.

Lemma mapM_raise_in : forall (A B : Type) (f : A -> outcome B) l e,
  mapM f l = Raise e -> exists x, In x l /\ f x = Raise e.
Proof.
  induction l as [|a l IH]; intros e H; cbn in H; [discriminate|].
  destruct (f a) as [y|e'] eqn:E; cbn in H.
  - destruct (mapM f l) as [ys|e'] eqn:E'; cbn in H; [discriminate|]. injection H as <-.
    destruct (IH _ eq_refl) as [x [Hx Ex]]. exists x. split; [right; exact Hx|exact Ex].
  - injection H as <-. exists a. split; [left; reflexivity|exact E].
Qed.

Lemma mapM_ext : forall (A B : Type) (f g : A -> outcome B) l,
  (forall x, In x l -> f x = g x) -> mapM f l = mapM g l.
Proof.
  induction l as [|a l IH]; intros H; cbn; [reflexivity|].
  rewrite (H a (or_introl eq_refl)), IH; [reflexivity|]. intros x Hx. apply H. right. exact Hx.
Qed.

Lemma mapM_map : forall (A B : Type) (f : A -> outcome B) (g : A -> B) l,
  (forall x, In x l -> f x = Ok (g x)) -> mapM f l = Ok (map g l).
Proof.
  intros A B f g l H. apply mapM_Forall2. induction l as [|a l IH]; cbn; constructor.
  - apply H. left. reflexivity.
  - apply IH. intros x Hx. apply H. right. exact Hx.
Qed.

Lemma mapM_id : forall (A : Type) (f : A -> outcome A) l, (forall x, In x l -> f x = Ok x) -> mapM f l = Ok l.
Proof. intros A f l H. rewrite (mapM_map _ _ f (fun x => x) l H), map_id. reflexivity. Qed.

Lemma mapM_length : forall (A B : Type) (f : A -> outcome B) l ys, mapM f l = Ok ys -> List.length ys = List.length l.
Proof. intros A B f l ys H. apply mapM_Forall2 in H. induction H; cbn; congruence. Qed.

Lemma mapM_map_id : forall (A B : Type) (f : A -> outcome B) (g : B -> A) l,
  (forall b, In b l -> f (g b) = Ok b) -> mapM f (map g l) = Ok l.
Proof.
  intros A B f g l H. apply mapM_Forall2. induction l as [|b l IH]; cbn; constructor.
  - apply H. left. reflexivity.
  - apply IH. intros b' Hb. apply H. right. exact Hb.
Qed.

Lemma bind_ok : forall (A B : Type) (o : outcome A) (f : A -> outcome B) b,
  bind o f = Ok b -> exists a, o = Ok a /\ f a = Ok b.
Proof. intros A B [a|e] f b H; [exists a; split; [reflexivity|exact H]|discriminate H]. Qed.

(* ------------------------------------------------------------------ lookup_s *)
Lemma lookup_s_in : forall (A : Type) k (l : list (string * A)) v, lookup_s k l = Some v -> In (k, v) l.
Proof.
  induction l as [|[n x] l IH]; intros v H; cbn in H; [discriminate|].
  destruct (String.eqb n k) eqn:E.
  - apply String.eqb_eq in E. injection H as <-. subst. left. reflexivity.
  - right. exact (IH _ H).
Qed.

Lemma lookup_s_notin : forall (A : Type) k (l : list (string * A)), ~ In k (map fst l) -> lookup_s k l = None.
Proof.
  induction l as [|[n x] l IH]; intros H; cbn; [reflexivity|].
  destruct (String.eqb n k) eqn:E.
  - apply String.eqb_eq in E. exfalso. apply H. left. exact E.
  - apply IH. intros Hk. apply H. right. exact Hk.
Qed.

Lemma lookup_s_app : forall (A : Type) k (a b : list (string * A)),
  lookup_s k (a ++ b) = match lookup_s k a with Some t => Some t | None => lookup_s k b end.
Proof.
  induction a as [|[n x] a IH]; intros b; cbn; [reflexivity|].
  destruct (String.eqb n k); [reflexivity|apply IH].
Qed.

(* ------------------------------------------------------------------ lists: what the standard library of 8.16 lacks *)
Lemma Forall2_impl : forall (A B : Type) (R S : A -> B -> Prop),
  (forall a b, R a b -> S a b) -> forall l l', Forall2 R l l' -> Forall2 S l l'.
Proof. intros A B R S H l l' F. induction F; constructor; auto. Qed.

Lemma Forall2_length : forall (A B : Type) (R : A -> B -> Prop) l l', Forall2 R l l' -> List.length l = List.length l'.
Proof. intros A B R l l' F. induction F; cbn; congruence. Qed.

Lemma Forall2_in_r : forall (A B : Type) (R : A -> B -> Prop) l l' b,
  Forall2 R l l' -> In b l' -> exists a, In a l /\ R a b.
Proof.
  intros A B R l l' b0 F. induction F as [|a b l l' H _ IH]; intros [].
  - subst. exists a. split; [left; reflexivity|exact H].
  - destruct (IH H0) as [a0 [Ha Hr]]. exists a0. split; [right; exact Ha|exact Hr].
Qed.

Lemma Forall2_refl_in : forall (A : Type) (R : A -> A -> Prop) l, Forall (fun x => R x x) l -> Forall2 R l l.
Proof. intros A R l F. induction F; constructor; assumption. Qed.

Lemma forallb_impl : forall (A : Type) (p q : A -> bool) l,
  (forall a, p a = true -> q a = true) -> forallb p l = true -> forallb q l = true.
Proof. intros A p q l H. rewrite !forallb_forall. auto. Qed.

Lemma forallb_flat_map : forall (A B : Type) (p : B -> bool) (g : A -> list B) l,
  forallb p (flat_map g l) = forallb (fun x => forallb p (g x)) l.
Proof. induction l as [|x l IH]; cbn; [reflexivity|]. rewrite forallb_app, IH. reflexivity. Qed.

Lemma flat_map_ext_in : forall (A B : Type) (f g : A -> list B) l,
  (forall a, In a l -> f a = g a) -> flat_map f l = flat_map g l.
Proof.
  induction l as [|a l IH]; intros H; cbn; [reflexivity|].
  rewrite (H a (or_introl eq_refl)), IH; [reflexivity|]. intros x Hx. apply H. right. exact Hx.
Qed.

Lemma NoDup_app_l : forall (A : Type) (l1 l2 : list A), NoDup (l1 ++ l2) -> NoDup l1.
Proof.
  induction l1 as [|a l1 IH]; intros l2 H; [constructor|]. inversion H as [|? ? Hn Hr]; subst.
  constructor; [|exact (IH _ Hr)]. intros Hi. apply Hn. apply in_or_app. left. exact Hi.
Qed.

Lemma NoDup_app_r : forall (A : Type) (l1 l2 : list A), NoDup (l1 ++ l2) -> NoDup l2.
Proof. induction l1 as [|a l1 IH]; intros l2 H; [exact H|]. inversion H; subst. apply IH. assumption. Qed.

Lemma NoDup_app_disj : forall (A : Type) (l1 l2 : list A) x, NoDup (l1 ++ l2) -> In x l1 -> ~ In x l2.
Proof.
  induction l1 as [|a l1 IH]; intros l2 x H []; inversion H as [|? ? Hn Hr]; subst.
  - intros Hi. apply Hn. apply in_or_app. right. exact Hi.
  - exact (IH _ _ Hr H0).
Qed.

Lemma NoDup_app_intro : forall (A : Type) (l1 l2 : list A),
  NoDup l1 -> NoDup l2 -> (forall x, In x l1 -> In x l2 -> False) -> NoDup (l1 ++ l2).
Proof.
  induction l1 as [|a l1 IH]; intros l2 H1 H2 D; [exact H2|]. inversion H1 as [|? ? Hn Hr]; subst. cbn. constructor.
  - intros Hi. apply in_app_or in Hi. destruct Hi as [Hi|Hi]; [exact (Hn Hi)|exact (D a (or_introl eq_refl) Hi)].
  - apply IH; [exact Hr|exact H2|]. intros x Hx. apply D. right. exact Hx.
Qed.
