(* NoMissingVar.v — lemmas behind props/C06.v, part 1: the names visible to creation-time
   (TEMPLATE-scope) format strings are exactly the names create_job binds; hence, for a document
   that passes the reference check, resolving those strings never fails for a missing variable. *)
From Coq Require Import List NArith ZArith Bool String Lia.
Import ListNotations.
Require Import OJD.Base OJD.Lexer OJD.Json OJD.Schema OJD.Generated OJD.FormatStr OJD.FormatStrSpec
               OJD.FormatStrProofs OJD.FsRefs OJD.CreateJob OJD.CreateJobProofs OJD.ScopeWalk OJD.ScopeSpec
               OJD.ScopeProofs OJD.GlueLib OJD.ListLib.
Local Open Scope string_scope.
Local Open Scope list_scope.

(* ------------------------------------------------------------------ the symbol table's domain *)

Lemma symtab_keys_intro : forall vals e, In e vals ->
  In (p_raw ++ v_name e) (map fst (symtab_of vals)) /\
  (is_path e = false -> In (p_param ++ v_name e) (map fst (symtab_of vals))).
Proof.
  induction vals as [|[[n t] v] r IH]; intros e Hin; [destruct Hin|].
  rewrite symtab_of_cons. rewrite !map_app.
  destruct Hin as [<-|Hin].
  - unfold v_name, is_path, v_type. cbn [fst snd]. split.
    + apply in_or_app. right. apply in_or_app. left. left. reflexivity.
    + intros Hp. rewrite Hp. apply in_or_app. left. left. reflexivity.
  - destruct (IH e Hin) as [H1 H2]. split.
    + apply in_or_app. right. apply in_or_app. right. exact H1.
    + intros Hp. apply in_or_app. right. apply in_or_app. right. apply H2. exact Hp.
Qed.

Lemma symtab_keys : forall vals k,
  In k (map fst (symtab_of vals)) <->
  (exists n, k = p_raw ++ n /\ In n (map v_name vals)) \/
  (exists n, k = p_param ++ n /\ In n (map v_name (filter (fun e => negb (is_path e)) vals))).
Proof.
  intros vals k. split.
  - intros H. apply symtab_names in H. destruct H as [e [He [->|[-> Hp]]]].
    + left. exists (v_name e). split; [reflexivity|]. apply in_map. exact He.
    + right. exists (v_name e). split; [reflexivity|]. apply in_map. apply filter_In.
      split; [exact He|]. rewrite Hp. reflexivity.
  - intros [[n [-> Hn]]|[n [-> Hn]]].
    + apply in_map_iff in Hn. destruct Hn as [e [<- He]]. apply (symtab_keys_intro vals e He).
    + apply in_map_iff in Hn. destruct Hn as [e [<- He]]. apply filter_In in He. destruct He as [He Hp].
      apply (symtab_keys_intro vals e He). destruct (is_path e); [discriminate Hp|reflexivity].
Qed.

(* ------------------------------------------------------------------ visibility at TEMPLATE scope *)

Lemma named_spec : forall prefix names n,
  named prefix names n = true <-> exists p, n = str_of_string prefix ++ p /\ In p names.
Proof.
  intros prefix names n. unfold named. rewrite existsb_exists. split.
  - intros [p [Hin He]]. apply str_eqb_eq in He. exists p. split; assumption.
  - intros [p [-> Hin]]. exists p. split; [exact Hin|apply str_eqb_refl].
Qed.

(* [vals] (the preprocessed values create_job receives: name, type, value) covers the declared job
   parameters: same names, and the same names among the non-PATH ones *)
Definition covers (pdefs : json) (vals : list (str * str * str)) : Prop :=
  (forall x, In x (all_params pdefs) <-> In x (map v_name vals)) /\
  (forall x, In x (nonpath_params pdefs) <-> In x (map v_name (filter (fun e => negb (is_path e)) vals))).

Theorem vis_template_iff : forall pdefs vals, covers pdefs vals ->
  forall n, vis_template pdefs n = true <-> In n (map fst (symtab_of vals)).
Proof.
  intros pdefs vals [C1 C2] n. unfold vis_template. rewrite orb_true_iff. rewrite !named_spec.
  rewrite symtab_keys. change (str_of_string "RawParam.") with p_raw. change (str_of_string "Param.") with p_param.
  split.
  - intros [[p [-> Hp]]|[p [-> Hp]]].
    + left. exists p. split; [reflexivity|]. apply C1. exact Hp.
    + right. exists p. split; [reflexivity|]. apply C2. exact Hp.
  - intros [[p [-> Hp]]|[p [-> Hp]]].
    + left. exists p. split; [reflexivity|]. apply C1. exact Hp.
    + right. exists p. split; [reflexivity|]. apply C2. exact Hp.
Qed.

(* the (name, type) pairs a parameterDefinitions list declares, in order *)
Definition type_text (o : json) : str := match jget "type" o with JStr s => s | _ => [] end.

Definition decl_pairs (pdefs : json) : list (str * str) :=
  flat_map (fun o => if has_param_type o
                     then match decl_name o with Some n => [(n, type_text o)] | None => [] end
                     else [])
           (obj_list pdefs).

Lemma type_is_text : forall o, type_is o "PATH" = str_eqb (type_text o) $"PATH".
Proof. intros o. unfold type_is, type_text. destruct (jget "type" o); reflexivity. Qed.

Lemma decl_pairs_all : forall pdefs, map fst (decl_pairs pdefs) = all_params pdefs.
Proof.
  intros pdefs. unfold decl_pairs, all_params, declared.
  induction (obj_list pdefs) as [|o r IH]; [reflexivity|].
  cbn [flat_map]. rewrite map_app, IH. f_equal.
  destruct (has_param_type o); [|reflexivity]. destruct (decl_name o); reflexivity.
Qed.

Lemma decl_pairs_nonpath : forall pdefs,
  map fst (filter (fun p => negb (str_eqb (snd p) $"PATH")) (decl_pairs pdefs)) = nonpath_params pdefs.
Proof.
  intros pdefs. unfold decl_pairs, nonpath_params, declared.
  induction (obj_list pdefs) as [|o r IH]; [reflexivity|].
  cbn [flat_map]. rewrite filter_app, map_app, IH. f_equal.
  rewrite type_is_text.
  destruct (has_param_type o); cbn [andb]; [|reflexivity].
  destruct (decl_name o) as [n|]; cbn [filter snd].
  - destruct (str_eqb (type_text o) $"PATH"); reflexivity.
  - destruct (negb (str_eqb (type_text o) $"PATH")); reflexivity.
Qed.

Lemma filter_map_fst : forall (vals : list (str * str * str)),
  map fst (filter (fun e => negb (is_path e)) vals)
  = filter (fun p => negb (str_eqb (snd p) $"PATH")) (map fst vals).
Proof.
  induction vals as [|[[n t] v] r IH]; [reflexivity|].
  cbn [map filter fst]. unfold is_path at 1, v_type at 1. cbn [fst snd].
  destruct (negb (str_eqb t $"PATH")); cbn [map fst]; rewrite IH; reflexivity.
Qed.

(* the values create_job receives after preprocessing: one per declared parameter, typed as declared *)
Theorem decl_pairs_covers : forall pdefs vals, map fst vals = decl_pairs pdefs -> covers pdefs vals.
Proof.
  intros pdefs vals H. split; intros x.
  - rewrite <- decl_pairs_all, <- H. unfold v_name. rewrite map_map. tauto.
  - rewrite <- decl_pairs_nonpath, <- H, <- filter_map_fst. unfold v_name. rewrite map_map. tauto.
Qed.

(* ------------------------------------------------------------------ resolve with every name bound *)

Lemma lookup_bound : forall (sigma : FormatStr.symtab) n, In n (map fst sigma) -> FormatStr.lookup sigma n <> None.
Proof.
  intros sigma n Hin Hn. apply lookup_dom in Hn. apply mem_str_In in Hin. unfold dom in Hn.
  rewrite Hin in Hn. discriminate Hn.
Qed.

Lemma resolve_items_bound : forall sigma its,
  (forall a b t n, In (IExpr a b t n) its -> In n (map fst sigma)) ->
  exists r, resolve_items sigma its = Ok r.
Proof.
  intros sigma its. induction its as [|it r IH]; intros H; [exists []; reflexivity|].
  destruct IH as [t' Ht'].
  { intros a b t n Hin. apply (H a b t n). right. exact Hin. }
  destruct it as [l|a b t n]; cbn [resolve_items].
  - rewrite Ht'. cbn [bind]. eexists. reflexivity.
  - specialize (H a b t n (or_introl eq_refl)). apply lookup_bound in H.
    unfold expr_evaluate, node_evaluate.
    destruct (FormatStr.lookup sigma n) as [v|]; [|contradiction].
    rewrite Ht'. cbn [bind]. eexists. reflexivity.
Qed.

Lemma names_items : forall f a b t n, In (IExpr a b t n) (items f) -> In n (names f).
Proof.
  intros f a b t n H. unfold names, expressions.
  apply in_map_iff. exists (n, a, b). split; [reflexivity|].
  apply in_flat_map. exists (IExpr a b t n). split; [exact H|left; reflexivity].
Qed.

Theorem resolve_bound : forall sigma f,
  (forall n, In n (names f) -> In n (map fst sigma)) -> exists r, resolve sigma f = Ok r.
Proof.
  intros sigma f H. unfold resolve. apply resolve_items_bound.
  intros a b t n Hin. apply H. eapply names_items. exact Hin.
Qed.

(* FormatString(s).resolve(symtab) as create_job runs it (Export.fs_resolve, CreateJobProofs.fs_resolve) *)
Theorem fs_resolve_bound_names : forall classify sigma s names,
  fs_refs classify s = Some names -> (forall n, In n names -> In n (map fst sigma)) ->
  exists r, fs_resolve classify sigma s = Ok r.
Proof.
  intros classify sigma s nm Hr Hb. unfold fs_refs in Hr. unfold fs_resolve.
  destruct (mk classify s) as [f|e]; [|discriminate Hr]. injection Hr as <-.
  apply resolve_bound. exact Hb.
Qed.

(* ------------------------------------------------------------------ reference sites of the spec *)
Section Sites.
  Variable refs : str -> option (list str).

  (* every name referenced by a (well-formed) format string value is visible *)
  Definition site_ok (vis : str -> bool) (v : json) : Prop :=
    forall s names, v = JStr s -> refs s = Some names -> forall n, In n names -> vis n = true.

  Lemma chk_nil : forall vis l v, chk refs vis l v = [] -> site_ok vis v.
  Proof.
    intros vis l v H s names -> Hr n Hn. cbn [chk] in H. rewrite Hr in H.
    pose proof (gl_flat_map_nil _ _ _ _ H n Hn) as E. cbv beta in E.
    destruct (vis n); [reflexivity|discriminate E].
  Qed.

  Lemma indexed_concat_nil : forall (A B : Type) (F : nat -> A -> list B) (items : list A),
    List.concat (List.map (fun iv => F (fst iv) (snd iv)) (indexed items)) = [] ->
    forall x, In x items -> exists i, F i x = [].
  Proof.
    intros A B F items H x Hin. unfold indexed in H.
    destruct (gl_in_combine_seq A items x 0 Hin) as [i Hi]. exists i.
    apply (gl_concat_nil _ _ H). apply in_map_iff. exists (i, x). split; [reflexivity|exact Hi].
  Qed.

  Lemma chk_list_nil : forall vis l v, chk_list refs vis l v = [] ->
    forall x, In x (obj_list v) -> site_ok vis x.
  Proof.
    intros vis l v H x Hin. unfold chk_list in H. destruct v; try (exfalso; exact Hin).
    cbn [obj_list] in Hin.
    destruct (indexed_concat_nil _ _ (fun i y => chk refs vis (l ++ [LIdx i]) y) _ H x Hin) as [i Hi].
    eapply chk_nil. exact Hi.
  Qed.

  (* the TEMPLATE-scope format-string values of a job template document: the job name, every item
     (or the range string) of every task parameter range, every host requirement name and value *)
  Definition task_param_sites (tp : json) : list json :=
    if is_obj tp then
      if type_is tp "INT" then
        match jget "range" tp with
        | JArr items => items
        | JStr s => [JStr s]
        | _ => []
        end
      else if type_is tp "FLOAT" || type_is tp "STRING" || type_is tp "PATH" then obj_list (jget "range" tp)
      else []
    else [].

  Definition param_space_sites (ps : json) : list json :=
    if is_obj ps then flat_map task_param_sites (obj_list (jget "taskParameterDefinitions" ps)) else [].

  Definition host_req_sites (h : json) : list json :=
    if is_obj h then
      flat_map (fun a => if is_obj a then [jget "name" a] else []) (obj_list (jget "amounts" h))
      ++ flat_map (fun a => if is_obj a
                            then jget "name" a :: obj_list (jget "anyOf" a) ++ obj_list (jget "allOf" a)
                            else [])
                  (obj_list (jget "attributes" h))
    else [].

  Definition step_sites (st : json) : list json :=
    if is_obj st then param_space_sites (jget "parameterSpace" st) ++ host_req_sites (jget "hostRequirements" st)
    else [].

  Definition template_sites (j : json) : list json :=
    jget "name" j :: flat_map step_sites (obj_list (jget "steps" j)).

  Lemma task_param_nil : forall vis l tp, spec_task_param refs vis l tp = [] ->
    forall v, In v (task_param_sites tp) -> site_ok vis v.
  Proof.
    intros vis l tp H v Hin. unfold spec_task_param in H. unfold task_param_sites in Hin.
    destruct (is_obj tp); [|destruct Hin].
    destruct (type_is tp "INT").
    - destruct (jget "range" tp) as [| | | |s|items|]; try (exfalso; exact Hin).
      + destruct Hin as [<-|[]]. eapply chk_nil. exact H.
      + eapply chk_nil. apply (gl_flat_map_nil _ _ _ _ H v Hin).
    - destruct (type_is tp "FLOAT" || type_is tp "STRING" || type_is tp "PATH"); [|destruct Hin].
      eapply chk_list_nil; eassumption.
  Qed.

  Lemma param_space_nil : forall vis l ps, spec_param_space refs vis l ps = [] ->
    forall v, In v (param_space_sites ps) -> site_ok vis v.
  Proof.
    intros vis l ps H v Hin. unfold spec_param_space in H. unfold param_space_sites in Hin.
    destruct (is_obj ps); [|destruct Hin].
    apply in_flat_map in Hin. destruct Hin as [tp [Htp Hv]].
    destruct (jget "taskParameterDefinitions" ps) as [| | | | |items|]; try (exfalso; exact Htp).
    cbn [obj_list] in Htp.
    destruct (indexed_concat_nil _ _
                (fun i y => spec_task_param refs vis (l ++ [key "taskParameterDefinitions"; LIdx i]) y)
                _ H tp Htp) as [i Hi].
    eapply task_param_nil; eassumption.
  Qed.

  Lemma host_req_nil : forall vis l h, spec_host_req refs vis l h = [] ->
    forall v, In v (host_req_sites h) -> site_ok vis v.
  Proof.
    intros vis l h H v Hin. unfold spec_host_req in H. unfold host_req_sites in Hin.
    destruct (is_obj h); [|destruct Hin].
    apply app_eq_nil in H. destruct H as [Ham Hat].
    apply in_app_or in Hin. destruct Hin as [Hin|Hin].
    - apply in_flat_map in Hin. destruct Hin as [a [Ha Hv]].
      destruct (jget "amounts" h) as [| | | | |items|]; try (exfalso; exact Ha).
      cbn [obj_list] in Ha.
      destruct (indexed_concat_nil _ _
                  (fun i y => if is_obj y
                              then chk refs vis (l ++ [key "amounts"; LIdx i; key "name"]) (jget "name" y)
                              else [])
                  _ Ham a Ha) as [i Hi].
      cbv beta in Hi. destruct (is_obj a); [|destruct Hv].
      destruct Hv as [<-|[]]. eapply chk_nil. exact Hi.
    - apply in_flat_map in Hin. destruct Hin as [a [Ha Hv]].
      destruct (jget "attributes" h) as [| | | | |items|]; try (exfalso; exact Ha).
      cbn [obj_list] in Ha.
      destruct (indexed_concat_nil _ _
                  (fun i y =>
                     if is_obj y then
                       chk refs vis ((l ++ [key "attributes"; LIdx i]) ++ [key "name"]) (jget "name" y)
                       ++ chk_list refs vis ((l ++ [key "attributes"; LIdx i]) ++ [key "anyOf"]) (jget "anyOf" y)
                       ++ chk_list refs vis ((l ++ [key "attributes"; LIdx i]) ++ [key "allOf"]) (jget "allOf" y)
                     else [])
                  _ Hat a Ha) as [i Hi].
      cbv beta in Hi. destruct (is_obj a); [|destruct Hv].
      apply app_eq_nil in Hi. destruct Hi as [H1 H23]. apply app_eq_nil in H23. destruct H23 as [H2 H3].
      destruct Hv as [<-|Hv]; [eapply chk_nil; exact H1|].
      apply in_app_or in Hv. destruct Hv as [Hv|Hv].
      + exact (chk_list_nil vis _ _ H2 v Hv).
      + exact (chk_list_nil vis _ _ H3 v Hv).
  Qed.

  Lemma step_nil : forall pdefs l st, spec_step refs pdefs l st = [] ->
    forall v, In v (step_sites st) -> site_ok (vis_template pdefs) v.
  Proof.
    intros pdefs l st H v Hin. unfold spec_step in H. unfold step_sites in Hin.
    destruct (is_obj st); [|destruct Hin].
    apply app_eq_nil in H. destruct H as [_ H]. apply app_eq_nil in H. destruct H as [_ H].
    apply app_eq_nil in H. destruct H as [Hps Hhr].
    apply in_app_or in Hin. destruct Hin as [Hin|Hin].
    - eapply param_space_nil; eassumption.
    - eapply host_req_nil; eassumption.
  Qed.

  Theorem job_template_sites_ok : forall j, spec_job_template refs j = [] ->
    forall v, In v (template_sites j) -> site_ok (vis_template (jget "parameterDefinitions" j)) v.
  Proof.
    intros j H v Hin. unfold spec_job_template in H. cbv zeta in H.
    apply app_eq_nil in H. destruct H as [Hname H]. apply app_eq_nil in H. destruct H as [Hsteps _].
    unfold template_sites in Hin. destruct Hin as [<-|Hin].
    - eapply chk_nil. exact Hname.
    - apply in_flat_map in Hin. destruct Hin as [st [Hst Hv]].
      destruct (jget "steps" j) as [| | | | |items|]; try (exfalso; exact Hst).
      cbn [obj_list] in Hst.
      destruct (indexed_concat_nil _ _
                  (fun i y => spec_step refs (jget "parameterDefinitions" j) [key "steps"; LIdx i] y)
                  _ Hsteps st Hst) as [i Hi].
      eapply step_nil; eassumption.
  Qed.
End Sites.

(* ------------------------------------------------------------------ the corollary chain *)

(* a document that passes the pre-validation walk: every name referenced at a creation-time site
   is bound by create_job's symbol table, and resolving the string succeeds *)
Theorem sites_bound : forall classify j vals,
  covers (jget "parameterDefinitions" j) vals ->
  prevalidate Generated.schema (fs_refs classify) "JobTemplate" j = [] ->
  forall s, In (JStr s) (template_sites j) ->
  forall names, fs_refs classify s = Some names ->
  (forall n, In n names -> In n (map fst (symtab_of vals))) /\
  (exists r, fs_resolve classify (symtab_of vals) s = Ok r).
Proof.
  intros classify j vals Hc Hp s Hs names Hr.
  rewrite exact_job in Hp.
  pose proof (job_template_sites_ok (fs_refs classify) j Hp (JStr s) Hs s names eq_refl Hr) as Hv.
  assert (Hb : forall n, In n names -> In n (map fst (symtab_of vals))).
  { intros n Hn. apply (vis_template_iff _ _ Hc). apply Hv. exact Hn. }
  split; [exact Hb|]. eapply fs_resolve_bound_names; eassumption.
Qed.

(* ... in particular the job name *)
Theorem name_bound : forall classify j vals s,
  covers (jget "parameterDefinitions" j) vals ->
  prevalidate Generated.schema (fs_refs classify) "JobTemplate" j = [] ->
  jget "name" j = JStr s ->
  (forall f, mk classify s = Ok f -> forall n, In n (FormatStrProofs.names f) -> In n (map fst (symtab_of vals))) /\
  (forall e, fs_resolve classify (symtab_of vals) s = Raise e ->
             e = FormatStringError /\ mk classify s = Raise FormatStringError).
Proof.
  intros classify j vals s Hc Hp Hn.
  assert (Hs : In (JStr s) (template_sites j)) by (unfold template_sites; left; exact Hn).
  split.
  - intros f Hf n Hin.
    assert (Hr : fs_refs classify s = Some (FormatStrProofs.names f)).
    { unfold fs_refs. rewrite Hf. reflexivity. }
    destruct (sites_bound classify j vals Hc Hp s Hs _ Hr) as [Hb _]. apply Hb. exact Hin.
  - intros e He. destruct (mk classify s) as [f|e0] eqn:Hf.
    + assert (Hr : fs_refs classify s = Some (FormatStrProofs.names f)).
      { unfold fs_refs. rewrite Hf. reflexivity. }
      destruct (sites_bound classify j vals Hc Hp s Hs _ Hr) as [_ [r Hok]]. rewrite Hok in He. discriminate He.
    + unfold fs_resolve in He. rewrite Hf in He. injection He as <-.
      pose proof (mk_errors classify s e0 Hf) as ->. split; reflexivity.
Qed.

(* which fields create_job resolves, per class, in the live metadata: exactly the sites above *)
Definition resolve_table (s : schema_t) : list (string * list string) :=
  flat_map (fun nc => match j_resolve (c_jcm (snd nc)) with [] => [] | l => [(fst nc, l)] end) s.

Lemma resolve_table_ok :
  resolve_table Generated.schema =
  [("IntTaskParameterDefinition", ["range"]);
   ("FloatTaskParameterDefinition", ["range"]);
   ("StringTaskParameterDefinition", ["range"]);
   ("PathTaskParameterDefinition", ["range"]);
   ("AmountRequirementTemplate", ["name"]);
   ("AttributeRequirementTemplate", ["allOf"; "anyOf"; "name"]);
   ("JobTemplate", ["name"])].
Proof. vm_compute. reflexivity. Qed.
