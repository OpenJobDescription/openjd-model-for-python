(* ExportProofs.v — lemmas for C17 (model_to_object and the decode/export round trip).

   [plain]: the export holds no null and only JSON scalars.  Aliases: the key emitted for a field is the key
   [parse_cls] reads.  [scalar_ok]: every way in which a scalar kind accepts a value.  [exp] is the export with
   canonical fuel, equal to the fuel-free [CreateJobExactLib.tobj].  The round trip  decode (export x) = x  goes
   by induction on the fuel of the structural parser, one step below a class being [cls_body_rt] (section
   RtFields) and one step below a kind [kind_body_rt]; what it needs of a schema is the computable condition
   [schema_rt_ok], of the validators [hooks_stable].  Section SimStep: one step of the parser on two related pairs
   of inner parsers; by it the result depends neither on pre-validators that agree on the covered classes nor on
   spare fuel ([parse_sim], [fuel_stable]).  Last, the live schema: the conditions hold of [template_classes]; the
   pre-validators accept the re-export ([pre_hook_stable]); what remains is [prevalidate_stable] (discharged in
   ExportRoots.v). *)
From Coq Require Import List NArith ZArith Bool String Ascii Lia Arith.
Import ListNotations.
Require Import OJD.Base OJD.Lexer OJD.Json OJD.Schema OJD.Generated OJD.Charsets OJD.Numerals OJD.NumPrint
               OJD.CreateJob OJD.Parse.
Require OJD.ListLib OJD.AcceptMono OJD.KeyOrder OJD.CreateJobProofs OJD.CreateJobExactLib OJD.DecodeInv.
Local Open Scope string_scope.
Local Open Scope list_scope.

(* no null anywhere (as a list item, as a member value, or at the top), every leaf a JSON scalar:
   bool / int / str / float.  [json] has no constructor for a Decimal or any other Python object:
   what has to be shown is that [to_object] never needs one, and never emits a null. *)
Fixpoint plain (j : json) : bool :=
  match j with
  | JNull => false
  | JBool _ | JInt _ | JDec _ _ | JStr _ => true
  | JArr l => forallb plain l
  | JObj ms => forallb (fun kv => plain (snd kv)) ms
  end.

Definition mnone (v : mval) : bool := match v with MNone => true | _ => false end.

(* the instance tree has no None as a LIST ITEM (and is not None itself); a None dictionary value
   or model field is allowed: [to_object] drops those members *)
Fixpoint no_none_items (v : mval) : bool :=
  match v with
  | MNone => false
  | MList l => forallb no_none_items l
  | MDict l => forallb (fun kv => mnone (snd kv) || no_none_items (snd kv)) l
  | MModel _ fs => forallb (fun kv => mnone (snd kv) || no_none_items (snd kv)) fs
  | _ => true
  end.

Lemma plain_members : forall (K : Type) (key : K -> str) (g : mval -> json) (l : list (K * mval)),
  Forall (fun kv => no_none_items (snd kv) = true -> plain (g (snd kv)) = true) l ->
  forallb (fun kv => mnone (snd kv) || no_none_items (snd kv)) l = true ->
  forallb (fun kv => plain (snd kv))
          (flat_map (fun kv => match snd kv with MNone => [] | _ => [(key (fst kv), g (snd kv))] end) l) = true.
Proof.
  induction 1 as [|[k y] l Hy _ IH]; cbn [forallb flat_map]; intros H; [reflexivity|].
  apply andb_true_iff in H. destruct H as [Hk Hl]. rewrite forallb_app, (IH Hl), andb_true_r. cbn [snd fst] in *.
  destruct y; cbn [mnone orb] in Hk; try reflexivity; cbn [forallb snd]; rewrite andb_true_r; apply Hy; exact Hk.
Qed.

Theorem to_object_plain : forall SC fuel v,
  no_none_items v = true -> mval_depth v < fuel -> plain (to_object SC fuel v) = true.
Proof.
  intros SC fuel v Hn Hd. rewrite (CreateJobExactLib.to_object_tobj SC v fuel Hd). clear fuel Hd. revert Hn.
  induction v as [ | | | | | | |l IH|l IH|c fs IH] using CreateJobProofs.mval_ind3;
    cbn [CreateJobExactLib.tobj no_none_items plain]; intros Hn; try reflexivity; try discriminate Hn.
  - rewrite forallb_forall in *. intros j Hj. apply in_map_iff in Hj. destruct Hj as [y [<- Hy]].
    rewrite Forall_forall in IH. apply (IH y Hy), Hn, Hy.
  - apply (plain_members _ (fun k => k)); assumption.
  - apply (plain_members _ (fun n => str_of_string (alias_of SC c n))); assumption.
Qed.

Lemma str_of_string_inj : forall a b, str_of_string a = str_of_string b -> a = b.
Proof.
  induction a as [|x a IH]; intros [|y b] H; simpl in H; try discriminate; [reflexivity|].
  inversion H as [[H1 H2]]. f_equal; [|apply IH, H2].
  rewrite <- (ascii_N_embedding x), <- (ascii_N_embedding y), H1. reflexivity.
Qed.

Lemma find_by_name : forall (fields : list field) fl,
  NoDup (map f_name fields) -> In fl fields ->
  List.find (fun fl' => String.eqb (f_name fl') (f_name fl)) fields = Some fl.
Proof.
  induction fields as [|a r IH]; intros fl Hnd Hin; [destruct Hin|].
  simpl map in Hnd. inversion Hnd as [|x l Hnotin Hnd']. subst x l.
  simpl. destruct Hin as [Hin|Hin].
  - subst a. rewrite String.eqb_refl. reflexivity.
  - destruct (String.eqb (f_name a) (f_name fl)) eqn:E.
    + apply String.eqb_eq in E. exfalso. apply Hnotin. rewrite E. apply in_map. exact Hin.
    + apply IH; assumption.
Qed.

Theorem alias_of_field : forall SC c k fl,
  lookup_cls SC c = Some k -> NoDup (map f_name (c_fields k)) -> In fl (c_fields k) ->
  alias_of SC c (f_name fl) = f_alias fl.
Proof.
  intros SC c k fl Hl Hnd Hin. unfold alias_of. rewrite Hl.
  rewrite (find_by_name _ fl Hnd Hin). reflexivity.
Qed.

Definition present (x : mval) : option mval := match x with MNone => None | _ => Some x end.

(* members emitted for the field list of a class, given the values in declaration order *)
Definition emit (g : mval -> json) (l : list (field * mval)) : list (str * json) :=
  flat_map (fun p => match snd p with
                     | MNone => []
                     | y => [(str_of_string (f_alias (fst p)), g y)]
                     end) l.

Lemma emit_keys : forall g l kv, In kv (emit g l) -> exists p, In p l /\ fst kv = str_of_string (f_alias (fst p)).
Proof.
  intros g l kv H. unfold emit in H. apply in_flat_map in H. destruct H as [p [Hp Hin]].
  exists p. split; [exact Hp|].
  destruct (snd p); cbn in Hin; try contradiction; destruct Hin as [Hin|[]]; subst kv; reflexivity.
Qed.

Lemma assoc_emit_absent : forall g l a,
  ~ In a (map (fun p => f_alias (fst p)) l) -> assoc (str_of_string a) (emit g l) = None.
Proof.
  intros g l a H. apply ListLib.assoc_None. intros Hin. apply in_map_iff in Hin. destruct Hin as [kv [E Hkv]].
  destruct (emit_keys _ _ _ Hkv) as [p [Hp Hk]]. rewrite E in Hk. apply str_of_string_inj in Hk.
  apply H. rewrite Hk. apply (in_map (fun p => f_alias (fst p))), Hp.
Qed.

Lemma assoc_emit : forall g l fl x,
  NoDup (map (fun p => f_alias (fst p)) l) -> In (fl, x) l ->
  assoc (str_of_string (f_alias fl)) (emit g l) = option_map g (present x).
Proof.
  induction l as [|[fl' x'] r IH]; intros fl x Hnd Hin; [destruct Hin|].
  simpl map in Hnd. inversion Hnd as [|y l Hnotin Hnd']. subst y l.
  unfold emit. simpl flat_map. fold (emit g r). destruct Hin as [Hin|Hin].
  - inversion Hin. subst fl' x'.
    destruct x; simpl; try rewrite ListLib.str_eqb_refl; try reflexivity.
    apply assoc_emit_absent. exact Hnotin.
  - assert (Hne : str_eqb (str_of_string (f_alias fl)) (str_of_string (f_alias fl')) = false).
    { apply ListLib.str_eqb_neq. intros E. apply str_of_string_inj in E. apply Hnotin. simpl in E. rewrite <- E.
      apply (in_map (fun p => f_alias (fst p)) r (fl, x)). exact Hin. }
    specialize (IH fl x Hnd' Hin).
    destruct x'; simpl; try rewrite Hne; exact IH.
Qed.

Lemma to_object_model : forall SC f c k (vals : list mval),
  lookup_cls SC c = Some k -> NoDup (map f_name (c_fields k)) ->
  List.length vals = List.length (c_fields k) ->
  to_object SC (S f) (MModel c (combine (map f_name (c_fields k)) vals))
  = JObj (emit (to_object SC f) (combine (c_fields k) vals)).
Proof.
  intros SC f c k vals Hl Hnd Hlen. simpl. f_equal. unfold emit.
  assert (Hal : forall fl, In fl (c_fields k) -> alias_of SC c (f_name fl) = f_alias fl)
    by (intros fl Hfl; eapply alias_of_field; eassumption).
  clear Hnd Hl. revert vals Hlen Hal. generalize (c_fields k) as fields.
  induction fields as [|fl r IH]; intros vals Hlen Hal; [reflexivity|].
  destruct vals as [|x vals]; [discriminate|].
  simpl. rewrite (Hal fl (or_introl eq_refl)).
  rewrite (IH vals); [|simpl in Hlen; lia|intros fl' Hfl'; apply Hal; right; exact Hfl'].
  destruct x; reflexivity.
Qed.

Lemma map_fst_combine : forall (A B : Type) (a : list A) (b : list B),
  List.length b = List.length a -> map fst (combine a b) = a.
Proof.
  induction a as [|x a IH]; intros b H; [reflexivity|].
  destruct b as [|y b]; [discriminate|]. simpl. rewrite IH; [reflexivity|]. simpl in H. lia.
Qed.

Theorem alias_read : forall SC f c k (vals : list mval) fl x,
  lookup_cls SC c = Some k ->
  NoDup (map f_name (c_fields k)) -> NoDup (map f_alias (c_fields k)) ->
  List.length vals = List.length (c_fields k) ->
  In (fl, x) (combine (c_fields k) vals) ->
  exists ms,
    to_object SC (S f) (MModel c (combine (map f_name (c_fields k)) vals)) = JObj ms /\
    assoc (str_of_string (f_alias fl)) ms = option_map (to_object SC f) (present x).
Proof.
  intros SC f c k vals fl x Hl Hn Ha Hlen Hin.
  eexists. split; [apply to_object_model; assumption|].
  apply assoc_emit; [|exact Hin].
  assert (E : map (fun p : field * mval => f_alias (fst p)) (combine (c_fields k) vals) = map f_alias (c_fields k)).
  { rewrite <- (map_map fst f_alias). rewrite map_fst_combine; [reflexivity|]. exact Hlen. }
  rewrite E. exact Ha.
Qed.

Fixpoint nodup_sb (l : list string) : bool :=
  match l with
  | [] => true
  | x :: r => negb (mem_s x r) && nodup_sb r
  end.

Lemma nodup_sb_NoDup : forall l, nodup_sb l = true -> NoDup l.
Proof.
  induction l as [|x r IH]; intros H; [constructor|].
  simpl in H. apply andb_true_iff in H. destruct H as [H1 H2]. constructor.
  - intros Hin. apply ListLib.mem_s_In in Hin. rewrite Hin in H1. discriminate.
  - apply IH. exact H2.
Qed.

Definition names_distinct_b (s : schema_t) : bool :=
  forallb (fun nc => nodup_sb (map f_name (c_fields (snd nc))) && nodup_sb (map f_alias (c_fields (snd nc)))) s.

Lemma names_distinct_sound : forall s, names_distinct_b s = true ->
  forall c k, lookup_cls s c = Some k ->
  NoDup (map f_name (c_fields k)) /\ NoDup (map f_alias (c_fields k)).
Proof.
  intros s H c k Hl. apply AcceptMono.lookup_cls_In in Hl. unfold names_distinct_b in H.
  rewrite forallb_forall in H. specialize (H _ Hl). simpl in H. apply andb_true_iff in H.
  destruct H as [H1 H2]. split; apply nodup_sb_NoDup; assumption.
Qed.

Lemma generated_names_distinct : forall c k, lookup_cls Generated.schema c = Some k ->
  NoDup (map f_name (c_fields k)) /\ NoDup (map f_alias (c_fields k)).
Proof. apply names_distinct_sound. vm_compute. reflexivity. Qed.

Require Import OJD.NumRoundtrip.

Definition scalar_kind (k : kind) : bool :=
  match k with KModel _ | KDisc _ _ | KUnion _ => false | _ => true end.

(* The structural parser one level down, over the parsers [pk] / [pc] of the level below: [parse_kind_Sb] and
   [parse_cls_Sb].  The same bodies as AcceptMono's pieces, through which those two equations are proved. *)
Section Bodies.
  Variable SC : schema_t.
  Variable classify : N -> cclass.
  Variable pre : string -> json -> bool.
  Variable post : string -> json -> list (string * mval) -> bool.
  Variable pk : kind -> json -> outcome mval.
  Variable pc : string -> json -> outcome mval.

  Definition scalar_body (k : kind) (v : json) : outcome mval :=
    match k with
    | KLiteral lit => match v with JStr s => if str_eqb s (str_of_string lit) then Ok (MStr s) else reject | _ => reject end
    | KEnum members =>
      match v with
      | JStr s => if existsb (fun m => str_eqb s (str_of_string m)) members then Ok (MStr s) else reject
      | _ => reject
      end
    | KStr strict minl maxl cs =>
      match v with
      | JStr s => check_str minl maxl cs s
      | JInt z => if strict then reject else check_str minl maxl cs (print_Z z)
      | JBool b => if strict then reject else check_str minl maxl cs (if b then s_True else s_False)
      | JDec _ _ => if strict then reject else unsupported
      | _ => reject
      end
    | KFormat _ minl maxl cs =>
      match v with
      | JStr s => if len_ok minl maxl s && cs_ok cs s && fs_ok classify s then Ok (MFmt s) else reject
      | _ => reject
      end
    | KBool strict =>
      match v with
      | JBool b => Ok (MBool b)
      | _ => if strict then reject else unsupported
      end
    | KInt strict ge le gt =>
      let fin (z : Z) : outcome mval := if zopt_ok ge le gt z then Ok (MInt z) else reject in
      match v with
      | JInt z => fin z
      | JBool b => if strict then reject else fin (if b then 1 else 0)%Z
      | JStr s => if strict then reject else match parse_int s with Some z => fin z | None => reject end
      | JDec m e => if strict then reject else if dec_integral m e then fin (trunc_dec m e) else reject
      | _ => reject
      end
    | KFloat gt =>
      let fin (m e : Z) : outcome mval :=
        match gt with
        | Some b => if num_ltb (num_of_Z b) (mkNum m e) then Ok (MFloat m e) else reject
        | None => Ok (MFloat m e)
        end in
      match v with
      | JInt z => fin z 0%Z
      | JDec m e => fin m e
      | JBool b => fin (if b then 1 else 0)%Z 0%Z
      | JStr _ => unsupported
      | _ => reject
      end
    | KDec =>
      match v with
      | JInt z => Ok (MDec z 0)
      | JDec m e => Ok (MDec m e)
      | JStr s => match parse_dec s with Some (Fin m e) => Ok (MDec m e) | _ => reject end
      | _ => reject
      end
    | _ => Raise RuntimeError
    end.

  Definition list_value (minl maxl : option N) (k : kind) (v : json) : outcome mval :=
    match v with
    | JArr items =>
      if len_ok_n minl maxl (List.length items)
      then do l' <- mapM (pk k) items; Ok (MList l')
      else reject
    | _ => reject
    end.

  Definition alt_value (a : ualt) (v : json) : outcome mval :=
    match a with
    | UScalar k' => pk k' v
    | UList minl maxl k' => list_value minl maxl k' v
    end.

  Fixpoint try_alts_b (l : list ualt) (v : json) : outcome mval :=
    match l with
    | [] => reject
    | a :: r =>
      match alt_value a v with
      | Ok x => Ok x
      | Raise RuntimeError => Raise RuntimeError
      | Raise _ => try_alts_b r v
      end
    end.

  Definition disc_value (key : string) (mapping : list (string * string)) (v : json) : outcome mval :=
    match v with
    | JObj ms =>
      match assoc (str_of_string key) ms with
      | Some (JStr s) =>
        match List.find (fun kc => str_eqb (str_of_string (fst kc)) s) mapping with
        | Some (_, c) => pc c v
        | None => reject
        end
      | _ => reject
      end
    | _ => reject
    end.

  Definition kind_body (k : kind) (v : json) : outcome mval :=
    match k with
    | KModel c => pc c v
    | KDisc key mapping => disc_value key mapping v
    | KUnion alts => try_alts_b alts v
    | _ => scalar_body k v
    end.

  Definition dict_member (kk k : kind) (kv : str * json) : outcome (str * mval) :=
    do _ <- pk kk (JStr (fst kv));
    do y <- pk k (snd kv);
    Ok (fst kv, y).

  Definition dict_value (kk k : kind) (raw : json) : outcome mval :=
    match raw with
    | JObj members => do l' <- mapM (dict_member kk k) members; Ok (MDict l')
    | _ => reject
    end.

  Definition shape_value (fl : field) (raw : json) : outcome mval :=
    match f_shape fl with
    | Single => pk (f_kind fl) raw
    | ListOf minl maxl => list_value minl maxl (f_kind fl) raw
    | DictOf kk => dict_value kk (f_kind fl) raw
    end.

  Definition field_value (fl : field) (raw : json) : outcome mval :=
    match raw with
    | JNull => if f_required fl then reject else Ok MNone
    | _ => shape_value fl raw
    end.

  Definition raw_of (fl : field) (ms : list (str * json)) : json :=
    match assoc (str_of_string (f_alias fl)) ms with Some x => x | None => JNull end.

  Definition parse_field_b (ms : list (str * json)) (fl : field) : outcome (string * mval) :=
    do x <- field_value fl (raw_of fl ms); Ok (f_name fl, x).

  Definition extra_ok (c : cls) (ms : list (str * json)) : bool :=
    negb (c_extra_forbid c && negb (forallb (fun kv => existsb (fun fl => str_eqb (fst kv) (str_of_string (f_alias fl))) (c_fields c)) ms)).

  Definition cls_body (cname : string) (v : json) : outcome mval :=
    match lookup_cls SC cname, v with
    | Some c, JObj ms =>
      if negb (pre cname v) then reject
      else if negb (extra_ok c ms) then reject
      else
        do fields <- mapM (parse_field_b ms) (c_fields c);
        if post cname v fields then Ok (MModel cname fields) else reject
    | Some _, _ => reject
    | None, _ => Raise RuntimeError
    end.
End Bodies.

Lemma parse_kind_Sb : forall SC classify pre post f k v,
  parse_kind SC classify pre post (S f) k v
  = kind_body classify (parse_kind SC classify pre post f) (parse_cls SC classify pre post f) k v.
Proof.
  intros. rewrite AcceptMono.parse_kind_S. destruct k; try reflexivity.
  cbn [kind_body]. induction alts as [|a r IH]; [reflexivity|]. cbn [try_alts_b]. rewrite <- IH. reflexivity.
Qed.

Lemma parse_cls_Sb : forall SC classify pre post f c v,
  parse_cls SC classify pre post (S f) c v
  = cls_body SC pre post (parse_kind SC classify pre post f) c v.
Proof.
  intros. rewrite AcceptMono.parse_cls_S. unfold cls_body, extra_ok.
  destruct (lookup_cls SC c) as [k|]; [|reflexivity]. destruct v; try reflexivity.
  rewrite negb_involutive. reflexivity.
Qed.

Lemma kind_body_scalar : forall classify pk pc k w, scalar_kind k = true ->
  kind_body classify pk pc k w = scalar_body classify k w.
Proof. intros classify pk pc k w H. destruct k; try discriminate; reflexivity. Qed.

Lemma try_alts_cons_ok : forall pk a r v x,
  try_alts_b pk (a :: r) v = Ok x ->
  alt_value pk a v = Ok x \/ ((exists e, alt_value pk a v = Raise e) /\ try_alts_b pk r v = Ok x).
Proof.
  intros pk a r v x H. cbn [try_alts_b] in H. destruct (alt_value pk a v) as [y|e]; [left; exact H|right].
  split; [eauto|]. destruct e; try discriminate; exact H.
Qed.

Lemma try_alts_two_ok : forall pk a b v x,
  try_alts_b pk [a; b] v = Ok x ->
  alt_value pk a v = Ok x \/ ((exists e, alt_value pk a v = Raise e) /\ alt_value pk b v = Ok x).
Proof.
  intros pk a b v x H. destruct (try_alts_cons_ok _ _ _ _ _ H) as [E|[He H2]]; [left; exact E|right].
  split; [exact He|]. destruct (try_alts_cons_ok _ _ _ _ _ H2) as [E|[_ E]]; [exact E|discriminate E].
Qed.

Lemma Forall2_mapM : forall (A B : Type) (f : A -> outcome B) l l',
  Forall2 (fun a b => f a = Ok b) l l' -> mapM f l = Ok l'.
Proof. intros A B f l l'. apply ListLib.mapM_Forall2. Qed.

Definition sval (x : mval) : bool :=
  match x with MBool _ | MInt _ | MDec _ _ | MFloat _ _ | MStr _ | MFmt _ => true | _ => false end.

(* What the scalar kinds accept, as pydantic coerces it: the text a lax string field stores for an int or a
   bool, the int a lax int field reads off a bool, a numeric string or an integral float, the float and the
   Decimal read off a number ... *)
Definition str_text (strict : bool) (v : json) : option str :=
  match v with
  | JStr s => Some s
  | JInt z => if strict then None else Some (print_Z z)
  | JBool b => if strict then None else Some (if b then s_True else s_False)
  | _ => None
  end.
Definition int_value (strict : bool) (v : json) : option Z :=
  match v with
  | JInt z => Some z
  | JBool b => if strict then None else Some (if b then 1 else 0)%Z
  | JStr s => if strict then None else parse_int s
  | JDec m e => if strict then None else if dec_integral m e then Some (trunc_dec m e) else None
  | _ => None
  end.
Definition float_value (v : json) : option (Z * Z) :=
  match v with
  | JInt z => Some (z, 0%Z)
  | JDec m e => Some (m, e)
  | JBool b => Some ((if b then 1 else 0)%Z, 0%Z)
  | _ => None
  end.
Definition dec_value (v : json) : option (Z * Z) :=
  match v with
  | JInt z => Some (z, 0%Z)
  | JDec m e => Some (m, e)
  | JStr s => match parse_dec s with Some (Fin m e) => Some (m, e) | _ => None end
  | _ => None
  end.

Inductive scalar_ok (classify : N -> cclass) : kind -> json -> mval -> Prop :=
| SO_literal : forall lit s, str_eqb s $lit = true -> scalar_ok classify (KLiteral lit) (JStr s) (MStr s)
| SO_enum : forall members s, existsb (fun m => str_eqb s $m) members = true ->
    scalar_ok classify (KEnum members) (JStr s) (MStr s)
| SO_str : forall strict lo hi cs v t, str_text strict v = Some t -> len_ok lo hi t && cs_ok cs t = true ->
    scalar_ok classify (KStr strict lo hi cs) v (MStr t)
| SO_format : forall n lo hi cs s, len_ok lo hi s && cs_ok cs s && fs_ok classify s = true ->
    scalar_ok classify (KFormat n lo hi cs) (JStr s) (MFmt s)
| SO_bool : forall strict b, scalar_ok classify (KBool strict) (JBool b) (MBool b)
| SO_int : forall strict ge le gt v z, int_value strict v = Some z -> zopt_ok ge le gt z = true ->
    scalar_ok classify (KInt strict ge le gt) v (MInt z)
| SO_float : forall gt v m e, float_value v = Some (m, e) ->
    match gt with Some b => num_ltb (num_of_Z b) (mkNum m e) | None => true end = true ->
    scalar_ok classify (KFloat gt) v (MFloat m e)
| SO_dec : forall v m e, dec_value v = Some (m, e) -> scalar_ok classify KDec v (MDec m e).

Lemma scalar_body_ok : forall classify k v x, scalar_body classify k v = Ok x -> scalar_ok classify k v x.
Proof.
  intros classify k v x H.
  destruct k as [lit|members|strict lo hi cs|n lo hi cs|strict|strict ge le gt|gt| | | |];
    cbn [scalar_body] in H; unfold reject, unsupported, check_str in H; try discriminate H.
  - destruct v; try discriminate H. destruct (str_eqb s $lit) eqn:E; [|discriminate H].
    injection H as <-. constructor. exact E.
  - destruct v; try discriminate H. destruct (existsb _ members) eqn:E; [|discriminate H].
    injection H as <-. constructor. exact E.
  - assert (forall t, str_text strict v = Some t ->
                      (if len_ok lo hi t && cs_ok cs t then Ok (MStr t) else Raise ValueError) = Ok x ->
                      scalar_ok classify (KStr strict lo hi cs) v x) as Hfin.
    { intros t Ht Hx. destruct (len_ok lo hi t && cs_ok cs t) eqn:E; [|discriminate Hx].
      injection Hx as <-. econstructor; eassumption. }
    destruct v; try discriminate H; try (destruct strict; try discriminate H); eapply Hfin; try exact H; reflexivity.
  - destruct v; try discriminate H. destruct (len_ok lo hi s && cs_ok cs s && fs_ok classify s) eqn:E; [|discriminate H].
    injection H as <-. constructor. exact E.
  - destruct v; try (destruct strict; discriminate H). injection H as <-. constructor.
  - assert (forall z, int_value strict v = Some z ->
                      (if zopt_ok ge le gt z then Ok (MInt z) else Raise ValueError) = Ok x ->
                      scalar_ok classify (KInt strict ge le gt) v x) as Hfin.
    { intros z Hz Hx. destruct (zopt_ok ge le gt z) eqn:E; [|discriminate Hx].
      injection Hx as <-. econstructor; eassumption. }
    destruct v as [|b|z|m e|s| |]; try discriminate H; try (destruct strict; try discriminate H);
      try (eapply Hfin; [reflexivity|exact H]).
    + destruct (dec_integral m e) eqn:Ei; [|discriminate H]. eapply Hfin; [cbn [int_value]; rewrite Ei; reflexivity|exact H].
    + destruct (parse_int s) as [z|] eqn:Ei; [|discriminate H]. eapply Hfin; [exact Ei|exact H].
  - assert (forall m e, float_value v = Some (m, e) ->
                        match gt with
                        | Some b => if num_ltb (num_of_Z b) (mkNum m e) then Ok (MFloat m e) else Raise ValueError
                        | None => Ok (MFloat m e)
                        end = Ok x -> scalar_ok classify (KFloat gt) v x) as Hfin.
    { intros m e Hv Hx. destruct gt as [b|]; [destruct (num_ltb _ _) eqn:E; [|discriminate Hx]|];
        injection Hx as <-; econstructor; eassumption || reflexivity. }
    destruct v; try discriminate H; eapply Hfin; try exact H; reflexivity.
  - destruct v; try discriminate H; try (injection H as <-; constructor; reflexivity).
    destruct (parse_dec s) as [[m e| |]|] eqn:E; try discriminate H. injection H as <-. constructor.
    cbn [dec_value]. rewrite E. reflexivity.
Qed.

(* the constructor under which a scalar kind stores its value *)
Definition stored_as (k : kind) (x : mval) : bool :=
  match k, x with
  | (KLiteral _ | KEnum _ | KStr _ _ _ _), MStr _ | KFormat _ _ _ _, MFmt _ | KBool _, MBool _
  | KInt _ _ _ _, MInt _ | KFloat _, MFloat _ _ | KDec, MDec _ _ => true
  | _, _ => false
  end.

Lemma scalar_body_stored : forall classify k v x, scalar_body classify k v = Ok x -> stored_as k x = true.
Proof. intros classify k v x H. destruct (scalar_body_ok _ _ _ _ H); reflexivity. Qed.

Lemma scalar_body_sval : forall classify k v x, scalar_body classify k v = Ok x -> sval x = true.
Proof. intros classify k v x H. apply scalar_body_stored in H. destruct k, x; try discriminate H; reflexivity. Qed.

Lemma nn_not_none : forall x, no_none_items x = true -> mnone x = false.
Proof. intros x H. destruct x; try reflexivity. discriminate. Qed.

Section NoNone.
  Variable SC : schema_t.
  Variable classify : N -> cclass.
  Variable pre : string -> json -> bool.
  Variable post : string -> json -> list (string * mval) -> bool.

  Section Step.
    Variable pk : kind -> json -> outcome mval.
    Hypothesis Hpk : forall k v x, pk k v = Ok x -> no_none_items x = true.

    Lemma list_value_nn : forall minl maxl k v x, list_value pk minl maxl k v = Ok x -> no_none_items x = true.
    Proof.
      intros minl maxl k v x H. destruct (AcceptMono.list_items_ok _ _ _ _ _ _ H) as [items [l [_ [E ->]]]].
      cbn [no_none_items]. rewrite forallb_forall. intros y Hy.
      destruct (ListLib.mapM_ok_in _ _ _ _ _ E y Hy) as [a [_ Ha]]. exact (Hpk _ _ _ Ha).
    Qed.

    Lemma dict_value_inv : forall kk k v x, dict_value pk kk k v = Ok x ->
      exists members l, v = JObj members /\ x = MDict l /\
        Forall2 (fun a b => fst a = fst b /\ mnone (snd b) = false /\ pk k (snd a) = Ok (snd b)
                            /\ exists w, pk kk (JStr (fst a)) = Ok w) members l.
    Proof.
      intros kk k v x H. unfold dict_value in H. destruct v as [| | | | | |members]; try discriminate.
      destruct (mapM (dict_member pk kk k) members) as [l|] eqn:E; [|discriminate]. cbn [bind] in H.
      inversion H. exists members, l. repeat split. apply ListLib.mapM_Forall2 in E.
      eapply ListLib.Forall2_impl; [|exact E]. intros a b Hab. unfold dict_member in Hab.
      destruct (pk kk (JStr (fst a))) as [w|]; [|discriminate]. cbn [bind] in Hab.
      destruct (pk k (snd a)) as [y|] eqn:Ey; [|discriminate]. cbn [bind] in Hab. inversion Hab. cbn [fst snd].
      split; [reflexivity|]. split; [exact (nn_not_none _ (Hpk _ _ _ Ey))|]. split; [reflexivity|]. exists w. reflexivity.
    Qed.

    Lemma dict_value_nn : forall kk k v x, dict_value pk kk k v = Ok x -> no_none_items x = true.
    Proof.
      intros kk k v x H. destruct (dict_value_inv _ _ _ _ H) as [members [l [_ [-> Hm]]]].
      cbn [no_none_items]. apply forallb_forall. intros b Hb.
      destruct (ListLib.Forall2_in_r _ _ _ _ _ _ Hm Hb) as [a [_ [_ [_ [Hy _]]]]].
      rewrite (Hpk _ _ _ Hy). apply orb_true_r.
    Qed.
  End Step.

  Lemma parse_nn : forall f,
    (forall k v x, parse_kind SC classify pre post f k v = Ok x -> no_none_items x = true)
    /\ (forall c v x, parse_cls SC classify pre post f c v = Ok x -> no_none_items x = true).
  Proof.
    apply (DecodeInv.accepted_ind SC classify pre post (fun _ x => no_none_items x = true)
                                  (fun _ x => no_none_items x = true)).
    - intros k m Hk Hv. destruct k; try discriminate Hk; destruct m; try discriminate Hv; reflexivity.
    - intros c m H. exact H.
    - intros key mp kc m _ H. exact H.
    - intros alts k m _ H. exact H.
    - intros alts lo hi k l _ H. cbn [no_none_items]. apply forallb_forall, Forall_forall, H.
    - intros c c0 fs _ H. cbn [no_none_items]. apply forallb_forall. intros kv Hkv.
      destruct (ListLib.Forall2_in_r _ _ _ _ _ _ H Hkv) as [fl [_ [_ [[_ ->]|Hv]]]]; [reflexivity|].
      apply orb_true_iff. right.
      destruct (f_shape fl); [exact Hv| |]; destruct Hv as [l [-> Hl]]; cbn [no_none_items];
        apply forallb_forall; rewrite Forall_forall in Hl; intros y Hy;
        [exact (Hl y Hy)|rewrite (Hl y Hy); apply orb_true_r].
  Qed.

  Theorem parsed_exports_plain : forall f c v x fuel,
    parse_cls SC classify pre post f c v = Ok x -> mval_depth x < fuel ->
    plain (to_object SC fuel x) = true.
  Proof.
    intros f c v x fuel H Hd. apply to_object_plain; [|exact Hd].
    destruct (parse_nn f) as [_ Hc]. eapply Hc. exact H.
  Qed.
End NoNone.

Section Exp.
  Variable SC : schema_t.

  Definition exp (x : mval) : json := to_object SC (S (mval_depth x)) x.

  Lemma exp_tobj : forall x, exp x = CreateJobExactLib.tobj SC x.
  Proof. intros x. apply CreateJobExactLib.to_object_tobj. apply Nat.lt_succ_diag_r. Qed.

  Lemma to_object_exp : forall F x, mval_depth x < F -> to_object SC F x = exp x.
  Proof. intros F x H. rewrite exp_tobj. apply CreateJobExactLib.to_object_tobj, H. Qed.

  Lemma exp_list : forall l, exp (MList l) = JArr (map exp l).
  Proof. intros l. rewrite exp_tobj. cbn [CreateJobExactLib.tobj]. f_equal. apply map_ext. intros y. symmetry. apply exp_tobj. Qed.

  Lemma exp_dict : forall l,
    (forall kv, In kv l -> mnone (snd kv) = false) ->
    exp (MDict l) = JObj (map (fun kv => (fst kv, exp (snd kv))) l).
  Proof.
    intros l Hn. rewrite exp_tobj. cbn [CreateJobExactLib.tobj]. f_equal.
    induction l as [|[k y] l IH]; [reflexivity|]. cbn [flat_map map snd fst].
    rewrite IH by (intros kv Hkv; apply Hn; right; exact Hkv). specialize (Hn (k, y) (or_introl eq_refl)).
    rewrite (exp_tobj y). destruct y; try discriminate Hn; reflexivity.
  Qed.

  Lemma exp_model : forall c k (vals : list mval),
    lookup_cls SC c = Some k -> NoDup (map f_name (c_fields k)) ->
    List.length vals = List.length (c_fields k) ->
    exp (MModel c (combine (map f_name (c_fields k)) vals))
    = JObj (emit exp (combine (c_fields k) vals)).
  Proof.
    intros c k vals Hl Hnd Hlen. rewrite exp_tobj. cbn [CreateJobExactLib.tobj]. f_equal. unfold emit.
    assert (Hal : forall fl, In fl (c_fields k) -> alias_of SC c (f_name fl) = f_alias fl)
      by (intros fl Hfl; eapply alias_of_field; eassumption).
    clear Hnd Hl. revert vals Hlen Hal. generalize (c_fields k) as fields.
    induction fields as [|fl r IH]; intros vals Hlen Hal; [reflexivity|].
    destruct vals as [|x vals]; [discriminate|]. cbn [map combine flat_map fst snd].
    rewrite (Hal fl (or_introl eq_refl)).
    rewrite (IH vals); [|injection Hlen as Hlen; exact Hlen|intros fl' Hfl'; apply Hal; right; exact Hfl'].
    destruct x; cbv beta iota; rewrite ?exp_tobj; reflexivity.
  Qed.

  Lemma exp_not_null : forall x, mnone x = false -> exp x <> JNull.
  Proof. intros x H. destruct x; try discriminate; unfold exp; cbn [to_object]; discriminate. Qed.

  Lemma exp_none : exp MNone = JNull.
  Proof. reflexivity. Qed.
End Exp.

Definition str_kind (k : kind) : bool :=
  match k with KLiteral _ | KEnum _ | KStr _ _ _ _ | KFormat _ _ _ _ => true | _ => false end.

(* kinds that accept a value only in the form in which it is exported again *)
Definition exact_kind (k : kind) : bool :=
  match k with
  | KLiteral _ | KEnum _ | KFormat _ _ _ _ | KBool _ => true
  | KStr strict _ _ _ => strict
  | _ => false
  end.

Definition exact_alt (a : ualt) : bool := match a with UScalar k => exact_kind k | UList _ _ _ => false end.
Definition single_shape (s : shape) : bool := match s with Single => true | _ => false end.

(* decode (export x) = x for every value a scalar kind can produce: a lax string field that was given an int or
   a bool holds its text, and the text decodes to the same string; a Decimal is exported as its text and decodes
   to the same coefficient and exponent *)
Lemma scalar_body_rt : forall SC classify k v x,
  scalar_body classify k v = Ok x -> scalar_body classify k (exp SC x) = Ok x.
Proof.
  intros SC classify k v x H.
  destruct (scalar_body_ok _ _ _ _ H) as [lit s E|ms s E|strict lo hi cs v t _ E|n lo hi cs s E|strict b
                                         |strict ge le gt v z _ E|gt v m e _ E|v m e _];
    unfold exp; cbn [to_object mval_depth scalar_body]; unfold check_str; try rewrite E; try reflexivity.
  - destruct gt; [rewrite E|]; reflexivity.
  - rewrite parse_dec_print_dec. reflexivity.
Qed.

Lemma scalar_body_exact : forall SC classify k v x,
  exact_kind k = true \/ (str_kind k = true /\ exists s, v = JStr s) ->
  scalar_body classify k v = Ok x -> exp SC x = v.
Proof.
  intros SC classify k v x Hk H.
  destruct (scalar_body_ok _ _ _ _ H) as [| |strict lo hi cs v t Ht _| | | | |]; try reflexivity;
    try (destruct Hk as [Hk|[Hk _]]; discriminate Hk).
  assert (Hv : exists s, v = JStr s).
  { destruct Hk as [Hk|[_ Hs]]; [|exact Hs]. cbn [exact_kind] in Hk. subst strict.
    destruct v; try discriminate Ht. eauto. }
  destruct Hv as [s ->]. injection Ht as <-. reflexivity.
Qed.

Theorem roundtrip_scalar : forall SC classify pre post fuel f' k v x,
  scalar_kind k = true ->
  parse_kind SC classify pre post (S fuel) k v = Ok x ->
  parse_kind SC classify pre post (S fuel) k (to_object SC (S f') x) = Ok x.
Proof.
  intros SC classify pre post fuel f' k v x Hk. rewrite !parse_kind_Sb, !(kind_body_scalar _ _ _ _ _ Hk). intros H.
  pose proof (scalar_body_rt SC _ _ _ _ H) as R.
  apply scalar_body_sval in H. destruct x; try discriminate H; exact R.
Qed.

Section RtConditions.
  Variable SC : schema_t.
  Variable CL : list string.     (* the classes covered *)

  (* class [c] has a single string-valued field read under the key [key] *)
  Definition disc_field_ok (key c : string) : bool :=
    match lookup_cls SC c with
    | Some k => existsb (fun fl => String.eqb (f_alias fl) key && single_shape (f_shape fl) && str_kind (f_kind fl))
                        (c_fields k)
    | None => true
    end.

  (* referenced classes are covered; discriminators are re-readable; in an ordered union every
     alternative after the first is exact *)
  Fixpoint kind_ok (k : kind) : bool :=
    match k with
    | KModel c => mem_s c CL
    | KDisc key mapping => forallb (fun tc => mem_s (snd tc) CL && disc_field_ok key (snd tc)) mapping
    | KUnion alts =>
      (fix all (l : list ualt) : bool :=
         match l with
         | [] => true
         | a :: r => (match a with UScalar k' => kind_ok k' | UList _ _ k' => kind_ok k' end) && all r
         end) alts
      && match alts with [] => true | _ :: r => forallb exact_alt r end
    | _ => true
    end.

  Definition ualt_ok (a : ualt) : bool := match a with UScalar k' => kind_ok k' | UList _ _ k' => kind_ok k' end.

  Lemma kind_ok_union : forall alts,
    kind_ok (KUnion alts) = forallb ualt_ok alts && match alts with [] => true | _ :: r => forallb exact_alt r end.
  Proof.
    intros alts. cbn [kind_ok]. f_equal;
      (induction alts as [|a r IH]; [reflexivity|cbn [forallb]; rewrite <- IH; reflexivity]).
  Qed.

  Definition cls_ok (c : string) : bool :=
    match lookup_cls SC c with
    | Some k => nodup_sb (map f_name (c_fields k)) && nodup_sb (map f_alias (c_fields k))
                && forallb (fun fl => kind_ok (f_kind fl)) (c_fields k)
    | None => true
    end.

  Definition schema_rt_ok : bool := forallb cls_ok CL.
End RtConditions.

Lemma Forall2_combine_in : forall (A B : Type) (R : A -> B -> Prop) l l' a b,
  Forall2 R l l' -> In (a, b) (combine l l') -> R a b.
Proof.
  intros A B R l l' a b H. induction H as [|a0 b0 l l' Hab _ IH]; intros Hin; [destruct Hin|].
  destruct Hin as [Hin|Hin]; [inversion Hin; subst; exact Hab|apply IH; exact Hin].
Qed.

Lemma json_depth_item : forall l x, In x l -> json_depth x < json_depth (JArr l).
Proof.
  intros l x H. cbn [json_depth]. apply (CreateJobProofs.depth_le_max _ json_depth) in H. lia.
Qed.

Lemma json_depth_member : forall (ms : list (str * json)) kv, In kv ms -> json_depth (snd kv) < json_depth (JObj ms).
Proof.
  intros ms kv H. cbn [json_depth]. apply (CreateJobProofs.depth_le_max _ (fun kv : str * json => json_depth (snd kv))) in H. lia.
Qed.

Lemma emit_in : forall (g : mval -> json) l fl y,
  In (fl, y) l -> mnone y = false -> In (str_of_string (f_alias fl), g y) (emit g l).
Proof.
  intros g l fl y Hin Hn. unfold emit. apply in_flat_map. exists (fl, y). split; [exact Hin|].
  destruct y; try discriminate Hn; left; reflexivity.
Qed.

Lemma raw_of_emit : forall SC l fl y,
  NoDup (map (fun p : field * mval => f_alias (fst p)) l) -> In (fl, y) l ->
  raw_of fl (emit (exp SC) l) = exp SC y.
Proof. intros SC l fl y Hnd Hin. unfold raw_of. rewrite (assoc_emit _ l fl y Hnd Hin). destruct y; reflexivity. Qed.

Lemma extra_ok_emit : forall k g vals, extra_ok k (emit g (combine (c_fields k) vals)) = true.
Proof.
  intros k g vals. unfold extra_ok. apply negb_true_iff, andb_false_iff. right. apply negb_false_iff.
  rewrite forallb_forall. intros kv Hkv. destruct (emit_keys _ _ _ Hkv) as [[fl y] [Hp Hk]].
  apply existsb_exists. exists fl. split; [apply in_combine_l in Hp; exact Hp|].
  cbn [fst] in Hk. rewrite Hk. apply ListLib.str_eqb_refl.
Qed.

Lemma mapM_combine : forall (A B C : Type) (f : A -> outcome (B * C)) (g : A -> B) (l : list A) (vals : list C),
  List.length vals = List.length l -> (forall a y, In (a, y) (combine l vals) -> f a = Ok (g a, y)) ->
  mapM f l = Ok (combine (map g l) vals).
Proof.
  induction l as [|a l IH]; intros [|y vals] Hlen H; try discriminate Hlen; [reflexivity|]. cbn [mapM map combine].
  rewrite (H a y (or_introl eq_refl)). cbn [bind].
  rewrite (IH vals); [reflexivity|injection Hlen as Hlen; exact Hlen|intros a' y' Hin; apply H; right; exact Hin].
Qed.

Section ClsInv.
  Variable SC : schema_t.
  Variable pre : string -> json -> bool.
  Variable post : string -> json -> list (string * mval) -> bool.
  Variable pk : kind -> json -> outcome mval.

  Lemma cls_body_inv : forall c v x,
    cls_body SC pre post pk c v = Ok x ->
    exists k ms vals,
      lookup_cls SC c = Some k /\ v = JObj ms /\ pre c v = true /\ extra_ok k ms = true
      /\ Forall2 (fun fl y => field_value pk fl (raw_of fl ms) = Ok y) (c_fields k) vals
      /\ x = MModel c (combine (map f_name (c_fields k)) vals)
      /\ post c v (combine (map f_name (c_fields k)) vals) = true.
  Proof.
    intros c v x H. unfold cls_body in H. destruct (lookup_cls SC c) as [k|]; [|discriminate].
    destruct v as [| | | | | |ms]; try discriminate.
    destruct (pre c (JObj ms)) eqn:Ep; [|discriminate]. cbn [negb] in H.
    destruct (extra_ok k ms) eqn:Ee; [|discriminate]. cbn [negb] in H.
    destruct (mapM (parse_field_b pk ms) (c_fields k)) as [flds|] eqn:E; [|discriminate]. cbn [bind] in H.
    destruct (post c (JObj ms) flds) eqn:Epo; [|discriminate]. inversion H. subst x.
    apply ListLib.mapM_Forall2 in E.
    assert (Hv : Forall2 (fun fl y => field_value pk fl (raw_of fl ms) = Ok y) (c_fields k) (map snd flds)
                 /\ flds = combine (map f_name (c_fields k)) (map snd flds)).
    { clear Epo H. induction E as [|fl b l l' Hab _ [IH1 IH2]]; [split; [constructor|reflexivity]|].
      unfold parse_field_b in Hab. destruct (field_value pk fl (raw_of fl ms)) as [y|] eqn:Ey; [|discriminate].
      cbn [bind] in Hab. inversion Hab. subst b. cbn [map snd combine]. split; [constructor; assumption|].
      f_equal. exact IH2. }
    destruct Hv as [Hv1 Hv2].
    exists k, ms, (map snd flds). repeat split; try assumption; try reflexivity.
    - rewrite <- Hv2. reflexivity.
    - rewrite <- Hv2. exact Epo.
  Qed.

  Lemma field_value_some : forall fl raw x, field_value pk fl raw = Ok x -> mnone x = false ->
    shape_value pk fl raw = Ok x.
  Proof.
    intros fl raw x H Hn. unfold field_value in H. destruct raw; try exact H.
    destruct (f_required fl); [discriminate|]. inversion H. subst x. discriminate.
  Qed.

  Lemma field_value_nonnull : forall fl raw, raw <> JNull -> field_value pk fl raw = shape_value pk fl raw.
  Proof. intros fl raw H. destruct raw; try reflexivity. contradiction. Qed.

  Hypothesis NNk : forall k v x, pk k v = Ok x -> no_none_items x = true.

  Lemma shape_value_nn : forall fl raw x, shape_value pk fl raw = Ok x -> no_none_items x = true.
  Proof.
    intros fl raw x H. unfold shape_value in H.
    destruct (f_shape fl); [eapply NNk|eapply list_value_nn|eapply dict_value_nn]; eassumption.
  Qed.

  Lemma field_value_none : forall fl raw, field_value pk fl raw = Ok MNone -> f_required fl = false.
  Proof.
    intros fl raw H. unfold field_value in H.
    destruct raw; try (apply shape_value_nn in H; discriminate).
    destruct (f_required fl); [discriminate|reflexivity].
  Qed.
End ClsInv.

(* One step of the round trip below a class.  The source document is read by [pk1] under the pre-validators
   [pre1], its export by [pk2] under [pre2]; [D] bounds the depth of the exported document.  With one parser
   on both sides and no use of the bound this is the step of [roundtrip_generic]; ExportJob needs both: the
   pre-validators of the job-side requirement classes re-parse their input with the caller's fuel. *)
Section RtFields.
  Variable SC : schema_t.
  Variable pre1 pre2 : string -> json -> bool.
  Variable post : string -> json -> list (string * mval) -> bool.
  Variable CL : list string.
  Variable KOK : kind -> bool.
  Variable D : nat.
  Variable pk1 pk2 : kind -> json -> outcome mval.
  Notation EXP := (exp SC).
  Hypothesis IHk : forall k v x, KOK k = true -> pk1 k v = Ok x -> json_depth (EXP x) <= D -> pk2 k (EXP x) = Ok x.
  Lemma list_value_rt : forall minl maxl k v x,
    KOK k = true -> list_value pk1 minl maxl k v = Ok x -> json_depth (EXP x) <= D ->
    list_value pk2 minl maxl k (EXP x) = Ok x.
  Proof.
    intros minl maxl k v x Hk H Hd. unfold list_value in H. destruct v as [| | | | |items|]; try discriminate.
    destruct (len_ok_n minl maxl (List.length items)) eqn:El; [|discriminate].
    destruct (mapM (pk1 k) items) as [l'|] eqn:E; [|discriminate]. cbn [bind] in H. injection H as <-.
    apply ListLib.mapM_Forall2 in E. rewrite exp_list in Hd |- *. unfold list_value. rewrite map_length.
    rewrite <- (ListLib.Forall2_length _ _ _ _ _ E). rewrite El.
    rewrite ListLib.mapM_map_id; [reflexivity|].
    intros b Hb. destruct (ListLib.Forall2_in_r _ _ _ _ _ _ E Hb) as [a [_ Hab]]. apply (IHk k a b Hk Hab).
    apply Nat.lt_le_incl, Nat.lt_le_trans with (2 := Hd), json_depth_item, in_map, Hb.
  Qed.

  Hypothesis NNk : forall k v x, pk1 k v = Ok x -> no_none_items x = true.
  (* the classes covered: names and aliases distinct, field kinds covered, dictionary keys read alike *)
  Hypothesis Hcls : forall c k, In c CL -> lookup_cls SC c = Some k ->
    NoDup (map f_name (c_fields k)) /\ NoDup (map f_alias (c_fields k))
    /\ forall fl, In fl (c_fields k) ->
         KOK (f_kind fl) = true
         /\ forall kk, f_shape fl = DictOf kk -> forall s w, pk1 kk (JStr s) = Ok w -> pk2 kk (JStr s) = Ok w.
  Hypothesis Hhooks : forall c ms flds,
    In c CL -> cls_body SC pre1 post pk1 c (JObj ms) = Ok (MModel c flds) ->
    json_depth (EXP (MModel c flds)) <= D ->
    pre2 c (EXP (MModel c flds)) = true /\ post c (EXP (MModel c flds)) flds = true.

  Lemma dict_value_rt : forall kk k v x,
    KOK k = true -> (forall s w, pk1 kk (JStr s) = Ok w -> pk2 kk (JStr s) = Ok w) ->
    dict_value pk1 kk k v = Ok x -> json_depth (EXP x) <= D -> dict_value pk2 kk k (EXP x) = Ok x.
  Proof.
    intros kk k v x Hk Hkk H Hd. destruct (dict_value_inv pk1 NNk _ _ _ _ H) as [members [l' [_ [-> Hm]]]].
    assert (Hn : forall b, In b l' -> mnone (snd b) = false)
      by (intros b Hb; destruct (ListLib.Forall2_in_r _ _ _ _ _ _ Hm Hb) as [a [_ [_ [Hn _]]]]; exact Hn).
    rewrite exp_dict in Hd |- * by exact Hn. unfold dict_value.
    rewrite (ListLib.mapM_map_id _ _ (dict_member pk2 kk k) (fun kv : str * mval => (fst kv, EXP (snd kv))) l'); [reflexivity|].
    intros [key y] Hb. destruct (ListLib.Forall2_in_r _ _ _ _ _ _ Hm Hb) as [a [_ [Ek [_ [Hy [w Hw]]]]]].
    cbn [fst snd] in *. unfold dict_member. cbn [fst snd]. rewrite <- Ek, (Hkk _ _ Hw). cbn [bind].
    rewrite (IHk k _ y Hk Hy); [reflexivity|].
    pose proof (json_depth_member _ _ (in_map (fun kv : str * mval => (fst kv, EXP (snd kv))) _ _ Hb)) as Hlt.
    cbn [snd] in Hlt. exact (Nat.lt_le_incl _ _ (Nat.lt_le_trans _ _ _ Hlt Hd)).
  Qed.

  Lemma shape_value_rt : forall fl raw x,
    KOK (f_kind fl) = true ->
    (forall kk, f_shape fl = DictOf kk -> forall s w, pk1 kk (JStr s) = Ok w -> pk2 kk (JStr s) = Ok w) ->
    shape_value pk1 fl raw = Ok x -> json_depth (EXP x) <= D -> shape_value pk2 fl (EXP x) = Ok x.
  Proof.
    intros fl raw x Hk Hkk H Hd. unfold shape_value in *.
    destruct (f_shape fl) as [| |kk]; [eapply IHk|eapply list_value_rt|eapply dict_value_rt]; try eassumption.
    apply Hkk. reflexivity.
  Qed.

  Lemma field_value_rt : forall fl raw y,
    KOK (f_kind fl) = true ->
    (forall kk, f_shape fl = DictOf kk -> forall s w, pk1 kk (JStr s) = Ok w -> pk2 kk (JStr s) = Ok w) ->
    field_value pk1 fl raw = Ok y -> (mnone y = false -> json_depth (EXP y) <= D) ->
    field_value pk2 fl (EXP y) = Ok y.
  Proof.
    intros fl raw y Hk Hkk H Hd. destruct (mnone y) eqn:Ey.
    - destruct y; try discriminate Ey. rewrite exp_none. unfold field_value.
      rewrite (field_value_none pk1 NNk _ _ H). reflexivity.
    - rewrite field_value_nonnull by (apply exp_not_null, Ey).
      exact (shape_value_rt fl raw y Hk Hkk (field_value_some pk1 fl raw y H Ey) (Hd eq_refl)).
  Qed.

  Lemma cls_body_rt : forall c v x,
    In c CL -> cls_body SC pre1 post pk1 c v = Ok x -> json_depth (EXP x) <= D ->
    cls_body SC pre2 post pk2 c (EXP x) = Ok x.
  Proof.
    intros c v x Hc H Hd.
    destruct (cls_body_inv SC pre1 post pk1 c v x H) as [k [ms [vals [Hl [Ev [Hpre [Hex [Hf [Ex Hpost]]]]]]]]].
    destruct (Hcls c k Hc Hl) as [Hn1 [Hn2 Hko]].
    assert (Hlen : List.length vals = List.length (c_fields k)) by (symmetry; eapply ListLib.Forall2_length; exact Hf).
    subst v x. destruct (Hhooks c ms _ Hc H Hd) as [Hpre' Hpost'].
    rewrite (exp_model SC c k vals Hl Hn1 Hlen) in *.
    unfold cls_body. rewrite Hl, Hpre', extra_ok_emit. cbn [negb].
    rewrite (mapM_combine _ _ _ (parse_field_b pk2 _) f_name (c_fields k) vals Hlen);
      [cbn [bind]; rewrite Hpost'; reflexivity|].
    intros fl y Hin. unfold parse_field_b.
    assert (Hal : NoDup (map (fun p : field * mval => f_alias (fst p)) (combine (c_fields k) vals)))
      by (rewrite <- (map_map fst f_alias), map_fst_combine by exact Hlen; exact Hn2).
    rewrite (raw_of_emit SC _ fl y Hal Hin). destruct (Hko fl (in_combine_l _ _ _ _ Hin)) as [Hk1 Hk2].
    rewrite (field_value_rt fl (raw_of fl ms) y Hk1 Hk2 (Forall2_combine_in _ _ _ _ _ _ _ Hf Hin)); [reflexivity|].
    intros Hny. apply (emit_in EXP) in Hin; [|exact Hny]. apply json_depth_member in Hin. cbn [snd] in Hin.
    exact (Nat.lt_le_incl _ _ (Nat.lt_le_trans _ _ _ Hin Hd)).
  Qed.
End RtFields.

Section RtDisc.
  Variable SC : schema_t.
  Variable CL : list string.
  Variable D : nat.
  Variable pc1 pc2 : string -> json -> outcome mval.
  Notation EXP := (exp SC).
  Hypothesis IHc : forall c v x, In c CL -> pc1 c v = Ok x -> json_depth (EXP x) <= D -> pc2 c (EXP x) = Ok x.
  Hypothesis Hdisc : forall key c ms s x,
    In c CL -> disc_field_ok SC key c = true -> assoc (str_of_string key) ms = Some (JStr s) ->
    pc1 c (JObj ms) = Ok x -> exists ms', EXP x = JObj ms' /\ assoc (str_of_string key) ms' = Some (JStr s).

  Lemma disc_value_rt : forall key mapping v x,
    kind_ok SC CL (KDisc key mapping) = true ->
    disc_value pc1 key mapping v = Ok x -> json_depth (EXP x) <= D -> disc_value pc2 key mapping (EXP x) = Ok x.
  Proof.
    intros key mapping v x Hk H HD. unfold disc_value in H. destruct v as [| | | | | |ms]; try discriminate.
    destruct (assoc $key ms) as [[| | | |s| |]|] eqn:Ea; try discriminate.
    destruct (List.find (fun kc => str_eqb $(fst kc) s) mapping) as [[t c]|] eqn:Ef; [|discriminate].
    cbn [kind_ok] in Hk. rewrite forallb_forall in Hk. pose proof (find_some _ _ Ef) as [Hin _].
    specialize (Hk _ Hin). cbn [snd] in Hk. apply andb_true_iff in Hk. destruct Hk as [Hc Hd].
    apply ListLib.mem_s_In in Hc.
    destruct (Hdisc key c ms s x Hc Hd Ea H) as [ms' [Ee Ea']].
    unfold disc_value. rewrite Ee, Ea', Ef. rewrite <- Ee. eapply IHc; eassumption.
  Qed.
End RtDisc.

Section RtStep.
  Variable SC : schema_t.
  Variable classify : N -> cclass.
  Variable pre : string -> json -> bool.
  Variable post : string -> json -> list (string * mval) -> bool.
  Variable CL : list string.

  Notation EXP := (exp SC).
  Notation KOK := (kind_ok SC CL).

  Variable pk : kind -> json -> outcome mval.
  Variable pc : string -> json -> outcome mval.
  Hypothesis IHk : forall k v x, KOK k = true -> pk k v = Ok x -> pk k (EXP x) = Ok x.
  Hypothesis IHc : forall c v x, In c CL -> pc c v = Ok x -> pc c (EXP x) = Ok x.
  Hypothesis Hexact : forall k v x, exact_kind k = true -> pk k v = Ok x -> EXP x = v.
  Hypothesis Hdisc : forall key c ms s x,
    In c CL -> disc_field_ok SC key c = true -> assoc (str_of_string key) ms = Some (JStr s) ->
    pc c (JObj ms) = Ok x -> exists ms', EXP x = JObj ms' /\ assoc (str_of_string key) ms' = Some (JStr s).

  Lemma alt_value_rt : forall a v x,
    ualt_ok SC CL a = true -> alt_value pk a v = Ok x -> alt_value pk a (EXP x) = Ok x.
  Proof.
    intros a v x Ha H. destruct a; cbn [alt_value ualt_ok] in *; [eapply IHk; eassumption|].
      refine (list_value_rt SC KOK (json_depth (EXP x)) pk pk _ _ _ _ _ _ Ha H (le_n _)).
      intros k0 v0 x0 Hk0 H0 _. eapply IHk; eassumption.
  Qed.

  Lemma try_alts_exact : forall alts v x,
    forallb exact_alt alts = true -> try_alts_b pk alts v = Ok x -> EXP x = v.
  Proof.
    induction alts as [|a r IH]; intros v x He H; [discriminate|].
    cbn [forallb] in He. apply andb_true_iff in He. destruct He as [Ha Hr].
    destruct (try_alts_cons_ok _ _ _ _ _ H) as [E|[_ Hx]]; [|eapply IH; eassumption].
    destruct a; [|discriminate]. cbn [alt_value exact_alt] in *. eapply Hexact; eassumption.
  Qed.

  Lemma try_alts_rt : forall alts v x,
    forallb (ualt_ok SC CL) alts = true ->
    match alts with [] => true | _ :: r => forallb exact_alt r end = true ->
    try_alts_b pk alts v = Ok x -> try_alts_b pk alts (EXP x) = Ok x.
  Proof.
    intros alts v x Hok Hex H. destruct alts as [|a r]; [discriminate|].
    cbn [forallb] in Hok. apply andb_true_iff in Hok. destruct Hok as [Ha Hr].
    destruct (try_alts_cons_ok _ _ _ _ _ H) as [E|[_ Hx]].
    - cbn [try_alts_b]. rewrite (alt_value_rt _ _ _ Ha E). reflexivity.
    - rewrite (try_alts_exact r v x Hex Hx). exact H.
  Qed.

  Lemma kind_body_rt : forall k v x,
    KOK k = true -> kind_body classify pk pc k v = Ok x -> kind_body classify pk pc k (EXP x) = Ok x.
  Proof.
    intros k v x Hk H. destruct k; try (apply (scalar_body_rt _ _ _ v), H).
    - cbn [kind_body kind_ok] in *. apply ListLib.mem_s_In in Hk. eapply IHc; eassumption.
    - cbn [kind_body] in *.
      apply (disc_value_rt SC CL (json_depth (EXP x)) pc pc) with (v := v);
        [intros c0 v0 x0 Hc0 H0 _; exact (IHc c0 v0 x0 Hc0 H0)|exact Hdisc|exact Hk|exact H|apply le_n].
    - cbn [kind_body] in *. rewrite kind_ok_union in Hk. apply andb_true_iff in Hk. destruct Hk as [H1 H2].
      eapply try_alts_rt; eassumption.
  Qed.
End RtStep.

Lemma in_combine_l_ex : forall (A B : Type) (l : list A) (l' : list B) a,
  In a l -> List.length l' = List.length l -> exists b, In (a, b) (combine l l').
Proof.
  induction l as [|a0 l IH]; intros l' a Ha Hlen; [destruct Ha|].
  destruct l' as [|b l']; [discriminate|]. destruct Ha as [->|Ha]; [exists b; left; reflexivity|].
  destruct (IH l' a Ha) as [b' Hb']; [injection Hlen as Hlen; exact Hlen|]. exists b'. right. exact Hb'.
Qed.

Lemma scalar_of_str : forall k, str_kind k = true -> scalar_kind k = true.
Proof. intros k H. destruct k; try discriminate; reflexivity. Qed.

Section ParseInv.
  Variable SC : schema_t.
  Variable classify : N -> cclass.
  Variable pre : string -> json -> bool.
  Variable post : string -> json -> list (string * mval) -> bool.
  Notation EXP := (exp SC).
  Notation PK := (parse_kind SC classify pre post).
  Notation PC := (parse_cls SC classify pre post).

  Lemma pk_str : forall f k s y, str_kind k = true -> PK f k (JStr s) = Ok y -> EXP y = JStr s.
  Proof.
    intros f k s y Hs H. destruct f as [|f]; [discriminate|].
    rewrite parse_kind_Sb, (kind_body_scalar _ _ _ _ _ (scalar_of_str _ Hs)) in H.
    eapply scalar_body_exact; [right; eauto|exact H].
  Qed.

  Lemma parse_cls_inv : forall f c v x,
    PC f c v = Ok x ->
    exists f' k ms vals,
      f = S f' /\ lookup_cls SC c = Some k /\ v = JObj ms /\ pre c v = true
      /\ Forall2 (fun fl y => field_value (PK f') fl (raw_of fl ms) = Ok y) (c_fields k) vals
      /\ x = MModel c (combine (map f_name (c_fields k)) vals)
      /\ post c v (combine (map f_name (c_fields k)) vals) = true.
  Proof.
    intros f c v x H. destruct f as [|f']; [discriminate|]. rewrite parse_cls_Sb in H.
    destruct (cls_body_inv SC pre post (PK f') c v x H) as [k [ms [vals [Hl [Ev [Hp [_ [Hf [Ex Hpo]]]]]]]]].
    exists f', k, ms, vals. repeat split; assumption.
  Qed.

  Lemma parse_cls_field : forall f c v x k fl,
    PC f c v = Ok x -> lookup_cls SC c = Some k ->
    NoDup (map f_name (c_fields k)) -> NoDup (map f_alias (c_fields k)) -> In fl (c_fields k) ->
    exists f' y, f = S f' /\ field_value (PK f') fl (jget (f_alias fl) v) = Ok y
                 /\ jget (f_alias fl) (EXP x) = EXP y.
  Proof.
    intros f c v x k fl H Hl Hn1 Hn2 Hfl.
    destruct (parse_cls_inv _ _ _ _ H) as [f' [k' [ms [vals [Ef [Hl' [Ev [_ [Hf [Ex _]]]]]]]]]].
    rewrite Hl in Hl'. inversion Hl'. subst k'. clear Hl'.
    assert (Hlen : List.length vals = List.length (c_fields k)) by (symmetry; eapply ListLib.Forall2_length; exact Hf).
    subst x v. rewrite (exp_model SC c k vals Hl Hn1 Hlen).
    destruct (in_combine_l_ex _ _ _ vals _ Hfl Hlen) as [y Hy].
    pose proof (Forall2_combine_in _ _ _ _ _ _ _ Hf Hy) as Hfv. cbn beta in Hfv.
    assert (Hal : NoDup (map (fun p : field * mval => f_alias (fst p)) (combine (c_fields k) vals))).
    { rewrite <- (map_map fst f_alias). rewrite map_fst_combine by exact Hlen. exact Hn2. }
    exists f', y. split; [exact Ef|]. split; [exact Hfv|].
    exact (raw_of_emit SC _ fl y Hal Hy).
  Qed.

  Lemma pc_disc : forall f key c k ms s x,
    lookup_cls SC c = Some k -> NoDup (map f_name (c_fields k)) -> NoDup (map f_alias (c_fields k)) ->
    disc_field_ok SC key c = true -> assoc (str_of_string key) ms = Some (JStr s) ->
    PC f c (JObj ms) = Ok x -> exists ms', EXP x = JObj ms' /\ assoc (str_of_string key) ms' = Some (JStr s).
  Proof.
    intros f key c k ms s x Hl Hn1 Hn2 Hd Ha H.
    unfold disc_field_ok in Hd. rewrite Hl in Hd. apply existsb_exists in Hd. destruct Hd as [fl [Hfl Hd]].
    apply andb_true_iff in Hd. destruct Hd as [Hd Hsk]. apply andb_true_iff in Hd. destruct Hd as [Hal Hsh].
    apply String.eqb_eq in Hal.
    destruct (parse_cls_field f c _ x k fl H Hl Hn1 Hn2 Hfl) as [f' [y [_ [Hfv He]]]].
    rewrite Hal in *. cbn [jget] in Hfv. rewrite Ha in Hfv. unfold field_value, shape_value in Hfv.
    destruct (f_shape fl); try discriminate.
    rewrite (pk_str _ _ _ _ Hsk Hfv) in He.
    destruct (EXP x) as [| | | | | |ms']; try discriminate He. exists ms'. split; [reflexivity|].
    cbn [jget] in He. destruct (assoc (str_of_string key) ms') as [w|]; [subst w; reflexivity|discriminate He].
  Qed.
End ParseInv.

Section RtMain.
  Variable SC : schema_t.
  Variable classify : N -> cclass.
  Variable pre : string -> json -> bool.
  Variable post : string -> json -> list (string * mval) -> bool.
  Variable CL : list string.
  Hypothesis Hcl : schema_rt_ok SC CL = true.

  Notation EXP := (exp SC).
  Notation PK := (parse_kind SC classify pre post).
  Notation PC := (parse_cls SC classify pre post).

  (* the repo-side validators accept the re-export of whatever they accepted *)
  Definition hooks_stable : Prop :=
    forall f c ms flds, In c CL ->
      PC f c (JObj ms) = Ok (MModel c flds) ->
      pre c (EXP (MModel c flds)) = true /\ post c (EXP (MModel c flds)) flds = true.
  Hypothesis Hhooks : hooks_stable.

  Lemma cls_ok_of : forall c k, In c CL -> lookup_cls SC c = Some k ->
    NoDup (map f_name (c_fields k)) /\ NoDup (map f_alias (c_fields k))
    /\ forall fl, In fl (c_fields k) -> kind_ok SC CL (f_kind fl) = true.
  Proof.
    intros c k Hc Hl. unfold schema_rt_ok in Hcl. rewrite forallb_forall in Hcl. specialize (Hcl c Hc).
    unfold cls_ok in Hcl. rewrite Hl in Hcl. apply andb_true_iff in Hcl. destruct Hcl as [H12 H3].
    apply andb_true_iff in H12. destruct H12 as [H1 H2]. split; [apply nodup_sb_NoDup; exact H1|].
    split; [apply nodup_sb_NoDup; exact H2|]. rewrite forallb_forall in H3. exact H3.
  Qed.

  Lemma scalar_of_exact : forall k, exact_kind k = true -> scalar_kind k = true.
  Proof. intros k H. destruct k; try discriminate; reflexivity. Qed.
  Lemma pk_exact : forall f k v x, exact_kind k = true -> PK f k v = Ok x -> EXP x = v.
  Proof.
    intros f k v x He H. destruct f as [|f]; [discriminate|].
    rewrite parse_kind_Sb, (kind_body_scalar _ _ _ _ _ (scalar_of_exact _ He)) in H.
    eapply scalar_body_exact; [left; exact He|exact H].
  Qed.

  Theorem roundtrip_generic : forall f,
    (forall k v x, kind_ok SC CL k = true -> PK f k v = Ok x -> PK f k (EXP x) = Ok x)
    /\ (forall c v x, In c CL -> PC f c v = Ok x -> PC f c (EXP x) = Ok x).
  Proof.
    induction f as [|f [IHk IHc]]; [split; intros; discriminate|].
    destruct (parse_nn SC classify pre post f) as [NNk _].
    split.
    - intros k v x Hk H. rewrite parse_kind_Sb in *.
      eapply (kind_body_rt SC classify CL (PK f) (PC f)); try eassumption.
      + intros k0 v0 x0. apply pk_exact.
      + intros key c ms s x0 Hc Hd Ha Hp. destruct (parse_cls_inv _ _ _ _ _ _ _ _ Hp) as [f0 [k0 [ms0 [vals [_ [Hl _]]]]]].
        destruct (cls_ok_of c k0 Hc Hl) as [Hn1 [Hn2 _]]. eapply pc_disc; eassumption.
    - intros c v x Hc H. rewrite parse_cls_Sb in *.
      eapply (cls_body_rt SC pre pre post CL (kind_ok SC CL) (json_depth (EXP x)) (PK f) (PK f)); try eassumption.
      + intros k0 v0 x0 Hk0 H0 _. eapply IHk; eassumption.
      + intros c0 k0 Hc0 Hl0. destruct (cls_ok_of c0 k0 Hc0 Hl0) as [Hn1 [Hn2 Hko]]. repeat split; auto.
      + intros c0 ms flds Hc0 Hb _. apply (Hhooks (S f) c0 ms flds Hc0). rewrite parse_cls_Sb. exact Hb.
      + apply le_n.
  Qed.
End RtMain.

Definition Rle {A} (a b : outcome A) : Prop := a <> Raise RuntimeError -> b = a.

Lemma Rle_refl : forall A (a : outcome A), Rle a a.
Proof. intros A a _. reflexivity. Qed.

Lemma Rle_antisym : forall A (a b : outcome A), Rle a b -> Rle b a -> a = b.
Proof.
  intros A a b H1 H2. destruct a as [x|e]; [symmetry; apply H1; discriminate|].
  destruct e; try (symmetry; apply H1; discriminate).
  destruct b as [y|e]; [apply H2; discriminate|]. destruct e; try (apply H2; discriminate). reflexivity.
Qed.

Lemma Rle_bind : forall (A B : Type) (a a' : outcome A) (g g' : A -> outcome B),
  Rle a a' -> (forall x, a = Ok x -> Rle (g x) (g' x)) -> Rle (bind a g) (bind a' g').
Proof.
  intros A B a a' g g' Ha Hg Hne. rewrite Ha by (intros E; rewrite E in Hne; apply Hne; reflexivity).
  destruct a as [x|e]; [|reflexivity]. exact (Hg x eq_refl Hne).
Qed.

Lemma mapM_sim : forall (A B : Type) (f f' : A -> outcome B) l,
  (forall a, In a l -> Rle (f a) (f' a)) -> Rle (mapM f l) (mapM f' l).
Proof.
  induction l as [|a l IH]; intros H; [apply Rle_refl|]. cbn [mapM].
  apply Rle_bind; [apply H; left; reflexivity|]. intros y _.
  apply Rle_bind; [apply IH; intros b Hb; apply H; right; exact Hb|]. intros ys _. apply Rle_refl.
Qed.

(* One step of the structural parser run on two pairs of inner parsers that are related by [Rle] on the inputs
   [Qk] / [Qc]: the outer results are related, provided the inner calls the step makes fall within [Qk] / [Qc]
   ([Qalt], [Qkind], [Qshape] say which calls those are). *)
Section SimStep.
  Variable SC : schema_t.
  Variable classify : N -> cclass.
  Variable pre pre' : string -> json -> bool.
  Variable post : string -> json -> list (string * mval) -> bool.
  Variable pk pk' : kind -> json -> outcome mval.
  Variable pc pc' : string -> json -> outcome mval.
  Variable Qk : kind -> json -> Prop.
  Variable Qc : string -> json -> Prop.
  Hypothesis Hk : forall k v, Qk k v -> Rle (pk k v) (pk' k v).
  Hypothesis Hc : forall c v, Qc c v -> Rle (pc c v) (pc' c v).

  Lemma list_value_sim : forall minl maxl k v,
    (forall items it, v = JArr items -> In it items -> Qk k it) ->
    Rle (list_value pk minl maxl k v) (list_value pk' minl maxl k v).
  Proof.
    intros minl maxl k v Hq. unfold list_value. destruct v; try apply Rle_refl.
    destruct (len_ok_n minl maxl (List.length l)); [|apply Rle_refl].
    apply Rle_bind; [|intros; apply Rle_refl]. apply mapM_sim. intros it Hit. apply Hk, (Hq l it eq_refl Hit).
  Qed.

  Definition Qalt (a : ualt) (v : json) : Prop :=
    match a with
    | UScalar k' => Qk k' v
    | UList _ _ k' => forall items it, v = JArr items -> In it items -> Qk k' it
    end.

  Lemma try_alts_sim : forall alts v, (forall a, In a alts -> Qalt a v) ->
    Rle (try_alts_b pk alts v) (try_alts_b pk' alts v).
  Proof.
    induction alts as [|a r IH]; intros v Hq; [apply Rle_refl|]. intros Hne. cbn [try_alts_b] in *.
    assert (E : alt_value pk' a v = alt_value pk a v).
    { pose proof (Hq a (or_introl eq_refl)) as Ha.
      destruct a; cbn [alt_value Qalt] in *; [apply Hk|apply list_value_sim]; try exact Ha;
        intros E; rewrite E in Hne; apply Hne; reflexivity. }
    rewrite E. destruct (alt_value pk a v) as [y|e]; [reflexivity|].
    destruct e; try (apply IH; [intros b Hb; apply Hq; right; exact Hb|exact Hne]). reflexivity.
  Qed.

  Definition Qkind (k : kind) (v : json) : Prop :=
    match k with
    | KModel c => Qc c v
    | KDisc _ mapping => forall tc, In tc mapping -> Qc (snd tc) v
    | KUnion alts => forall a, In a alts -> Qalt a v
    | _ => True
    end.

  Lemma kind_body_sim : forall k v, Qkind k v ->
    Rle (kind_body classify pk pc k v) (kind_body classify pk' pc' k v).
  Proof.
    intros k v Hq. destruct k; try apply Rle_refl; cbn [kind_body Qkind] in *.
    - apply Hc, Hq.
    - unfold disc_value. destruct v; try apply Rle_refl.
      destruct (assoc $key members) as [[| | | |s| |]|]; try apply Rle_refl.
      destruct (List.find (fun kc => str_eqb $(fst kc) s) mapping) as [[t c]|] eqn:Ef; [|apply Rle_refl].
      apply Hc, (Hq (t, c)), (find_some _ _ Ef).
    - apply try_alts_sim, Hq.
  Qed.

  Definition Qshape (fl : field) (raw : json) : Prop :=
    match f_shape fl with
    | Single => Qk (f_kind fl) raw
    | ListOf _ _ => forall items it, raw = JArr items -> In it items -> Qk (f_kind fl) it
    | DictOf kk => forall ms kv, raw = JObj ms -> In kv ms -> Qk kk (JStr (fst kv)) /\ Qk (f_kind fl) (snd kv)
    end.

  Lemma field_value_sim : forall fl raw, (raw <> JNull -> Qshape fl raw) ->
    Rle (field_value pk fl raw) (field_value pk' fl raw).
  Proof.
    intros fl raw Hq.
    assert (Hs : raw <> JNull -> Rle (shape_value pk fl raw) (shape_value pk' fl raw)).
    { intros Hn. specialize (Hq Hn). unfold shape_value, Qshape in *. destruct (f_shape fl) as [| |kk].
      - apply Hk, Hq.
      - apply list_value_sim, Hq.
      - unfold dict_value. destruct raw; try apply Rle_refl.
        apply Rle_bind; [|intros; apply Rle_refl]. apply mapM_sim. intros kv Hkv.
        destruct (Hq members kv eq_refl Hkv) as [Q1 Q2]. unfold dict_member.
        apply Rle_bind; [apply Hk, Q1|]. intros _ _. apply Rle_bind; [apply Hk, Q2|]. intros; apply Rle_refl. }
    unfold field_value. destruct raw; try (apply Hs; discriminate). apply Rle_refl.
  Qed.

  Lemma cls_body_sim : forall c v, pre c v = pre' c v ->
    (forall k ms fl, lookup_cls SC c = Some k -> v = JObj ms -> In fl (c_fields k) ->
                     raw_of fl ms <> JNull -> Qshape fl (raw_of fl ms)) ->
    Rle (cls_body SC pre post pk c v) (cls_body SC pre' post pk' c v).
  Proof.
    intros c v Hp Hq. unfold cls_body. destruct (lookup_cls SC c) as [k|]; [|apply Rle_refl].
    destruct v; try apply Rle_refl. rewrite <- Hp.
    destruct (negb (pre c (JObj members))); [apply Rle_refl|].
    destruct (negb (extra_ok k members)); [apply Rle_refl|].
    apply Rle_bind; [|intros; apply Rle_refl]. apply mapM_sim. intros fl Hfl. unfold parse_field_b.
    apply Rle_bind; [|intros; apply Rle_refl]. apply field_value_sim, (Hq k members fl eq_refl eq_refl Hfl).
  Qed.
End SimStep.

Section Sim.
  Variable SC : schema_t.
  Variable classify : N -> cclass.
  Variable pre pre' : string -> json -> bool.
  Variable post : string -> json -> list (string * mval) -> bool.
  Variable CL : list string.
  Hypothesis Hcl : schema_rt_ok SC CL = true.
  Hypothesis Hpre : forall c raw, In c CL -> pre c raw = pre' c raw.

  Notation KOK := (kind_ok SC CL).
  Notation PK := (parse_kind SC classify pre post).
  Notation PK' := (parse_kind SC classify pre' post).
  Notation PC := (parse_cls SC classify pre post).
  Notation PC' := (parse_cls SC classify pre' post).

  Definition keys_scalar : Prop :=
    forall c k fl kk, In c CL -> lookup_cls SC c = Some k -> In fl (c_fields k) -> f_shape fl = DictOf kk ->
                      scalar_kind kk = true.
  Hypothesis Hkeys : keys_scalar.

  Theorem parse_sim : forall d f,
    (forall k v, KOK k = true -> Rle (PK f k v) (PK' (f + d) k v))
    /\ (forall c v, In c CL -> Rle (PC f c v) (PC' (f + d) c v)).
  Proof.
    intros d. induction f as [|f [IHk IHc]]; [split; intros; intros Hne; exfalso; apply Hne; reflexivity|].
    cbn [Nat.add]. split.
    - intros k v Hok. rewrite !parse_kind_Sb.
      apply kind_body_sim with (Qk := fun k _ => KOK k = true) (Qc := fun c _ => In c CL); [exact IHk|exact IHc|].
      destruct k; try exact I; cbn [Qkind].
      + apply ListLib.mem_s_In, Hok.
      + intros tc Htc. cbn [kind_ok] in Hok. rewrite forallb_forall in Hok. specialize (Hok _ Htc).
        apply andb_true_iff in Hok. apply ListLib.mem_s_In, Hok.
      + rewrite kind_ok_union in Hok. apply andb_true_iff in Hok. destruct Hok as [H1 _].
        rewrite forallb_forall in H1. intros a Ha. specialize (H1 a Ha).
        destruct a; cbn [Qalt ualt_ok] in *; [exact H1|intros; exact H1].
    - intros c v Hc. rewrite !parse_cls_Sb.
      apply cls_body_sim with (Qk := fun k _ => KOK k = true); [exact IHk|apply Hpre, Hc|].
      intros k ms fl Hl _ Hfl _. destruct (cls_ok_of SC CL Hcl c k Hc Hl) as [_ [_ Hko]]. specialize (Hko fl Hfl).
      unfold Qshape. destruct (f_shape fl) as [| |kk] eqn:Esh; [exact Hko|intros; exact Hko|].
      intros ms' kv _ _. split; [|exact Hko].
      pose proof (Hkeys c k fl kk Hc Hl Hfl Esh) as Hs. destruct kk; try discriminate Hs; reflexivity.
  Qed.

  Corollary parse_sim_ok : forall d f c v x, In c CL -> PC f c v = Ok x -> PC' (f + d) c v = Ok x.
  Proof. intros d f c v x Hc H. rewrite (proj2 (parse_sim d f) c v Hc) by (rewrite H; discriminate). exact H. Qed.
End Sim.

Require Import OJD.Validators OJD.Accept OJD.Export.

Lemma export_exp : forall v, export v = exp Generated.schema v.
Proof. intros v. unfold export. apply to_object_exp. lia. Qed.

Lemma export_tobj : forall v, export v = CreateJobExactLib.tobj Generated.schema v.
Proof. intros v. rewrite export_exp. apply exp_tobj. Qed.

Lemma mval_eqb_refl : forall F x, mval_depth x < F -> Export.mval_eqb F x x = true.
Proof.
  induction F as [|F IH]; intros x Hd; [lia|].
  destruct x as [ |b|z|m e|m e|s|s|l|l|c fs]; cbn [Export.mval_eqb].
  - reflexivity.
  - apply Bool.eqb_reflx.
  - apply Z.eqb_refl.
  - rewrite !Z.eqb_refl. reflexivity.
  - rewrite !Z.eqb_refl. reflexivity.
  - apply ListLib.str_eqb_refl.
  - apply ListLib.str_eqb_refl.
  - assert (H : forall y, In y l -> mval_depth y < F) by (intros y Hy; apply CreateJobExactLib.item_depth in Hy; lia).
    clear Hd. induction l as [|y l IHl]; [reflexivity|].
    rewrite IH by (apply H; left; reflexivity). cbn [andb]. apply IHl. intros z Hz. apply H. right. exact Hz.
  - assert (H : forall kv, In kv l -> mval_depth (snd kv) < F) by (intros y Hy; apply CreateJobExactLib.member_depth in Hy; lia).
    clear Hd. induction l as [|[k y] l IHl]; [reflexivity|].
    rewrite ListLib.str_eqb_refl. rewrite IH by (apply (H (k, y)); left; reflexivity). cbn [andb].
    apply IHl. intros z Hz. apply H. right. exact Hz.
  - assert (H : forall kv, In kv fs -> mval_depth (snd kv) < F) by (intros y Hy; apply (CreateJobExactLib.field_depth c) in Hy; lia).
    clear Hd. induction fs as [|[k y] l IHl]; [reflexivity|].
    rewrite String.eqb_refl. rewrite IH by (apply (H (k, y)); left; reflexivity). cbn [andb].
    apply IHl. intros z Hz. apply H. right. exact Hz.
Qed.

Definition kh_alt (kh : kind -> nat) (a : ualt) : nat :=
  match a with UScalar k' => kh k' | UList _ _ k' => kh k' end.

(* number of nested ordered unions on the way to a scalar or a model class, plus one *)
Fixpoint kh (k : kind) : nat :=
  match k with
  | KUnion alts =>
    S ((fix mx (l : list ualt) : nat :=
          match l with
          | [] => 0
          | a :: r => Nat.max (match a with UScalar k' => kh k' | UList _ _ k' => kh k' end) (mx r)
          end) alts)
  | _ => 1
  end.

Lemma kh_union_in : forall alts a, In a alts -> kh_alt kh a < kh (KUnion alts).
Proof.
  intros alts a Ha. cbn [kh]. apply Nat.lt_succ_r.
  induction alts as [|b r IH]; [destruct Ha|]. destruct Ha as [Ha|Ha].
  - subst b. destruct a; cbn [kh_alt]; apply Nat.le_max_l.
  - etransitivity; [apply IH; exact Ha|]. apply Nat.le_max_r.
Qed.

Lemma kh_pos : forall k, 1 <= kh k.
Proof. intros k. destruct k; cbn [kh]; lia. Qed.

Lemma json_depth_pos : forall v, 1 <= json_depth v.
Proof. exact ScopeLib.json_depth_pos. Qed.

Lemma assoc_in : forall (A : Type) k (l : list (str * A)) v, assoc k l = Some v -> exists k', In (k', v) l.
Proof. intros A k l v H. exists k. apply ListLib.assoc_In, H. Qed.

Section FuelStable.
  Variable SC : schema_t.
  Variable classify : N -> cclass.
  Variable pre : string -> json -> bool.
  Variable post : string -> json -> list (string * mval) -> bool.
  Variable H : nat.
  (* every field kind nests at most H levels; dictionary keys are scalars *)
  Hypothesis Hkh : forall c k fl, lookup_cls SC c = Some k -> In fl (c_fields k) -> kh (f_kind fl) <= H.
  Hypothesis Hkeys : forall c k fl kk, lookup_cls SC c = Some k -> In fl (c_fields k) -> f_shape fl = DictOf kk ->
                                       scalar_kind kk = true.

  Definition bound_k (k : kind) (v : json) : nat := kh k + S H * json_depth v.
  Definition bound_c (v : json) : nat := S H * json_depth v.

  Notation PK := (parse_kind SC classify pre post).
  Notation PC := (parse_cls SC classify pre post).

  Theorem fuel_stable : forall n f f', n <= f -> n <= f' ->
    (forall k v, bound_k k v <= n -> Rle (PK f k v) (PK f' k v))
    /\ (forall c v, bound_c v <= n -> Rle (PC f c v) (PC f' c v)).
  Proof.
    induction n as [|n IH]; intros f f' Hf Hf'.
    - split; [intros k v Hb|intros c v Hb]; exfalso; unfold bound_k, bound_c in Hb.
      + pose proof (kh_pos k). lia.
      + pose proof (json_depth_pos v). nia.
    - destruct f as [|f]; [lia|]. destruct f' as [|f']; [lia|].
      destruct (IH f f') as [IHk IHc]; [lia|lia|]. split.
      + intros k v Hb. rewrite !parse_kind_Sb.
        apply kind_body_sim with (Qk := fun k v => bound_k k v <= n) (Qc := fun c v => bound_c v <= n);
          [exact IHk|exact IHc|].
        unfold bound_k, bound_c in *. destruct k; try exact I; cbn [Qkind].
        * cbn [kh] in Hb. lia.
        * intros tc _. cbn [kh] in Hb. lia.
        * intros a Ha. pose proof (kh_union_in alts a Ha) as Hlt. destruct a; cbn [Qalt kh_alt] in *; [lia|].
          intros items it -> Hit. apply json_depth_item in Hit. nia.
      + intros c v Hb. rewrite !parse_cls_Sb.
        apply cls_body_sim with (Qk := fun k v => bound_k k v <= n); [exact IHk|reflexivity|].
        intros k ms fl Hl -> Hfl. unfold raw_of.
        destruct (assoc $(f_alias fl) ms) as [raw|] eqn:Ea; [intros _|intros Hn; destruct (Hn eq_refl)].
        apply ListLib.assoc_In, json_depth_member in Ea. cbn [snd] in Ea.
        pose proof (Hkh c k fl Hl Hfl) as Hh. pose proof (json_depth_pos raw) as Hp. pose proof (kh_pos (f_kind fl)) as Hq.
        unfold bound_c in Hb. assert (Hraw : bound_k (f_kind fl) raw <= n) by (unfold bound_k; nia).
        unfold Qshape, bound_k in *. destruct (f_shape fl) as [| |kk] eqn:Esh; [exact Hraw| |].
        * intros items it -> Hit. apply json_depth_item in Hit. nia.
        * intros ms' kv -> Hkv. apply json_depth_member in Hkv. split; [|nia].
          pose proof (Hkeys c k fl kk Hl Hfl Esh) as Hs. cbn [json_depth].
          assert (kh kk = 1) as -> by (destruct kk; try discriminate Hs; reflexivity). nia.
  Qed.
End FuelStable.

(* every class except StepParameterSpace (whose taskParameterDefinitions is an ordered union of two
   model classes: the second alternative is not "exact"), the two classes that contain it, and the
   job-side requirement classes (their pre-validator re-parses the raw object as the template class with
   the caller's fuel); none of these is reachable from a template root *)
Definition template_classes : list string :=
  filter (fun c => negb (mem_s c ["StepParameterSpace"; "Step"; "Job";
                                  "AmountRequirement"; "AttributeRequirement"; "HostRequirements"]))
         (map fst Generated.schema).

Lemma template_schema_ok : schema_rt_ok Generated.schema template_classes = true.
Proof. vm_compute. reflexivity. Qed.

(* the only class that does not meet the structural condition *)
Lemma only_param_space_fails :
  filter (fun c => negb (cls_ok Generated.schema (map fst Generated.schema) c)) (map fst Generated.schema)
  = ["StepParameterSpace"].
Proof. vm_compute. reflexivity. Qed.

(* [pre_full]: the template class re-parsed for the two job-side requirement classes, [pre_hook] elsewhere *)
Lemma pre_full_amount : forall classify F raw,
  pre_full classify F "AmountRequirement" raw
  = is_ok (parse_cls Generated.schema classify pre_hook (post_hook classify) F "AmountRequirementTemplate" raw).
Proof. reflexivity. Qed.

Lemma pre_full_attribute : forall classify F raw,
  pre_full classify F "AttributeRequirement" raw
  = is_ok (parse_cls Generated.schema classify pre_hook (post_hook classify) F "AttributeRequirementTemplate" raw).
Proof. reflexivity. Qed.

Lemma pre_full_other : forall classify F c raw, c <> "AmountRequirement" -> c <> "AttributeRequirement" ->
  pre_full classify F c raw = pre_hook c raw.
Proof.
  intros classify F c raw H1 H2. unfold pre_full. apply String.eqb_neq in H1. apply String.eqb_neq in H2.
  rewrite H1, H2. apply andb_true_r.
Qed.

Lemma pre_full_templates : forall classify fuel c raw, In c template_classes ->
  pre_full classify fuel c raw = pre_hook c raw.
Proof.
  intros classify fuel c raw Hc. apply ListLib.mem_s_In in Hc.
  apply pre_full_other; intros ->; vm_compute in Hc; discriminate Hc.
Qed.

Lemma parse_fuel_mono : forall a b, json_depth a <= json_depth b -> parse_fuel a <= parse_fuel b.
Proof. intros a b H. unfold parse_fuel. lia. Qed.

(* unions nest at most 3 levels in the live schema, dictionary keys are scalar: the fuel [parse_fuel]
   is more than enough, so the result of a parse does not depend on it *)
Definition kh_bound_b (SC : schema_t) (H : nat) : bool :=
  forallb (fun nc => forallb (fun fl => Nat.leb (kh (f_kind fl)) H
                                        && match f_shape fl with DictOf kk => scalar_kind kk | _ => true end)
                             (c_fields (snd nc))) SC.

Lemma kh_bound_sound : forall SC H, kh_bound_b SC H = true ->
  (forall c k fl, lookup_cls SC c = Some k -> In fl (c_fields k) -> kh (f_kind fl) <= H)
  /\ (forall c k fl kk, lookup_cls SC c = Some k -> In fl (c_fields k) -> f_shape fl = DictOf kk ->
                        scalar_kind kk = true).
Proof.
  intros SC H Hb. unfold kh_bound_b in Hb. rewrite forallb_forall in Hb. split.
  - intros c k fl Hl Hfl. apply AcceptMono.lookup_cls_In in Hl. specialize (Hb _ Hl). cbn [snd] in Hb.
    rewrite forallb_forall in Hb. specialize (Hb fl Hfl). apply andb_true_iff in Hb. destruct Hb as [Hb _].
    apply Nat.leb_le. exact Hb.
  - intros c k fl kk Hl Hfl Hsh. apply AcceptMono.lookup_cls_In in Hl. specialize (Hb _ Hl). cbn [snd] in Hb.
    rewrite forallb_forall in Hb. specialize (Hb fl Hfl). apply andb_true_iff in Hb. destruct Hb as [_ Hb].
    rewrite Hsh in Hb. exact Hb.
Qed.

Lemma generated_kh_bound : kh_bound_b Generated.schema 3 = true.
Proof. vm_compute. reflexivity. Qed.

Lemma generated_keys_scalar : forall CL, keys_scalar Generated.schema CL.
Proof. intros CL c k fl kk _. apply (proj2 (kh_bound_sound _ _ generated_kh_bound)). Qed.

Theorem parse_fuel_enough : forall classify pre post f c v,
  parse_fuel v <= f ->
  parse_cls Generated.schema classify pre post f c v
  = parse_cls Generated.schema classify pre post (parse_fuel v) c v.
Proof.
  intros classify pre post f c v Hf.
  destruct (kh_bound_sound _ _ generated_kh_bound) as [H1 H2].
  apply Rle_antisym;
    [destruct (fuel_stable Generated.schema classify pre post 3 H1 H2 (parse_fuel v) f (parse_fuel v) Hf (le_n _)) as [_ Hc]
    |destruct (fuel_stable Generated.schema classify pre post 3 H1 H2 (parse_fuel v) (parse_fuel v) f (le_n _) Hf) as [_ Hc]];
    apply Hc; unfold bound_c, parse_fuel; lia.
Qed.

Lemma fuel_change : forall classify CL F F2 c d y,
  schema_rt_ok Generated.schema CL = true -> In c CL ->
  parse_cls Generated.schema classify pre_hook (post_hook classify) F c d = Ok y -> parse_fuel d <= F2 ->
  parse_cls Generated.schema classify pre_hook (post_hook classify) F2 c d = Ok y.
Proof.
  intros classify CL F F2 c d y Hok Hc H Hd. destruct (Nat.le_gt_cases F F2) as [Hle|Hgt].
  - replace F2 with (F + (F2 - F)) by lia.
    exact (parse_sim_ok _ classify pre_hook pre_hook _ CL Hok (fun c raw Hc => eq_refl) (generated_keys_scalar CL)
                        _ F c d y Hc H).
  - rewrite (parse_fuel_enough classify pre_hook (post_hook classify) F2 c d) by lia.
    rewrite <- (parse_fuel_enough classify pre_hook (post_hook classify) F c d) by lia. exact H.
Qed.

(* decode / export / decode for the template classes, as the function [roundtrip] computes it *)
Theorem roundtrip_cl : forall classify CL root j v,
  schema_rt_ok Generated.schema CL = true ->
  (forall fuel c raw, In c CL -> pre_full classify fuel c raw = pre_hook c raw) ->
  hooks_stable Generated.schema classify pre_hook (post_hook classify) CL ->
  In root CL ->
  parse_any classify root j = Ok v ->
  snd (roundtrip classify root v) = true.
Proof.
  intros classify CL root j v Hok Hpre Hhooks Hroot Hp. unfold parse_any in Hp.
  pose proof (generated_keys_scalar CL) as Hkeys. set (f := parse_fuel j) in *.
  (* the same parse with the template-side pre-validators only, *)
  apply (parse_sim_ok _ classify _ pre_hook _ CL Hok (fun c raw Hc => Hpre f c raw Hc) Hkeys 0 f _ _ _ Hroot) in Hp.
  rewrite Nat.add_0_r in Hp.
  (* its round trip at that fuel, *)
  apply (proj2 (roundtrip_generic _ classify pre_hook _ CL Hok Hhooks f) root j v Hroot) in Hp.
  (* at the fuel [roundtrip] recomputes from the exported document, *)
  unfold roundtrip. cbn [snd]. rewrite export_exp. unfold parse_any. set (f2 := parse_fuel (exp Generated.schema v)).
  apply (fuel_change classify CL f f2 root _ v Hok Hroot) in Hp; [|apply Nat.le_refl].
  (* and with the pre-validators [roundtrip] uses *)
  apply (parse_sim_ok _ classify pre_hook (pre_full classify f2) _ CL Hok
                      (fun c raw Hc => eq_sym (Hpre f2 c raw Hc)) Hkeys 0 f2 _ _ _ Hroot) in Hp.
  rewrite Nat.add_0_r in Hp. rewrite Hp. apply mval_eqb_refl. lia.
Qed.

Section HookTools.
  Variable SC : schema_t.
  Variable classify : N -> cclass.
  Variable pre : string -> json -> bool.
  Variable post : string -> json -> list (string * mval) -> bool.
  Notation EXP := (exp SC).
  Notation PK := (parse_kind SC classify pre post).
  Notation PC := (parse_cls SC classify pre post).

  (* the JSON type of an exported value, by kind *)
  Fixpoint jt (k : kind) (j : json) : bool :=
    match k with
    | KLiteral _ | KEnum _ | KStr _ _ _ _ | KFormat _ _ _ _ | KDec => match j with JStr _ => true | _ => false end
    | KBool _ => match j with JBool _ => true | _ => false end
    | KInt _ _ _ _ => match j with JInt _ => true | _ => false end
    | KFloat _ => match j with JDec _ _ => true | _ => false end
    | KModel _ | KDisc _ _ => match j with JObj _ => true | _ => false end
    | KUnion alts =>
      (fix any (l : list ualt) : bool :=
         match l with
         | [] => false
         | a :: r =>
           (match a with
            | UScalar k' => jt k' j
            | UList _ _ k' => match j with JArr items => forallb (jt k') items | _ => false end
            end) || any r
         end) alts
    end.

  Definition jt_alt (a : ualt) (j : json) : bool :=
    match a with
    | UScalar k' => jt k' j
    | UList _ _ k' => match j with JArr items => forallb (jt k') items | _ => false end
    end.

  Lemma jt_union : forall alts j, jt (KUnion alts) j = existsb (fun a => jt_alt a j) alts.
  Proof.
    intros alts j. cbn [jt]. induction alts as [|a r IH]; [reflexivity|]. cbn [existsb]. rewrite <- IH. reflexivity.
  Qed.

  Lemma list_value_jt : forall (pk : kind -> json -> outcome mval) minl maxl k v x,
    (forall w y, pk k w = Ok y -> jt k (EXP y) = true) ->
    list_value pk minl maxl k v = Ok x -> exists items, EXP x = JArr items /\ forallb (jt k) items = true.
  Proof.
    intros pk minl maxl k v x Hk H. destruct (AcceptMono.list_items_ok _ _ _ _ _ _ H) as [items [l [_ [E ->]]]].
    rewrite exp_list. eexists. split; [reflexivity|]. rewrite forallb_forall. intros j Hj.
    apply in_map_iff in Hj. destruct Hj as [y [<- Hy]].
    destruct (ListLib.mapM_ok_in _ _ _ _ _ E y Hy) as [a [_ Ha]]. exact (Hk _ _ Ha).
  Qed.

  Lemma pk_jt : forall f k v x, PK f k v = Ok x -> jt k (EXP x) = true.
  Proof.
    intros f. apply (DecodeInv.accepted_ind SC classify pre post (fun k x => jt k (EXP x) = true)
                                            (fun _ x => exists ms, EXP x = JObj ms)).
    - intros k m Hk Hv. destruct k; try discriminate Hk; destruct m; try discriminate Hv; reflexivity.
    - intros c m [ms E]. cbn [jt]. rewrite E. reflexivity.
    - intros key mp kc m _ [ms E]. cbn [jt]. rewrite E. reflexivity.
    - intros alts k m Hin H. rewrite jt_union. apply existsb_exists. exists (UScalar k). split; [exact Hin|exact H].
    - intros alts lo hi k l Hin H. rewrite jt_union, exp_list. apply existsb_exists. exists (UList lo hi k).
      split; [exact Hin|]. cbn [jt_alt]. apply forallb_forall. intros j Hj. apply in_map_iff in Hj.
      destruct Hj as [y [<- Hy]]. rewrite Forall_forall in H. exact (H y Hy).
    - intros c c0 fs _ _. unfold exp. cbn [to_object]. eauto.
  Qed.

  Definition jt_field (fl : field) (j : json) : bool :=
    match j with
    | JNull => negb (f_required fl)
    | _ =>
      match f_shape fl with
      | Single => jt (f_kind fl) j
      | ListOf _ _ => match j with JArr items => forallb (jt (f_kind fl)) items | _ => false end
      | DictOf _ => match j with JObj _ => true | _ => false end
      end
    end.

  Lemma field_value_cases : forall (pk : kind -> json -> outcome mval) fl raw y,
    field_value pk fl raw = Ok y ->
    (raw = JNull /\ y = MNone /\ f_required fl = false) \/ (raw <> JNull /\ shape_value pk fl raw = Ok y).
  Proof.
    intros pk fl raw y H. unfold field_value in H. destruct raw; try (right; split; [discriminate|exact H]).
    left. destruct (f_required fl); [discriminate|]. inversion H. auto.
  Qed.

  Lemma dict_value_obj : forall (pk : kind -> json -> outcome mval) kk k v y,
    dict_value pk kk k v = Ok y -> exists ms, EXP y = JObj ms.
  Proof.
    intros pk kk k v y H. unfold dict_value in H. destruct v; try discriminate.
    destruct (mapM _ members); [|discriminate]. injection H as <-. unfold exp. cbn [to_object]. eauto.
  Qed.

  Hypothesis Hnames : forall c k, lookup_cls SC c = Some k ->
    NoDup (map f_name (c_fields k)) /\ NoDup (map f_alias (c_fields k)).

  Lemma jget_exp : forall f c v x k fl,
    PC f c v = Ok x -> lookup_cls SC c = Some k -> In fl (c_fields k) ->
    is_null (jget (f_alias fl) (EXP x)) = is_null (jget (f_alias fl) v)
    /\ jt_field fl (jget (f_alias fl) (EXP x)) = true.
  Proof.
    intros f c v x k fl H Hl Hfl. destruct (Hnames c k Hl) as [Hn1 Hn2].
    destruct (parse_cls_field _ _ _ _ f c v x k fl H Hl Hn1 Hn2 Hfl) as [f' [y [_ [Hfv He]]]]. rewrite He.
    destruct (parse_nn SC classify pre post f') as [NNk _].
    destruct (field_value_cases (PK f') fl _ y Hfv) as [[Er [Ey Erq]]|[Er Hsv]].
    - (* absent *) subst y. rewrite Er. cbn. rewrite Erq. auto.
    - pose proof (shape_value_nn (PK f') NNk _ _ _ Hsv) as Hn.
      pose proof (exp_not_null SC y (nn_not_none y Hn)) as Hnz.
      split; [destruct (EXP y), (jget (f_alias fl) v); try reflexivity; contradiction|].
      unfold shape_value in Hsv. unfold jt_field.
      destruct (f_shape fl).
      + pose proof (pk_jt _ _ _ _ Hsv) as Ht. destruct (EXP y); try exact Ht. contradiction.
      + destruct (list_value_jt (PK f') _ _ _ _ _ (fun w y0 Hy0 => pk_jt _ _ _ _ Hy0) Hsv) as [items [Ei Hi]].
        rewrite Ei. exact Hi.
      + destruct (dict_value_obj (PK f') _ _ _ _ Hsv) as [ms' Em]. rewrite Em. reflexivity.
  Qed.
End HookTools.

Section LiveHooks.
  Variable classify : N -> cclass.
  Variable pre : string -> json -> bool.
  Variable post : string -> json -> list (string * mval) -> bool.
  Notation G := Generated.schema.
  Notation PC := (parse_cls G classify pre post).
  Notation EXP := (exp G).

  Definition dflt_field : field := mkField "" "" false Single KDec.
  (* field number [i] of class [c] *)
  Definition fld (c : string) (i : nat) : field :=
    match lookup_cls G c with Some k => nth i (c_fields k) dflt_field | None => dflt_field end.

  Lemma jget_fld : forall f c v x i a,
    PC f c v = Ok x ->
    (match lookup_cls G c with Some k => Nat.ltb i (List.length (c_fields k)) | None => false end) = true ->
    f_alias (fld c i) = a ->
    is_null (jget a (EXP x)) = is_null (jget a v) /\ jt_field (fld c i) (jget a (EXP x)) = true.
  Proof.
    intros f c v x i a H Hi Ha. unfold fld in *. destruct (lookup_cls G c) as [k|] eqn:Hl; [|discriminate].
    apply Nat.ltb_lt in Hi. subst a.
    apply (jget_exp G classify pre post generated_names_distinct f c v x k _ H Hl). apply nth_In. exact Hi.
  Qed.

  Lemma int_or_str_items : forall l,
    forallb (jt (KUnion [UScalar (KInt false None None None);
                           UScalar (KFormat "TaskParameterStringValue" None None CS_any)])) l = true ->
    forallb raw_int_or_str l = true.
  Proof.
    intros l. apply ListLib.forallb_impl. intros a. rewrite jt_union. cbn [existsb jt_alt jt]. destruct a; cbn; congruence.
  Qed.

  Lemma hook_int_range : forall j, jt_field (fld "IntTaskParameterDefinition" 2) j = true ->
    match j with JArr items => forallb raw_int_or_str items | _ => true end = true.
  Proof.
    intros j H. set (F := fld "IntTaskParameterDefinition" 2) in H. vm_compute in F. subst F.
    destruct j; try reflexivity. unfold jt_field in H. cbn [f_shape f_kind] in H. rewrite jt_union in H.
    cbn [existsb jt_alt] in H. apply orb_true_iff in H. destruct H as [H|H]; [|cbn in H; discriminate].
    apply int_or_str_items. exact H.
  Qed.

  Lemma hook_float_range : forall j, jt_field (fld "FloatTaskParameterDefinition" 2) j = true ->
    match j with JArr items => forallb raw_num_or_str items | _ => true end = true.
  Proof.
    intros j H. set (F := fld "FloatTaskParameterDefinition" 2) in H. vm_compute in F. subst F.
    destruct j; try reflexivity. unfold jt_field in H. cbn [f_shape f_kind] in H.
    revert H. apply ListLib.forallb_impl. intros a. rewrite jt_union. cbn [existsb jt_alt jt]. destruct a; cbn; congruence.
  Qed.

  Lemma hook_int_single : forall i j,
    In i [4; 5; 7] -> jt_field (fld "JobIntParameterDefinition" i) j = true ->
    raw_null_or raw_int_or_str j = true.
  Proof.
    intros i j Hi H. assert (E : fld "JobIntParameterDefinition" i = mkField (f_name (fld "JobIntParameterDefinition" i)) (f_alias (fld "JobIntParameterDefinition" i)) false Single (KInt false None None None)).
    { destruct Hi as [Hi|[Hi|[Hi|[]]]]; subst i; vm_compute; reflexivity. }
    rewrite E in H. unfold jt_field in H. cbn [f_shape f_kind f_required] in H.
    destruct j; try reflexivity; cbn in H; discriminate.
  Qed.

  Lemma hook_int_allowed : forall j, jt_field (fld "JobIntParameterDefinition" 6) j = true ->
    match j with JArr items => forallb raw_int_or_str items | _ => true end = true.
  Proof.
    intros j H. set (F := fld "JobIntParameterDefinition" 6) in H. vm_compute in F. subst F.
    destruct j; try reflexivity. unfold jt_field in H. cbn [f_shape f_kind] in H.
    revert H. apply ListLib.forallb_impl. intros a. destruct a; cbn; congruence.
  Qed.

  (* "one of the two members is present": presence is kept by the re-export *)
  Lemma either_present_kept : forall f c v x i a j b,
    PC f c v = Ok x ->
    (match lookup_cls G c with Some k => Nat.ltb i (List.length (c_fields k)) | None => false end) = true ->
    f_alias (fld c i) = a ->
    (match lookup_cls G c with Some k => Nat.ltb j (List.length (c_fields k)) | None => false end) = true ->
    f_alias (fld c j) = b ->
    negb (is_null (jget a v)) || negb (is_null (jget b v)) = true ->
    negb (is_null (jget a (EXP x))) || negb (is_null (jget b (EXP x))) = true.
  Proof.
    intros f c v x i a j b H Hi Ha Hj Hb Hpre.
    destruct (jget_fld f c v x i a H Hi Ha) as [-> _]. destruct (jget_fld f c v x j b H Hj Hb) as [-> _]. exact Hpre.
  Qed.

  (* every pre-validator of the 2023-09 classes accepts the re-export of an object it accepted, whichever
     validators the decoder ran *)
  Lemma pre_hook_kept : forall f c v x, PC f c v = Ok x -> pre_hook c v = true -> pre_hook c (EXP x) = true.
  Proof.
    intros f c v x H Hpre.
    destruct (String.eqb c "EnvironmentActions") eqn:E1.
    { apply String.eqb_eq in E1. subst c.
      exact (either_present_kept f _ v x 0 "onEnter" 1 "onExit" H eq_refl eq_refl eq_refl eq_refl Hpre). }
    destruct (String.eqb c "Environment") eqn:E2.
    { apply String.eqb_eq in E2. subst c.
      exact (either_present_kept f _ v x 1 "script" 2 "variables" H eq_refl eq_refl eq_refl eq_refl Hpre). }
    destruct (String.eqb c "AmountRequirementTemplate") eqn:E3.
    { apply String.eqb_eq in E3. subst c.
      exact (either_present_kept f _ v x 1 "min" 2 "max" H eq_refl eq_refl eq_refl eq_refl Hpre). }
    destruct (String.eqb c "AttributeRequirementTemplate") eqn:E4.
    { apply String.eqb_eq in E4. subst c.
      exact (either_present_kept f _ v x 1 "anyOf" 2 "allOf" H eq_refl eq_refl eq_refl eq_refl Hpre). }
    destruct (String.eqb c "IntTaskParameterDefinition") eqn:E5.
    { apply String.eqb_eq in E5. subst c.
      destruct (jget_fld f _ v x 2 "range" H eq_refl eq_refl) as [_ A1].
      change (match jget "range" (EXP x) with JArr items => forallb raw_int_or_str items | _ => true end = true).
      apply hook_int_range. exact A1. }
    destruct (String.eqb c "FloatTaskParameterDefinition") eqn:E6.
    { apply String.eqb_eq in E6. subst c.
      destruct (jget_fld f _ v x 2 "range" H eq_refl eq_refl) as [_ A1].
      change (match jget "range" (EXP x) with JArr items => forallb raw_num_or_str items | _ => true end = true).
      apply hook_float_range. exact A1. }
    destruct (String.eqb c "JobIntParameterDefinition") eqn:E7.
    { apply String.eqb_eq in E7. subst c.
      destruct (jget_fld f _ v x 4 "minValue" H eq_refl eq_refl) as [_ A1].
      destruct (jget_fld f _ v x 5 "maxValue" H eq_refl eq_refl) as [_ A2].
      destruct (jget_fld f _ v x 7 "default" H eq_refl eq_refl) as [_ A3].
      destruct (jget_fld f _ v x 6 "allowedValues" H eq_refl eq_refl) as [_ A4].
      change (raw_null_or raw_int_or_str (jget "minValue" (EXP x)) && raw_null_or raw_int_or_str (jget "maxValue" (EXP x))
              && raw_null_or raw_int_or_str (jget "default" (EXP x))
              && match jget "allowedValues" (EXP x) with JArr items => forallb raw_int_or_str items | _ => true end = true).
      rewrite (hook_int_single 4 _ (or_introl eq_refl) A1).
      rewrite (hook_int_single 5 _ (or_intror (or_introl eq_refl)) A2).
      rewrite (hook_int_single 7 _ (or_intror (or_intror (or_introl eq_refl))) A3).
      rewrite (hook_int_allowed _ A4). reflexivity. }
    unfold pre_hook. rewrite E1, E2, E3, E4, E5, E6, E7. reflexivity.
  Qed.
End LiveHooks.

Theorem pre_hook_stable : forall classify post f c v x,
  parse_cls Generated.schema classify pre_hook post f c v = Ok x -> pre_hook c (exp Generated.schema x) = true.
Proof.
  intros classify post f c v x H. apply (pre_hook_kept classify pre_hook post f c v x H).
  destruct (parse_cls_inv _ _ _ _ _ _ _ _ H) as [f' [k [ms [vals [_ [_ [_ [Hp _]]]]]]]]. exact Hp.
Qed.

Require Import OJD.FsRefs OJD.ScopeWalk.

Section LiveRoundTrip.
  Variable classify : N -> cclass.
  Notation G := Generated.schema.
  Notation PC := (parse_cls G classify pre_hook (post_hook classify)).
  Notation EXP := (exp G).

  (* the only validator code that reads the RAW document besides the pre-validators: the variable
     reference walk of C03, run by the root validators of JobTemplate and EnvironmentTemplate.
     Hypothesis: it reports nothing on the re-export of a template it reported nothing on. *)
  Definition prevalidate_stable : Prop :=
    forall f root ms flds,
      root = "JobTemplate" \/ root = "EnvironmentTemplate" ->
      PC f root (JObj ms) = Ok (MModel root flds) ->
      prevalidate G (fs_refs classify) root (EXP (MModel root flds)) = [].

  Lemma job_template_ok_raw : forall raw raw' flds,
    job_template_ok classify raw flds = true ->
    prevalidate G (fs_refs classify) "JobTemplate" raw' = [] ->
    job_template_ok classify raw' flds = true.
  Proof.
    intros raw raw' flds H Hp. unfold job_template_ok in *. rewrite Hp.
    repeat (apply andb_true_iff in H; let H2 := fresh "H" in destruct H as [H H2]).
    repeat (apply andb_true_iff; split); try assumption. reflexivity.
  Qed.

  Lemma parse_cls_post : forall f c ms flds,
    PC f c (JObj ms) = Ok (MModel c flds) -> post_hook classify c (JObj ms) flds = true.
  Proof.
    intros f c ms flds H.
    destruct (parse_cls_inv _ _ _ _ _ _ _ _ H) as [f' [k [ms0 [vals [_ [_ [Ev [_ [_ [Ex Hpo]]]]]]]]]].
    inversion Ev. subst ms0. inversion Ex. exact Hpo.
  Qed.

  Theorem hooks_stable_live : prevalidate_stable ->
    hooks_stable G classify pre_hook (post_hook classify) template_classes.
  Proof.
    intros Hpv f c ms flds Hc H. split; [eapply pre_hook_stable; exact H|].
    pose proof (parse_cls_post f c ms flds H) as Hpo.
    destruct (String.eqb c "JobTemplate") eqn:E1.
    { apply String.eqb_eq in E1. subst c.
      change (job_template_ok classify (EXP (MModel "JobTemplate" flds)) flds = true).
      apply (job_template_ok_raw (JObj ms)); [exact Hpo|].
      eapply Hpv; [left; reflexivity|exact H]. }
    destruct (String.eqb c "EnvironmentTemplate") eqn:E2.
    { apply String.eqb_eq in E2. subst c.
      change (unique_names (fget "parameterDefinitions" flds)
              && match prevalidate G (fs_refs classify) "EnvironmentTemplate" (EXP (MModel "EnvironmentTemplate" flds)) with
                 | [] => true | _ => false end = true).
      change (unique_names (fget "parameterDefinitions" flds)
              && match prevalidate G (fs_refs classify) "EnvironmentTemplate" (JObj ms) with
                 | [] => true | _ => false end = true) in Hpo.
      apply andb_true_iff in Hpo. destruct Hpo as [Hu _]. rewrite Hu.
      rewrite (Hpv f "EnvironmentTemplate" ms flds (or_intror eq_refl) H). reflexivity. }
    rewrite (KeyOrder.post_hook_raw_free classify c _ (JObj ms) flds); [exact Hpo| |].
    - intros E. rewrite E in E1. discriminate E1.
    - intros E. rewrite E in E2. discriminate E2.
  Qed.

  (* decode(export(decode j)) = decode j for every template class of the live schema *)
  Theorem roundtrip_live : forall root j v,
    In root template_classes ->
    parse_any classify root j = Ok v ->
    prevalidate_stable ->
    snd (roundtrip classify root v) = true.
  Proof.
    intros root j v Hroot Hp Hpv.
    eapply (roundtrip_cl classify template_classes); try eassumption.
    - exact template_schema_ok.
    - intros fuel c raw Hc. apply pre_full_templates, Hc.
    - apply hooks_stable_live, Hpv.
  Qed.

  (* below the roots no hypothesis is needed: every template class except the two roots round-trips,
     at any fuel *)
  Definition inner_classes : list string :=
    filter (fun c => negb (mem_s c ["JobTemplate"; "EnvironmentTemplate"])) template_classes.

  Lemma inner_schema_ok : schema_rt_ok G inner_classes = true.
  Proof. vm_compute. reflexivity. Qed.

  Lemma inner_sub_template : incl inner_classes template_classes.
  Proof. apply incl_filter. Qed.

  Theorem decoded_exports_plain : forall root j v,
    parse_any classify root j = Ok v -> plain (export v) = true.
  Proof.
    intros root j v Hp. unfold parse_any in Hp. unfold export.
    eapply parsed_exports_plain; [exact Hp|]. lia.
  Qed.

  Lemma inner_not_root : forall c, In c inner_classes -> c <> "JobTemplate" /\ c <> "EnvironmentTemplate".
  Proof. intros c Hc. apply ListLib.mem_s_In in Hc. split; intros ->; vm_compute in Hc; discriminate Hc. Qed.

  Lemma hooks_stable_inner : hooks_stable G classify pre_hook (post_hook classify) inner_classes.
  Proof.
    intros f c ms flds Hc H. split; [eapply pre_hook_stable; exact H|].
    pose proof (parse_cls_post f c ms flds H) as Hpo.
    destruct (inner_not_root c Hc) as [N1 N2].
    rewrite (KeyOrder.post_hook_raw_free classify c _ (JObj ms) flds N1 N2). exact Hpo.
  Qed.

  Theorem roundtrip_inner : forall f c v x,
    In c inner_classes -> PC f c v = Ok x -> PC f c (EXP x) = Ok x.
  Proof.
    intros f c v x Hc H.
    destruct (roundtrip_generic G classify pre_hook (post_hook classify) inner_classes
                                inner_schema_ok hooks_stable_inner f) as [_ Hrt].
    eapply Hrt; eassumption.
  Qed.
  (* ... and in the form the function [roundtrip] computes it, with its recomputed fuel: no hypothesis *)
  Theorem roundtrip_live_inner : forall c j v,
    In c inner_classes ->
    parse_any classify c j = Ok v ->
    snd (roundtrip classify c v) = true.
  Proof.
    intros c j v Hc Hp.
    eapply (roundtrip_cl classify inner_classes); try eassumption.
    - exact inner_schema_ok.
    - intros fuel c0 raw Hc0. apply pre_full_templates, inner_sub_template, Hc0.
    - exact hooks_stable_inner.
  Qed.
End LiveRoundTrip.

Theorem live_schema_ok :
  schema_rt_ok Generated.schema template_classes = true
  /\ filter (fun c => negb (cls_ok Generated.schema (map fst Generated.schema) c)) (map fst Generated.schema)
     = ["StepParameterSpace"].
Proof. split; [exact template_schema_ok|exact only_param_space_fails]. Qed.
