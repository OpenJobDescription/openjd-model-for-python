(* AcceptSound.v — the C01 direction: the schema read from the live classes accepts no more than the
   frozen 2023-09 table, hence every accepted document is well-formed.  Kept apart from
   AcceptComplete.v so that a LOOSENED limit in the code breaks only this file (C01) and a
   TIGHTENED one only the other (C02). *)
From Coq Require Import List NArith String.
Require Import OJD.Base OJD.Lexer OJD.Json OJD.Schema OJD.Generated OJD.SchemaSpec OJD.SchemaOrder OJD.Parse OJD.Accept
               OJD.WF OJD.AcceptMono OJD.AcceptProofs.
Local Open Scope string_scope.
Local Open Scope list_scope.


Theorem table_le_code_spec : schema_le Generated.schema spec_schema = true.
Proof. rewrite schema_le_fix_eq. vm_compute. reflexivity. Qed.

(* whatever the code accepts, the frozen table accepts (same validators), with the same value *)
Theorem structural_code_spec : forall classify j v,
  decode_job classify j = Ok v -> decode_job_on spec_schema classify j = Ok v.
Proof. intros classify j v. exact (decode_job_on_mono _ _ classify j v table_le_code_spec). Qed.

Theorem structural_env_code_spec : forall classify j v,
  decode_env classify j = Ok v -> decode_env_on spec_schema classify j = Ok v.
Proof. intros classify j v. exact (decode_env_on_mono _ _ classify j v table_le_code_spec). Qed.

Section Docs.
Variable classify : N -> cclass.

Lemma sound_on versions root j v :
  decode_on versions root Generated.schema classify j = Ok v -> WFdoc classify root j.
Proof.
  intros H. apply (decode_on_mono _ _ _ _ _ _ _ table_le_code_spec), decode_on_ok in H.
  apply WFdoc_iff_spec_parse. exists v. apply H.
Qed.

(* C01: whatever decode_job_template accepts is well-formed *)
Theorem job_sound : forall j v, decode_job classify j = Ok v -> WFdoc classify "JobTemplate" j.
Proof. exact (sound_on Generated.job_template_versions "JobTemplate"). Qed.

Theorem env_sound : forall j v, decode_env classify j = Ok v -> WFdoc classify "EnvironmentTemplate" j.
Proof. exact (sound_on Generated.env_template_versions "EnvironmentTemplate"). Qed.

(* breaking a rule (at any visited object) makes decoding reject: contrapositive of soundness *)
Theorem job_flip : forall j, ~ WFdoc classify "JobTemplate" j -> forall v, decode_job classify j <> Ok v.
Proof. intros j Hn v H. apply Hn. exact (job_sound j v H). Qed.

Theorem env_flip : forall j, ~ WFdoc classify "EnvironmentTemplate" j -> forall v, decode_env classify j <> Ok v.
Proof. intros j Hn v H. apply Hn. exact (env_sound j v H). Qed.
End Docs.
