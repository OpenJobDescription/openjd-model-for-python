(* PathsProofs.v — model (Paths.v) = specification (PathsSpec.v), for all strings.

   A parsed path is (root, components) with a root among "", "/", "//" ([wf_root]) and components
   that are non-empty, not ".", and free of '/' ([wf_tail]).  On such pairs [canon] (pathlib's
   str()) is inverted by ([spec_root], [spec_comps]): that is [canon_spec], and nearly everything
   below is read off from it. *)
From Coq Require Import List NArith Bool Lia Arith.
Import ListNotations.
Require Import OJD.Base OJD.ListLib OJD.Paths OJD.PathsSpec.

Lemma is_nil_true : forall (A : Type) (l : list A), is_nil l = true -> l = [].
Proof. intros A [|x l] H; [reflexivity|discriminate]. Qed.

Lemma is_nil_false : forall (A : Type) (l : list A), is_nil l = false -> l <> [].
Proof. intros A [|x l] H; [discriminate|intro; discriminate]. Qed.

Lemma is_nil_app : forall (A : Type) (a b : list A), is_nil (a ++ b) = is_nil a && is_nil b.
Proof. intros A [|x a] b; reflexivity. Qed.

Lemma filter_all : forall (A : Type) (f : A -> bool) (l : list A),
  Forall (fun x => f x = true) l -> filter f l = l.
Proof. intros A f l H. induction H as [|x l Hx _ IH]; cbn; [reflexivity|]. rewrite Hx, IH. reflexivity. Qed.

Lemma Forall_firstn : forall (A : Type) (P : A -> Prop) (k : nat) (l : list A),
  Forall P l -> Forall P (firstn k l).
Proof.
  intros A P k. induction k as [|k IH]; intros l H; cbn; [constructor|].
  destruct H as [|x l Hx Hl]; [constructor|]. constructor; [assumption|apply IH; assumption].
Qed.

Lemma Forall_removelast : forall (A : Type) (P : A -> Prop) (l : list A),
  Forall P l -> Forall P (removelast l).
Proof. intros A P l H. rewrite removelast_firstn_len. apply Forall_firstn. exact H. Qed.

Definition nosep (c : str) : Prop := Forall (fun x => is_sep x = false) c.
Definition wf_comp (c : str) : Prop := nosep c /\ keep_comp c = true.
Definition wf_tail (t : list str) : Prop := Forall wf_comp t.
Definition wf_root (r : str) : Prop := r = [] \/ r = [SEP] \/ r = [SEP; SEP].
Definition nodd (l : list str) : Prop := Forall (fun c => is_dotdot c = false) l.

Lemma wf_comp_start : forall c, wf_comp c -> starts_with_sep c = false /\ c <> [].
Proof.
  intros c [Hn Hk]. destruct c as [|x c]; [discriminate Hk|].
  split; [|intro; discriminate]. cbn. inversion Hn; subst. assumption.
Qed.

Lemma nodd_notin : forall l, nodd l -> ~ In s_dotdot l.
Proof. intros l H Hin. apply (proj1 (Forall_forall _ _) H) in Hin. discriminate Hin. Qed.

Lemma split_sep_nonnil : forall s, split_sep s <> [].
Proof.
  induction s as [|c s IH]; cbn; [intro; discriminate|].
  destruct (is_sep c); [intro; discriminate|].
  destruct (split_sep s); intro; discriminate.
Qed.

Lemma split_sep_nosep : forall s, Forall nosep (split_sep s).
Proof.
  induction s as [|c s IH]; cbn; [repeat constructor|].
  destruct (is_sep c) eqn:E; [constructor; [constructor|assumption]|].
  destruct (split_sep s) as [|h t]; inversion IH; subst; repeat constructor; assumption.
Qed.

Lemma split_sep_app : forall a b, split_sep (a ++ SEP :: b) = split_sep a ++ split_sep b.
Proof.
  induction a as [|c a IH]; intro b; [reflexivity|].
  cbn [app split_sep]. rewrite IH. destruct (is_sep c); [reflexivity|].
  pose proof (split_sep_nonnil a). destruct (split_sep a); [congruence|reflexivity].
Qed.

Lemma split_nosep : forall x, nosep x -> split_sep x = [x].
Proof.
  intros x H. induction H as [|c x Hc Hx IH]; [reflexivity|].
  cbn. rewrite Hc, IH. reflexivity.
Qed.

Lemma split_join : forall t, Forall nosep t -> t <> [] -> split_sep (join_sep t) = t.
Proof.
  intros t H. induction H as [|x t Hx Ht IH]; intro Hne; [congruence|].
  destruct t as [|y t'].
  - cbn. apply split_nosep. assumption.
  - change (join_sep (x :: y :: t')) with (x ++ SEP :: join_sep (y :: t')).
    rewrite split_sep_app, split_nosep by assumption. rewrite IH by (intro; discriminate). reflexivity.
Qed.

Lemma join_wf_nostart : forall t, wf_tail t -> starts_with_sep (join_sep t) = false.
Proof.
  intros t H. destruct H as [|x t Hx Ht]; [reflexivity|].
  destruct (wf_comp_start x Hx) as [Hs Hne]. destruct x as [|c x]; [congruence|].
  cbn in Hs. destruct t; cbn; assumption.
Qed.

Lemma join_wf_nil : forall t, wf_tail t -> join_sep t = [] -> t = [].
Proof.
  intros t H E. destruct H as [|x t Hx Ht]; [reflexivity|].
  destruct (wf_comp_start x Hx) as [_ Hne]. destruct x as [|c x]; [congruence|].
  destruct t; cbn in E; discriminate.
Qed.

Lemma spec_comps_wf : forall s, wf_tail (spec_comps s).
Proof.
  intro s. apply Forall_forall. intros c Hc. apply filter_In in Hc. destruct Hc as [Hin Hk].
  split; [|assumption]. exact (proj1 (Forall_forall _ _) (split_sep_nosep s) c Hin).
Qed.

Lemma spec_comps_app : forall a b, spec_comps (a ++ SEP :: b) = spec_comps a ++ spec_comps b.
Proof. intros. unfold spec_comps. rewrite split_sep_app, filter_app. reflexivity. Qed.

Lemma spec_comps_sep_cons : forall s, spec_comps (SEP :: s) = spec_comps s.
Proof. intro s. exact (spec_comps_app [] s). Qed.

Lemma spec_comps_snoc_sep : forall a, spec_comps (a ++ [SEP]) = spec_comps a.
Proof. intro a. rewrite spec_comps_app. apply app_nil_r. Qed.

Lemma spec_comps_root_app : forall r s, wf_root r -> spec_comps (r ++ s) = spec_comps s.
Proof. intros r s [-> | [-> | ->]]; cbn [app]; rewrite ?spec_comps_sep_cons; reflexivity. Qed.

Lemma spec_comps_join : forall t, wf_tail t -> spec_comps (join_sep t) = t.
Proof.
  intros t H. destruct t as [|x t]; [reflexivity|].
  unfold spec_comps. rewrite split_join.
  - apply filter_all. eapply Forall_impl; [|exact H]. intros c [_ Hk]. exact Hk.
  - eapply Forall_impl; [|exact H]. intros c [Hn _]. exact Hn.
  - intro; discriminate.
Qed.

Lemma wf_tail_app : forall a b, wf_tail (spec_comps a ++ spec_comps b).
Proof. intros a b. apply Forall_app. split; apply spec_comps_wf. Qed.

Lemma lead_app_nosep : forall a x, starts_with_sep x = false -> lead (a ++ x) = lead a.
Proof.
  induction a as [|c a IH]; intros x H; cbn.
  - destruct x as [|d x]; [reflexivity|]. cbn in H. cbn. rewrite H. reflexivity.
  - destruct (is_sep c); [rewrite IH by assumption|]; reflexivity.
Qed.

Lemma starts_lead : forall p, starts_with_sep p = negb (Nat.eqb (lead p) 0).
Proof. intros [|c p]; cbn; [reflexivity|]. destruct (is_sep c); reflexivity. Qed.

Lemma is_absolute_spec : forall p, is_absolute p = spec_abs p.
Proof. intro p. apply starts_lead. Qed.

Lemma spec_root_wf : forall p, wf_root (spec_root p).
Proof.
  intro p. unfold spec_root, wf_root. destruct (lead p) as [|[|[|n]]]; cbn; auto.
Qed.

Lemma wf_root_lead : forall r, wf_root r -> root_of_lead (lead r) = r.
Proof. intros r [-> | [-> | ->]]; reflexivity. Qed.

Lemma wf_root_not_dotdot : forall r, wf_root r -> r <> s_dotdot.
Proof. intros r [-> | [-> | ->]]; discriminate. Qed.

Lemma spec_abs_root : forall p, spec_abs p = negb (is_nil (spec_root p)).
Proof. intro p. unfold spec_abs, spec_root. destruct (lead p) as [|[|[|n]]]; reflexivity. Qed.

Lemma spec_root_rel : forall p, spec_abs p = false -> spec_root p = [].
Proof.
  intros p H. rewrite spec_abs_root in H. apply negb_false_iff in H. apply is_nil_true in H. exact H.
Qed.

Lemma splitroot_spec : forall p,
  fst (splitroot p) = spec_root p /\ spec_comps (snd (splitroot p)) = spec_comps p.
Proof.
  intro p. unfold spec_root.
  destruct p as [|c0 p1]; [split; reflexivity|].
  cbn [splitroot lead]. destruct (is_sep c0) eqn:E0; cbn [negb]; [|split; reflexivity].
  apply N.eqb_eq in E0. subst c0.
  destruct p1 as [|c1 p2]; [split; reflexivity|].
  cbn [lead]. destruct (is_sep c1) eqn:E1; cbn [negb].
  2:{ split; [reflexivity|]. symmetry. apply spec_comps_sep_cons. }
  apply N.eqb_eq in E1. subst c1.
  destruct p2 as [|c2 p3]; [split; reflexivity|].
  cbn [lead]. destruct (is_sep c2); (split; [reflexivity|]); cbn [snd]; rewrite !spec_comps_sep_cons; reflexivity.
Qed.

Theorem parse_spec : forall p, parse p = (spec_root p, spec_comps p).
Proof.
  intro p. unfold parse. destruct (is_nil p) eqn:E.
  - apply is_nil_true in E. subst. reflexivity.
  - destruct (splitroot_spec p) as [H1 H2]. destruct (splitroot p) as [root rest].
    cbn [fst snd] in *. unfold spec_comps in H2. rewrite H1, H2. reflexivity.
Qed.

Theorem parts_spec : forall s, parts s = spec_parts s.
Proof. intro s. unfold parts, pparts, spec_parts. rewrite parse_spec. reflexivity. Qed.

Lemma to_str_canon : forall r t, to_str (r, t) = canon r t.
Proof. intros r t. unfold to_str, canon. cbn [fst snd]. destruct r; reflexivity. Qed.

Lemma path_str_spec : forall p, path_str p = canon (spec_root p) (spec_comps p).
Proof. intro p. unfold path_str. rewrite parse_spec. apply to_str_canon. Qed.

Lemma pjoin_rel_spec : forall a b, starts_with_sep b = false ->
  spec_root (pjoin a b) = spec_root a /\ spec_comps (pjoin a b) = spec_comps a ++ spec_comps b.
Proof.
  intros a b Hb. unfold pjoin, spec_root. rewrite Hb.
  destruct (is_nil a) eqn:En; cbn [orb].
  { rewrite lead_app_nosep by assumption. apply is_nil_true in En. subst a. split; reflexivity. }
  (* a = a0 ++ [c]: the join inserts a separator unless c is one *)
  rewrite (app_removelast_last 0%N (is_nil_false _ _ En)). generalize (removelast a). intros a0.
  unfold ends_with_sep. rewrite last_last. destruct (is_sep (last a 0%N)) eqn:E.
  - split; [rewrite lead_app_nosep by assumption; reflexivity|].
    apply N.eqb_eq in E. rewrite E, <- app_assoc. cbn [app].
    rewrite spec_comps_app, spec_comps_snoc_sep. reflexivity.
  - split; [|apply spec_comps_app].
    rewrite <- app_assoc. cbn [app]. rewrite !(lead_app_nosep a0) by (cbn; assumption). reflexivity.
Qed.

Lemma canon_nonnil : forall r t, canon r t <> [].
Proof.
  intros r t. unfold canon. destruct (is_nil (r ++ join_sep t)) eqn:E.
  - intro; discriminate.
  - apply is_nil_false. assumption.
Qed.

Lemma canon_spec : forall r t, wf_root r -> wf_tail t ->
  spec_root (canon r t) = r /\ spec_comps (canon r t) = t.
Proof.
  intros r t Hr Ht. unfold canon. destruct (is_nil (r ++ join_sep t)) eqn:E.
  - apply is_nil_true, app_eq_nil in E. destruct E as [-> E].
    rewrite (join_wf_nil t Ht E). split; reflexivity.
  - unfold spec_root. rewrite (lead_app_nosep r _ (join_wf_nostart t Ht)), (wf_root_lead r Hr).
    rewrite (spec_comps_root_app r _ Hr), (spec_comps_join t Ht). split; reflexivity.
Qed.

Lemma spec_abs_canon : forall r t, wf_root r -> wf_tail t -> spec_abs (canon r t) = negb (is_nil r).
Proof. intros r t Hr Ht. rewrite spec_abs_root, (proj1 (canon_spec r t Hr Ht)). reflexivity. Qed.

Lemma spec_parts_canon : forall r t, wf_root r -> wf_tail t ->
  spec_parts (canon r t) = if is_nil r then t else r :: t.
Proof.
  intros r t Hr Ht. destruct (canon_spec r t Hr Ht) as [A B]. unfold spec_parts. rewrite A, B. reflexivity.
Qed.

Lemma canon_inj : forall r t r' t', wf_root r -> wf_tail t -> wf_root r' -> wf_tail t' ->
  canon r t = canon r' t' -> r = r' /\ t = t'.
Proof.
  intros r t r' t' Hr Ht Hr' Ht' E.
  destruct (canon_spec r t Hr Ht) as [A B]. destruct (canon_spec r' t' Hr' Ht') as [A' B'].
  rewrite E in A, B. split; congruence.
Qed.

Lemma norm_loop_resolve : forall cs stk, nodd stk ->
  norm_loop true cs stk = fold_left resolve_step (filter keep_comp cs) (rev stk).
Proof.
  induction cs as [|c cs IH]; intros stk Hs; cbn [norm_loop filter]; [reflexivity|].
  unfold keep_comp at 1. destruct (is_nil c) eqn:En; cbn [orb negb andb].
  { apply IH. assumption. }
  destruct (is_dot c) eqn:Ed; cbn [orb negb andb].
  { apply IH. assumption. }
  assert (Hhd : match stk with h :: _ => is_dotdot h | [] => false end = false).
  { destruct Hs as [|h s Hh _]; [reflexivity|assumption]. }
  rewrite Hhd, orb_false_r. cbn [fold_left]. unfold resolve_step at 2.
  destruct (is_dotdot c) eqn:Edd; cbn [negb andb orb].
  - destruct stk as [|h s']; cbn [is_nil andb orb].
    + rewrite IH by assumption. reflexivity.
    + rewrite IH by (inversion Hs; assumption). cbn [rev]. rewrite removelast_last. reflexivity.
  - rewrite IH by (constructor; assumption). reflexivity.
Qed.

(* ".." is never pushed: a property that every other component has holds of all that [resolve] leaves *)
Lemma resolve_fold_Forall : forall (P : str -> Prop) cs st,
  Forall P st -> Forall (fun c => is_dotdot c = false -> P c) cs ->
  Forall P (fold_left resolve_step cs st).
Proof.
  intros P cs. induction cs as [|c cs IH]; intros st H Hc; cbn [fold_left]; [assumption|].
  inversion Hc; subst. apply IH; [|assumption]. unfold resolve_step. destruct (is_dotdot c).
  - apply Forall_removelast. assumption.
  - apply Forall_app. split; [assumption|]. constructor; [auto|constructor].
Qed.

Lemma resolve_nodd : forall cs, nodd (resolve cs).
Proof. intro cs. apply resolve_fold_Forall; [constructor|]. apply Forall_forall. auto. Qed.

Lemma resolve_wf : forall cs, wf_tail cs -> wf_tail (resolve cs).
Proof.
  intros cs H. apply resolve_fold_Forall; [constructor|]. eapply Forall_impl; [|exact H]. auto.
Qed.

Lemma lex_target_wf : forall dir default, wf_tail (lex_target dir default).
Proof. intros. apply resolve_wf, wf_tail_app. Qed.

Lemma canon_resolve_no_dotdot : forall r cs, wf_root r -> wf_tail cs ->
  ~ In s_dotdot (spec_parts (canon r (resolve cs))).
Proof.
  intros r cs Hr Hc. rewrite spec_parts_canon by (try apply resolve_wf; assumption).
  pose proof (nodd_notin _ (resolve_nodd cs)) as Hn.
  destruct (is_nil r); [assumption|]. intros [E|Hin]; [|contradiction].
  exact (wf_root_not_dotdot r Hr E).
Qed.

(* key lemma: normpath of an absolute path is root + lexically resolved components; in
   particular it has no ".." component *)
Theorem normpath_abs : forall s, spec_abs s = true ->
  normpath s = canon (spec_root s) (resolve (spec_comps s)).
Proof.
  intros s Ha. unfold normpath.
  destruct (is_nil s) eqn:En.
  { apply is_nil_true in En. subst s. discriminate Ha. }
  destruct (splitroot_spec s) as [H1 H2]. destruct (splitroot s) as [root rest]. cbn [fst snd] in *.
  subst root. rewrite spec_abs_root in Ha. rewrite Ha.
  rewrite norm_loop_resolve by constructor. cbn [rev].
  fold (spec_comps rest). rewrite H2. reflexivity.
Qed.

Theorem normpath_abs_no_dotdot : forall s, spec_abs s = true ->
  spec_abs (normpath s) = true /\ ~ In s_dotdot (spec_parts (normpath s)).
Proof.
  intros s Ha. rewrite normpath_abs by assumption.
  pose proof (spec_root_wf s) as Hr. pose proof (spec_comps_wf s) as Ht. split.
  - rewrite spec_abs_canon, <- spec_abs_root by (try apply resolve_wf; assumption). assumption.
  - apply canon_resolve_no_dotdot; assumption.
Qed.

Lemma prefixb_prefix : forall l1 l2, prefixb l1 l2 = true <-> prefix l1 l2.
Proof.
  induction l1 as [|x l1 IH]; intros l2; cbn.
  - split; [intros _; exists l2; reflexivity|reflexivity].
  - destruct l2 as [|y l2].
    + split; [discriminate|]. intros [r E]. discriminate E.
    + rewrite andb_true_iff, str_eqb_eq, IH. split.
      * intros [E [r Hr]]. subst. exists r. reflexivity.
      * intros [r E]. inversion E; subst. split; [reflexivity|exists r; reflexivity].
Qed.

Lemma is_relative_to_spec : forall r1 t1 r2 t2,
  wf_root r1 -> wf_tail t1 -> wf_root r2 -> wf_tail t2 ->
  (is_relative_to (r1, t1) (r2, t2) = true <-> r2 = r1 /\ prefix t2 t1).
Proof.
  intros r1 t1 r2 t2 Hr1 Ht1 Hr2 Ht2. unfold is_relative_to. cbn [fst snd].
  rewrite !to_str_canon. rewrite orb_true_iff, str_eqb_eq, existsb_exists. split.
  - intros [E|[t [Hin E]]].
    + apply canon_inj in E; try assumption. destruct E; subst. split; [reflexivity|].
      exists []. rewrite app_nil_r. reflexivity.
    + rewrite to_str_canon in E. apply str_eqb_eq in E.
      unfold parent_tails in Hin. apply in_map_iff in Hin. destruct Hin as [k [Hk _]]. subst t.
      apply canon_inj in E; try assumption; [|apply Forall_firstn; assumption].
      destruct E; subst. split; [reflexivity|]. exists (skipn k t1). symmetry. apply firstn_skipn.
  - intros [Er [rr Ep]]. subst r2 t1. destruct rr as [|x rr].
    + left. rewrite app_nil_r. reflexivity.
    + right. exists t2. split.
      * unfold parent_tails. apply in_map_iff. exists (length t2 + 0). split.
        -- rewrite firstn_app_2. apply app_nil_r.
        -- apply -> in_rev. apply in_seq. rewrite app_length. cbn. lia.
      * rewrite to_str_canon. apply str_eqb_refl.
Qed.

Lemma joined_normalised : forall dir default,
  spec_abs dir = true -> spec_abs default = false ->
  normpath (path_str (join dir default)) = canon (spec_root dir) (lex_target dir default).
Proof.
  intros dir default Hd Hr. unfold join.
  assert (Hb : starts_with_sep default = false) by (rewrite <- Hr; apply is_absolute_spec).
  destruct (pjoin_rel_spec dir default Hb) as [J1 J2].
  rewrite path_str_spec, J1, J2.
  destruct (canon_spec _ _ (spec_root_wf dir) (wf_tail_app dir default)) as [A B].
  rewrite normpath_abs.
  - rewrite A, B. reflexivity.
  - rewrite spec_abs_root, A, <- spec_abs_root. assumption.
Qed.

Lemma default_body_char : forall dir walkup default,
  default_body dir walkup default =
  if is_nil default then Ok default
  else if spec_abs default then (if negb walkup then Raise ValueError else Ok default)
  else if spec_abs dir then
    (if negb walkup && negb (prefixb (spec_comps dir) (lex_target dir default))
     then Raise ValueError
     else Ok (canon (spec_root dir) (lex_target dir default)))
  else Ok default.
Proof.
  intros dir walkup default. unfold default_body. rewrite !is_absolute_spec.
  destruct (is_nil default); [reflexivity|].
  destruct (spec_abs default) eqn:Ea; [reflexivity|].
  destruct (spec_abs dir) eqn:Ed; [|reflexivity].
  rewrite joined_normalised by assumption.
  rewrite !parse_spec.
  pose proof (spec_root_wf dir) as Hrw. pose proof (lex_target_wf dir default) as Htw.
  destruct (canon_spec _ _ Hrw Htw) as [A B]. rewrite A, B, to_str_canon.
  replace (is_relative_to _ _) with (prefixb (spec_comps dir) (lex_target dir default)); [reflexivity|].
  apply eq_true_iff_eq.
  rewrite prefixb_prefix, is_relative_to_spec by (try apply spec_comps_wf; assumption). tauto.
Qed.

(* the whole behaviour for a defaulted PATH parameter, walk-up disallowed *)
Theorem default_exact : forall dir default,
  collect_path_default dir false default = spec_default dir default.
Proof.
  intros dir default. unfold collect_path_default, dir_check, spec_default.
  rewrite is_absolute_spec. cbn [negb andb].
  destruct (spec_abs dir) eqn:Ed; cbn [negb]; [|reflexivity].
  rewrite default_body_char, Ed. cbn [negb andb].
  destruct (is_nil default) eqn:En.
  { apply is_nil_true in En. subst. reflexivity. }
  destruct (spec_abs default); [reflexivity|].
  destruct (prefixb _ _); reflexivity.
Qed.

(* walk-up allowed: nothing is rejected; a relative default under an absolute directory is
   still normalised, everything else is returned verbatim *)
Theorem default_walkup : forall dir default,
  collect_path_default dir true default =
  Ok (if negb (is_nil default) && negb (spec_abs default) && spec_abs dir
      then canon (spec_root dir) (lex_target dir default) else default).
Proof.
  intros dir default. unfold collect_path_default, dir_check. cbn [negb andb].
  rewrite default_body_char. cbn [negb andb].
  destruct (is_nil default); [reflexivity|]. destruct (spec_abs default); [reflexivity|].
  destruct (spec_abs dir); reflexivity.
Qed.

Lemma spec_default_ok : forall dir default v, spec_default dir default = Ok v ->
  spec_abs dir = true /\
  (v = [] \/ (spec_abs default = false /\ prefix (spec_comps dir) (lex_target dir default)
              /\ v = canon (spec_root dir) (lex_target dir default))).
Proof.
  intros dir default v H. unfold spec_default in H.
  destruct (spec_abs dir) eqn:Ed; cbn [negb] in H; [|discriminate H]. split; [reflexivity|].
  destruct (is_nil default); [left; inversion H; reflexivity|].
  destruct (spec_abs default); [discriminate H|].
  destruct (prefixb _ _) eqn:Ep; [|discriminate H].
  right. inversion H. split; [reflexivity|]. split; [apply prefixb_prefix; assumption|reflexivity].
Qed.

Theorem contained_thm : forall dir default v,
  collect_path_default dir false default = Ok v -> v <> [] -> contained dir v.
Proof.
  intros dir default v H Hne. rewrite default_exact in H.
  apply spec_default_ok in H. destruct H as [Hd [E|[Hr [[rr Hp] E]]]]; [contradiction|]. subst v.
  pose proof (spec_root_wf dir) as Hrw. pose proof (lex_target_wf dir default) as Htw.
  split; [|split].
  - rewrite spec_abs_canon, <- spec_abs_root by assumption. assumption.
  - rewrite spec_parts_canon by assumption. unfold spec_parts.
    exists rr. rewrite Hp. destruct (is_nil (spec_root dir)); reflexivity.
  - apply canon_resolve_no_dotdot; [assumption|apply wf_tail_app].
Qed.

Theorem containedb_contained : forall dir v, containedb dir v = true <-> contained dir v.
Proof.
  intros dir v. unfold containedb, contained.
  rewrite !andb_true_iff, prefixb_prefix, negb_true_iff, mem_str_false. tauto.
Qed.

Theorem reject_abs : forall dir default, spec_abs default = true ->
  collect_path_default dir false default = Raise ValueError.
Proof.
  intros dir default H. rewrite default_exact. unfold spec_default.
  destruct (spec_abs dir); cbn [negb]; [|reflexivity].
  destruct default as [|c d]; [discriminate H|]. cbn [is_nil]. rewrite H. reflexivity.
Qed.

Theorem reject_climb : forall dir default, default <> [] -> ~ lex_inside dir default ->
  collect_path_default dir false default = Raise ValueError.
Proof.
  intros dir default Hne Hout. rewrite default_exact. unfold spec_default.
  destruct (spec_abs dir); cbn [negb]; [|reflexivity].
  destruct default as [|c d]; [congruence|]. cbn [is_nil].
  destruct (spec_abs (c :: d)); [reflexivity|].
  destruct (prefixb _ _) eqn:E; [|reflexivity].
  exfalso. apply Hout. apply prefixb_prefix. assumption.
Qed.

(* no false rejection *)
Theorem accept_inside : forall dir default,
  spec_abs dir = true -> default <> [] -> spec_abs default = false -> lex_inside dir default ->
  collect_path_default dir false default = Ok (canon (spec_root dir) (lex_target dir default)).
Proof.
  intros dir default Hd Hne Hr Hin. rewrite default_exact. unfold spec_default.
  rewrite Hd, Hr. cbn [negb]. destruct default; [congruence|]. cbn [is_nil].
  apply prefixb_prefix in Hin. unfold lex_inside in Hin. rewrite Hin. reflexivity.
Qed.

Theorem reldir_default : forall dir default, spec_abs dir = false ->
  collect_path_default dir false default = Raise ValueError.
Proof. intros dir default H. rewrite default_exact. unfold spec_default. rewrite H. reflexivity. Qed.

Theorem supplied_exact : forall cwd v, path_supplied cwd v = spec_supplied cwd v.
Proof.
  intros cwd v. unfold path_supplied, spec_supplied. rewrite is_absolute_spec.
  destruct (is_nil v); [reflexivity|]. cbn [negb andb orb].
  destruct (spec_abs v) eqn:Ea; [reflexivity|]. cbn [negb].
  assert (Hb : starts_with_sep v = false) by (rewrite <- Ea; apply is_absolute_spec).
  destruct (pjoin_rel_spec cwd v Hb) as [J1 J2]. unfold join. rewrite path_str_spec, J1, J2. reflexivity.
Qed.

Theorem supplied_parts : forall cwd v, v <> [] -> spec_abs v = false ->
  spec_parts (path_supplied cwd v) = spec_parts cwd ++ spec_parts v
  /\ spec_abs (path_supplied cwd v) = spec_abs cwd.
Proof.
  intros cwd v Hne Hr. rewrite supplied_exact. unfold spec_supplied.
  destruct v as [|c v']; [congruence|]. cbn [is_nil orb]. rewrite Hr.
  pose proof (spec_root_wf cwd) as Hrw. pose proof (wf_tail_app cwd (c :: v')) as Htw. split.
  - rewrite spec_parts_canon by assumption. unfold spec_parts.
    rewrite (spec_root_rel _ Hr). cbn [is_nil]. destruct (is_nil (spec_root cwd)); reflexivity.
  - rewrite spec_abs_canon by assumption. symmetry. apply spec_abs_root.
Qed.

Theorem server_exact : forall v, server_value v = spec_server v.
Proof. intro v. apply supplied_exact. Qed.

Theorem server_default_verbatim : forall d, server_default d = Ok d.
Proof.
  intro d. unfold server_default. rewrite default_walkup.
  replace (spec_abs []) with false by reflexivity. rewrite andb_false_r. reflexivity.
Qed.

Lemma spec_server_fix_abs : forall v, is_nil v || spec_abs v = true -> spec_server v = v.
Proof. intros v H. unfold spec_server. rewrite H. reflexivity. Qed.

Theorem server_parts : forall v, v <> [] -> spec_parts (server_value v) = spec_parts v.
Proof.
  intros v Hne. rewrite server_exact. unfold spec_server.
  destruct v as [|c v']; [congruence|]. cbn [is_nil orb].
  destruct (spec_abs (c :: v')) eqn:Ea; [reflexivity|].
  rewrite spec_parts_canon; [|left; reflexivity|apply spec_comps_wf]. cbn [is_nil].
  unfold spec_parts. rewrite (spec_root_rel _ Ea). reflexivity.
Qed.

Lemma spec_server_canon : forall r t, wf_root r -> wf_tail t -> spec_server (canon r t) = canon r t.
Proof.
  intros r t Hr Ht. destruct (canon_spec r t Hr Ht) as [A B]. unfold spec_server.
  destruct (is_nil (canon r t)) eqn:En.
  { apply is_nil_true in En. exfalso. eapply canon_nonnil. eassumption. }
  cbn [orb]. destruct (spec_abs (canon r t)) eqn:Ea; [reflexivity|].
  rewrite B. pose proof (spec_root_rel _ Ea) as R. rewrite A in R. subst r. reflexivity.
Qed.

Theorem server_idempotent : forall v, server_value (server_value v) = server_value v.
Proof.
  intro v. rewrite !server_exact. unfold spec_server at 2 3.
  destruct (is_nil v || spec_abs v) eqn:E.
  - apply spec_server_fix_abs. assumption.
  - apply spec_server_canon; [left; reflexivity|apply spec_comps_wf].
Qed.

Theorem server_fix_supplied : forall cwd v, server_value (path_supplied cwd v) = path_supplied cwd v.
Proof.
  intros cwd v. rewrite server_exact, supplied_exact. unfold spec_supplied.
  destruct (is_nil v || spec_abs v) eqn:E.
  - apply spec_server_fix_abs. assumption.
  - apply spec_server_canon; [apply spec_root_wf|apply wf_tail_app].
Qed.

Theorem default_w_exact : forall dir walkup default,
  collect_path_default dir walkup default = spec_default_w dir walkup default.
Proof.
  intros dir [|] default; unfold spec_default_w; [apply default_walkup|apply default_exact].
Qed.

Theorem server_fix_default : forall dir walkup default w,
  collect_path_default dir walkup default = Ok w ->
  spec_abs dir = true \/ walkup = false -> server_value w = w.
Proof.
  intros dir walkup default w H Hc. rewrite server_exact.
  pose proof (spec_server_canon _ _ (spec_root_wf dir) (lex_target_wf dir default)) as Hw.
  rewrite default_w_exact in H. destruct walkup; cbn [spec_default_w] in H.
  - destruct Hc as [Hd|Hc]; [|discriminate Hc]. injection H as <-. rewrite Hd, andb_true_r.
    destruct (negb (is_nil default) && negb (spec_abs default)) eqn:E; [exact Hw|].
    apply spec_server_fix_abs. rewrite <- negb_orb in E. now apply negb_false_iff in E.
  - apply spec_default_ok in H as [_ [-> | [_ [_ ->]]]]; [reflexivity|exact Hw].
Qed.

Lemma default_body_only_ValueError : forall dir walkup d e,
  default_body dir walkup d = Raise e -> e = ValueError.
Proof.
  intros dir walkup d e H. unfold default_body in H.
  destruct (is_nil d); [discriminate H|].
  destruct (is_absolute d).
  - destruct (negb walkup); [inversion H; reflexivity|discriminate H].
  - destruct (is_absolute dir); [|discriminate H].
    destruct (negb walkup && _); [inversion H; reflexivity|discriminate H].
Qed.

Lemma collect_one_only_ValueError : forall dir cwd walkup p e,
  collect_one dir cwd walkup p = Raise e -> e = ValueError.
Proof.
  intros dir cwd walkup [v|d|] e H; cbn in H; try discriminate H.
  destruct (default_body dir walkup d) eqn:E; [discriminate H|].
  inversion H; subst. exact (default_body_only_ValueError _ _ _ _ E).
Qed.

Lemma mapM_collect_only_ValueError : forall dir cwd walkup ps e,
  mapM (collect_one dir cwd walkup) ps = Raise e -> e = ValueError.
Proof.
  intros dir cwd walkup ps e H. apply mapM_raise_in in H. destruct H as [p [_ H]].
  exact (collect_one_only_ValueError _ _ _ _ _ H).
Qed.

Definition param_result (dir cwd : str) (walkup : bool) (p : pparam) (v : str) : Prop :=
  match p with
  | PSupplied x => v = path_supplied cwd x
  | PDefault d => collect_path_default dir walkup d = Ok v
  | PRequired => False
  end.

Lemma collect_one_result : forall dir cwd walkup, dir_check dir walkup = false ->
  forall p v, collect_one dir cwd walkup p = Ok (Some v) <-> param_result dir cwd walkup p v.
Proof.
  intros dir cwd walkup Hc [x|d|] v; cbn; unfold collect_path_default; rewrite ?Hc.
  - split; [intros [= <-]|intros ->]; reflexivity.
  - destruct (default_body dir walkup d); cbn; split; congruence.
  - split; [discriminate|contradiction].
Qed.

(* the wrapper's "collect, then fail on a missing value", element by element *)
Lemma mapM_all_some : forall (A B : Type) (f : A -> outcome (option B)) l ys,
  (exists vs, mapM f l = Ok vs /\ all_some vs = Some ys) <-> Forall2 (fun x y => f x = Ok (Some y)) l ys.
Proof.
  induction l as [|a l IH]; intros ys; split.
  - intros [vs [[= <-] [= <-]]]. constructor.
  - intros F. inversion F. exists []. split; reflexivity.
  - intros [vs [M S]]. apply mapM_cons_ok in M. destruct M as [v [vs' [E1 [E2 ->]]]].
    cbn in S. destruct v as [y|]; [|discriminate S].
    destruct (all_some vs') as [ys'|] eqn:S'; [|discriminate S]. injection S as <-.
    constructor; [exact E1|]. apply IH. eauto.
  - intros F. inversion F as [|? y ? ys' E1 F']; subst. apply IH in F'. destruct F' as [vs' [M S]].
    exists (Some y :: vs'). cbn. rewrite E1, M, S. split; reflexivity.
Qed.

Lemma param_result_spec : forall dir cwd walkup p v,
  param_result dir cwd walkup p v <-> spec_one dir cwd walkup p = Ok v.
Proof.
  intros dir cwd walkup [x|d|] v; cbn.
  - rewrite supplied_exact. split; congruence.
  - rewrite default_w_exact. tauto.
  - split; [contradiction|discriminate].
Qed.

(* the executable oracle equals the model: both sides fail with ValueError only, and succeed
   with l exactly when l lists the per-parameter results *)
Theorem preprocess_spec : forall dir cwd walkup ps,
  preprocess_paths dir cwd walkup ps = spec_preprocess dir cwd walkup ps.
Proof.
  intros dir cwd walkup ps. unfold preprocess_paths, spec_preprocess.
  destruct ps as [|p ps']; [reflexivity|]. generalize (p :: ps'). clear p ps'. intros ps.
  unfold collect_defaults. rewrite <- is_absolute_spec. fold (dir_check dir walkup).
  destruct (dir_check dir walkup) eqn:Hc; [reflexivity|].
  assert (R : forall l, (exists vs, mapM (collect_one dir cwd walkup) ps = Ok vs /\ all_some vs = Some l)
                        <-> mapM (spec_one dir cwd walkup) ps = Ok l).
  { intros l. rewrite mapM_all_some, mapM_Forall2.
    split; apply Forall2_impl; intros p v; rewrite (collect_one_result dir cwd walkup Hc); apply param_result_spec. }
  destruct (mapM (spec_one dir cwd walkup) ps) as [l|e].
  - destruct (proj2 (R l) eq_refl) as [vs [-> ->]]. reflexivity.
  - destruct (mapM (collect_one dir cwd walkup) ps) as [vs|e'] eqn:C.
    + destruct (all_some vs) as [l|] eqn:A; [|reflexivity].
      assert (F : Raise e = Ok l) by (apply R; eauto). discriminate F.
    + rewrite (mapM_collect_only_ValueError _ _ _ _ _ C). reflexivity.
Qed.

Theorem preprocess_only_ValueError : forall dir cwd walkup ps e,
  preprocess_paths dir cwd walkup ps = Raise e -> e = ValueError.
Proof.
  intros dir cwd walkup ps e H. rewrite preprocess_spec in H. unfold spec_preprocess in H.
  destruct ps; [discriminate H|]. destruct (negb walkup && _); [congruence|].
  destruct (mapM _ _); congruence.
Qed.

Theorem preprocess_ok : forall dir cwd walkup ps l,
  preprocess_paths dir cwd walkup ps = Ok l -> Forall2 (param_result dir cwd walkup) ps l.
Proof.
  intros dir cwd walkup ps l H. rewrite preprocess_spec in H. unfold spec_preprocess in H.
  destruct ps as [|p ps']; [inversion H; constructor|]. destruct (negb walkup && _); [discriminate H|].
  destruct (mapM _ (p :: ps')) eqn:M; inversion H; subst. apply mapM_Forall2 in M.
  revert M. apply Forall2_impl. intros q v. apply param_result_spec.
Qed.

Theorem reldir_preprocess : forall dir cwd ps, spec_abs dir = false -> ps <> [] ->
  preprocess_paths dir cwd false ps = Raise ValueError.
Proof.
  intros dir cwd ps H Hne. unfold preprocess_paths. destruct ps as [|p ps']; [congruence|].
  unfold collect_defaults, dir_check. rewrite is_absolute_spec, H. reflexivity.
Qed.
