(* PreprocessFullLib.v — two facts the composition of props/C10x.v needs:
     1. every job parameter definition of an ACCEPTED job / environment template, read by
        CreateJobFull.pdef_of_mval, is [wf_def] — the premise of C10_check_iff and of C12_sound / C12_complete
        (proved with the reading of the definitions, CreateJobFullProofs.decode_job_defs_all);
     2. the exact shape of CreateJobFull.collect_groups: one group per distinct name, keys distinct, each
        group = the definitions of that name in merge order. *)
From Coq Require Import List NArith Bool String.
Import ListNotations.
Require Import OJD.Base OJD.ListLib OJD.Json OJD.CreateJob OJD.Accept
               OJD.JobParams OJD.JobParamsSpec OJD.JobParamsProofs
               OJD.CreateJobFull OJD.CreateJobFullProofs OJD.PreprocessFullSpec.
Local Open Scope string_scope.
Local Open Scope list_scope.

Theorem decode_job_defs_wf : forall classify j t ds, decode_job classify j = Ok t ->
  defs_of_template t = Ok ds -> Forall wf_def ds.
Proof.
  intros classify j t ds H Hd. destruct (decode_job_defs_all classify j t H) as (ds' & Hds & _ & Hw & _).
  rewrite Hds in Hd. injection Hd as <-. exact Hw.
Qed.

Theorem decode_env_defs_wf : forall classify j t ds, decode_env classify j = Ok t ->
  defs_of_template t = Ok ds -> Forall wf_def ds.
Proof.
  intros classify j t ds H Hd. destruct (decode_env_defs_all classify j t H) as (ds' & Hds & _ & Hw).
  rewrite Hds in Hd. injection Hd as <-. exact Hw.
Qed.

(* [group_of k] (PreprocessFullSpec.group_of): the definitions named [k], in merge order *)

Lemma group_of_app : forall k a b, group_of k (a ++ b) = group_of k a ++ group_of k b.
Proof. intros k a b. unfold group_of. apply filter_app. Qed.

Lemma group_add_keys : forall d gs,
  map fst (group_add d gs) = if mem_str (pname d) (map fst gs) then map fst gs else map fst gs ++ [pname d].
Proof.
  intros d. induction gs as [|[k g] r IH]; [reflexivity|].
  cbn [group_add map fst mem_str]. destruct (str_eqb (pname d) k) eqn:E; cbn [orb map fst]; [reflexivity|].
  rewrite IH. destruct (mem_str (pname d) (map fst r)); reflexivity.
Qed.

(* where an element of group_add d gs comes from (keys of gs distinct) *)
Lemma group_add_in : forall d gs k g, NoDup (map fst gs) -> In (k, g) (group_add d gs) ->
  (In (k, g) gs /\ str_eqb (pname d) k = false) \/
  (str_eqb (pname d) k = true /\ exists g0, In (k, g0) gs /\ g = g0 ++ [d]) \/
  (k = pname d /\ g = [d] /\ ~ In (pname d) (map fst gs)).
Proof.
  intros d. induction gs as [|[k0 g0] r IH]; intros k g ND H.
  - cbn [group_add] in H. destruct H as [E|[]]. injection E as <- <-. right. right. split; [reflexivity|]. split; [reflexivity|]. intros [].
  - cbn [map fst] in ND. inversion ND as [|a l Hk0 ND']; subst.
    cbn [group_add] in H. destruct (str_eqb (pname d) k0) eqn:E.
    + destruct H as [E'|H].
      * injection E' as <- <-. right. left. split; [exact E|]. exists g0. split; [left; reflexivity|reflexivity].
      * left. split; [right; exact H|].
        apply str_eqb_neq. intro K. apply Hk0. apply str_eqb_eq in E. rewrite <- E, K.
        change k with (fst (k, g)). apply in_map. exact H.
    + destruct H as [E'|H].
      * injection E' as <- <-. left. split; [left; reflexivity|exact E].
      * destruct (IH k g ND' H) as [[H1 H2]|[[H1 [g1 [H2 H3]]]|[H1 [H2 H3]]]].
        -- left. split; [right; exact H1|exact H2].
        -- right. left. split; [exact H1|]. exists g1. split; [right; exact H2|exact H3].
        -- right. right. split; [exact H1|]. split; [exact H2|]. cbn [map fst]. intros [K|K]; [|exact (H3 K)].
           apply str_eqb_neq in E. apply E. symmetry. exact K.
Qed.

(* the invariant of the loop that fills collected_definitions, after the definitions [p] *)
Definition groups_inv (p : list pdef) (gs : list (str * list pdef)) : Prop :=
  NoDup (map fst gs) /\
  (forall k g, In (k, g) gs -> g = group_of k p /\ g <> []) /\
  (forall d, In d p -> In (pname d) (map fst gs)).

Lemma group_add_inv : forall p gs d, groups_inv p gs -> groups_inv (p ++ [d]) (group_add d gs).
Proof.
  intros p gs d [ND [EL CV]]. split; [|split].
  - rewrite group_add_keys. destruct (mem_str (pname d) (map fst gs)) eqn:M; [exact ND|].
    apply mem_str_false in M. apply NoDup_app_intro; [exact ND|constructor; [intros []|constructor]|].
    intros x Hx [<-|[]]. exact (M Hx).
  - intros k g H. rewrite group_of_app. unfold group_of at 2. cbn [filter].
    destruct (group_add_in d gs k g ND H) as [[H1 H2]|[[H1 [g1 [H2 H3]]]|[H1 [H2 H3]]]].
    + rewrite H2, app_nil_r. apply EL. exact H1.
    + rewrite H1. destruct (EL k g1 H2) as [-> _]. split; [exact H3|]. subst g. intro K. apply app_eq_nil in K. destruct K as [_ K]. discriminate K.
    + subst k g. rewrite str_eqb_refl. split; [|discriminate].
      assert (Z : group_of (pname d) p = []).
      { unfold group_of. apply JobParamsProofs.filter_nil_iff. intros x Hx. apply str_eqb_neq. intro K.
        apply H3. rewrite <- K. apply CV. exact Hx. }
      rewrite Z. reflexivity.
  - intros x Hx. rewrite group_add_keys. apply in_app_or in Hx.
    destruct (mem_str (pname d) (map fst gs)) eqn:M.
    + destruct Hx as [Hx|[<-|[]]]; [apply CV; exact Hx|]. apply mem_str_In. exact M.
    + apply in_or_app. destruct Hx as [Hx|[<-|[]]]; [left; apply CV; exact Hx|right; left; reflexivity].
Qed.

Lemma collect_inv : forall r p gs, groups_inv p gs ->
  groups_inv (p ++ r) (fold_left (fun gs d => group_add d gs) r gs).
Proof.
  induction r as [|d r IH]; intros p gs H; [rewrite app_nil_r; exact H|].
  cbn [fold_left]. replace (p ++ d :: r) with ((p ++ [d]) ++ r) by (rewrite <- app_assoc; reflexivity).
  apply IH. apply group_add_inv. exact H.
Qed.

Theorem collect_groups_spec : forall ds, groups_inv ds (collect_groups ds).
Proof.
  intros ds. unfold collect_groups. apply (collect_inv ds [] []).
  split; [constructor|]. split; [intros k g []|intros d []].
Qed.
