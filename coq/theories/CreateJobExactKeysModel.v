(* CreateJobExactKeysModel.v — the MODEL's Job has pairwise distinct keys in every object.

   Generic in the schema (no class is named):

     [shaped]  an instance tree as the acceptance model builds it from a document with distinct keys: every
               model node carries exactly the declared fields of its class, in order; dictionaries have
               distinct keys;
     [kwf]     an instance tree whose export has distinct keys: the aliases (under the node's class) of the
               field names of every model node are pairwise distinct; dictionaries have distinct keys.

     decode        : distinct_keys v -> parse v = Ok x -> shaped x
     instantiate   : shaped v -> inst v = Ok y -> kwf y        (a reshaped list becomes a dictionary by
                     [dict_set], which never repeats a key; the output field names of a class are a function of
                     the class: declared names minus excluded, renamed, plus "value")
     export        : kwf y -> distinct_keys (jobj y)

   The condition on the schema is one boolean check ([schema_keys_ok], by computation on Generated.schema): for
   every class, the aliases of its declared fields are distinct, and so are the aliases -- under each possible
   target class -- of the field names instantiate_model produces for it. *)
From Coq Require Import List NArith ZArith Bool String Lia.
Import ListNotations.
Require Import OJD.Base OJD.ListLib OJD.Lexer OJD.Json OJD.Schema OJD.Generated OJD.Charsets OJD.Numerals OJD.NumPrint OJD.FormatStr OJD.CreateJob OJD.CreateJobProofs OJD.Parse
               OJD.Validators OJD.Accept OJD.AcceptMono OJD.DecodeInv OJD.JsonEquiv OJD.CreateJobExactLib
               OJD.CreateJobExactCarried OJD.CreateJobExactKeysLib.
Local Open Scope string_scope.
Local Open Scope list_scope.

Lemma leaf_of_scalar : forall m, scalar_mval m -> leaf m = true.
Proof. intros m H. destruct m; try reflexivity; destruct H. Qed.

Lemma Forall_snd_in : forall (K V : Type) (P : V -> Prop) (l : list (K * V)),
  (forall kv, In kv l -> P (snd kv)) -> Forall (fun kv => P (snd kv)) l.
Proof. intros K V P l H. apply Forall_forall. exact H. Qed.

Section Keys.
  Variable SC : schema_t.

  Definition akey (c n : string) : str := str_of_string (alias_of SC c n).

  Inductive shaped : mval -> Prop :=
  | Sh_leaf : forall v, leaf v = true -> shaped v
  | Sh_list : forall l, Forall shaped l -> shaped (MList l)
  | Sh_dict : forall l, NoDup (map fst l) -> Forall (fun kv => shaped (snd kv)) l -> shaped (MDict l)
  | Sh_model : forall c c0 fs, lookup_cls SC c = Some c0 -> map fst fs = map f_name (c_fields c0) ->
                               Forall (fun kv => shaped (snd kv)) fs -> shaped (MModel c fs).

  Inductive kwf : mval -> Prop :=
  | K_leaf : forall v, leaf v = true -> kwf v
  | K_list : forall l, Forall kwf l -> kwf (MList l)
  | K_dict : forall l, NoDup (map fst l) -> Forall (fun kv => kwf (snd kv)) l -> kwf (MDict l)
  | K_model : forall c fs, NoDup (map (fun fv => akey c (fst fv)) fs) ->
                           Forall (fun kv => kwf (snd kv)) fs -> kwf (MModel c fs).

  Lemma kwf_list_inv : forall l, kwf (MList l) -> Forall kwf l.
  Proof. intros l H. inversion H as [v Hl| | |]; subst; [discriminate Hl|assumption]. Qed.

  Lemma kwf_dict_inv : forall l, kwf (MDict l) -> NoDup (map fst l) /\ Forall (fun kv => kwf (snd kv)) l.
  Proof. intros l H. inversion H as [v Hl| | |]; subst; [discriminate Hl|split; assumption]. Qed.

  Lemma kwf_model_inv : forall c fs, kwf (MModel c fs) ->
    NoDup (map (fun fv => akey c (fst fv)) fs) /\ Forall (fun kv => kwf (snd kv)) fs.
  Proof. intros c fs H. inversion H as [v Hl| | |]; subst; [discriminate Hl|split; assumption]. Qed.

  Lemma dk_kept : forall (A : Type) (key : A -> str) g (l : list (A * mval)),
    NoDup (map (fun kv => key (fst kv)) l) -> (forall kv, In kv l -> distinct_keys (g kv) = true) ->
    distinct_keys (JObj (kept key g l)) = true.
  Proof.
    intros A key g l Hnd Hv. cbn [distinct_keys]. apply andb_true_iff. split.
    - apply NoDup_str_nodupb. unfold kept. apply (kept_keys_NoDup _ _ (fun kv => key (fst kv)) fst); [|exact Hnd].
      intros [k x]. cbn [fst snd]. destruct x; [left; reflexivity|right; eexists; split; reflexivity ..].
    - rewrite forallb_forall. intros m Hm. destruct (in_kept _ _ _ _ _ Hm) as [kv [Hin [_ ->]]]. exact (Hv kv Hin).
  Qed.

  Theorem kwf_tobj : forall v, kwf v -> distinct_keys (tobj SC v) = true.
  Proof.
    induction v as [ | | | | | | |l IH|l IH|c fs IH] using mval_ind3; intros H; try reflexivity.
    - apply kwf_list_inv in H. cbn [tobj distinct_keys]. rewrite forallb_forall. intros y Hy. apply in_map_iff in Hy.
      destruct Hy as [x [<- Hx]]. rewrite Forall_forall in IH, H. exact (IH x Hx (H x Hx)).
    - apply kwf_dict_inv in H. destruct H as [Hnd Hv]. rewrite tobj_dict. apply dk_kept; [exact Hnd|].
      intros kv Hin. rewrite Forall_forall in IH, Hv. exact (IH _ Hin (Hv _ Hin)).
    - apply kwf_model_inv in H. destruct H as [Hnd Hv]. rewrite tobj_model. apply dk_kept; [exact Hnd|].
      intros kv Hin. rewrite Forall_forall in IH, Hv. exact (IH _ Hin (Hv _ Hin)).
  Qed.

  Lemma kwf_coerce : forall i, kwf i -> kwf (coerce_range_item i).
  Proof. intros i H. destruct i; try exact H; apply K_leaf; reflexivity. Qed.

  Theorem kwf_jobj : forall v, kwf v -> distinct_keys (jobj SC v) = true.
  Proof.
    induction v as [ | | | | | | |l IH|l IH|c fs IH] using mval_ind3; intros H; try reflexivity.
    - apply kwf_list_inv in H. cbn [jobj distinct_keys]. rewrite forallb_forall. intros y Hy. apply in_map_iff in Hy.
      destruct Hy as [x [<- Hx]]. rewrite Forall_forall in IH, H. exact (IH x Hx (H x Hx)).
    - apply kwf_dict_inv in H. destruct H as [Hnd Hv]. rewrite jobj_dict. apply dk_kept; [exact Hnd|].
      intros kv Hin. rewrite Forall_forall in IH, Hv. exact (IH _ Hin (Hv _ Hin)).
    - apply kwf_model_inv in H. destruct H as [Hnd Hv]. rewrite jobj_fields. apply dk_kept; [exact Hnd|].
      intros [n x] Hin. rewrite Forall_forall in IH, Hv. specialize (IH _ Hin). specialize (Hv _ Hin).
      unfold jfield. cbn [fst snd] in *. destruct (String.eqb n "range"); [|exact (IH Hv)].
      destruct x as [ | | | | | | |items| | ]; try exact (kwf_tobj _ Hv).
      apply kwf_list_inv in Hv. cbn [distinct_keys]. rewrite forallb_forall. intros y Hy. apply in_map_iff in Hy.
      destruct Hy as [i [<- Hi]]. unfold range_item. apply kwf_tobj. apply kwf_coerce.
      rewrite Forall_forall in Hv. exact (Hv i Hi).
  Qed.

  Definition renamed (j : jcm) (n : string) : string := match lookup_s n (j_rename j) with Some t => t | None => n end.

  Definition out_core (j : jcm) (ns : list string) : list string :=
    flat_map (fun n => if mem_s n (j_exclude j) then [] else [renamed j n]) ns.

  Definition out_names (j : jcm) (ns : list string) : list string :=
    out_core j ns ++ (if j_adds_value j then ["value"] else []).

  Definition targets (j : jcm) (c : string) : list string :=
    match j_create_as j with
    | CreateSelf => [c]
    | CreateModel t => [t]
    | CreateIntRange a b => [a; b]
    end.

  Definition cls_keys_ok (nc : string * cls) : bool :=
    let j := c_jcm (snd nc) in
    let ns := map f_name (c_fields (snd nc)) in
    str_nodupb (map (akey (fst nc)) ns) &&
    forallb (fun t => str_nodupb (map (akey t) (out_names j ns))) (targets j (fst nc)).

  Definition schema_keys_ok : bool := forallb cls_keys_ok SC.

  Hypothesis Hschema : schema_keys_ok = true.

  Lemma cls_keys_of : forall c c0, lookup_cls SC c = Some c0 ->
    NoDup (map (akey c) (map f_name (c_fields c0))) /\
    forall t, In t (targets (c_jcm c0) c) -> NoDup (map (akey t) (out_names (c_jcm c0) (map f_name (c_fields c0)))).
  Proof.
    intros c c0 Hl. apply lookup_cls_In in Hl. unfold schema_keys_ok in Hschema. rewrite forallb_forall in Hschema.
    specialize (Hschema _ Hl). unfold cls_keys_ok in Hschema. cbn [fst snd] in Hschema.
    apply andb_true_iff in Hschema. destruct Hschema as [H1 H2]. split; [apply str_nodupb_NoDup; exact H1|].
    intros t Ht. rewrite forallb_forall in H2. apply str_nodupb_NoDup. exact (H2 t Ht).
  Qed.

  Theorem shaped_kwf : forall v, shaped v -> kwf v.
  Proof.
    induction v as [ | | | | | | |l IH|l IH|c fs IH] using mval_ind3; intros H; try (apply K_leaf; reflexivity).
    - inversion H as [v Hl|l' HF| |]; subst; [discriminate Hl|]. apply K_list. rewrite Forall_forall in *.
      intros x Hx. exact (IH x Hx (HF x Hx)).
    - inversion H as [v Hl| |l' Hnd HF|]; subst; [discriminate Hl|]. apply K_dict; [exact Hnd|]. rewrite Forall_forall in *.
      intros x Hx. exact (IH x Hx (HF x Hx)).
    - inversion H as [v Hl| | |c' c0 fs' Hlk Hn HF]; subst; [discriminate Hl|]. apply K_model.
      + rewrite <- (map_map fst (akey c)). rewrite Hn. exact (proj1 (cls_keys_of c c0 Hlk)).
      + rewrite Forall_forall in *. intros x Hx. exact (IH x Hx (HF x Hx)).
  Qed.

  Section Decode.
    Variable classify : N -> cclass.
    Variable pre : string -> json -> bool.
    Variable post : string -> json -> list (string * mval) -> bool.
    Notation pk := (parse_kind SC classify pre post).
    Notation pc := (parse_cls SC classify pre post).

    Lemma list_items_shaped : forall f lo hi k v x,
      (forall k v x, pk f k v = Ok x -> distinct_keys v = true -> shaped x) ->
      list_items (pk f) lo hi k v = Ok x -> distinct_keys v = true -> shaped x.
    Proof.
      intros f lo hi k v x IHk H Hd. destruct (list_items_ok _ _ _ _ _ _ H) as [items [l [-> [Em ->]]]].
      apply Sh_list. apply Forall_forall. intros y Hy.
      destruct (mapM_ok_in _ _ _ _ _ Em y Hy) as [it [Hit Hp]]. exact (IHk k it y Hp (dk_item items it Hd Hit)).
    Qed.

    Lemma dict_entries_keys : forall f kk k members l,
      mapM (dict_entry (pk f) kk k) members = Ok l -> map fst l = map fst members.
    Proof.
      intros f kk k members. induction members as [|[k0 v0] r IH]; intros l H.
      - injection H as <-. reflexivity.
      - apply mapM_cons_ok in H. destruct H as [y [ys [Hy [Hr ->]]]]. cbn [map]. rewrite (IH ys Hr). f_equal.
        apply dict_entry_ok in Hy. destruct Hy as [x [_ ->]]. reflexivity.
    Qed.

    Lemma parse_value_shaped : forall f fl raw x,
      (forall k v x, pk f k v = Ok x -> distinct_keys v = true -> shaped x) ->
      parse_value (pk f) fl raw = Ok x -> distinct_keys raw = true -> shaped x.
    Proof.
      intros f fl raw x IHk H Hd. destruct (parse_value_ok _ _ _ _ H) as [[_ [_ ->]]|K]; [apply Sh_leaf; reflexivity|].
      destruct (f_shape fl) as [|lo hi|kk].
      - exact (IHk _ _ _ K Hd).
      - exact (list_items_shaped f lo hi _ _ _ IHk K Hd).
      - destruct K as [members [l' [-> [Em ->]]]]. destruct (dk_members members Hd) as [Hnd Hv]. apply Sh_dict.
        + rewrite (dict_entries_keys f kk _ members l' Em). exact Hnd.
        + apply Forall_forall. intros kv' Hkv'. destruct (mapM_ok_in _ _ _ _ _ Em kv' Hkv') as [[k0 v0] [Hin Hx]].
          apply dict_entry_ok in Hx. destruct Hx as [y [E2 ->]]. exact (IHk _ _ _ E2 (Hv _ _ Hin)).
    Qed.

    Lemma parse_fields_names : forall pkf ms fls fields,
      mapM (parse_field pkf ms) fls = Ok fields -> map fst fields = map f_name fls.
    Proof.
      intros pkf ms fls. induction fls as [|fl r IH]; intros fields H.
      - injection H as <-. reflexivity.
      - apply mapM_cons_ok in H. destruct H as [y [ys [Hy [Hr ->]]]]. cbn [map]. rewrite (IH ys Hr). f_equal.
        apply parse_field_ok in Hy. destruct Hy as [x [_ ->]]. reflexivity.
    Qed.

    Lemma dk_field_raw : forall ms fl, distinct_keys (JObj ms) = true -> distinct_keys (field_raw ms fl) = true.
    Proof.
      intros ms fl H. unfold field_raw. destruct (assoc (str_of_string (f_alias fl)) ms) as [v|] eqn:E; [|reflexivity].
      apply assoc_In in E. exact (proj2 (dk_members ms H) _ _ E).
    Qed.

    Theorem decode_shaped : forall f,
      (forall k v x, pk f k v = Ok x -> distinct_keys v = true -> shaped x) /\
      (forall c v x, pc f c v = Ok x -> distinct_keys v = true -> shaped x).
    Proof.
      induction f as [|f [IHk IHc]].
      - split; intros a v x H; discriminate H.
      - split.
        + intros k v x H Hd. rewrite parse_kind_S in H.
          destruct k as [lit|members|strict lo hi cs|c lo hi cs|strict|strict ge le gt|gt| |c|key mp|alts];
            try (apply Sh_leaf; apply leaf_of_scalar; exact (parse_scalar_ok_scalar _ _ _ _ H)).
          * exact (IHc c v x H Hd).
          * destruct (disc_res_ok _ _ _ _ _ H) as [ms [s [kc [_ [_ [_ [_ H']]]]]]]. exact (IHc _ _ x H' Hd).
          * apply try_alts_inv in H. destruct H as [a [_ Hr]].
            destruct a as [k'|lo hi k']; cbn [alt_res] in Hr.
            -- exact (IHk k' v x Hr Hd).
            -- exact (list_items_shaped f lo hi k' v x IHk Hr Hd).
        + intros c v x H Hd.
          destruct (pc_inv _ _ _ _ _ _ _ _ H) as [f' [c0 [ms [fields [Ef [Hlk [-> [-> [_ [_ [Hm _]]]]]]]]]]].
          injection Ef as <-. apply (Sh_model c c0 fields Hlk (parse_fields_names _ _ _ _ Hm)).
          apply Forall_forall. intros kv Hkv. destruct (mapM_ok_in _ _ _ _ _ Hm kv Hkv) as [fl [_ Hp]].
          apply parse_field_inv in Hp. destruct Hp as [y [-> Hv]]. cbn [snd].
          exact (parse_value_shaped f fl _ y IHk Hv (dk_field_raw ms fl Hd)).
    Qed.
  End Decode.

  Lemma dict_set_keys_in : forall d k v x, In x (map fst (dict_set d k v)) -> x = k \/ In x (map fst d).
  Proof.
    intros d k v x H. apply in_map_iff in H. destruct H as [kv [<- Hkv]]. apply dict_set_in in Hkv.
    destruct Hkv as [->|Hkv]; [left; reflexivity|right; apply in_map; exact Hkv].
  Qed.

  Lemma dict_set_NoDup : forall d k v, NoDup (map fst d) -> NoDup (map fst (dict_set d k v)).
  Proof.
    induction d as [|[k' v'] r IH]; intros k v H.
    - cbn [dict_set map fst]. constructor; [intros []|constructor].
    - cbn [map fst] in H. inversion H as [|a l Hn Hd]; subst. cbn [dict_set]. destruct (str_eqb k k') eqn:E.
      + apply str_eqb_eq in E. subst k'. cbn [map fst]. constructor; assumption.
      + cbn [map fst]. constructor; [|exact (IH k v Hd)]. intros Hin. apply dict_set_keys_in in Hin.
        destruct Hin as [->|Hin]; [rewrite str_eqb_refl in E; discriminate E|exact (Hn Hin)].
  Qed.

  Section Inst.
    Variable resolve : symtab -> str -> outcome str.
    Variable sigma : symtab.
    Variable rec : mval -> outcome mval.
    Hypothesis Hrec : forall v y, shaped v -> rec v = Ok y -> kwf y.
    Variable j : jcm.

    Lemma inst_item_kwf : forall fn x y, shaped x -> inst_item resolve sigma rec j fn x = Ok y -> kwf y.
    Proof.
      intros fn x y Hs H. destruct x; cbn [inst_item] in H; try (injection H as <-; apply shaped_kwf; exact Hs).
      - destruct (mem_s fn (j_resolve j)); [|injection H as <-; apply K_leaf; reflexivity].
        destruct (resolve sigma s); cbn [bind] in H; [injection H as <-; apply K_leaf; reflexivity|discriminate H].
      - exact (Hrec _ _ Hs H).
    Qed.

    Lemma inst_member_kwf : forall kv kv', shaped (snd kv) -> inst_member resolve sigma rec j kv = Ok kv' ->
      fst kv' = fst kv /\ kwf (snd kv').
    Proof.
      intros [k x] kv' Hs H. unfold inst_member in H. cbn [fst snd] in *.
      destruct x; cbn [bind] in H; try (injection H as <-; split; [reflexivity|apply shaped_kwf; exact Hs]).
      - destruct (existsb _ (j_resolve j)); cbn [bind] in H; [|injection H as <-; split; [reflexivity|apply K_leaf; reflexivity]].
        destruct (resolve sigma s); cbn [bind] in H; [injection H as <-; split; [reflexivity|apply K_leaf; reflexivity]|discriminate H].
      - destruct (rec (MModel cls fields)) as [y|e] eqn:Er; cbn [bind] in H; [|discriminate H].
        injection H as <-. split; [reflexivity|exact (Hrec _ _ Hs Er)].
    Qed.

    Lemma reshape_fold_kwf : forall fn kf items acc d,
      Forall shaped items -> NoDup (map fst acc) -> Forall (fun kv => kwf (snd kv)) acc ->
      fold_left (reshape_step resolve sigma rec j fn kf) items (Ok acc) = Ok d ->
      NoDup (map fst d) /\ Forall (fun kv => kwf (snd kv)) d.
    Proof.
      intros fn kf items. induction items as [|it r IH]; intros acc d Hs Hnd Hv H.
      - cbn [fold_left] in H. injection H as <-. split; assumption.
      - cbn [fold_left] in H. inversion Hs as [|a l Hs1 Hs2]; subst.
        destruct (reshape_step resolve sigma rec j fn kf (Ok acc) it) as [acc'|e] eqn:Es.
        + unfold reshape_step in Es. cbn [bind] in Es.
          destruct (key_of it kf) as [k|e]; cbn [bind] in Es; [|discriminate Es].
          destruct (inst_item resolve sigma rec j fn it) as [y|e] eqn:Ei; cbn [bind] in Es; [|discriminate Es].
          injection Es as <-. apply (IH (dict_set acc k y) d Hs2); [apply dict_set_NoDup; exact Hnd| |exact H].
          apply Forall_forall. intros kv Hkv. apply dict_set_in in Hkv. destruct Hkv as [->|Hkv].
          * cbn [snd]. exact (inst_item_kwf fn it y Hs1 Ei).
          * rewrite Forall_forall in Hv. exact (Hv kv Hkv).
        + exfalso. clear - H. induction r as [|it' r IH]; [discriminate H|]. cbn [fold_left] in H. apply IH. exact H.
    Qed.

    Lemma inst_val_kwf : forall fn x y, shaped x -> inst_val resolve sigma rec j fn x = Ok y -> kwf y.
    Proof.
      intros fn x y Hs H. destruct x as [ | | | | | | |items|members|c fs]; try exact (inst_item_kwf fn _ y Hs H).
      - inversion Hs as [v Hl|l HF| |]; subst; [discriminate Hl|]. cbn [inst_val] in H.
        destruct (lookup_s fn (j_reshape j)) as [kf|].
        + destruct (fold_left _ items (Ok [])) as [d|e] eqn:Ef; cbn [bind] in H; [|discriminate H]. injection H as <-.
          destruct (reshape_fold_kwf fn kf items [] d HF (NoDup_nil _) (Forall_nil _) Ef) as [H1 H2].
          apply K_dict; assumption.
        + destruct (mapM _ items) as [l|e] eqn:Em; cbn [bind] in H; [|discriminate H]. injection H as <-.
          apply K_list. apply Forall_forall. intros y Hy. destruct (mapM_ok_in _ _ _ _ _ Em y Hy) as [x [Hx Hf]].
          rewrite Forall_forall in HF. exact (inst_item_kwf fn x y (HF x Hx) Hf).
      - inversion Hs as [v Hl| |l Hnd HF|]; subst; [discriminate Hl|]. cbn [inst_val] in H.
        destruct (mapM _ members) as [l|e] eqn:Em; cbn [bind] in H; [|discriminate H]. injection H as <-.
        rewrite Forall_forall in HF. apply K_dict.
        + assert (E : map fst l = map fst members).
          { clear Hnd Hs. revert l Em HF. induction members as [|kv r IH]; intros l Em HF.
            - injection Em as <-. reflexivity.
            - apply mapM_cons_ok in Em. destruct Em as [y [ys [Hy [Hr ->]]]]. cbn [map].
              rewrite (IH ys Hr (fun kv' Hkv' => HF kv' (or_intror Hkv'))). f_equal.
              exact (proj1 (inst_member_kwf kv y (HF kv (or_introl eq_refl)) Hy)). }
          rewrite E. exact Hnd.
        + apply Forall_forall. intros kv' Hkv'. destruct (mapM_ok_in _ _ _ _ _ Em kv' Hkv') as [kv [Hkv Hf]].
          exact (proj2 (inst_member_kwf kv kv' (HF kv Hkv) Hf)).
    Qed.

    Lemma inst_fields_out : forall fields fss,
      mapM (inst_field resolve sigma rec j) fields = Ok fss -> Forall (fun kv => shaped (snd kv)) fields ->
      map fst (List.concat fss) = out_core j (map fst fields) /\ Forall (fun kv => kwf (snd kv)) (List.concat fss).
    Proof.
      induction fields as [|[fn x] r IH]; intros fss H Hs.
      - injection H as <-. split; [reflexivity|constructor].
      - apply mapM_cons_ok in H. destruct H as [y [ys [Hy [Hr ->]]]]. inversion Hs as [|a l Hs1 Hs2]; subst.
        destruct (IH ys Hr Hs2) as [IH1 IH2]. cbn [List.concat map fst]. unfold out_core in *. cbn [flat_map].
        rewrite map_app, IH1. unfold inst_field in Hy.
        destruct (mem_s fn (j_exclude j)).
        + injection Hy as <-. split; [reflexivity|exact IH2].
        + destruct (inst_val resolve sigma rec j fn x) as [y0|e] eqn:Ev; cbn [bind] in Hy; [|discriminate Hy].
          injection Hy as <-. split; [reflexivity|]. cbn [app]. constructor; [|exact IH2].
          cbn [snd] in *. exact (inst_val_kwf fn x y0 Hs1 Ev).
    Qed.
  End Inst.

  Theorem inst_kwf : forall resolve sigma f v y, shaped v -> inst SC resolve sigma f v = Ok y -> kwf y.
  Proof.
    intros resolve sigma. induction f as [|f IH]; intros v y Hs H; [rewrite inst_O in H; discriminate H|].
    rewrite inst_S in H. destruct v as [ | | | | | | | | |c fields]; try (injection H as <-; apply shaped_kwf; exact Hs).
    inversion Hs as [v Hl| | |c' c0 fs' Hlk Hn HF]; subst; [discriminate Hl|].
    assert (Ej : jcm_of SC c = c_jcm c0) by (unfold jcm_of; rewrite Hlk; reflexivity).
    rewrite Ej in H. set (j := c_jcm c0) in *.
    unfold inst_model in H.
    destruct (mapM _ fields) as [fss|e] eqn:Em; cbn [bind] in H; [|discriminate H].
    destruct (add_value sigma j fields (List.concat fss)) as [fs'|e] eqn:Ea; cbn [bind] in H; [|discriminate H].
    injection H as <-.
    destruct (inst_fields_out resolve sigma (inst SC resolve sigma f) IH j fields fss Em HF) as [Hnames Hvals].
    assert (Hout : map fst fs' = out_names j (map fst fields) /\ Forall (fun kv => kwf (snd kv)) fs').
    { unfold add_value in Ea. unfold out_names. destruct (j_adds_value j).
      - destruct (mfield "name" fields) as [ | | | | |n| | | | ]; try discriminate Ea.
        destruct (st_lookup sigma _); [|discriminate Ea]. injection Ea as <-. split.
        + rewrite map_app, Hnames. reflexivity.
        + apply Forall_app. split; [exact Hvals|]. constructor; [apply K_leaf; reflexivity|constructor].
      - injection Ea as <-. rewrite app_nil_r. split; assumption. }
    destruct Hout as [Hout1 Hout2]. apply K_model; [|exact Hout2].
    rewrite <- (map_map fst (akey _)). rewrite Hout1, Hn.
    apply (proj2 (cls_keys_of c c0 Hlk)). fold j. unfold target_class, targets.
    destruct (j_create_as j) as [|t|a b]; [left; reflexivity|left; reflexivity|].
    destruct (mfield "range" fields); try (right; left; reflexivity). left. reflexivity.
  Qed.
End Keys.

Notation G := Generated.schema.

Lemma live_schema_keys_ok : schema_keys_ok G = true.
Proof. vm_compute. reflexivity. Qed.

Theorem decoded_job_shaped : forall classify j t, decode_job classify j = Ok t -> distinct_keys j = true -> shaped G t.
Proof.
  intros classify j t H Hd. unfold decode_job in H. destruct j as [| | | | | |ms]; try discriminate H.
  destruct (version_ok Generated.job_template_versions (JObj ms)); [|discriminate H].
  unfold parse_template, parse_root in H.
  exact (proj2 (decode_shaped G classify pre_hook (post_hook classify) _) _ _ _ H Hd).
Qed.

(* the object form of the Job the instantiation model builds has pairwise distinct keys in every object *)
Theorem model_job_distinct_keys : forall classify resolve j t vals job,
  decode_job classify j = Ok t -> distinct_keys j = true ->
  create_job_object G resolve vals t = Ok job -> distinct_keys job = true.
Proof.
  intros classify resolve j t vals job Hdec Hd H. unfold create_job_object in H. cbv zeta in H.
  destruct (inst G resolve (symtab_of vals) (S (mval_depth t)) t) as [y|e] eqn:Ei; cbn [bind] in H; [|discriminate H].
  assert (E : job = to_object G (S (S (S (mval_depth t)))) (coerce_job (S (mval_depth t)) y))
    by (injection H; intros <-; reflexivity).
  pose proof (inst_depth G resolve (symtab_of vals) _ _ _ Ei) as Hdy.
  rewrite E. rewrite to_object_coerce_jobj by lia. apply kwf_jobj.
  exact (inst_kwf G live_schema_keys_ok resolve (symtab_of vals) _ t y (decoded_job_shaped classify j t Hdec Hd) Ei).
Qed.
