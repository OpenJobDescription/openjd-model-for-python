(* ExportCreatedPlain.v — the export of a CREATED Job is plain data (no null, JSON scalars only).

   ExportProofs.to_object_plain needs [no_none_items]: no None as a list item (None fields / dictionary values are
   dropped by model_to_object).  It holds of every decoded template (ExportProofs.parse_nn), instantiate_model keeps
   it ([inst_nn]: an item is a model, a format string or kept as it is; the reshaped dictionaries hold instantiated
   items), and so does the job-side coercion ([coerce_nn]: a number becomes its text). *)
From Coq Require Import List NArith ZArith Bool String Lia.
Import ListNotations.
Require Import OJD.Base OJD.Json OJD.Schema OJD.CreateJob OJD.CreateJobProofs OJD.Parse OJD.Validators OJD.Accept
               OJD.ExportProofs OJD.CreateJobExactLib OJD.ConformInst OJD.ListLib.
Local Open Scope string_scope.
Local Open Scope list_scope.

Definition onn_ok (x : mval) : bool := mnone x || no_none_items x.

Lemma nn_onn : forall x, no_none_items x = true -> onn_ok x = true.
Proof. intros x H. unfold onn_ok. rewrite H. apply orb_true_r. Qed.

Lemma onn_ok_no_none : forall x, onn_ok x = true -> mnone x = false -> no_none_items x = true.
Proof. intros x H Hn. unfold onn_ok in H. rewrite Hn in H. exact H. Qed.

Section InstNN.
  Variable resolve : symtab -> str -> outcome str.
  Variable sigma : symtab.
  Variable rec : mval -> outcome mval.
  Variable j : jcm.
  Hypothesis Hrec : forall a b, rec a = Ok b -> no_none_items a = true -> no_none_items b = true.

  Lemma inst_item_nn : forall fn x y, inst_item resolve sigma rec j fn x = Ok y ->
    no_none_items x = true -> no_none_items y = true.
  Proof.
    intros fn x y H Hx. destruct x; cbn [inst_item] in H; try (injection H as <-; exact Hx).
    - destruct (mem_s fn (j_resolve j)); [|injection H as <-; exact Hx].
      destruct (resolve sigma s) as [r|e]; cbn [bind] in H; [|discriminate H]. injection H as <-. reflexivity.
    - eapply Hrec; eassumption.
  Qed.

  Lemma reshape_fold_raise : forall fn kf items e d,
    fold_left (reshape_step resolve sigma rec j fn kf) items (Raise e) <> Ok d.
  Proof. induction items as [|z r IH]; intros e d H; [discriminate H|]. exact (IH _ _ H). Qed.

  Lemma reshape_fold_nn : forall fn kf items acc d,
    fold_left (reshape_step resolve sigma rec j fn kf) items (Ok acc) = Ok d ->
    forallb no_none_items items = true ->
    (forall kv, In kv acc -> onn_ok (snd kv) = true) ->
    forall kv, In kv d -> onn_ok (snd kv) = true.
  Proof.
    intros fn kf. induction items as [|x r IH]; intros acc d H Hi Ha kv Hkv.
    - cbn [fold_left] in H. injection H as <-. apply Ha. exact Hkv.
    - cbn [fold_left] in H. cbn [forallb] in Hi. apply andb_true_iff in Hi. destruct Hi as [Hx Hr].
      unfold reshape_step at 2 in H. cbn [bind] in H.
      destruct (key_of x kf) as [k|e] eqn:Ek; cbn [bind] in H; [|destruct (reshape_fold_raise _ _ _ _ _ H)].
      destruct (inst_item resolve sigma rec j fn x) as [y|e] eqn:Ey; cbn [bind] in H; [|destruct (reshape_fold_raise _ _ _ _ _ H)].
      apply (IH _ _ H Hr); [|exact Hkv].
      intros kv' Hkv'. apply dict_set_in in Hkv'. destruct Hkv' as [->|Hkv']; [|apply Ha; exact Hkv'].
      cbn [snd]. apply nn_onn. eapply inst_item_nn; eassumption.
  Qed.

  Lemma inst_val_nn : forall fn x y, inst_val resolve sigma rec j fn x = Ok y -> onn_ok x = true -> onn_ok y = true.
  Proof.
    intros fn x y H Hx. destruct x as [ | | | | | | |items|members|c fs].
    1-7: cbn [inst_val inst_item] in H.
    1-6: injection H as <-; reflexivity.
    - destruct (mem_s fn (j_resolve j)); [|injection H as <-; reflexivity].
      destruct (resolve sigma s) as [r|e]; cbn [bind] in H; [|discriminate H]. injection H as <-. reflexivity.
    - (* a list *)
      assert (Hi : forallb no_none_items items = true) by (apply (onn_ok_no_none _ Hx); reflexivity).
      cbn [inst_val] in H. destruct (lookup_s fn (j_reshape j)) as [kf|].
      + destruct (fold_left _ items (Ok [])) as [d|e] eqn:Ef; cbn [bind] in H; [|discriminate H]. injection H as <-.
        apply nn_onn. cbn [no_none_items]. rewrite forallb_forall. intros kv Hkv.
        apply (reshape_fold_nn fn kf items [] d Ef Hi); [intros kv' []|exact Hkv].
      + destruct (mapM (inst_item resolve sigma rec j fn) items) as [l|e] eqn:Em; cbn [bind] in H; [|discriminate H].
        injection H as <-. apply nn_onn. cbn [no_none_items]. rewrite forallb_forall. intros y Hy.
        destruct (mapM_ok_in _ _ _ _ _ Em y Hy) as [x [Hx' Hr]]. rewrite forallb_forall in Hi.
        eapply inst_item_nn; [exact Hr|apply Hi; exact Hx'].
    - (* a dictionary *)
      assert (Hi : forallb (fun kv : str * mval => onn_ok (snd kv)) members = true) by (apply (onn_ok_no_none _ Hx); reflexivity).
      cbn [inst_val] in H. destruct (mapM (inst_member resolve sigma rec j) members) as [l|e] eqn:Em; cbn [bind] in H; [|discriminate H].
      injection H as <-. apply nn_onn. cbn [no_none_items]. rewrite forallb_forall. intros kv Hkv.
      destruct (mapM_ok_in _ _ _ _ _ Em kv Hkv) as [kv0 [Hkv0 Hr]]. rewrite forallb_forall in Hi.
      specialize (Hi kv0 Hkv0). unfold inst_member in Hr.
      destruct (snd kv0) as [ | | | | | |s| | |c fs] eqn:Es;
        try (cbn [bind] in Hr; injection Hr as <-; cbn [snd]; exact Hi).
      * destruct (existsb _ (j_resolve j)).
        -- destruct (resolve sigma s) as [r|e]; cbn [bind] in Hr; [|discriminate Hr]. injection Hr as <-. reflexivity.
        -- cbn [bind] in Hr. injection Hr as <-. reflexivity.
      * destruct (rec (MModel c fs)) as [y|e] eqn:Ey; cbn [bind] in Hr; [|discriminate Hr]. injection Hr as <-.
        cbn [snd]. apply nn_onn. eapply Hrec; [exact Ey|]. apply (onn_ok_no_none _ Hi). reflexivity.
    - (* a model *)
      cbn [inst_val inst_item] in H. apply nn_onn. eapply Hrec; [exact H|]. apply (onn_ok_no_none _ Hx). reflexivity.
  Qed.
End InstNN.

Theorem inst_nn : forall SC resolve sigma f v y,
  inst SC resolve sigma f v = Ok y -> no_none_items v = true -> no_none_items y = true.
Proof.
  intros SC resolve sigma. induction f as [|f IH]; intros v y H Hv; [rewrite inst_O in H; discriminate H|].
  rewrite inst_S in H. destruct v as [ | | | | | | | | |c fields]; try (injection H as <-; exact Hv).
  unfold inst_model in H.
  destruct (mapM (inst_field resolve sigma (inst SC resolve sigma f) (jcm_of SC c)) fields) as [fss|e] eqn:Em;
    cbn [bind] in H; [|discriminate H].
  destruct (add_value sigma (jcm_of SC c) fields (List.concat fss)) as [fs'|e] eqn:Ea; cbn [bind] in H; [|discriminate H].
  injection H as <-. cbn [no_none_items] in Hv |- *. rewrite forallb_forall in Hv |- *.
  assert (Hc : forall kv, In kv (List.concat fss) -> onn_ok (snd kv) = true).
  { intros kv Hkv. apply in_concat in Hkv. destruct Hkv as [fs1 [Hfs1 Hkv]].
    destruct (mapM_ok_in _ _ _ _ _ Em fs1 Hfs1) as [[fn x] [Hin Hr]]. unfold inst_field in Hr.
    destruct (mem_s fn (j_exclude (jcm_of SC c))); [injection Hr as <-; destruct Hkv|].
    destruct (inst_val resolve sigma (inst SC resolve sigma f) (jcm_of SC c) fn x) as [y|e] eqn:Ey; cbn [bind] in Hr; [|discriminate Hr].
    injection Hr as <-. destruct Hkv as [<-|[]]. cbn [snd].
    eapply inst_val_nn; [exact IH|exact Ey|]. exact (Hv (fn, x) Hin). }
  intros kv Hkv. unfold add_value in Ea. destruct (j_adds_value (jcm_of SC c)).
  - destruct (mfield "name" fields); try discriminate Ea.
    destruct (st_lookup sigma _); [|discriminate Ea]. injection Ea as <-.
    apply in_app_or in Hkv. destruct Hkv as [Hkv|[<-|[]]]; [apply Hc; exact Hkv|reflexivity].
  - injection Ea as <-. apply Hc. exact Hkv.
Qed.

Lemma coerce_item_nn : forall x, no_none_items x = true -> no_none_items (coerce_range_item x) = true.
Proof. intros x H. destruct x; try exact H; reflexivity. Qed.

Lemma coerce_mnone : forall x, mnone (coerce x) = mnone x.
Proof. intros x. destruct x; reflexivity. Qed.

Theorem coerce_nn : forall v, no_none_items v = true -> no_none_items (coerce v) = true.
Proof.
  induction v as [ | | | | | | |l IH|l IH|c fs IH] using mval_ind3; intros H; try exact H.
  - cbn [coerce no_none_items] in *. rewrite forallb_forall in *. intros y Hy. apply in_map_iff in Hy.
    destruct Hy as [x [<- Hx]]. rewrite Forall_forall in IH. apply (IH x Hx). apply H. exact Hx.
  - cbn [coerce no_none_items] in *. rewrite forallb_forall in *. intros kv Hkv. apply in_map_iff in Hkv.
    destruct Hkv as [kv0 [<- Hkv0]]. cbn [snd]. specialize (H kv0 Hkv0). rewrite coerce_mnone.
    destruct (mnone (snd kv0)) eqn:En; [reflexivity|]. cbn [orb] in H |- *. rewrite Forall_forall in IH. apply (IH kv0 Hkv0). exact H.
  - cbn [coerce no_none_items] in *. rewrite forallb_forall in *. intros kv Hkv. apply in_map_iff in Hkv.
    destruct Hkv as [kv0 [<- Hkv0]]. specialize (H kv0 Hkv0). destruct (String.eqb (fst kv0) "range").
    + destruct (snd kv0) as [ | | | | | | |items| | ] eqn:Es; cbn [snd]; try exact H.
      cbn [mnone orb no_none_items] in H |- *. rewrite forallb_forall in *. intros y Hy. apply in_map_iff in Hy.
      destruct Hy as [x [<- Hx]]. apply coerce_item_nn. apply H. exact Hx.
    + cbn [snd]. rewrite coerce_mnone. destruct (mnone (snd kv0)) eqn:En; [reflexivity|]. cbn [orb] in H |- *.
      rewrite Forall_forall in IH. apply (IH kv0 Hkv0). exact H.
Qed.

Theorem decode_job_nn : forall classify j t, decode_job classify j = Ok t -> no_none_items t = true.
Proof.
  intros classify j t H. unfold decode_job in H.
  destruct j as [| | | | | |ms]; try discriminate H.
  destruct (version_ok Generated.job_template_versions (JObj ms)); [|discriminate H].
  unfold parse_template, parse_root in H.
  exact (proj2 (parse_nn Generated.schema classify pre_hook (post_hook classify) _) _ _ _ H).
Qed.
