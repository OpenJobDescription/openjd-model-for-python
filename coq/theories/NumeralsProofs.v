(* NumeralsProofs.v — the executable comparison of Numerals.v is exact rational comparison;
   the digits of Numerals.v are the blocks of Generated.unicode_zero_digits; reading a numeral is reading
   its ASCII transliteration with the ASCII-only reader (parse_int_normalise / parse_dec_normalise), hence
   nothing changes on ASCII strings (parse_int_ascii_unchanged). *)
From Coq Require Import ZArith QArith Qpower Lia List Bool ZifyBool.
Require Import OJD.Base OJD.Numerals OJD.NumeralsSpec.
Import ListNotations.

Lemma ten_neq0 : ~ inject_Z 10 == 0.
Proof. intro H. discriminate H. Qed.

Lemma ten_pow_pos : forall k : Z, 0 < (inject_Z 10) ^ k.
Proof. intro k. apply Qpower_0_lt. reflexivity. Qed.

Lemma Qnum_scaled : forall a k, (k <= expo a)%Z ->
  Qnum a == inject_Z (mant a * 10 ^ (expo a - k)) * (inject_Z 10) ^ k.
Proof.
  intros a k Hk. unfold Qnum.
  rewrite inject_Z_mult.
  rewrite Zpower_Qpower by lia.
  rewrite <- Qmult_assoc.
  rewrite <- Qpower_plus by exact ten_neq0.
  replace (expo a - k + k)%Z with (expo a) by lia.
  reflexivity.
Qed.

Lemma num_cmp_spec : forall a b, num_cmp a b = (Qnum a ?= Qnum b).
Proof.
  intros a b. unfold num_cmp.
  set (k := Z.min (expo a) (expo b)).
  assert (Ha : (k <= expo a)%Z) by (unfold k; lia).
  assert (Hb : (k <= expo b)%Z) by (unfold k; lia).
  set (A := (mant a * 10 ^ (expo a - k))%Z).
  set (B := (mant b * 10 ^ (expo b - k))%Z).
  pose proof (Qnum_scaled a k Ha) as Ea. pose proof (Qnum_scaled b k Hb) as Eb.
  fold A in Ea. fold B in Eb.
  pose proof (ten_pow_pos k) as Hp.
  destruct (Z.compare_spec A B) as [E|L|G].
  - symmetry. apply Qeq_alt. rewrite Ea, Eb, E. reflexivity.
  - symmetry. apply Qlt_alt. rewrite Ea, Eb. apply Qmult_lt_r; [exact Hp|].
    rewrite <- Zlt_Qlt. exact L.
  - symmetry. apply Qgt_alt. rewrite Ea, Eb. apply Qmult_lt_r; [exact Hp|].
    rewrite <- Zlt_Qlt. exact G.
Qed.

Lemma num_ltb_spec : forall a b, num_ltb a b = true <-> num_lt a b.
Proof.
  intros a b. unfold num_ltb, num_lt. rewrite num_cmp_spec, Qlt_alt.
  destruct (Qnum a ?= Qnum b); intuition congruence.
Qed.

Lemma num_ltb_false : forall a b, num_ltb a b = false <-> num_le b a.
Proof.
  intros a b. unfold num_ltb, num_le. rewrite num_cmp_spec, Qle_alt, <- (Qcompare_antisym (Qnum a) (Qnum b)).
  destruct (Qnum a ?= Qnum b); cbn [CompOpp]; intuition congruence.
Qed.

Lemma num_leb_spec : forall a b, num_leb a b = true <-> num_le a b.
Proof.
  intros a b. unfold num_leb, num_le. rewrite num_cmp_spec, Qle_alt.
  destruct (Qnum a ?= Qnum b); intuition congruence.
Qed.

Lemma num_eqb_spec : forall a b, num_eqb a b = true <-> num_eq a b.
Proof.
  intros a b. unfold num_eqb, num_eq. rewrite num_cmp_spec, Qeq_alt.
  destruct (Qnum a ?= Qnum b); intuition congruence.
Qed.

Lemma mem_num_spec : forall x l, mem_num x l = true <-> exists y, In y l /\ num_eq x y.
Proof.
  intros x l. induction l as [|y ys IH]; cbn [mem_num].
  - split; [discriminate|]. intros [y [[] _]].
  - rewrite orb_true_iff, IH, num_eqb_spec. split.
    + intros [H|[z [Hz Hq]]]; [exists y|exists z]; split; auto; [left|right]; auto.
    + intros [z [[->|Hz] Hq]]; [left|right]; auto. exists z; auto.
Qed.

Lemma num_le_refl : forall a, num_le a a.
Proof. intro a. unfold num_le. apply Qle_refl. Qed.

Lemma num_le_trans : forall a b c, num_le a b -> num_le b c -> num_le a c.
Proof. unfold num_le. intros a b c. apply Qle_trans. Qed.

Lemma num_le_total : forall a b, num_le a b \/ num_le b a.
Proof.
  unfold num_le. intros a b. destruct (Qlt_le_dec (Qnum a) (Qnum b)) as [H|H]; [left; apply Qlt_le_weak|right]; exact H.
Qed.

Lemma num_eq_le : forall a b, num_eq a b -> num_le a b.
Proof. unfold num_eq, num_le. intros a b H. rewrite H. apply Qle_refl. Qed.

Lemma num_eq_sym : forall a b, num_eq a b -> num_eq b a.
Proof. unfold num_eq. intros a b H. symmetry. exact H. Qed.

Lemma num_eq_trans : forall a b c, num_eq a b -> num_eq b c -> num_eq a c.
Proof. unfold num_eq. intros a b c H1 H2. rewrite H1. exact H2. Qed.

Lemma num_le_eq_l : forall a a' b, num_eq a a' -> num_le a b -> num_le a' b.
Proof. unfold num_eq, num_le. intros a a' b H. rewrite H. auto. Qed.

Lemma num_le_eq_r : forall a b b', num_eq b b' -> num_le a b -> num_le a b'.
Proof. unfold num_eq, num_le. intros a b b' H. rewrite H. auto. Qed.

Lemma num_le_antisym : forall a b, num_le a b -> num_le b a -> num_eq a b.
Proof. unfold num_le, num_eq. intros a b. apply Qle_antisym. Qed.

Lemma num_max_spec : forall a b c, num_le (num_max a b) c <-> num_le a c /\ num_le b c.
Proof.
  intros a b c. unfold num_max. destruct (num_ltb a b) eqn:E;
    [apply num_ltb_spec, Qlt_le_weak in E; change (num_le a b) in E|apply num_ltb_false in E];
    intuition eauto using num_le_trans.
Qed.

Lemma num_min_spec : forall a b c, num_le c (num_min a b) <-> num_le c a /\ num_le c b.
Proof.
  intros a b c. unfold num_min. destruct (num_ltb b a) eqn:E;
    [apply num_ltb_spec, Qlt_le_weak in E; change (num_le b a) in E|apply num_ltb_false in E];
    intuition eauto using num_le_trans.
Qed.

Local Open Scope N_scope.

(* [is_digit] (an unrolled disjunction) is the lookup in the generated table *)
Lemma is_digit_table : forall c, is_digit c = existsb (in_block c) OJD.Generated.unicode_zero_digits.
Proof. reflexivity. Qed.

(* What is evaluated on the generated table, each once: its first block is the ASCII one
   ([table_head], [is_digit_split]), every other block lies beyond ASCII ([other_blocks_high]), and no
   member of any block is white space ([digit_not_space], through [digit_sweep]).  Every other fact
   about digits follows from these by arithmetic. *)
Lemma table_head : OJD.Generated.unicode_zero_digits = 48 :: tl OJD.Generated.unicode_zero_digits.
Proof. reflexivity. Qed.

Lemma is_digit_split : forall c,
  is_digit c = is_digit_ascii c || existsb (in_block c) (tl OJD.Generated.unicode_zero_digits).
Proof. reflexivity. Qed.

Lemma other_blocks_high : forallb (N.leb 128) (tl OJD.Generated.unicode_zero_digits) = true.
Proof. reflexivity. Qed.

Lemma below_all_blocks : forall tbl b c, forallb (N.leb b) tbl = true -> c < b -> existsb (in_block c) tbl = false.
Proof.
  induction tbl as [|z r IH]; intros b c H Hc; [reflexivity|]. cbn [forallb existsb] in *.
  apply andb_true_iff in H. destruct H as [Hz Hr]. rewrite (IH b c Hr Hc). unfold in_block. lia.
Qed.

Lemma block_zero_some : forall tbl c, existsb (in_block c) tbl = true ->
  exists z, block_zero tbl c = Some z /\ in_block c z = true.
Proof.
  induction tbl as [|z r IH]; intros c H; [discriminate|].
  cbn [existsb block_zero] in *. destruct (in_block c z) eqn:E.
  - exists z. split; [reflexivity|exact E].
  - cbn [orb] in H. apply IH. exact H.
Qed.

Lemma block_zero_none : forall tbl c, existsb (in_block c) tbl = false -> block_zero tbl c = None.
Proof.
  induction tbl as [|z r IH]; intros c H; [reflexivity|].
  cbn [existsb block_zero] in *. destruct (in_block c z) eqn:E; [discriminate|]. apply IH. exact H.
Qed.

(* a digit has a block, and its value is its offset there *)
Lemma digit_block : forall c, is_digit c = true ->
  exists z, z <= c /\ c <= z + 9 /\ digit_val c = Z.of_N (c - z).
Proof.
  intros c H. rewrite is_digit_table in H. destruct (block_zero_some _ _ H) as [z [Ez Eb]].
  exists z. unfold digit_val. rewrite Ez. unfold in_block in Eb. lia.
Qed.

Lemma digit_val_range : forall c, is_digit c = true -> (0 <= digit_val c <= 9)%Z.
Proof. intros c H. destruct (digit_block c H) as [z [H1 [H2 ->]]]. lia. Qed.

Lemma digit_val_nondigit : forall c, is_digit c = false -> digit_val c = 0%Z.
Proof. intros c H. rewrite is_digit_table in H. unfold digit_val. rewrite (block_zero_none _ _ H). reflexivity. Qed.

Lemma is_digit_ascii_digit : forall c, is_digit_ascii c = true -> is_digit c = true.
Proof. intros c H. rewrite is_digit_split, H. reflexivity. Qed.

Lemma is_digit_below_128 : forall c, c < 128 -> is_digit c = is_digit_ascii c.
Proof.
  intros c H. rewrite is_digit_split, (below_all_blocks _ 128 c other_blocks_high H). apply orb_false_r.
Qed.

Lemma is_digit_cases : forall c, is_digit c = true -> 48 <= c <= 57 \/ 128 <= c.
Proof.
  intros c H. destruct (N.lt_ge_cases c 128) as [L|G]; [left|right; exact G].
  rewrite (is_digit_below_128 c L) in H. unfold is_digit_ascii in H. lia.
Qed.

Lemma digit_neqb : forall c x, is_digit c = true -> is_digit x = false -> (c =? x) = false.
Proof. intros c x Hc Hx. apply N.eqb_neq. intros ->. congruence. Qed.

Lemma lower_digit : forall c, is_digit c = true -> lower c = c.
Proof.
  intros c H. apply is_digit_cases in H. unfold lower.
  destruct ((65 <=? c) && (c <=? 90)) eqn:E; [lia|reflexivity].
Qed.

(* (the statement is about the ASCII digits: a digit of another script is not in this list) *)
Lemma digit_cases : forall c, is_digit_ascii c = true -> In c [48; 49; 50; 51; 52; 53; 54; 55; 56; 57]%N.
Proof. intros c H. unfold is_digit_ascii in H. cbn [In]. lia. Qed.

Lemma digit_val_ascii_eq : forall c, is_digit_ascii c = true -> digit_val c = digit_val_ascii c.
Proof.
  intros c H. unfold digit_val. rewrite table_head. cbn [block_zero].
  change (in_block c 48) with (is_digit_ascii c). rewrite H. reflexivity.
Qed.

(* the transliteration: a digit becomes the ASCII digit of the same value, nothing else moves *)
Lemma ascii_digit_digit : forall c, is_digit c = true ->
  is_digit_ascii (ascii_digit c) = true /\ digit_val_ascii (ascii_digit c) = digit_val c.
Proof.
  intros c H. unfold ascii_digit. rewrite H. pose proof (digit_val_range c H) as R.
  unfold is_digit_ascii, digit_val_ascii. split; lia.
Qed.

Lemma ascii_digit_other : forall c, is_digit c = false -> ascii_digit c = c /\ is_digit_ascii c = false.
Proof.
  intros c H. unfold ascii_digit. rewrite H. split; [reflexivity|].
  destruct (is_digit_ascii c) eqn:E; [|reflexivity]. apply is_digit_ascii_digit in E. congruence.
Qed.

Lemma ascii_digit_class : forall c, is_digit_ascii (ascii_digit c) = is_digit c.
Proof.
  intros c. destruct (is_digit c) eqn:E.
  - apply ascii_digit_digit. exact E.
  - destruct (ascii_digit_other c E) as [-> E2]. exact E2.
Qed.

Lemma ascii_digit_below_128 : forall c, c < 128 -> ascii_digit c = c.
Proof.
  intros c H. unfold ascii_digit. destruct (is_digit c) eqn:E; [|reflexivity].
  rewrite is_digit_below_128 in E by exact H. rewrite (digit_val_ascii_eq c E).
  unfold digit_val_ascii. unfold is_digit_ascii in E. lia.
Qed.

Lemma ascii_digit_map_id : forall s, Forall (fun c => c < 128) s -> map ascii_digit s = s.
Proof.
  induction s as [|c r IH]; intro H; [reflexivity|]. inversion H as [|x l Hc Hr]; subst.
  cbn [map]. rewrite (ascii_digit_below_128 c Hc), (IH Hr). reflexivity.
Qed.

Lemma ascii_digit_blind : forall p : N -> bool, (forall c, is_digit c = true -> p c = false) ->
  forall c, p (ascii_digit c) = p c.
Proof.
  intros p Hp c. destruct (is_digit c) eqn:E.
  - destruct (ascii_digit_digit c E) as [A _]. apply is_digit_ascii_digit in A.
    rewrite (Hp _ A), (Hp c E). reflexivity.
  - destruct (ascii_digit_other c E) as [-> _]. reflexivity.
Qed.

Lemma ascii_digit_eqb : forall x c, is_digit x = false -> (ascii_digit c =? x) = (c =? x).
Proof. intros x c Hx. apply (ascii_digit_blind (fun c => c =? x)). intros d Hd. apply digit_neqb; assumption. Qed.

Lemma eqb_ascii_digit : forall x c, is_digit x = false -> (x =? ascii_digit c) = (x =? c).
Proof. intros x c Hx. rewrite (N.eqb_sym x (ascii_digit c)), (N.eqb_sym x c). apply ascii_digit_eqb. exact Hx. Qed.

(* a property of characters that holds of the ten members of every block holds of every digit *)
Lemma digit_sweep : forall P : N -> bool,
  forallb (fun z => forallb (fun d => P (z + d)) [0; 1; 2; 3; 4; 5; 6; 7; 8; 9]) OJD.Generated.unicode_zero_digits = true ->
  forall c, is_digit c = true -> P c = true.
Proof.
  intros P H c Hc. rewrite is_digit_table in Hc. apply existsb_exists in Hc. destruct Hc as [z [Hz Hb]].
  rewrite forallb_forall in H. specialize (H z Hz). rewrite forallb_forall in H.
  unfold in_block in Hb. replace c with (z + (c - z)) by lia. apply H. cbn [In]. lia.
Qed.

(* F4: no digit is white space, so the two white-space classes do not see the transliteration *)
Lemma digit_not_space : forall c, is_digit c = true -> int_space c = false /\ dec_space c = false.
Proof.
  intros c H. apply (digit_sweep (fun c => negb (dec_space c)) eq_refl) in H.
  apply negb_true_iff in H. split; [|exact H]. apply orb_false_elim in H. apply H.
Qed.

Lemma ascii_digit_int_space : forall c, int_space (ascii_digit c) = int_space c.
Proof. apply ascii_digit_blind. intros c H. apply digit_not_space, H. Qed.

Lemma ascii_digit_dec_space : forall c, dec_space (ascii_digit c) = dec_space c.
Proof. apply ascii_digit_blind. intros c H. apply digit_not_space, H. Qed.

(* F6: letters are ASCII letters: lowering and transliterating commute *)
Lemma lower_ascii_digit : forall c, lower (ascii_digit c) = ascii_digit (lower c).
Proof.
  intros c. destruct (is_digit c) eqn:E.
  - rewrite (lower_digit c E). apply lower_digit, is_digit_ascii_digit, ascii_digit_digit, E.
  - rewrite (proj1 (ascii_digit_other c E)). symmetry. unfold lower.
    destruct ((65 <=? c) && (c <=? 90)) eqn:U; [apply ascii_digit_below_128; lia|apply ascii_digit_other, E].
Qed.

Lemma drop_while_map : forall (p : N -> bool) (f : N -> N), (forall c, p (f c) = p c) ->
  forall s, drop_while p (map f s) = map f (drop_while p s).
Proof.
  intros p f H. induction s as [|c r IH]; [reflexivity|]. cbn [map drop_while]. rewrite H.
  destruct (p c); [exact IH|reflexivity].
Qed.

Lemma strip_map : forall (p : N -> bool) (f : N -> N), (forall c, p (f c) = p c) ->
  forall s, strip p (map f s) = map f (strip p s).
Proof.
  intros p f H s. unfold strip. rewrite (drop_while_map p f H), <- map_rev, (drop_while_map p f H), map_rev.
  reflexivity.
Qed.

Lemma filter_map_class : forall (q : N -> bool) (f : N -> N), (forall c, q (f c) = q c) ->
  forall s, filter q (map f s) = map f (filter q s).
Proof.
  intros q f H. induction s as [|c r IH]; [reflexivity|]. cbn [map filter]. rewrite H.
  destruct (q c); [cbn [map]; f_equal; exact IH|exact IH].
Qed.

(* what a reader returns on the transliterated input: the same, with the rest of the input transliterated *)
Definition norm_rest {A : Type} (p : A * str) : A * str := (fst p, map ascii_digit (snd p)).

Lemma split_sign_norm : forall t, split_sign (map ascii_digit t) = norm_rest (split_sign t).
Proof.
  intros [|c r]; [reflexivity|]. cbn [map split_sign].
  rewrite (ascii_digit_eqb 43 c eq_refl), (ascii_digit_eqb 45 c eq_refl).
  destruct (c =? 43); [reflexivity|]. destruct (c =? 45); reflexivity.
Qed.

Lemma int_digits_norm : forall s acc prev,
  int_digits_ascii acc prev (map ascii_digit s) = int_digits acc prev s.
Proof.
  induction s as [|c r IH]; intros acc prev; [reflexivity|].
  cbn [map int_digits_ascii int_digits]. rewrite ascii_digit_class. destruct (is_digit c) eqn:E.
  - rewrite (proj2 (ascii_digit_digit c E)). apply IH.
  - rewrite (proj1 (ascii_digit_other c E)). destruct ((c =? 95) && prev); [apply IH|reflexivity].
Qed.

Theorem parse_int_normalise : forall s, parse_int s = parse_int_ascii (map ascii_digit s).
Proof.
  intro s. unfold parse_int, parse_int_ascii.
  rewrite (strip_map int_space ascii_digit ascii_digit_int_space), split_sign_norm.
  destruct (split_sign (strip int_space s)) as [neg r]. cbn [norm_rest fst snd]. rewrite int_digits_norm. reflexivity.
Qed.

Lemma take_digits_norm : forall s acc n,
  take_digits_ascii acc n (map ascii_digit s) = norm_rest (take_digits acc n s).
Proof.
  induction s as [|c r IH]; intros acc n; [reflexivity|].
  cbn [map take_digits_ascii take_digits]. rewrite ascii_digit_class. destruct (is_digit c) eqn:E.
  - rewrite (proj2 (ascii_digit_digit c E)). apply IH.
  - reflexivity.
Qed.

Lemma forallb_digit_norm : forall s, forallb is_digit_ascii (map ascii_digit s) = forallb is_digit s.
Proof.
  induction s as [|c r IH]; [reflexivity|]. cbn [map forallb]. rewrite ascii_digit_class, IH. reflexivity.
Qed.

Lemma str_eqb_norm : forall w l, forallb (fun x => negb (is_digit x)) w = true ->
  str_eqb (map ascii_digit l) w = str_eqb l w.
Proof.
  induction w as [|x w IH]; intros [|c l] H; try reflexivity.
  cbn [forallb] in H. apply andb_true_iff in H. destruct H as [Hx Hw]. apply negb_true_iff in Hx.
  cbn [map str_eqb]. rewrite (ascii_digit_eqb x c Hx), (IH l Hw). reflexivity.
Qed.

Lemma is_prefix_norm : forall w l, forallb (fun x => negb (is_digit x)) w = true ->
  is_prefix w (map ascii_digit l) = is_prefix w l.
Proof.
  induction w as [|x w IH]; intros l H; [reflexivity|]. destruct l as [|c l]; [reflexivity|].
  cbn [forallb] in H. apply andb_true_iff in H. destruct H as [Hx Hw]. apply negb_true_iff in Hx.
  cbn [map is_prefix]. rewrite (eqb_ascii_digit x c Hx), (IH l Hw). reflexivity.
Qed.

Lemma map_lower_norm : forall t, map lower (map ascii_digit t) = map ascii_digit (map lower t).
Proof.
  induction t as [|c r IH]; [reflexivity|]. cbn [map]. rewrite lower_ascii_digit, IH. reflexivity.
Qed.

Lemma take_fraction_norm : forall ip r1,
  take_fraction_ascii ip (map ascii_digit r1) = norm_rest (take_fraction ip r1).
Proof.
  intros ip [|c r]; [reflexivity|]. cbn [map take_fraction_ascii take_fraction].
  rewrite (ascii_digit_eqb 46 c eq_refl). destruct (c =? 46); [apply take_digits_norm|reflexivity].
Qed.

Lemma is_nil_map : forall (f : N -> N) l, is_nil (map f l) = is_nil l.
Proof. intros f [|c r]; reflexivity. Qed.

Lemma take_exponent_norm : forall r2, take_exponent_ascii (map ascii_digit r2) = take_exponent r2.
Proof.
  intros [|c r3]; [reflexivity|]. cbn [map take_exponent_ascii take_exponent].
  rewrite (ascii_digit_eqb 101 c eq_refl), (ascii_digit_eqb 69 c eq_refl).
  destruct ((c =? 101) || (c =? 69)); [|reflexivity].
  rewrite split_sign_norm. destruct (split_sign r3) as [neg r4]. cbn [norm_rest fst snd].
  rewrite take_digits_norm. destruct (take_digits 0 0 r4) as [[x nx] r5]. cbn [norm_rest fst snd].
  rewrite is_nil_map. reflexivity.
Qed.

Lemma parse_unsigned_norm : forall neg t, parse_unsigned_ascii neg (map ascii_digit t) = parse_unsigned neg t.
Proof.
  intros neg t. unfold parse_unsigned_ascii, parse_unsigned. cbv zeta.
  rewrite map_lower_norm.
  rewrite (str_eqb_norm s_inf _ eq_refl), (str_eqb_norm s_infinity _ eq_refl),
          (is_prefix_norm s_nan _ eq_refl), (is_prefix_norm s_snan _ eq_refl).
  rewrite !skipn_map, !forallb_digit_norm.
  destruct (str_eqb (map lower t) s_inf || str_eqb (map lower t) s_infinity); [reflexivity|].
  destruct (is_prefix s_nan (map lower t)); [reflexivity|].
  destruct (is_prefix s_snan (map lower t)); [reflexivity|].
  rewrite take_digits_norm. destruct (take_digits 0 0 t) as [[ip ni] r1]. cbn [norm_rest fst snd].
  rewrite take_fraction_norm. destruct (take_fraction ip r1) as [[m nf] r2]. cbn [norm_rest fst snd].
  rewrite take_exponent_norm. reflexivity.
Qed.

Theorem parse_dec_normalise : forall s, parse_dec s = parse_dec_ascii (map ascii_digit s).
Proof.
  intro s. unfold parse_dec, parse_dec_ascii.
  rewrite (strip_map dec_space ascii_digit ascii_digit_dec_space).
  rewrite (filter_map_class (fun c => negb (c =? 95)) ascii_digit)
    by (intro c; rewrite (ascii_digit_eqb 95 c eq_refl); reflexivity).
  rewrite split_sign_norm.
  destruct (split_sign (filter (fun c => negb (c =? 95)) (strip dec_space s))) as [neg r]. cbn [norm_rest fst snd].
  rewrite parse_unsigned_norm. reflexivity.
Qed.

(* conservativity: on strings of ASCII characters nothing has changed *)
Theorem parse_int_ascii_unchanged : forall s, Forall (fun c => c < 128) s ->
  parse_int s = parse_int_ascii s /\ parse_dec s = parse_dec_ascii s.
Proof.
  intros s H. rewrite parse_int_normalise, parse_dec_normalise, (ascii_digit_map_id s H). split; reflexivity.
Qed.

(* mixed scripts (F1, F2, F5): "１_٢7" (fullwidth 1, underscore, Arabic-Indic 2, ASCII 7),
   "-١.٥e-１" (Arabic-Indic 1 and 5, fullwidth exponent 1), "NaN𝟗" (mathematical bold 9) *)
Example parse_int_mixed_scripts :
  parse_int [65297; 95; 1634; 55] = Some 127%Z /\ parse_int_ascii [65297; 95; 1634; 55] = None.
Proof. split; reflexivity. Qed.

Example parse_dec_mixed_scripts :
  parse_dec [45; 1633; 46; 1637; 101; 45; 65297] = Some (Fin (-15) (-2)) /\
  parse_dec [78; 97; 78; 120791] = Some NaN /\
  parse_dec_ascii [45; 1633; 46; 1637; 101; 45; 65297] = None.
Proof. repeat split; reflexivity. Qed.

(* F3, F6: signs, the decimal point and the exponent letter stay ASCII: "＋1", "１．５", "1ｅ1" *)
Example parse_non_ascii_punctuation :
  parse_int [65291; 49] = None /\ parse_dec [65297; 65294; 65301] = None /\ parse_dec [49; 65349; 49] = None.
Proof. repeat split; reflexivity. Qed.
