(* RenameStepsJob.v — C19, renaming of steps and environments, second half: create_job.

     decode_job classify j = Ok t ->
     create_job_full classify envs (mrename_job rho_s rho_e t) vals
       = omap (mrename_job rho_s rho_e) (create_job_full classify envs t vals)

   "the Job created from the renamed template is the renamed Job; the same exception otherwise", and from
   the raw documents (decode, create, export):

     create_job_docs classify env_docs (rename_steps_envs rho_s rho_e doc) vals
       = omap (omap (rename_steps_envs rho_s rho_e)) (create_job_docs classify env_docs doc vals)

   ([rename_steps_envs] renames the exported Job document as well: a Job has the same members
   steps[i].name / dependencies / stepEnvironments and jobEnvironments.)

   Structure: (A) what a decoded job template looks like, with class tags and field lists ([T_job]), read
   off the parser; (B) instantiate_model ([CreateJob.inst]) class by class; (C) the job-side coercion
   [coerce_job]; (D) [to_object]; (E) the re-validation of every node of the created tree ([Export.nodes_ok])
   through the structural lemmas of RenameStepsProofs.v for the target classes Step / Job / Environment /
   StepDependency with [Export.pre_full] as pre validator; (F) the composition. *)
From Coq Require Import List NArith ZArith Bool String.
Import ListNotations.
Require Import OJD.Base OJD.Lexer OJD.Json OJD.Schema OJD.Generated
               OJD.CreateJob OJD.CreateJobProofs OJD.Parse OJD.Validators OJD.Accept OJD.AcceptMono OJD.Export
               OJD.CreateJobFull OJD.RenameProofs OJD.RenameSteps OJD.RenameStepsProofs OJD.ListLib.
Local Open Scope string_scope.
Local Open Scope list_scope.

Lemma omap_omap : forall (A B C : Type) (g : A -> B) (h : B -> C) o, omap h (omap g o) = omap (fun a => h (g a)) o.
Proof. intros A B C g h o. destruct o; reflexivity. Qed.

(* One link of two chains of [bind]s over the same outcomes, of which the first computes the renaming (G) of what
   the second computes, a value of the shape T; in [bind_ren] the first chain goes on from the renamed value *)
Lemma bind_same : forall (A B : Type) (G : B -> B) (T : B -> Prop) (o : outcome A) (k k' : A -> outcome B),
  (forall a, k' a = omap G (k a) /\ forall y, k a = Ok y -> T y) ->
  bind o k' = omap G (bind o k) /\ forall y, bind o k = Ok y -> T y.
Proof. intros A B G T o k k' H. destruct o as [a|e]; [exact (H a)|split; [reflexivity|discriminate]]. Qed.

Lemma bind_ren : forall (A B : Type) (h : A -> A) (G : B -> B) (T : B -> Prop) (o : outcome A) (k k' : A -> outcome B),
  (forall a, o = Ok a -> k' (h a) = omap G (k a) /\ forall y, k a = Ok y -> T y) ->
  bind (omap h o) k' = omap G (bind o k) /\ forall y, bind o k = Ok y -> T y.
Proof. intros A B h G T o k k' H. destruct o as [a|e]; [exact (H a eq_refl)|split; [reflexivity|discriminate]]. Qed.

Lemma mdepth_mren_str : forall rho x, mval_depth (mren_str rho x) = mval_depth x.
Proof. intros rho x. destruct x; reflexivity. Qed.

Lemma mdepth_on_mlist : forall G v, (forall x, mval_depth (G x) = mval_depth x) ->
  mval_depth (on_mlist G v) = mval_depth v.
Proof.
  intros G v H. destruct v as [ | | | | | | |l| |]; try reflexivity.
  cbn [on_mlist mval_depth]. f_equal. induction l as [|x r IH]; [reflexivity|].
  cbn [map fold_right]. rewrite H, IH. reflexivity.
Qed.

Lemma mdepth_on_fields : forall g m, (forall k x, mval_depth (g k x) = mval_depth x) ->
  mval_depth (on_fields g m) = mval_depth m.
Proof.
  intros g m H. destruct m as [ | | | | | | | | |c fs]; try reflexivity.
  cbn [on_fields mval_depth]. f_equal. unfold mapf. induction fs as [|[k x] r IH]; [reflexivity|].
  cbn [map fold_right fst snd]. rewrite H, IH. reflexivity.
Qed.

Lemma mdepth_mdispatch : forall tbl k x,
  Forall (fun ng => forall y, mval_depth (snd ng y) = mval_depth y) tbl ->
  mval_depth (mdispatch tbl k x) = mval_depth x.
Proof.
  intros tbl k x H. induction H as [|[n g] r Hg _ IH]; [reflexivity|].
  cbn [mdispatch]. destruct (String.eqb k n); [apply Hg|exact IH].
Qed.

(* coerce_job commutes with the renaming, whatever the tree *)
Lemma coerce_mren_str : forall rho f x, coerce_job f (mren_str rho x) = mren_str rho (coerce_job f x).
Proof. intros rho f x. destruct f; [reflexivity|]. destruct x; reflexivity. Qed.

Lemma coerce_on_mlist : forall G, (forall f x, coerce_job f (G x) = G (coerce_job f x)) ->
  forall f v, coerce_job f (on_mlist G v) = on_mlist G (coerce_job f v).
Proof.
  intros G H f v. destruct f; [reflexivity|]. destruct v as [ | | | | | | |l| |]; try reflexivity.
  cbn [on_mlist coerce_job]. f_equal. rewrite !map_map. apply map_ext. intros x. apply H.
Qed.

Lemma coerce_on_fields : forall g, (forall x, g "range" x = x) ->
  (forall k f x, coerce_job f (g k x) = g k (coerce_job f x)) ->
  forall f m, coerce_job f (on_fields g m) = on_fields g (coerce_job f m).
Proof.
  intros g Hr H f m. destruct f; [reflexivity|]. destruct m as [ | | | | | | | | |c fs]; try reflexivity.
  cbn [on_fields coerce_job]. f_equal. unfold mapf. rewrite !map_map. apply map_ext. intros [k x]. cbn [fst snd].
  destruct (String.eqb k "range") eqn:E.
  - apply String.eqb_eq in E. subst k. rewrite Hr.
    destruct x; cbn [fst snd]; rewrite ?Hr; reflexivity.
  - cbn [fst snd]. rewrite H. reflexivity.
Qed.

Lemma coerce_mdispatch : forall tbl,
  Forall (fun ng => forall f y, coerce_job f (snd ng y) = snd ng (coerce_job f y)) tbl ->
  forall k f x, coerce_job f (mdispatch tbl k x) = mdispatch tbl k (coerce_job f x).
Proof.
  intros tbl H k f x. induction H as [|[n g] r Hg _ IH]; [reflexivity|].
  cbn [mdispatch]. destruct (String.eqb k n); [apply Hg|exact IH].
Qed.

Definition emitf (SC : schema_t) (c : string) (F : nat) (fv : string * mval) : list (str * json) :=
  match snd fv with
  | MNone => []
  | x => [(str_of_string (alias_of SC c (fst fv)), to_object SC F x)]
  end.

Lemma to_object_model_S : forall SC F c fs, to_object SC (S F) (MModel c fs) = JObj (flat_map (emitf SC c F) fs).
Proof. reflexivity. Qed.

Lemma emitf_eq : forall SC c F k x,
  emitf SC c F (k, x) = if is_none x then [] else [(str_of_string (alias_of SC c k), to_object SC F x)].
Proof. intros SC c F k x. destruct x; reflexivity. Qed.

Lemma to_object_on_fields : forall SC F c (g : string -> mval -> mval) (h : str -> json -> json) fs,
  (forall k x, In (k, x) fs ->
     is_none (g k x) = is_none x /\
     to_object SC F (g k x) = h (str_of_string (alias_of SC c k)) (to_object SC F x)) ->
  to_object SC (S F) (MModel c (mapf g fs)) = on_obj h (to_object SC (S F) (MModel c fs)).
Proof.
  intros SC F c g h fs H. rewrite !to_object_model_S. cbn [on_obj]. f_equal.
  induction fs as [|[k x] r IH]; [reflexivity|].
  cbn [mapf map flat_map fst snd]. rewrite !emitf_eq.
  destruct (H k x (or_introl eq_refl)) as [Hn Ht]. rewrite Hn, Ht, map_app.
  fold (mapf g r). rewrite IH by (intros k' x' Hin; apply H; right; exact Hin).
  destruct (is_none x); reflexivity.
Qed.

Lemma to_object_on_mlist : forall SC (G : mval -> mval) (jr : json -> json) v,
  (forall F x, In x (mitems v) -> to_object SC F (G x) = jr (to_object SC F x)) ->
  forall F, to_object SC F (on_mlist G v) = on_arr jr (to_object SC F v).
Proof.
  intros SC G jr v H F. destruct F as [|F]; [destruct v; reflexivity|].
  destruct v as [ | | | | | | |l| |]; try reflexivity.
  cbn [on_mlist to_object on_arr]. f_equal. rewrite !map_map. apply map_ext_in. intros x Hx. apply H. exact Hx.
Qed.

Lemma to_object_mstr : forall SC rho F s, to_object SC F (MStr (rho s)) = ren_str rho (to_object SC F (MStr s)).
Proof. intros SC rho F s. destruct F; reflexivity. Qed.

Lemma is_none_on_mlist : forall G v, is_none (on_mlist G v) = is_none v.
Proof. intros G v. destruct v; reflexivity. Qed.

(* [Hin : In (k, x) fs] for an explicit list [fs]: one goal per field, [k] and [x] replaced by that field *)
Ltac field_cases Hin :=
  cbn [In] in Hin;
  repeat (destruct Hin as [Hin|Hin]; [injection Hin as <- <-|]); [..|contradiction].

(* ------------------------------------------------------------------ (A) decoded templates, with tags *)
Definition T_dep (m : mval) : Prop := exists s, m = MModel "StepDependency" [("dependsOn", MStr s)].

Definition T_env (m : mval) : Prop :=
  exists s sc v d, m = MModel "Environment" [("name", MStr s); ("script", sc); ("variables", v); ("description", d)].

Definition step_fields (n d sc se ps hr dp : mval) : list (string * mval) :=
  [("name", n); ("description", d); ("script", sc); ("stepEnvironments", se);
   ("parameterSpace", ps); ("hostRequirements", hr); ("dependencies", dp)].

Definition T_step (m : mval) : Prop :=
  exists s d sc se ps hr dp, m = MModel "StepTemplate" (step_fields (MStr s) d sc se ps hr dp) /\
    Forall T_env (mitems se) /\ Forall T_dep (mitems dp).

Definition T_job (t : mval) : Prop :=
  exists sv nm st d pd je ss,
    t = MModel "JobTemplate" [("specificationVersion", sv); ("name", nm); ("steps", st); ("description", d);
                              ("parameterDefinitions", pd); ("jobEnvironments", je); ("schemaStr", ss)] /\
    Forall T_step (mitems st) /\ Forall T_env (mitems je).

(* the created tree *)
Definition J_step (m : mval) : Prop :=
  exists s d sc se ps hr dp, m = MModel "Step" (step_fields (MStr s) d sc se ps hr dp) /\
    Forall T_env (mitems se) /\ Forall T_dep (mitems dp).

Definition J_job (m : mval) : Prop :=
  exists nm st d p je,
    m = MModel "Job" [("name", nm); ("steps", st); ("description", d); ("parameters", p); ("jobEnvironments", je)] /\
    Forall J_step (mitems st) /\ Forall T_env (mitems je).

Section Shapes.
  Variable classify : N -> cclass.
  Notation SCH := Generated.schema.
  Notation pk := (parse_kind SCH classify pre_hook (post_hook classify)).
  Notation pc := (parse_cls SCH classify pre_hook (post_hook classify)).

  (* The fields of an accepted instance are the declared attributes in order ([fields_eta]); the name is a string
     ([name_field_shape]); the items of a list field have the shape of their class. *)
  Lemma tshape_dep : forall f v m, pc f "StepDependency" v = Ok m -> T_dep m.
  Proof.
    intros f v m H. destruct (pc_ok_inv _ _ _ _ _ _ _ _ _ lk_dep H) as [f' [ms [fs [-> [-> [-> Hm]]]]]].
    destruct (name_field_shape classify pre_hook f' ms _ fs "dependsOn" Hm nd_dep ltac:(in_fields)) as [s [Hs _]].
    exists s. rewrite <- Hs. f_equal. exact (fields_eta _ _ _ _ Hm nd_dep).
  Qed.

  Lemma tshape_env : forall f v m, pc f "Environment" v = Ok m -> T_env m.
  Proof.
    intros f v m H. destruct (pc_ok_inv _ _ _ _ _ _ _ _ _ lk_env H) as [f' [ms [fs [-> [-> [-> Hm]]]]]].
    destruct (name_field_shape classify pre_hook f' ms _ fs "name" Hm nd_env ltac:(in_fields)) as [s [Hs _]].
    exists s. do 3 eexists. rewrite <- Hs. f_equal. exact (fields_eta _ _ _ _ Hm nd_env).
  Qed.

  Lemma tshape_step : forall f v m, pc f "StepTemplate" v = Ok m -> T_step m.
  Proof.
    intros f v m H. destruct (pc_ok_inv _ _ _ _ _ _ _ _ _ lk_step H) as [f' [ms [fs [-> [-> [-> Hm]]]]]].
    destruct (name_field_shape classify pre_hook f' ms _ fs "name" Hm nd_step ltac:(in_fields)) as [s [Hs _]].
    exists s. do 6 eexists. split; [rewrite <- Hs; f_equal; exact (fields_eta _ _ _ _ Hm nd_step)|]. split.
    - exact (list_field_shape classify pre_hook f' ms _ fs fld_senvs _ _ _ (fun _ => T_env) _ Hm nd_step ltac:(in_fields) eq_refl eq_refl tshape_env
               (fun _ _ _ H => H)).
    - exact (list_field_shape classify pre_hook f' ms _ fs fld_deps _ _ _ (fun _ => T_dep) _ Hm nd_step ltac:(in_fields) eq_refl eq_refl tshape_dep
               (fun _ _ _ H => H)).
  Qed.

  Lemma tshape_job : forall f v m, pc f "JobTemplate" v = Ok m -> T_job m.
  Proof.
    intros f v m H. destruct (pc_ok_inv _ _ _ _ _ _ _ _ _ lk_job H) as [f' [ms [fs [-> [-> [-> Hm]]]]]].
    do 7 eexists. split; [f_equal; exact (fields_eta _ _ _ _ Hm nd_job)|]. split.
    - exact (list_field_shape classify pre_hook f' ms _ fs fld_steps _ _ _ (fun _ => T_step) _ Hm nd_job ltac:(in_fields) eq_refl eq_refl tshape_step
               (fun _ _ _ H => H)).
    - exact (list_field_shape classify pre_hook f' ms _ fs fld_jenvs _ _ _ (fun _ => T_env) _ Hm nd_job ltac:(in_fields) eq_refl eq_refl tshape_env
               (fun _ _ _ H => H)).
  Qed.

  Theorem decode_job_tshape : forall j t, decode_job classify j = Ok t -> T_job t.
  Proof.
    intros j t H. unfold decode_job in H. destruct j as [| | | | | |ms]; try discriminate H.
    destruct (version_ok job_template_versions (JObj ms)); [|discriminate H].
    exact (tshape_job _ _ _ H).
  Qed.
End Shapes.

(* ------------------------------------------------------------------ (B) instantiate_model *)
Lemma jcm_dep : jcm_of Generated.schema "StepDependency" = jcm_trivial. Proof. reflexivity. Qed.
Lemma jcm_env : jcm_of Generated.schema "Environment" = jcm_trivial. Proof. reflexivity. Qed.
Lemma jcm_step : jcm_of Generated.schema "StepTemplate" = jcm_StepTemplate. Proof. reflexivity. Qed.
Lemma jcm_job : jcm_of Generated.schema "JobTemplate" = jcm_JobTemplate. Proof. reflexivity. Qed.

Section Inst.
  Variable resolve : symtab -> str -> outcome str.
  Variable sigma : symtab.
  Variables rho_s rho_e : str -> str.
  Notation SCH := Generated.schema.
  Notation R := (inst SCH resolve sigma).
  Notation IV f := (inst_val resolve sigma (inst SCH resolve sigma f)).
  Notation IM f := (inst_model resolve sigma (inst SCH resolve sigma f)).
  Notation II f := (inst_item resolve sigma (inst SCH resolve sigma f)).
  Notation mr_dep := (mr_dep rho_s).
  Notation mr_env := (mr_env rho_e).
  Notation mr_step := (mr_step rho_s rho_e).
  Notation mrename_job := (mrename_job rho_s rho_e).

  Lemma gen_Dep : forall f x,
    IM f jcm_trivial "StepDependency" [("dependsOn", x)]
    = do x' <- IV f jcm_trivial "dependsOn" x; Ok (MModel "StepDependency" [("dependsOn", x')]).
  Proof. intros. exact (inst_model_seq _ _ _ _ _ _). Qed.

  Lemma gen_Env : forall f n sc v d,
    IM f jcm_trivial "Environment" [("name", n); ("script", sc); ("variables", v); ("description", d)]
    = do n' <- IV f jcm_trivial "name" n;
      do sc' <- IV f jcm_trivial "script" sc;
      do v' <- IV f jcm_trivial "variables" v;
      do d' <- IV f jcm_trivial "description" d;
      Ok (MModel "Environment" [("name", n'); ("script", sc'); ("variables", v'); ("description", d')]).
  Proof. intros. exact (inst_model_seq _ _ _ _ _ _). Qed.

  (* the result of instantiating a model is a model *)
  Lemma inst_model_is_model : forall f c fs y, R f (MModel c fs) = Ok y -> exists c' fs', y = MModel c' fs'.
  Proof.
    intros f c fs y H. destruct f as [|f]; [discriminate H|]. rewrite inst_S in H. unfold inst_model in H.
    destruct (mapM _ fs) as [l|e]; cbn [bind] in H; [|discriminate H].
    destruct (add_value _ _ _ _) as [l'|e]; cbn [bind] in H; [|discriminate H].
    injection H as <-. eexists. eexists. reflexivity.
  Qed.

  Lemma inst_val_str : forall f j fn s, IV f j fn (MStr s) = Ok (MStr s).
  Proof. reflexivity. Qed.

  (* a list-valued field that is not reshaped, on whose items (of the shape P) the renaming G commutes with
     instantiation: the value is renamed item by item, and what instantiates the items to (Q) is kept *)
  Lemma inst_val_list : forall f j fn (G : mval -> mval) v (P Q : mval -> Prop),
    lookup_s fn (j_reshape j) = None -> Forall P (mitems v) ->
    (forall x, P x -> II f j fn (G x) = omap G (II f j fn x) /\ forall y, II f j fn x = Ok y -> Q y) ->
    IV f j fn (on_mlist G v) = omap (on_mlist G) (IV f j fn v) /\
    forall v', IV f j fn v = Ok v' -> Forall Q (mitems v').
  Proof.
    intros f j fn G v P Q Hr HP H. rewrite Forall_forall in HP.
    destruct v as [ | | | | | |s|l|l|c fs]; try (split; [reflexivity|intros v' [= <-]; constructor]).
    - cbn [on_mlist inst_val inst_item]. destruct (mem_s fn (j_resolve j)); [destruct (resolve sigma s)|];
        (split; [reflexivity|intros v' [= <-]; constructor]).
    - cbn [on_mlist inst_val]. rewrite Hr.
      rewrite (mapM_map_omap _ _ (II f j fn) (II f j fn) G G l) by (intros x Hx; exact (proj1 (H x (HP x Hx)))).
      destruct (mapM (II f j fn) l) as [l'|e] eqn:Em; (split; [reflexivity|intros v' [= <-]]).
      apply Forall_forall. intros y Hy. destruct (mapM_ok_in _ _ _ _ _ Em y Hy) as [x [Hx Hxy]].
      exact (proj2 (H x (HP x Hx)) y Hxy).
    - cbn [on_mlist inst_val]. destruct (mapM _ l); (split; [reflexivity|intros v' [= <-]; constructor]).
    - cbn [on_mlist inst_val inst_item]. destruct (R f (MModel c fs)) as [y|e] eqn:E; [|split; [reflexivity|discriminate]].
      destruct (inst_model_is_model _ _ _ _ E) as [c' [fs' ->]]. split; [reflexivity|intros v' [= <-]; constructor].
  Qed.

  (* Each class below: the renamed instance instantiates to the renamed result (the same exception otherwise), and
     the result has the shape of its target class.  Stated on [inst_item], through which items of lists go. *)

  Lemma mr_dep_shape : forall s,
    mr_dep (MModel "StepDependency" [("dependsOn", MStr s)]) = MModel "StepDependency" [("dependsOn", MStr (rho_s s))].
  Proof. reflexivity. Qed.

  Lemma inst_dep : forall f j fn m, T_dep m ->
    II f j fn (mr_dep m) = omap mr_dep (II f j fn m) /\ forall y, II f j fn m = Ok y -> T_dep y.
  Proof.
    intros f j fn m [s ->]. rewrite mr_dep_shape. cbn [inst_item]. destruct f as [|f]; [split; [reflexivity|discriminate]|].
    rewrite !inst_S, jcm_dep, !gen_Dep, !inst_val_str. split; [reflexivity|]. intros y [= <-]. exists s. reflexivity.
  Qed.

  Lemma mr_env_shape : forall s sc v d,
    mr_env (MModel "Environment" [("name", MStr s); ("script", sc); ("variables", v); ("description", d)])
    = MModel "Environment" [("name", MStr (rho_e s)); ("script", sc); ("variables", v); ("description", d)].
  Proof. reflexivity. Qed.

  Lemma inst_env : forall f j fn m, T_env m ->
    II f j fn (mr_env m) = omap mr_env (II f j fn m) /\ forall y, II f j fn m = Ok y -> T_env y.
  Proof.
    intros f j fn m [s [sc [v [d ->]]]]. rewrite mr_env_shape. cbn [inst_item]. destruct f as [|f]; [split; [reflexivity|discriminate]|].
    rewrite !inst_S, jcm_env, !gen_Env, !inst_val_str. cbn [bind].
    apply bind_same; intros sc'. apply bind_same; intros v'. apply bind_same; intros d'.
    split; [reflexivity|]. intros y [= <-]. do 4 eexists. reflexivity.
  Qed.

  Lemma mr_step_shape : forall c s d sc se ps hr dp,
    mr_step (MModel c (step_fields (MStr s) d sc se ps hr dp))
    = MModel c (step_fields (MStr (rho_s s)) d sc (on_mlist mr_env se) ps hr (on_mlist mr_dep dp)).
  Proof. reflexivity. Qed.

  Lemma inst_step : forall f j fn m, T_step m ->
    II f j fn (mr_step m) = omap mr_step (II f j fn m) /\ forall y, II f j fn m = Ok y -> J_step y.
  Proof.
    intros f j fn m [s [d [sc [se [ps [hr [dp [-> [Hse Hdp]]]]]]]]]. rewrite mr_step_shape. cbn [inst_item].
    destruct f as [|f]; [split; [reflexivity|discriminate]|].
    rewrite !inst_S, jcm_step. unfold step_fields. rewrite !gen_StepTemplate, !inst_val_str. cbn [bind].
    destruct (inst_val_list f jcm_StepTemplate "stepEnvironments" mr_env se T_env T_env eq_refl Hse
                (inst_env f jcm_StepTemplate "stepEnvironments")) as [Ese Sse].
    destruct (inst_val_list f jcm_StepTemplate "dependencies" mr_dep dp T_dep T_dep eq_refl Hdp
                (inst_dep f jcm_StepTemplate "dependencies")) as [Edp Sdp].
    rewrite Ese, Edp.
    apply bind_same; intros d'. apply bind_same; intros sc'. apply bind_ren; intros se' Hse'.
    apply bind_same; intros ps'. apply bind_same; intros hr'. apply bind_ren; intros dp' Hdp'.
    split; [reflexivity|]. intros y [= <-]. exists s. do 6 eexists.
    split; [reflexivity|]. split; [exact (Sse se' Hse')|exact (Sdp dp' Hdp')].
  Qed.

  Lemma mrename_job_shape : forall sv nm st d pd je ss,
    mrename_job (MModel "JobTemplate" [("specificationVersion", sv); ("name", nm); ("steps", st); ("description", d);
                                       ("parameterDefinitions", pd); ("jobEnvironments", je); ("schemaStr", ss)])
    = MModel "JobTemplate" [("specificationVersion", sv); ("name", nm); ("steps", on_mlist mr_step st); ("description", d);
                            ("parameterDefinitions", pd); ("jobEnvironments", on_mlist mr_env je); ("schemaStr", ss)].
  Proof. reflexivity. Qed.

  Theorem inst_job : forall f t, T_job t ->
    R f (mrename_job t) = omap mrename_job (R f t) /\ forall y, R f t = Ok y -> J_job y.
  Proof.
    intros f t [sv [nm [st [d [pd [je [ss [-> [Hst Hje]]]]]]]]]. destruct f as [|f]; [split; [reflexivity|discriminate]|].
    rewrite mrename_job_shape, !inst_S, jcm_job, !gen_JobTemplate.
    destruct (inst_val_list f jcm_JobTemplate "steps" mr_step st T_step J_step eq_refl Hst
                (inst_step f jcm_JobTemplate "steps")) as [Est Sst].
    destruct (inst_val_list f jcm_JobTemplate "jobEnvironments" mr_env je T_env T_env eq_refl Hje
                (inst_env f jcm_JobTemplate "jobEnvironments")) as [Eje Sje].
    rewrite Est, Eje.
    apply bind_same; intros nm'. apply bind_ren; intros st' Hst'. apply bind_same; intros d'.
    apply bind_same; intros pd'. apply bind_ren; intros je' Hje'.
    split; [reflexivity|]. intros y [= <-]. do 5 eexists.
    split; [reflexivity|]. split; [exact (Sst st' Hst')|exact (Sje je' Hje')].
  Qed.
End Inst.

(* ------------------------------------------------------------------ (C) the job-side coercion *)
Section Coerce.
  Variables rho_s rho_e : str -> str.
  Notation mr_dep := (mr_dep rho_s).
  Notation mr_env := (mr_env rho_e).
  Notation mr_step := (mr_step rho_s rho_e).
  Notation mrename_job := (mrename_job rho_s rho_e).

  Lemma coerce_mr_dep : forall f x, coerce_job f (mr_dep x) = mr_dep (coerce_job f x).
  Proof.
    intros f x. apply coerce_on_fields; [reflexivity|]. apply coerce_mdispatch.
    constructor; [intros f' y; apply coerce_mren_str|constructor].
  Qed.

  Lemma coerce_mr_env : forall f x, coerce_job f (mr_env x) = mr_env (coerce_job f x).
  Proof.
    intros f x. apply coerce_on_fields; [reflexivity|]. apply coerce_mdispatch.
    constructor; [intros f' y; apply coerce_mren_str|constructor].
  Qed.

  Lemma coerce_mr_step : forall f x, coerce_job f (mr_step x) = mr_step (coerce_job f x).
  Proof.
    intros f x. apply coerce_on_fields; [reflexivity|]. apply coerce_mdispatch.
    constructor; [intros f' y; apply coerce_mren_str|].
    constructor; [intros f' y; apply coerce_on_mlist; exact coerce_mr_dep|].
    constructor; [intros f' y; apply coerce_on_mlist; exact coerce_mr_env|constructor].
  Qed.

  Theorem coerce_mrename_job : forall f x, coerce_job f (mrename_job x) = mrename_job (coerce_job f x).
  Proof.
    intros f x. apply coerce_on_fields; [reflexivity|]. apply coerce_mdispatch.
    constructor; [intros f' y; apply coerce_on_mlist; exact coerce_mr_step|].
    constructor; [intros f' y; apply coerce_on_mlist; exact coerce_mr_env|constructor].
  Qed.

  (* ... and keeps the shapes *)
  Lemma coerce_mstr : forall f s, coerce_job f (MStr s) = MStr s.
  Proof. intros f s. destruct f; reflexivity. Qed.

  Lemma mitems_coerce : forall (P : mval -> Prop) f v, Forall P (mitems v) ->
    (forall f' x, P x -> P (coerce_job f' x)) -> Forall P (mitems (coerce_job f v)).
  Proof.
    intros P f v H HP. destruct f as [|f]; [exact H|].
    destruct v as [ | | | | | | |l| |]; try constructor.
    cbn [coerce_job mitems] in *. apply Forall_forall. intros y Hy. apply in_map_iff in Hy.
    destruct Hy as [x [<- Hx]]. rewrite Forall_forall in H. exact (HP f x (H x Hx)).
  Qed.

  Lemma coerce_T_dep : forall f x, T_dep x -> T_dep (coerce_job f x).
  Proof.
    intros f x [s ->]. destruct f as [|f]; [exists s; reflexivity|].
    exists s. cbn [coerce_job map fst snd String.eqb Ascii.eqb Bool.eqb]. rewrite coerce_mstr. reflexivity.
  Qed.

  Lemma coerce_T_env : forall f x, T_env x -> T_env (coerce_job f x).
  Proof.
    intros f x [s [sc [v [d ->]]]]. destruct f as [|f]; [do 4 eexists; reflexivity|].
    exists s. cbn [coerce_job map fst snd String.eqb Ascii.eqb Bool.eqb]. rewrite coerce_mstr.
    do 3 eexists. reflexivity.
  Qed.

  Lemma coerce_J_step : forall f x, J_step x -> J_step (coerce_job f x).
  Proof.
    intros f x [s [d [sc [se [ps [hr [dp [-> [Hse Hdp]]]]]]]]].
    destruct f as [|f]; [exists s; do 6 eexists; split; [reflexivity|split; assumption]|].
    exists s. unfold step_fields. cbn [coerce_job map fst snd String.eqb Ascii.eqb Bool.eqb]. rewrite coerce_mstr.
    do 6 eexists. split; [reflexivity|]. split.
    - apply mitems_coerce; [exact Hse|]. intros f' y Hy. apply coerce_T_env. exact Hy.
    - apply mitems_coerce; [exact Hdp|]. intros f' y Hy. apply coerce_T_dep. exact Hy.
  Qed.

  Theorem coerce_J_job : forall f x, J_job x -> J_job (coerce_job f x).
  Proof.
    intros f x [nm [st [d [p [je [-> [Hst Hje]]]]]]].
    destruct f as [|f]; [do 5 eexists; split; [reflexivity|split; assumption]|].
    cbn [coerce_job map fst snd String.eqb Ascii.eqb Bool.eqb].
    do 5 eexists. split; [reflexivity|]. split.
    - apply mitems_coerce; [exact Hst|]. intros f' y Hy. apply coerce_J_step. exact Hy.
    - apply mitems_coerce; [exact Hje|]. intros f' y Hy. apply coerce_T_env. exact Hy.
  Qed.
End Coerce.

(* ------------------------------------------------------------------ (D) to_object *)
Section ToObject.
  Variables rho_s rho_e : str -> str.
  Notation SCH := Generated.schema.
  Notation mr_dep := (mr_dep rho_s).
  Notation mr_env := (mr_env rho_e).
  Notation mr_step := (mr_step rho_s rho_e).
  Notation mrename_job := (mrename_job rho_s rho_e).
  Notation rs_dep := (rs_dep rho_s).
  Notation rs_env := (rs_env rho_e).
  Notation rs_step := (rs_step rho_s rho_e).

  Lemma TO_dep : forall m, T_dep m -> forall F, to_object SCH F (mr_dep m) = rs_dep (to_object SCH F m).
  Proof.
    intros m [s ->] F. destruct F as [|F]; [reflexivity|].
    apply (to_object_on_fields SCH F "StepDependency" (mr_dep_g rho_s) (rs_dep_h rho_s)).
    intros k x Hin. field_cases Hin.
    split; [reflexivity|]. exact (to_object_mstr SCH rho_s F s).
  Qed.

  Lemma TO_env : forall m, T_env m -> forall F, to_object SCH F (mr_env m) = rs_env (to_object SCH F m).
  Proof.
    intros m [s [sc [v [d ->]]]] F. destruct F as [|F]; [reflexivity|].
    apply (to_object_on_fields SCH F "Environment" (mr_env_g rho_e) (rs_env_h rho_e)).
    intros k x Hin. field_cases Hin; try (split; reflexivity).
    split; [reflexivity|]. exact (to_object_mstr SCH rho_e F s).
  Qed.

  Lemma TO_step : forall m, J_step m -> forall F, to_object SCH F (mr_step m) = rs_step (to_object SCH F m).
  Proof.
    intros m [s [d [sc [se [ps [hr [dp [-> [Hse Hdp]]]]]]]]] F. destruct F as [|F]; [reflexivity|].
    apply (to_object_on_fields SCH F "Step" (mr_step_g rho_s rho_e) (rs_step_h rho_s rho_e)).
    intros k x Hin. unfold step_fields in Hin. field_cases Hin; try (split; reflexivity).
    - split; [reflexivity|]. exact (to_object_mstr SCH rho_s F s).
    - split; [apply is_none_on_mlist|].
      apply (to_object_on_mlist SCH mr_env rs_env). intros F' y Hy. apply TO_env.
      rewrite Forall_forall in Hse. exact (Hse y Hy).
    - split; [apply is_none_on_mlist|].
      apply (to_object_on_mlist SCH mr_dep rs_dep). intros F' y Hy. apply TO_dep.
      rewrite Forall_forall in Hdp. exact (Hdp y Hy).
  Qed.

  Theorem TO_job : forall m, J_job m -> forall F,
    to_object SCH F (mrename_job m) = rename_steps_envs rho_s rho_e (to_object SCH F m).
  Proof.
    intros m [nm [st [d [p [je [-> [Hst Hje]]]]]]] F. destruct F as [|F]; [reflexivity|].
    apply (to_object_on_fields SCH F "Job" (mr_job_g rho_s rho_e) (rs_job_h rho_s rho_e)).
    intros k x Hin. field_cases Hin; try (split; reflexivity).
    - split; [apply is_none_on_mlist|].
      apply (to_object_on_mlist SCH mr_step rs_step). intros F' y Hy. apply TO_step.
      rewrite Forall_forall in Hst. exact (Hst y Hy).
    - split; [apply is_none_on_mlist|].
      apply (to_object_on_mlist SCH mr_env rs_env). intros F' y Hy. apply TO_env.
      rewrite Forall_forall in Hje. exact (Hje y Hy).
  Qed.

  Lemma mdepth_mr_dep : forall x, mval_depth (mr_dep x) = mval_depth x.
  Proof.
    intros x. apply mdepth_on_fields. intros k y. apply mdepth_mdispatch.
    constructor; [intros z; apply mdepth_mren_str|constructor].
  Qed.

  Lemma mdepth_mr_env : forall x, mval_depth (mr_env x) = mval_depth x.
  Proof.
    intros x. apply mdepth_on_fields. intros k y. apply mdepth_mdispatch.
    constructor; [intros z; apply mdepth_mren_str|constructor].
  Qed.

  Lemma mdepth_mr_step : forall x, mval_depth (mr_step x) = mval_depth x.
  Proof.
    intros x. apply mdepth_on_fields. intros k y. apply mdepth_mdispatch.
    constructor; [intros z; apply mdepth_mren_str|].
    constructor; [intros z; apply mdepth_on_mlist; exact mdepth_mr_dep|].
    constructor; [intros z; apply mdepth_on_mlist; exact mdepth_mr_env|constructor].
  Qed.

  Theorem mdepth_mrename_job : forall x, mval_depth (mrename_job x) = mval_depth x.
  Proof.
    intros x. apply mdepth_on_fields. intros k y. apply mdepth_mdispatch.
    constructor; [intros z; apply mdepth_on_mlist; exact mdepth_mr_step|].
    constructor; [intros z; apply mdepth_on_mlist; exact mdepth_mr_env|constructor].
  Qed.

  Lemma export_dep : forall m, T_dep m -> export (mr_dep m) = rs_dep (export m).
  Proof. intros m H. unfold export. rewrite mdepth_mr_dep. apply TO_dep. exact H. Qed.
  Lemma export_env : forall m, T_env m -> export (mr_env m) = rs_env (export m).
  Proof. intros m H. unfold export. rewrite mdepth_mr_env. apply TO_env. exact H. Qed.
  Lemma export_step : forall m, J_step m -> export (mr_step m) = rs_step (export m).
  Proof. intros m H. unfold export. rewrite mdepth_mr_step. apply TO_step. exact H. Qed.
  Theorem export_job : forall m, J_job m -> export (mrename_job m) = rename_steps_envs rho_s rho_e (export m).
  Proof. intros m H. unfold export. rewrite mdepth_mrename_job. apply TO_job. exact H. Qed.
End ToObject.

(* ------------------------------------------------------------------ (E) re-validation of the created tree *)
Section Nodes.
  Variable classify : N -> cclass.
  Variables rho_s rho_e : str -> str.
  Hypothesis fine_s : forall n, name_fine (rho_s n) = name_fine n.
  Hypothesis fine_e : forall n, name_fine (rho_e n) = name_fine n.
  Notation SCH := Generated.schema.
  Notation mr_dep := (mr_dep rho_s).
  Notation mr_env := (mr_env rho_e).
  Notation mr_step := (mr_step rho_s rho_e).
  Notation mrename_job := (mrename_job rho_s rho_e).
  Notation rs_dep := (rs_dep rho_s).
  Notation rs_env := (rs_env rho_e).
  Notation rs_step := (rs_step rho_s rho_e).
  Notation nodes := (nodes_ok classify).

  Definition all_ok (f : nat) (l : list mval) : outcome bool :=
    fold_left (fun (acc : outcome bool) x => do a <- acc; if a then nodes f x else Ok false) l (Ok true).

  Definition verdict (o : outcome mval) : outcome bool :=
    match o with
    | Ok _ => Ok true
    | Raise ValueError => Ok false
    | Raise e => Raise e
    end.

  Lemma nodes_ok_S : forall f v,
    nodes (S f) v =
    match v with
    | MList l => all_ok f l
    | MDict l => all_ok f (map snd l)
    | MModel c fs =>
      do below <- all_ok f (map snd fs);
      if below then verdict (parse_any classify c (export v)) else Ok false
    | _ => Ok true
    end.
  Proof.
    (* [all_ok] and [verdict] are unfolded first: left folded, the conversion test unfolds [parse_any] instead *)
    intros f v. unfold all_ok, verdict. destruct v; reflexivity.
  Qed.

  Lemma verdict_omap : forall g o, verdict (omap g o) = verdict o.
  Proof. intros g o. destruct o; reflexivity. Qed.

  Lemma all_ok_map : forall f (G : mval -> mval) l,
    (forall x, In x l -> nodes f (G x) = nodes f x) -> all_ok f (map G l) = all_ok f l.
  Proof.
    intros f G l. unfold all_ok. generalize (Ok true : outcome bool) as acc.
    induction l as [|x r IH]; intros acc H; [reflexivity|].
    cbn [map fold_left]. rewrite (H x (or_introl eq_refl)). apply IH. intros y Hy. apply H. right. exact Hy.
  Qed.

  Lemma all_ok_fields : forall f (g : string -> mval -> mval) fs,
    (forall k x, In (k, x) fs -> nodes f (g k x) = nodes f x) ->
    all_ok f (map snd (mapf g fs)) = all_ok f (map snd fs).
  Proof.
    intros f g fs H. unfold all_ok. generalize (Ok true : outcome bool) as acc.
    induction fs as [|[k x] r IH]; intros acc; [reflexivity|].
    cbn [mapf map fold_left fst snd]. rewrite (H k x (or_introl eq_refl)).
    apply IH. intros k' x' Hin. apply H. right. exact Hin.
  Qed.

  Lemma nodes_mstr : forall f s s', nodes f (MStr s) = nodes f (MStr s').
  Proof. intros f s s'. destruct f; reflexivity. Qed.

  Lemma nodes_on_mlist : forall (G : mval -> mval) v,
    (forall f x, In x (mitems v) -> nodes f (G x) = nodes f x) ->
    forall f, nodes f (on_mlist G v) = nodes f v.
  Proof.
    intros G v H f. destruct v as [ | | | | | | |l| |]; try reflexivity.
    destruct f as [|f]; [reflexivity|]. cbn [on_mlist]. rewrite !nodes_ok_S. apply all_ok_map. intros x Hx. apply H. exact Hx.
  Qed.

  (* the pre validators of the re-validation agree with those of decoding on the classes concerned *)
  Lemma pre_full_live : forall fuel c raw, In c live_classes -> pre_full classify fuel c raw = pre_hook c raw.
  Proof.
    intros fuel c raw Hin. unfold live_classes in Hin. cbn [In] in Hin. unfold pre_full.
    repeat (destruct Hin as [<-|Hin]; [apply andb_true_r|]). contradiction.
  Qed.

  (* the parser of a class as the re-validation runs it (fuel from the depth of the document, [pre_full] as pre
     validator), from what RenameStepsProofs.v says about [parse_cls] *)
  Lemma parse_any_ren : forall c (jr : json -> json) (mr : mval -> mval),
    (forall v, json_depth (jr v) = json_depth v) ->
    (forall pre, (forall c' raw, In c' live_classes -> pre c' raw = pre_hook c' raw) ->
       forall f v, parse_cls SCH classify pre (post_hook classify) f c (jr v)
                   = omap mr (parse_cls SCH classify pre (post_hook classify) f c v)) ->
    forall J, parse_any classify c (jr J) = omap mr (parse_any classify c J).
  Proof.
    intros c jr mr Hd Hp J. unfold parse_any. cbv zeta. unfold parse_fuel. rewrite Hd.
    apply Hp. intros c' raw Hc. apply pre_full_live. exact Hc.
  Qed.

  (* a model node under an attribute-wise renaming: the export and the class's parser commute with it, and the
     nodes below give the same verdicts *)
  Lemma nodes_on_fields : forall c (g : string -> mval -> mval) fs (jr : json -> json) (mr : mval -> mval),
    export (MModel c (mapf g fs)) = jr (export (MModel c fs)) ->
    (forall J, parse_any classify c (jr J) = omap mr (parse_any classify c J)) ->
    (forall f k x, In (k, x) fs -> nodes f (g k x) = nodes f x) ->
    forall f, nodes f (MModel c (mapf g fs)) = nodes f (MModel c fs).
  Proof.
    intros c g fs jr mr Ex Ep Hb f. destruct f as [|f]; [reflexivity|].
    rewrite !nodes_ok_S, Ex, Ep, verdict_omap, (all_ok_fields f g fs (Hb f)). reflexivity.
  Qed.

  Lemma N_dep : forall m, T_dep m -> forall f, nodes f (mr_dep m) = nodes f m.
  Proof.
    intros m Hm. pose proof (export_dep rho_s m Hm) as Ex. destruct Hm as [s ->].
    apply (nodes_on_fields _ (mr_dep_g rho_s) _ rs_dep mr_dep Ex
             (parse_any_ren _ _ _ (depth_rs_dep rho_s) (pc_dep classify rho_s fine_s))).
    intros f k x Hin. field_cases Hin. apply nodes_mstr.
  Qed.

  Lemma N_env : forall m, T_env m -> forall f, nodes f (mr_env m) = nodes f m.
  Proof.
    intros m Hm. pose proof (export_env rho_e m Hm) as Ex. destruct Hm as [s [sc [v [d ->]]]].
    apply (nodes_on_fields _ (mr_env_g rho_e) _ rs_env mr_env Ex
             (parse_any_ren _ _ _ (depth_rs_env rho_e) (pc_env classify rho_e fine_e))).
    intros f k x Hin. field_cases Hin; try reflexivity. apply nodes_mstr.
  Qed.

  Lemma N_step : forall m, J_step m -> forall f, nodes f (mr_step m) = nodes f m.
  Proof.
    intros m Hm. pose proof (export_step rho_s rho_e m Hm) as Ex.
    destruct Hm as [s [d [sc [se [ps [hr [dp [-> [Hse Hdp]]]]]]]]].
    apply (nodes_on_fields _ (mr_step_g rho_s rho_e) _ rs_step mr_step Ex
             (parse_any_ren _ _ _ (depth_rs_step rho_s rho_e) (pc_jstep classify rho_s rho_e fine_s fine_e))).
    intros f k x Hin. unfold step_fields in Hin. field_cases Hin; try reflexivity.
    - apply nodes_mstr.
    - apply (nodes_on_mlist mr_env). intros f' y Hy. apply N_env. rewrite Forall_forall in Hse. exact (Hse y Hy).
    - apply (nodes_on_mlist mr_dep). intros f' y Hy. apply N_dep. rewrite Forall_forall in Hdp. exact (Hdp y Hy).
  Qed.

  Theorem N_job : forall m, J_job m -> forall f, nodes f (mrename_job m) = nodes f m.
  Proof.
    intros m Hm. pose proof (export_job rho_s rho_e m Hm) as Ex. destruct Hm as [nm [st [d [p [je [-> [Hst Hje]]]]]]].
    apply (nodes_on_fields _ (mr_job_g rho_s rho_e) _ (rename_steps_envs rho_s rho_e) mrename_job Ex
             (parse_any_ren _ _ _ (depth_rename_steps_envs rho_s rho_e) (pc_jjob classify rho_s rho_e fine_s fine_e))).
    intros f k x Hin. field_cases Hin; try reflexivity.
    - apply (nodes_on_mlist mr_step). intros f' y Hy. apply N_step. rewrite Forall_forall in Hst. exact (Hst y Hy).
    - apply (nodes_on_mlist mr_env). intros f' y Hy. apply N_env. rewrite Forall_forall in Hje. exact (Hje y Hy).
  Qed.

  (* ---------------------------------------------------------------- (F) create_job *)
  Lemma defs_of_template_ren : forall t, defs_of_template (mrename_job t) = defs_of_template t.
  Proof.
    intros t. destruct t as [ | | | | | | | | |c fs]; try reflexivity.
    cbn [RenameSteps.mrename_job on_fields defs_of_template].
    change (mfield "parameterDefinitions" (mapf (mr_job_g rho_s rho_e) fs))
      with (fget "parameterDefinitions" (mapf (mr_job_g rho_s rho_e) fs)).
    rewrite fget_mapf by reflexivity. reflexivity.
  Qed.

  Lemma prep_full_ren : forall envs t vals, prep_full envs (mrename_job t) vals = prep_full envs t vals.
  Proof. intros envs t vals. unfold prep_full. rewrite defs_of_template_ren. reflexivity. Qed.

  (* the Job of the renamed template is the renamed Job (the same exception otherwise), and has the shape of a Job *)
  Theorem create_job_full_shaped : forall envs t vals, T_job t ->
    create_job_full classify envs (mrename_job t) vals = omap mrename_job (create_job_full classify envs t vals) /\
    forall job, create_job_full classify envs t vals = Ok job -> J_job job.
  Proof.
    intros envs t vals Ht. unfold create_job_full. rewrite prep_full_ren.
    destruct (prep_full envs t vals) as [pvals|e]; cbn [bind omap]; [|split; [reflexivity|discriminate]].
    destruct (inst_job (fs_resolve classify) (symtab_of pvals) rho_s rho_e (S (mval_depth t)) t Ht) as [Er Sr].
    rewrite (mdepth_mrename_job rho_s rho_e), Er.
    destruct (inst SCH (fs_resolve classify) (symtab_of pvals) (S (mval_depth t)) t) as [job|e]; cbn [omap].
    - pose proof (coerce_J_job (S (mval_depth t)) job (Sr job eq_refl)) as Hj.
      rewrite (coerce_mrename_job rho_s rho_e), (N_job _ Hj).
      destruct (nodes (S (S (S (mval_depth t)))) (coerce_job (S (mval_depth t)) job)) as [[|]|e];
        (split; [reflexivity|]); try discriminate. intros job' [= <-]. exact Hj.
    - destruct e; (split; [reflexivity|discriminate]).
  Qed.
End Nodes.

Section Docs.
  Variable classify : N -> cclass.
  Variables rho_s rho_e : str -> str.
  Hypothesis fine_s : forall n, name_fine (rho_s n) = name_fine n.
  Hypothesis fine_e : forall n, name_fine (rho_e n) = name_fine n.

  Theorem create_job_docs_rs_names : forall env_docs doc vals,
    (forall a b, job_snames doc a -> job_snames doc b -> rho_s a = rho_s b -> a = b) ->
    (forall a b, job_enames doc a -> job_enames doc b -> rho_e a = rho_e b -> a = b) ->
    create_job_docs classify env_docs (rename_steps_envs rho_s rho_e doc) vals
    = omap (omap (rename_steps_envs rho_s rho_e)) (create_job_docs classify env_docs doc vals).
  Proof.
    intros env_docs doc vals Is Ie. unfold create_job_docs.
    rewrite (decode_job_rs_names classify rho_s rho_e fine_s fine_e doc Is Ie).
    destruct (decode_job classify doc) as [t|e] eqn:Ed; cbn [omap bind]; [|reflexivity].
    destruct (mapM (decode_env classify) env_docs) as [envs|e]; cbn [omap bind]; [|reflexivity].
    pose proof (decode_job_tshape classify doc t Ed) as Ht.
    destruct (create_job_full_shaped classify rho_s rho_e fine_s fine_e envs t vals Ht) as [Ec Sc]. rewrite Ec.
    destruct (create_job_full classify envs t vals) as [job|e]; cbn [omap]; [|reflexivity].
    rewrite (export_job rho_s rho_e job (Sc job eq_refl)). reflexivity.
  Qed.

End Docs.

(* create_job reads the environment templates through their parameter definitions only, which do not hold the name *)
Lemma defs_of_template_envt : forall rho e, defs_of_template (mrename_env_template rho e) = defs_of_template e.
Proof.
  intros rho e. destruct e as [ | | | | | | | | |c fs]; try reflexivity.
  cbn [mrename_env_template on_fields defs_of_template].
  change (mfield "parameterDefinitions" (mapf (mr_envt_g rho) fs)) with (fget "parameterDefinitions" (mapf (mr_envt_g rho) fs)).
  rewrite fget_mapf by reflexivity. reflexivity.
Qed.
