(* KeyOrder.v — lemmas behind props/C19.v (key order): all access to an object of a document is by
   key lookup, and iteration is over the MODEL's field list, so permuting the members of an object
   with distinct keys changes nothing. *)
From Coq Require Import List NArith ZArith Bool String Lia Permutation.
Import ListNotations.
Require Import OJD.Base OJD.Lexer OJD.Json OJD.Schema OJD.Generated OJD.Charsets OJD.FormatStr OJD.FsRefs
               OJD.CreateJob OJD.Parse OJD.Validators OJD.Accept OJD.AcceptMono OJD.ScopeWalk OJD.ScopeSpec
               OJD.ScopeProofs OJD.ListLib.
Local Open Scope string_scope.
Local Open Scope list_scope.

Theorem assoc_perm : forall (A : Type) (ms ms' : list (str * A)),
  NoDup (map fst ms) -> Permutation ms ms' -> forall k, assoc k ms = assoc k ms'.
Proof.
  intros A ms ms' Hnd Hp. induction Hp as [|[kx x] l l' Hp IH|[kx x] [ky y] l|l l' l'' Hp1 IH1 Hp2 IH2]; intros k.
  - reflexivity.
  - cbn [assoc]. destruct (str_eqb k kx); [reflexivity|]. apply IH.
    cbn [map fst] in Hnd. inversion Hnd. assumption.
  - cbn [assoc]. destruct (str_eqb k kx) eqn:Ex; destruct (str_eqb k ky) eqn:Ey; try reflexivity.
    apply str_eqb_eq in Ex. apply str_eqb_eq in Ey. subst kx ky.
    cbn [map fst] in Hnd. inversion Hnd as [|? ? Hnot _]. exfalso. apply Hnot. left. reflexivity.
  - rewrite IH1 by exact Hnd. apply IH2.
    apply (Permutation_NoDup (Permutation_map fst Hp1)). exact Hnd.
Qed.

Theorem jget_perm : forall ms ms', NoDup (map fst ms) -> Permutation ms ms' ->
  forall name, jget name (JObj ms) = jget name (JObj ms').
Proof. intros ms ms' Hnd Hp name. cbn [jget]. rewrite (assoc_perm _ ms ms' Hnd Hp). reflexivity. Qed.

Lemma forallb_perm : forall (A : Type) (p : A -> bool) l l', Permutation l l' -> forallb p l = forallb p l'.
Proof.
  intros A p l l' Hp. induction Hp as [|x l l' Hp IH|x y l|l l' l'' Hp1 IH1 Hp2 IH2].
  - reflexivity.
  - cbn [forallb]. rewrite IH. reflexivity.
  - cbn [forallb]. destruct (p x), (p y); reflexivity.
  - rewrite IH1. exact IH2.
Qed.

Lemma depth_perm : forall ms ms' : list (str * json), Permutation ms ms' ->
  fold_right (fun kv acc => Nat.max (json_depth (snd kv)) acc) O ms
  = fold_right (fun kv acc => Nat.max (json_depth (snd kv)) acc) O ms'.
Proof.
  intros ms ms' Hp. induction Hp as [|x l l' Hp IH|x y l|l l' l'' Hp1 IH1 Hp2 IH2].
  - reflexivity.
  - cbn [fold_right]. rewrite IH. reflexivity.
  - cbn [fold_right]. lia.
  - rewrite IH1. exact IH2.
Qed.

Lemma json_depth_perm : forall ms ms', Permutation ms ms' -> json_depth (JObj ms) = json_depth (JObj ms').
Proof. intros ms ms' Hp. cbn [json_depth]. rewrite (depth_perm ms ms' Hp). reflexivity. Qed.

Section Parse.
  Variable SC : schema_t.
  Variable classify : N -> cclass.
  Variable pre : string -> json -> bool.
  Variable post : string -> json -> list (string * mval) -> bool.
  Notation pk := (parse_kind SC classify pre post).
  Notation pc := (parse_cls SC classify pre post).

  Variables ms ms' : list (str * json).
  Hypothesis Hnd : NoDup (map fst ms).
  Hypothesis Hp : Permutation ms ms'.

  Lemma field_raw_perm : forall fl, field_raw ms fl = field_raw ms' fl.
  Proof. intros fl. unfold field_raw. rewrite (assoc_perm _ ms ms' Hnd Hp). reflexivity. Qed.

  Lemma extra_bad_perm : forall c0, extra_bad c0 ms = extra_bad c0 ms'.
  Proof. intros c0. unfold extra_bad. rewrite (forallb_perm _ _ ms ms' Hp). reflexivity. Qed.

  (* one class: exact equality of the outcome (accepted value included), for any schema, fuel and
     hooks that do not distinguish the two raw objects at this class *)
  Theorem parse_cls_perm : forall fuel c,
    pre c (JObj ms) = pre c (JObj ms') ->
    (forall fs, post c (JObj ms) fs = post c (JObj ms') fs) ->
    pc fuel c (JObj ms) = pc fuel c (JObj ms').
  Proof.
    intros fuel c Hpre Hpost. destruct fuel as [|f]; [reflexivity|].
    rewrite !parse_cls_S. destruct (lookup_cls SC c) as [c0|]; [|reflexivity].
    rewrite Hpre. rewrite (extra_bad_perm c0).
    assert (E : mapM (parse_field (pk f) ms) (c_fields c0) = mapM (parse_field (pk f) ms') (c_fields c0)).
    { apply mapM_ext. intros fl _. unfold parse_field. rewrite field_raw_perm. reflexivity. }
    rewrite E. destruct (negb (pre c (JObj ms'))); [reflexivity|].
    destruct (extra_bad c0 ms'); [reflexivity|].
    destruct (mapM (parse_field (pk f) ms') (c_fields c0)) as [fields|e]; cbn [bind]; [|reflexivity].
    rewrite Hpost. reflexivity.
  Qed.

  (* any kind (discriminated unions read the discriminator by key; general unions try their
     alternatives on the same value), when the hooks agree at every class *)
  Theorem parse_kind_perm :
    (forall c, pre c (JObj ms) = pre c (JObj ms')) ->
    (forall c fs, post c (JObj ms) fs = post c (JObj ms') fs) ->
    forall fuel k, pk fuel k (JObj ms) = pk fuel k (JObj ms').
  Proof.
    intros Hpre Hpost. induction fuel as [|f IH]; intros k; [reflexivity|].
    rewrite !parse_kind_S.
    destruct k as [lit|members|strict lo hi cs|c lo hi cs|strict|strict ge le gt|gt| |c|key mp|alts];
      try reflexivity.
    - apply parse_cls_perm; [apply Hpre|apply Hpost].
    - unfold disc_res. rewrite (assoc_perm _ ms ms' Hnd Hp).
      destruct (assoc (str_of_string key) ms') as [[| | | |s| |]|]; try reflexivity.
      destruct (List.find _ mp) as [[k' c']|]; [|reflexivity].
      apply parse_cls_perm; [apply Hpre|apply Hpost].
    - induction alts as [|a r IHa]; [reflexivity|].
      rewrite !try_alts_cons. rewrite IHa.
      assert (E : alt_res (pk f) a (JObj ms) = alt_res (pk f) a (JObj ms')).
      { destruct a as [k'|lo hi k']; cbn [alt_res list_items]; [apply IH|reflexivity]. }
      rewrite E. reflexivity.
  Qed.
End Parse.

(* The hooks are chains of tests on the class name.  Two chains are compared branch by branch:
   [destruct]ing or rewriting a test abstracts it in the whole remaining chain, which is slow. *)
Lemma if_cong : forall (A : Type) (b : bool) (x x' y y' : A),
  (b = true -> x = x') -> (b = false -> y = y') -> (if b then x else y) = (if b then x' else y').
Proof. intros A [] x x' y y' H1 H2; [apply H1|apply H2]; reflexivity. Qed.

(* pre validators read the raw object only through dict.get *)
Lemma pre_hook_jget : forall c raw raw',
  (forall name, jget name raw = jget name raw') -> pre_hook c raw = pre_hook c raw'.
Proof.
  intros c raw raw' H. unfold pre_hook.
  repeat (apply if_cong; intros _; [rewrite !H; reflexivity|]). reflexivity.
Qed.

(* post validators of every class except the two template roots do not read the raw object at all *)
Lemma post_hook_raw_free : forall classify c raw raw' fs,
  c <> "JobTemplate" -> c <> "EnvironmentTemplate" ->
  post_hook classify c raw fs = post_hook classify c raw' fs.
Proof.
  intros classify c raw raw' fs H1 H2. apply String.eqb_neq in H1, H2.
  unfold post_hook. rewrite H1, H2. reflexivity.
Qed.

(* the roots run the C03 walker on the raw document; by C03_exact_job / C03_exact_env it is the
   specification, which reads the root object through dict.get only *)
Lemma spec_job_jget : forall refs j j',
  (forall name, jget name j = jget name j') -> spec_job_template refs j = spec_job_template refs j'.
Proof. intros refs j j' H. unfold spec_job_template. rewrite !H. reflexivity. Qed.

Lemma spec_env_jget : forall refs j j',
  (forall name, jget name j = jget name j') -> spec_env_template refs j = spec_env_template refs j'.
Proof. intros refs j j' H. unfold spec_env_template. rewrite !H. reflexivity. Qed.

Lemma post_hook_jget : forall classify c raw raw' fs,
  (forall name, jget name raw = jget name raw') ->
  post_hook classify c raw fs = post_hook classify c raw' fs.
Proof.
  intros classify c raw raw' fs H.
  destruct (String.eqb c "JobTemplate") eqn:E1.
  { apply String.eqb_eq in E1. subst c.
    change (job_template_ok classify raw fs = job_template_ok classify raw' fs).
    unfold job_template_ok. rewrite !exact_job. rewrite (spec_job_jget _ raw raw' H). reflexivity. }
  destruct (String.eqb c "EnvironmentTemplate") eqn:E2.
  { apply String.eqb_eq in E2. subst c.
    change (unique_names (fget "parameterDefinitions" fs)
            && (match prevalidate Generated.schema (fs_refs classify) "EnvironmentTemplate" raw with [] => true | _ => false end)
            = unique_names (fget "parameterDefinitions" fs)
            && (match prevalidate Generated.schema (fs_refs classify) "EnvironmentTemplate" raw' with [] => true | _ => false end)).
    rewrite !exact_env. rewrite (spec_env_jget _ raw raw' H). reflexivity. }
  apply post_hook_raw_free.
  - intros ->. discriminate E1.
  - intros ->. discriminate E2.
Qed.

Theorem hooks_key_order : forall classify ms ms', NoDup (map fst ms) -> Permutation ms ms' ->
  forall c, pre_hook c (JObj ms) = pre_hook c (JObj ms') /\
            forall fs, post_hook classify c (JObj ms) fs = post_hook classify c (JObj ms') fs.
Proof.
  intros classify ms ms' Hnd Hp c. split.
  - apply pre_hook_jget. apply jget_perm; assumption.
  - intros fs. apply post_hook_jget. apply jget_perm; assumption.
Qed.

Theorem parse_template_perm : forall classify root ms ms', NoDup (map fst ms) -> Permutation ms ms' ->
  parse_template classify root (JObj ms) = parse_template classify root (JObj ms').
Proof.
  intros classify root ms ms' Hnd Hp. unfold parse_template, parse_root, parse_fuel.
  rewrite (json_depth_perm ms ms' Hp).
  apply parse_cls_perm; try assumption.
  - apply (hooks_key_order classify ms ms' Hnd Hp root).
  - apply (hooks_key_order classify ms ms' Hnd Hp root).
Qed.

Theorem decode_job_perm : forall classify ms ms', NoDup (map fst ms) -> Permutation ms ms' ->
  decode_job classify (JObj ms) = decode_job classify (JObj ms').
Proof.
  intros classify ms ms' Hnd Hp. unfold decode_job, version_ok.
  rewrite (jget_perm ms ms' Hnd Hp). rewrite (parse_template_perm classify _ ms ms' Hnd Hp). reflexivity.
Qed.

Theorem decode_env_perm : forall classify ms ms', NoDup (map fst ms) -> Permutation ms ms' ->
  decode_env classify (JObj ms) = decode_env classify (JObj ms').
Proof.
  intros classify ms ms' Hnd Hp. unfold decode_env, version_ok.
  rewrite (jget_perm ms ms' Hnd Hp). rewrite (parse_template_perm classify _ ms ms' Hnd Hp). reflexivity.
Qed.

(* a nested object anywhere in a template, at any class and kind, with the real hooks *)
Theorem parse_kind_real_perm : forall classify ms ms', NoDup (map fst ms) -> Permutation ms ms' ->
  forall SC fuel k,
  parse_kind SC classify pre_hook (post_hook classify) fuel k (JObj ms)
  = parse_kind SC classify pre_hook (post_hook classify) fuel k (JObj ms').
Proof.
  intros classify ms ms' Hnd Hp SC fuel k. apply parse_kind_perm; try assumption.
  - intros c. apply (hooks_key_order classify ms ms' Hnd Hp c).
  - intros c. apply (hooks_key_order classify ms ms' Hnd Hp c).
Qed.

(* the C03 walker itself, on the root object *)
Theorem prevalidate_perm : forall refs ms ms', NoDup (map fst ms) -> Permutation ms ms' ->
  prevalidate Generated.schema refs "JobTemplate" (JObj ms) = prevalidate Generated.schema refs "JobTemplate" (JObj ms') /\
  prevalidate Generated.schema refs "EnvironmentTemplate" (JObj ms)
  = prevalidate Generated.schema refs "EnvironmentTemplate" (JObj ms').
Proof.
  intros refs ms ms' Hnd Hp. rewrite !exact_job, !exact_env. split.
  - apply spec_job_jget. apply jget_perm; assumption.
  - apply spec_env_jget. apply jget_perm; assumption.
Qed.
