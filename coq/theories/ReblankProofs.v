(* ReblankProofs.v — lemmas behind props/C19xb.v: re-blanking the '{{ }}' spans of a format string
   (Reblank.v) changes neither acceptance, nor the referenced names, nor the reference check, nor
   the resolved text.  Route: FormatStrProofs.v identifies [mk] with the declarative decomposition
   [Decomp]; [reblank] maps a decomposition to a decomposition with the same literals and the same
   normalised names. *)
From Coq Require Import List NArith Bool Arith Lia.
Import ListNotations.
Require Import OJD.Base OJD.ListLib OJD.Lexer OJD.LexerProofs OJD.Generated OJD.FormatStr OJD.FormatStrSpec
               OJD.FormatStrProofs OJD.FsRefs OJD.Reblank.

Lemma no_rbrace_span_text : forall e, ~ In rbrace e -> span_text e.
Proof. intros e H. unfold span_text, close2. now apply NoSub_notin_snoc. Qed.

Lemma no_lbrace_lit_seg : forall l, ~ In lbrace l -> lit_seg l.
Proof. intros l H. unfold lit_seg, open2. now apply NoSub_notin_snoc. Qed.

(* decidable forms, for concrete strings *)
Lemma lit_seg_check : forall l, find_from open2 (l ++ [lbrace]) 0 = None -> lit_seg l.
Proof. intros l H. unfold lit_seg. exact (proj1 (find_from_none lbrace _ 0) H). Qed.

Lemma span_text_check : forall e, find_from close2 (e ++ [rbrace]) 0 = None -> span_text e.
Proof. intros e H. unfold span_text. exact (proj1 (find_from_none rbrace _ 0) H). Qed.

Section Main.
  Variable classify : N -> cclass.
  Hypothesis AOK : ascii_ok classify = true.

  Notation Dec := (Decomp classify).
  Notation itemsOf := (items_of classify).
  Notation rb := (reblank classify).
  Notation ssim := (seg_sim classify).

  Lemma DName_span_text : forall e, DName classify e -> span_text e.
  Proof. intros e D. apply no_rbrace_span_text. exact (proj2 (DName_no_brace classify AOK e D)). Qed.

  (* the split of a string at a span is determined by [lit_seg] and [span_text] *)
  Lemma span_split_unique : forall l1 e1 r1 l2 e2 r2,
    lit_seg l1 -> span_text e1 -> lit_seg l2 -> span_text e2 ->
    l1 ++ open2 ++ e1 ++ close2 ++ r1 = l2 ++ open2 ++ e2 ++ close2 ++ r2 ->
    l1 = l2 /\ e1 = e2 /\ r1 = r2.
  Proof.
    intros l1 e1 r1 l2 e2 r2 HL1 HS1 HL2 HS2 E.
    destruct (first_dbl_unique lbrace l1 (e1 ++ close2 ++ r1) l2 (e2 ++ close2 ++ r2) HL1 HL2 E) as [-> E2].
    destruct (first_dbl_unique rbrace e1 r1 e2 r2 HS1 HS2 E2) as [-> ->]. repeat split.
  Qed.

  (* a decomposition of  l {{ e }} r  with the span where [lit_seg] / [span_text] put it starts
     with that span *)
  Lemma decomp_span_inv : forall l e r segs last,
    lit_seg l -> span_text e -> Dec (l ++ open2 ++ e ++ close2 ++ r) segs last ->
    exists segs0, segs = (l, e) :: segs0 /\ NoSub close2 l /\ DName classify e /\ Dec r segs0 last.
  Proof.
    intros l e r segs last HL HS D.
    remember (l ++ open2 ++ e ++ close2 ++ r) as t eqn:Et.
    destruct D as [l0 HO HC | l0 e0 rest segs0 last HC HO HD D].
    - exfalso. exact (HO l (e ++ close2 ++ r) Et).
    - destruct (span_split_unique _ _ _ _ _ _ HO (DName_span_text e0 HD) HL HS Et) as [-> [-> ->]].
      exists segs0. repeat split; assumption.
  Qed.

  Lemma interp_expr_cong : forall e e', lex classify e = lex classify e' ->
    interp_expr classify e = interp_expr classify e'.
  Proof. intros e e' H. unfold interp_expr. now rewrite (lex_for_cong classify fs_token_kinds e e' H). Qed.

  (* same tokens: a dotted name together, with the same normalised name *)
  Lemma DName_cong : forall e e', lex classify e = lex classify e' -> DName classify e ->
    DName classify e' /\ norm classify e = norm classify e'.
  Proof.
    intros e e' H D. pose proof (interp_complete classify e D) as I.
    rewrite (interp_expr_cong e e' H) in I. apply interp_iff in I. exact I.
  Qed.

  Lemma reblank_decomp : forall t t', rb t t' -> forall segs last, Dec t segs last ->
    exists segs', Dec t' segs' last /\ Forall2 ssim segs segs'.
  Proof.
    intros t t' R. induction R as [t | l e e' r r' HL HS HS' HX R IH]; intros segs last D.
    - exists segs. split; [exact D|]. apply Forall2_refl_in, Forall_forall. intros a _. split; reflexivity.
    - destruct (decomp_span_inv l e r segs last HL HS D) as [segs0 [-> [HC [HD D0]]]].
      destruct (DName_cong e e' HX HD) as [HD' HN].
      destruct (IH segs0 last D0) as [segs0' [D0' F]].
      exists ((l, e') :: segs0'). split.
      + apply D_seg; assumption.
      + constructor; [split; [reflexivity|exact HN]|exact F].
  Qed.

  Lemma reblank_sym : forall t t', rb t t' -> rb t' t.
  Proof.
    intros t t' R. induction R as [t | l e e' r r' HL HS HS' HX R IH].
    - apply RB_same.
    - apply RB_span; auto.
  Qed.

  Lemma reblank_trans : forall t1 t2, rb t1 t2 -> forall t3, rb t2 t3 -> rb t1 t3.
  Proof.
    intros t1 t2 R. induction R as [t | l e e' r r' HL HS HS' HX R IH]; intros t3 R2; [exact R2|].
    remember (l ++ open2 ++ e' ++ close2 ++ r') as t2 eqn:E2.
    destruct R2 as [t | l2 e2 e2' r2 r2' HL2 HS2 HS2' HX2 R2].
    - subst t. now apply RB_span.
    - destruct (span_split_unique _ _ _ _ _ _ HL2 HS2 HL HS' E2) as [-> [-> ->]].
      apply RB_span; auto. congruence.
  Qed.

  Lemma items_of_sim : forall last segs segs', Forall2 ssim segs segs' ->
    forall off off', Forall2 item_sim (itemsOf off segs last) (itemsOf off' segs' last).
  Proof.
    intros last segs segs' F. induction F as [|[l e] [l' e'] segs segs' [Hl Hn] F IH]; intros off off'.
    - cbn [items_of]. destruct last; repeat constructor.
    - cbn [fst snd] in Hl, Hn. subst l'. cbn [items_of]. rewrite Hn.
      constructor; [constructor|]. constructor; [constructor|]. apply IH.
  Qed.

  Lemma reblank_mk : forall s s', rb s s' -> forall f, mk classify s = Ok f ->
    exists segs segs' last, Dec s segs last /\ Dec s' segs' last /\ Forall2 ssim segs segs' /\
      f = mkF s (itemsOf 0 segs last) /\ mk classify s' = Ok (mkF s' (itemsOf 0 segs' last)).
  Proof.
    intros s s' R f H. apply (mk_value_iff classify AOK) in H as [segs [last [D ->]]].
    destruct (reblank_decomp s s' R segs last D) as [segs' [D' F]].
    exists segs, segs', last. repeat split; try assumption.
    apply (mk_value_iff classify AOK). eauto.
  Qed.

  Lemma reblank_raise : forall s s' e, rb s s' -> mk classify s = Raise e -> mk classify s' = Raise e.
  Proof.
    intros s s' e R H. destruct (mk classify s') as [f'|e'] eqn:H'.
    - destruct (reblank_mk s' s (reblank_sym _ _ R) f' H') as [sg [sg' [la [_ [_ [_ [_ H2]]]]]]]. congruence.
    - rewrite (mk_errors classify s e H), (mk_errors classify s' e' H'). reflexivity.
  Qed.

  Theorem reblank_accept : forall s s', rb s s' -> is_ok (mk classify s) = is_ok (mk classify s').
  Proof.
    intros s s' R. destruct (mk classify s) as [f|e] eqn:H.
    - destruct (reblank_mk s s' R f H) as [sg [sg' [la [_ [_ [_ [_ H2]]]]]]]. now rewrite H2.
    - now rewrite (reblank_raise s s' e R H).
  Qed.

  (* the value itself: piece by piece the same literals and the same names *)
  Theorem reblank_items : forall s s', rb s s' -> forall f f',
    mk classify s = Ok f -> mk classify s' = Ok f' -> Forall2 item_sim (items f) (items f').
  Proof.
    intros s s' R f f' H H'.
    destruct (reblank_mk s s' R f H) as [segs [segs' [last [_ [_ [F [-> H2]]]]]]].
    rewrite H2 in H'. injection H' as <-. cbn [items]. now apply items_of_sim.
  Qed.

  (* names, reference check and resolution look at literals and names only *)
  Lemma names_sim : forall f f', Forall2 item_sim (items f) (items f') -> names f = names f'.
  Proof.
    intros [o its] [o' its'] F. unfold names, expressions. cbn [items] in *.
    induction F as [|i i' its its' [l|a b t a' b' t' n] F IH]; [reflexivity|exact IH|].
    cbn [flat_map app map fst]. now rewrite IH.
  Qed.

  Lemma resolve_sim : forall sigma its its', Forall2 item_sim its its' ->
    resolve_items sigma its = resolve_items sigma its'.
  Proof.
    intros sigma its its' F.
    induction F as [|i i' its its' [l|a b t a' b' t' n] F IH]; cbn [resolve_items]; now rewrite ?IH.
  Qed.

  Theorem reblank_refs : forall s s', rb s s' -> fs_refs classify s = fs_refs classify s'.
  Proof.
    intros s s' R. pose proof (reblank_accept s s' R) as A. pose proof (reblank_items s s' R) as I.
    unfold fs_refs. destruct (mk classify s) as [f|], (mk classify s') as [f'|]; try discriminate A; [|reflexivity].
    f_equal. exact (names_sim f f' (I f f' eq_refl eq_refl)).
  Qed.

  Theorem reblank_validate : forall s s', rb s s' -> forall f f' symbols,
    mk classify s = Ok f -> mk classify s' = Ok f' -> validate_refs symbols f = validate_refs symbols f'.
  Proof.
    intros s s' R f f' symbols H H'. rewrite !validate_refs_names.
    now rewrite (names_sim f f' (reblank_items s s' R f f' H H')).
  Qed.

  Theorem reblank_resolve : forall s s', rb s s' -> forall f f' sigma,
    mk classify s = Ok f -> mk classify s' = Ok f' -> resolve sigma f = resolve sigma f'.
  Proof. intros s s' R f f' sigma H H'. exact (resolve_sim sigma _ _ (reblank_items s s' R f f' H H')). Qed.

  Theorem reblank_fs : forall s s', rb s s' ->
    is_ok (mk classify s) = is_ok (mk classify s') /\
    fs_refs classify s = fs_refs classify s' /\
    (forall f f' symbols, mk classify s = Ok f -> mk classify s' = Ok f' ->
       validate_refs symbols f = validate_refs symbols f') /\
    (forall f f' sigma, mk classify s = Ok f -> mk classify s' = Ok f' ->
       resolve sigma f = resolve sigma f').
  Proof.
    intros s s' R. split; [now apply reblank_accept|]. split; [now apply reblank_refs|].
    split; intros; [eapply reblank_validate|eapply reblank_resolve]; eauto.
  Qed.

  Lemma is_dot_punct : forall d, is_dot classify d = true -> is_punct classify d = true.
  Proof. intros d H. unfold is_punct. rewrite (isd_class classify d H). reflexivity. Qed.

  Lemma blank_step_lex : forall e e', blank_step classify e e' -> lex classify e = lex classify e'.
  Proof.
    intros e e' S. destruct S as [b e Hb | b e Hb | b d e1 e2 Hb Hd | b d e1 e2 Hb Hd
                                  | b b' e1 e2 Hb Hb' | b b' e1 e2 Hb Hb'].
    - apply lex_leading_blank. now apply isb_class.
    - apply lex_trailing_blank. now apply isb_class.
    - apply lex_blank_before_punct; [now apply isb_class|now apply is_dot_punct].
    - apply lex_blank_after_punct; [now apply isb_class|now apply is_dot_punct].
    - apply lex_blank_run; now apply isb_class.
    - apply lex_blank_kind; now apply isb_class.
  Qed.

  Lemma blank_step_in : forall x e e', is_blank classify x = false -> blank_step classify e e' ->
    (In x e <-> In x e').
  Proof.
    intros x e e' Hx S. destruct S as [b e Hb | b e Hb | b d e1 e2 Hb Hd | b d e1 e2 Hb Hd
                                       | b b' e1 e2 Hb Hb' | b b' e1 e2 Hb Hb'];
      rewrite ?in_app_iff; simpl; intuition (subst; congruence).
  Qed.

  Lemma blank_edits_lex : forall e e', blank_edits classify e e' -> lex classify e = lex classify e'.
  Proof.
    intros e e' E. induction E as [e | e1 e2 e3 S E IH | e1 e2 e3 S E IH].
    - reflexivity.
    - now rewrite (blank_step_lex _ _ S).
    - now rewrite <- (blank_step_lex _ _ S).
  Qed.

  Lemma blank_edits_in : forall x e e', is_blank classify x = false -> blank_edits classify e e' ->
    (In x e <-> In x e').
  Proof.
    intros x e e' Hx E. induction E as [e | e1 e2 e3 S E IH | e1 e2 e3 S E IH].
    - tauto.
    - rewrite (blank_step_in x _ _ Hx S). exact IH.
    - rewrite <- (blank_step_in x _ _ Hx S). exact IH.
  Qed.

  Lemma rbrace_not_blank : is_blank classify rbrace = false.
  Proof. unfold is_blank. now rewrite (proj2 (ascii_ok_braces classify AOK)). Qed.

  (* an expression text without '}' and any re-spelling of its blanks make a span pair *)
  Theorem blank_edits_span : forall e e', ~ In rbrace e -> blank_edits classify e e' ->
    span_text e /\ span_text e' /\ lex classify e = lex classify e'.
  Proof.
    intros e e' H E. split; [now apply no_rbrace_span_text|]. split.
    - apply no_rbrace_span_text. now rewrite <- (blank_edits_in rbrace e e' rbrace_not_blank E).
    - now apply blank_edits_lex.
  Qed.

  Theorem reblank_edit : forall l e e' r r', lit_seg l -> ~ In rbrace e ->
    blank_edits classify e e' -> rb r r' ->
    rb (l ++ open2 ++ e ++ close2 ++ r) (l ++ open2 ++ e' ++ close2 ++ r').
  Proof.
    intros l e e' r r' HL H E R. destruct (blank_edits_span e e' H E) as [HS [HS' HX]].
    now apply RB_span.
  Qed.
End Main.
