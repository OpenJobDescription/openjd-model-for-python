(* FormatStrProofs.v — the scanner/parser model of FormatStr.v meets the declarative
   specification of FormatStrSpec.v, for all strings. *)
From Coq Require Import List NArith Bool Arith Lia.
Import ListNotations.
Require Import OJD.Base OJD.ListLib OJD.Lexer OJD.LexerProofs OJD.Generated OJD.FormatStr OJD.FormatStrSpec.

Lemma skipn_app_len : forall (A : Type) (p t : list A), skipn (length p) (p ++ t) = t.
Proof. induction p as [|x p IH]; intros t; simpl; auto. Qed.

Lemma firstn_app_len : forall (A : Type) (m r : list A), firstn (length m) (m ++ r) = m.
Proof. induction m as [|x m IH]; intros r; simpl; [reflexivity| now rewrite IH]. Qed.

Lemma slice_at : forall (s p m r : str) a b,
  s = p ++ m ++ r -> a = length p -> b = a + length m -> slice s a b = m.
Proof.
  intros s p m r a b -> -> ->. unfold slice.
  replace (length p + length m - length p) with (length m) by lia.
  rewrite skipn_app_len. apply firstn_app_len.
Qed.

Lemma app_split_le : forall (A : Type) (l a x y : list A),
  l ++ x = a ++ y -> length l <= length a -> exists a', a = l ++ a' /\ x = a' ++ y.
Proof.
  induction l as [|c l IH]; intros a x y H Hl; simpl in *.
  - exists a. auto.
  - destruct a as [|d a]; simpl in *; [lia|].
    injection H as -> H. destruct (IH a x y H) as [a' [-> ->]]; [lia|].
    exists a'. auto.
Qed.

Lemma list_ind2 : forall (A : Type) (P : list A -> Prop),
  P [] -> (forall a, P [a]) -> (forall a b l, P l -> P (a :: b :: l)) -> forall l, P l.
Proof.
  intros A P H0 H1 H2 l. enough (P l /\ forall a, P (a :: l)) by tauto.
  induction l as [|b l [IH1 IH2]]; split; auto.
Qed.

Lemma NoSub_tail : forall p c m, NoSub p (c :: m) -> NoSub p m.
Proof. intros p c m H a b E. apply (H (c :: a) b). now rewrite E. Qed.

Lemma NoSub_cons : forall p c m, (forall b, c :: m <> p ++ b) -> NoSub p m -> NoSub p (c :: m).
Proof.
  intros p c m H1 H2 a b E. destruct a as [|d a]; [exact (H1 b E)|].
  injection E as _ E. exact (H2 a b E).
Qed.

Lemma NoSub_app_l : forall p u v, NoSub p (u ++ v) -> NoSub p u.
Proof. intros p u v H a b E. apply (H a (b ++ v)). rewrite E. now rewrite <- !app_assoc. Qed.

Lemma NoSub_nil : forall x, NoSub [x; x] [].
Proof. intros x a b E. destruct a; discriminate. Qed.

Lemma NoSub_single : forall x y, NoSub [x; x] [y].
Proof. intros x y. apply NoSub_cons; [discriminate|apply NoSub_nil]. Qed.

Lemma NoSub_cons_ne : forall x y m, y <> x -> NoSub [x; x] m -> NoSub [x; x] (y :: m).
Proof. intros x y m Hy. apply NoSub_cons. intros b E. injection E as E _. contradiction. Qed.

Lemma NoSub_notin_snoc : forall x m, ~ In x m -> NoSub [x; x] (m ++ [x]).
Proof.
  intros x m. induction m as [|c m IH]; intros Hn; simpl; [apply NoSub_single|].
  apply NoSub_cons_ne; [|apply IH]; intros H; apply Hn; [now left|now right].
Qed.

Lemma NoSub_join : forall x y l m,
  NoSub [x; x] l -> y <> x -> NoSub [x; x] (y :: m) -> NoSub [x; x] (l ++ y :: m).
Proof.
  intros x y l m. induction l as [|c l IH]; intros Hl Hy Hm; simpl; [exact Hm|].
  apply NoSub_cons; [|exact (IH (NoSub_tail _ _ _ Hl) Hy Hm)].
  intros b E. injection E as -> E. destruct l as [|z l]; injection E as -> _; [contradiction|].
  apply (Hl [] l). reflexivity.
Qed.

(* where the first "xx" of a string is: [NoSub [x; x] (l ++ [x])] says that l ++ "xx" ++ r has no
   "xx" starting inside l.  There is one such place. *)
Lemma first_dbl_unique : forall (x : N) l1 r1 l2 r2,
  NoSub [x; x] (l1 ++ [x]) -> NoSub [x; x] (l2 ++ [x]) ->
  l1 ++ [x; x] ++ r1 = l2 ++ [x; x] ++ r2 -> l1 = l2 /\ r1 = r2.
Proof.
  assert (Hd : forall x l r r', NoSub [x; x] (l ++ [x]) -> l ++ [x; x] ++ r = [x; x] ++ r' -> l = []).
  { intros x [|c [|d l]] r r' H E; [reflexivity|exfalso..]; simpl in E.
    - injection E as -> _. apply (H [] []). reflexivity.
    - injection E as -> -> _. apply (H [] (l ++ [x])). reflexivity. }
  intros x l1. induction l1 as [|c l1 IH]; intros r1 [|d l2] r2 H1 H2 E.
  - injection E as ->. auto.
  - symmetry in E. discriminate (Hd _ _ _ _ H2 E).
  - discriminate (Hd _ _ _ _ H1 E).
  - injection E as -> E. destruct (IH _ _ _ (NoSub_tail _ _ _ H1) (NoSub_tail _ _ _ H2) E) as [-> ->]. auto.
Qed.

Lemma is_prefix_iff : forall p s, is_prefix p s = true <-> exists r, s = p ++ r.
Proof.
  induction p as [|a p IH]; intros s; simpl; [split; eauto|].
  destruct s as [|b s]; [split; [discriminate|intros [r E]; discriminate]|].
  rewrite andb_true_iff, N.eqb_eq, IH. split.
  - intros [-> [r ->]]. eauto.
  - intros [r E]. injection E as -> ->. eauto.
Qed.

(* str.find returns the first occurrence, or reports that there is none *)
Lemma find_from_spec : forall x t i,
  match find_from [x; x] t i with
  | Some k => exists l r, t = l ++ [x; x] ++ r /\ k = i + length l /\ NoSub [x; x] (l ++ [x])
  | None => NoSub [x; x] t
  end.
Proof.
  intros x t. induction t as [|c t IH]; intros i; [apply NoSub_nil|].
  cbn [find_from]. destruct (is_prefix [x; x] (c :: t)) eqn:P.
  { apply is_prefix_iff in P as [r P]. exists [], r. split; [exact P|]. split; [apply plus_n_O|apply NoSub_single]. }
  assert (Q : forall m r b, c :: t = (c :: m) ++ r -> c :: m <> [x; x] ++ b).
  { intros m r b Et E. rewrite Et, E, <- app_assoc in P.
    assert (is_prefix [x; x] ([x; x] ++ b ++ r) = true) by (apply is_prefix_iff; eauto). congruence. }
  specialize (IH (S i)). destruct (find_from [x; x] t (S i)) as [k|].
  - destruct IH as [l [r [-> [-> NS]]]]. exists (c :: l), r. split; [reflexivity|].
    split; [simpl; apply Nat.add_succ_comm|]. apply NoSub_cons; [|exact NS].
    intros b. apply (Q (l ++ [x]) (x :: r)). simpl. now rewrite <- app_assoc.
  - apply NoSub_cons; [|exact IH]. intros b. apply (Q t []). now rewrite app_nil_r.
Qed.

Lemma find_from_none : forall x t i, find_from [x; x] t i = None <-> NoSub [x; x] t.
Proof.
  intros x t i. pose proof (find_from_spec x t i) as S. split.
  - intros E. now rewrite E in S.
  - intros H. destruct (find_from [x; x] t i); [|reflexivity].
    destruct S as [l [r [E _]]]. destruct (H l r E).
Qed.

Lemma find_from_first : forall x l r i,
  NoSub [x; x] (l ++ [x]) -> find_from [x; x] (l ++ [x; x] ++ r) i = Some (i + length l).
Proof.
  intros x l r i H. pose proof (find_from_spec x (l ++ [x; x] ++ r) i) as S.
  destruct (find_from [x; x] (l ++ [x; x] ++ r) i) as [k|].
  - destruct S as [l' [r' [E [-> H']]]]. now destruct (first_dbl_unique x _ _ _ _ H H' E) as [-> _].
  - destruct (S l r eq_refl).
Qed.

Lemma find_app : forall sub p t, find sub (p ++ t) (length p) = find_from sub t (length p).
Proof.
  intros. unfold find. rewrite skipn_app_len.
  destruct (length (p ++ t) <? length p) eqn:E; [|reflexivity].
  apply Nat.ltb_lt in E. rewrite app_length in E. lia.
Qed.

Section LexFacts.
  Variable classify : N -> cclass.
  Notation isb := (is_blank classify).
  Notation isw := (is_word classify).
  Notation isd := (is_dot classify).
  Notation isn := (is_nstart classify).
  Notation lexg := (lex_go classify).

  Definition sup (t : tok) : bool := supported fs_token_kinds t.

  (* the next character, if any, cannot continue an identifier *)
  Definition nws (r : str) : Prop := match r with [] => True | c :: _ => isw c = false end.

  Lemma lex_name_cons : forall acc c r,
    lexg (LName acc) (c :: r) =
    if isw c then lexg (LName (c :: acc)) r
    else cons_toks [TName (rev acc)] (lexg LNone (c :: r)).
  Proof.
    intros. rewrite lex_go_name. unfold is_word, flush, rev'. rewrite <- rev_alt.
    destruct (classify c); reflexivity.
  Qed.

  Lemma isb_class : forall c, isb c = true -> classify c = CSpace.
  Proof. intros c H. now apply cclass_eqb_eq. Qed.
  Lemma isd_class : forall c, isd c = true -> classify c = CDot.
  Proof. intros c H. now apply cclass_eqb_eq. Qed.
  Lemma isn_class : forall c, isn c = true -> classify c = CNameStart.
  Proof. intros c H. now apply cclass_eqb_eq. Qed.

  Lemma isb_not_word : forall c, isb c = true -> isw c = false.
  Proof. intros c H. unfold is_word. now rewrite (isb_class _ H). Qed.
  Lemma isd_not_word : forall c, isd c = true -> isw c = false.
  Proof. intros c H. unfold is_word. now rewrite (isd_class _ H). Qed.
  Lemma isn_word : forall c, isn c = true -> isw c = true.
  Proof. intros c H. unfold is_word. now rewrite (isn_class _ H). Qed.
  Lemma isw_not_blank : forall c, isw c = true -> isb c = false.
  Proof. intros c. unfold is_word, is_blank. destruct (classify c); simpl; congruence. Qed.
  Lemma isw_not_dot : forall c, isw c = true -> isd c = false.
  Proof. intros c. unfold is_word, is_dot. destruct (classify c); simpl; congruence. Qed.

  Lemma lex_blanks : forall b r, blanks classify b -> lexg LNone (b ++ r) = lexg LNone r.
  Proof.
    induction b as [|c b IH]; intros r H; [reflexivity|].
    unfold blanks in H. simpl in H. apply andb_true_iff in H as [Hc Hb].
    simpl app. rewrite lex_go_none, (isb_class _ Hc). now apply IH.
  Qed.

  Lemma lex_word_run : forall w acc r, forallb isw w = true -> nws r ->
    lexg (LName acc) (w ++ r) = cons_toks [TName (rev acc ++ w)] (lexg LNone r).
  Proof.
    induction w as [|c w IH]; intros acc r Hw Hr.
    - rewrite app_nil_r. simpl app. destruct r as [|c r].
      + cbn [lex_go flush cons_toks app]. unfold rev'. now rewrite <- rev_alt.
      + simpl in Hr. now rewrite lex_name_cons, Hr.
    - simpl in Hw. apply andb_true_iff in Hw as [Hc Hw].
      simpl app. rewrite lex_name_cons, Hc, (IH (c :: acc) r Hw Hr).
      simpl rev. now rewrite <- app_assoc.
  Qed.

  Lemma lex_ident : forall w r, ident classify w -> nws r ->
    lexg LNone (w ++ r) = cons_toks [TName w] (lexg LNone r).
  Proof.
    intros [|c w] r H Hr; [destruct H|]. destruct H as [Hc Hw].
    simpl app. rewrite lex_go_none, (isn_class _ Hc).
    now rewrite (lex_word_run w [c] r Hw Hr).
  Qed.

  Lemma lex_dot : forall d r, isd d = true -> lexg LNone (d :: r) = cons_toks [TDot] (lexg LNone r).
  Proof. intros d r H. now rewrite lex_go_none, (isd_class _ H). Qed.

  Definition tail_toks (ns : list str) : list tok := flat_map (fun w => [TDot; TName w]) ns.

  Lemma blanks_nws : forall b r, blanks classify b -> nws r -> nws (b ++ r).
  Proof. intros [|c b] r H Hr; [exact Hr|]. unfold blanks in H. simpl in H.
    apply andb_true_iff in H as [Hc _]. simpl. now apply isb_not_word. Qed.

  Lemma DTail_nws : forall r, DTail classify r -> nws r.
  Proof.
    intros r H. destruct H as [b Hb | b1 d b2 w r Hb1 Hd Hb2 Hw Ht].
    - rewrite <- (app_nil_r b). now apply blanks_nws.
    - apply blanks_nws; [exact Hb1|]. simpl. now apply isd_not_word.
  Qed.

  Lemma norm_app : forall a b, norm classify (a ++ b) = norm classify a ++ norm classify b.
  Proof. intros. unfold norm. now rewrite filter_app, map_app. Qed.

  Lemma norm_blanks : forall b, blanks classify b -> norm classify b = [].
  Proof.
    induction b as [|c b IH]; intros H; [reflexivity|]. unfold blanks in H. simpl in H.
    apply andb_true_iff in H as [Hc Hb]. unfold norm. simpl. rewrite Hc. simpl. now apply IH.
  Qed.

  Lemma norm_words : forall w, forallb isw w = true -> norm classify w = w.
  Proof.
    induction w as [|c w IH]; intros H; [reflexivity|]. simpl in H.
    apply andb_true_iff in H as [Hc Hw]. unfold norm. simpl.
    rewrite (isw_not_blank _ Hc). simpl. rewrite (isw_not_dot _ Hc). f_equal. now apply IH.
  Qed.

  Lemma ident_words : forall w, ident classify w -> forallb isw w = true.
  Proof. intros [|c w] H; [destruct H|]. destruct H as [Hc Hw]. simpl. now rewrite (isn_word _ Hc). Qed.

  Lemma norm_ident : forall w, ident classify w -> norm classify w = w.
  Proof. intros w H. apply norm_words. now apply ident_words. Qed.

  Lemma norm_dot : forall d, isd d = true -> norm classify [d] = [dotc].
  Proof.
    intros d H. unfold norm. simpl.
    assert (isb d = false) as ->.
    { unfold is_blank. rewrite (isd_class _ H). reflexivity. }
    simpl. now rewrite H.
  Qed.

  Lemma lex_tail : forall r, DTail classify r ->
    exists ns, Forall (ident classify) ns /\ lexg LNone r = Ok (tail_toks ns) /\
               norm classify r = flat_map (fun w : str => dotc :: w) ns.
  Proof.
    intros r H. induction H as [b Hb | b1 d b2 w r Hb1 Hd Hb2 Hw Ht [ns [IH0 [IH1 IH2]]]].
    - exists []. split; [constructor|]. split.
      + rewrite <- (app_nil_r b). now rewrite lex_blanks.
      + now apply norm_blanks.
    - exists (w :: ns). split; [now constructor|]. split.
      + rewrite lex_blanks by exact Hb1. simpl app. rewrite lex_dot by exact Hd.
        rewrite lex_blanks by exact Hb2. rewrite lex_ident; [|exact Hw|now apply DTail_nws].
        rewrite IH1. reflexivity.
      + rewrite !norm_app, (norm_blanks _ Hb1), (norm_blanks _ Hb2), (norm_dot _ Hd), (norm_ident _ Hw), IH2.
        reflexivity.
  Qed.

  Lemma match_rest_tail : forall ns acc, match_rest acc (tail_toks ns) = Ok (rev acc ++ ns, []).
  Proof.
    induction ns as [|n ns IH]; intros acc.
    - simpl. now rewrite app_nil_r.
    - simpl. rewrite IH. simpl. now rewrite <- app_assoc.
  Qed.

  Lemma sup_tail : forall ns, forallb sup (tail_toks ns) = true.
  Proof. induction ns as [|n ns IH]; [reflexivity|]. simpl. exact IH. Qed.

  Lemma interp_complete : forall e, DName classify e -> interp_expr classify e = Ok (norm classify e).
  Proof.
    intros e [b [w [r [Hb [Hw [Ht ->]]]]]].
    destruct (lex_tail r Ht) as [ns [_ [L Nr]]].
    unfold interp_expr, lex_for, lex.
    rewrite lex_blanks by exact Hb. rewrite lex_ident; [|exact Hw|now apply DTail_nws].
    rewrite L. cbn [cons_toks app bind].
    change (forallb (supported fs_token_kinds) (TName w :: tail_toks ns)) with (forallb sup (tail_toks ns)).
    rewrite sup_tail. cbn [parse_expr bind]. rewrite match_rest_tail. cbn [bind rev app].
    rewrite !norm_app, (norm_blanks _ Hb), (norm_ident _ Hw), Nr. reflexivity.
  Qed.

  Inductive Toks : str -> list tok -> Prop :=
  | Tk_end : forall b, blanks classify b -> Toks b []
  | Tk_dot : forall b d r ts, blanks classify b -> isd d = true -> Toks r ts ->
      Toks (b ++ d :: r) (TDot :: ts)
  | Tk_name : forall b w r ts, blanks classify b -> ident classify w -> nws r -> Toks r ts ->
      Toks (b ++ w ++ r) (TName w :: ts).

  Lemma blanks_cons : forall c b, isb c = true -> blanks classify b -> blanks classify (c :: b).
  Proof. intros c b Hc Hb. unfold blanks in *. simpl. now rewrite Hc. Qed.

  Lemma Toks_blank : forall c r ts, isb c = true -> Toks r ts -> Toks (c :: r) ts.
  Proof.
    intros c r ts Hc H. destruct H as [b Hb | b d r ts Hb Hd Ht | b w r ts Hb Hw Hn Ht].
    - apply Tk_end. now apply blanks_cons.
    - change (c :: b ++ d :: r) with ((c :: b) ++ d :: r). apply Tk_dot; auto using blanks_cons.
    - change (c :: b ++ w ++ r) with ((c :: b) ++ w ++ r). apply Tk_name; auto using blanks_cons.
  Qed.

  Lemma blanks_nil : blanks classify [].
  Proof. reflexivity. Qed.

  Definition lex_inv_stmt (st : lstate) (e : str) (ts : list tok) : Prop :=
    match st with
    | LNone => Toks e ts
    | LName acc => exists w r ts', e = w ++ r /\ forallb isw w = true /\ nws r /\
                                   ts = TName (rev acc ++ w) :: ts' /\ Toks r ts'
    | LInt _ => False
    end.

  Lemma lex_inv : forall e st ts, lexg st e = Ok ts -> forallb sup ts = true -> lex_inv_stmt st e ts.
  Proof.
    induction e as [|c r IH]; intros st ts H S.
    - injection H as <-. destruct st as [|acc|v]; simpl.
      + apply Tk_end, blanks_nil.
      + exists [], [], []. rewrite (app_nil_r (rev acc)). unfold rev'. rewrite <- rev_alt. repeat split.
        apply Tk_end, blanks_nil.
      + discriminate S.
    - assert (HN : forall ts, lexg LNone (c :: r) = Ok ts -> forallb sup ts = true -> Toks (c :: r) ts).
      { clear ts H S. intros ts H S. rewrite lex_go_none in H.
        destruct (classify c) eqn:C; try discriminate H; cbn [punct] in H;
          (* the other punctuation tokens are not in the table of format strings *)
          try (destruct (lexg LNone r); [injection H as <-; discriminate S|discriminate H]).
        - apply Toks_blank; [unfold is_blank; now rewrite C|exact (IH _ _ H S)].
        - destruct (IH _ _ H S) as [w [r' [ts' [-> [Hw [Hn [-> Ht]]]]]]].
          change (c :: w ++ r') with ([] ++ (c :: w) ++ r').
          apply Tk_name; auto using blanks_nil. split; [unfold is_nstart; now rewrite C|exact Hw].
        - destruct (IH _ _ H S).
        - destruct (lexg LNone r) as [ts0|] eqn:L; [injection H as <-|discriminate H].
          change (c :: r) with ([] ++ c :: r).
          apply Tk_dot; [apply blanks_nil|unfold is_dot; now rewrite C|exact (IH _ _ L S)]. }
      destruct st as [|acc|v]; cbn [lex_inv_stmt].
      + exact (HN ts H S).
      + rewrite lex_name_cons in H. destruct (isw c) eqn:W.
        * destruct (IH _ _ H S) as [w [r' [ts' [-> [Hw [Hn [-> Ht]]]]]]].
          exists (c :: w), r', ts'. repeat split; auto.
          -- simpl. now rewrite W.
          -- simpl rev. now rewrite <- app_assoc.
        * destruct (lexg LNone (c :: r)) as [ts0|] eqn:L; [injection H as <-|discriminate H].
          exists [], (c :: r), ts0. rewrite app_nil_r. repeat split; auto.
      + rewrite lex_go_int in H.
        destruct (classify c); try (destruct (lexg LNone (c :: r)); [injection H as <-; discriminate S|discriminate H]).
        exact (IH _ _ H S).
  Qed.

  (* [match_rest] takes the tokens two at a time *)
  Lemma match_rest_spec : forall ts r acc, Toks r ts ->
    match match_rest acc ts with
    | Ok (_, []) => DTail classify r
    | Ok (_, _ :: _) => True
    | Raise x => is_expression_error x = true
    end.
  Proof.
    induction ts as [|t|t t2 ts IH] using list_ind2; intros r acc HT.
    - inversion HT; subst. now apply DT_end.
    - destruct t; exact I || reflexivity.
    - destruct t; try exact I. destruct t2; try reflexivity.
      inversion HT as [| b d r1 ts1 Hb Hd HT1 |]; subst.
      inversion HT1 as [| | b2 w r2 ts2 Hb2 Hw Hn HT2]; subst.
      specialize (IH r2 (s :: acc) HT2). cbn [match_rest].
      destruct (match_rest (s :: acc) ts) as [[names [|]]|]; auto.
      change (b ++ d :: b2 ++ s ++ r2) with (b ++ [d] ++ b2 ++ s ++ r2). now apply DT_dot.
  Qed.

  (* the parser accepts dotted names only, and fails with the errors that FormatString catches *)
  Lemma interp_spec : forall e,
    match interp_expr classify e with
    | Ok _ => DName classify e
    | Raise x => is_expression_error x = true
    end.
  Proof.
    intros e. unfold interp_expr, lex_for, lex.
    destruct (lexg LNone e) as [ts|y] eqn:L; cbn [bind]; [|now rewrite (lex_go_raise _ _ _ _ L)].
    destruct (forallb (supported fs_token_kinds) ts) eqn:S; cbn [bind]; [|reflexivity].
    pose proof (lex_inv e LNone ts L S) as HT. cbn [lex_inv_stmt] in HT.
    destruct ts as [|[] ts]; try reflexivity. cbn [parse_expr].
    inversion HT as [| | b w r ts2 Hb Hw Hn HT2]; subst.
    pose proof (match_rest_spec ts r [s] HT2) as M.
    destruct (match_rest [s] ts) as [[names [|]]|]; cbn [bind]; try reflexivity; [|exact M].
    exists b, s, r. auto.
  Qed.

  Lemma interp_iff : forall e name,
    interp_expr classify e = Ok name <-> DName classify e /\ name = norm classify e.
  Proof.
    intros e name. split.
    - intros H. pose proof (interp_spec e) as D. rewrite H in D. split; [exact D|].
      rewrite (interp_complete _ D) in H. now injection H.
    - intros [D ->]. now apply interp_complete.
  Qed.

  Lemma interp_raise : forall e x, interp_expr classify e = Raise x -> is_expression_error x = true.
  Proof. intros e x H. pose proof (interp_spec e) as D. now rewrite H in D. Qed.

  Definition okchar (c : N) : bool := isb c || isw c || isd c.

  Lemma blanks_ok : forall b, blanks classify b -> forallb okchar b = true.
  Proof. intros b. apply forallb_impl. intros c H. unfold okchar. now rewrite H. Qed.

  Lemma words_ok : forall w, forallb isw w = true -> forallb okchar w = true.
  Proof. intros w. apply forallb_impl. intros c H. unfold okchar. now rewrite H, orb_true_r. Qed.

  Lemma DTail_ok : forall r, DTail classify r -> forallb okchar r = true.
  Proof.
    intros r H. induction H as [b Hb | b1 d b2 w r Hb1 Hd Hb2 Hw Ht IH].
    - now apply blanks_ok.
    - rewrite !forallb_app, (blanks_ok _ Hb1), (blanks_ok _ Hb2), (words_ok _ (ident_words _ Hw)), IH.
      simpl. unfold okchar. rewrite Hd, !orb_true_r. reflexivity.
  Qed.

  Lemma DName_ok : forall e, DName classify e -> forallb okchar e = true.
  Proof.
    intros e [b [w [r [Hb [Hw [Ht ->]]]]]].
    now rewrite !forallb_app, (blanks_ok _ Hb), (words_ok _ (ident_words _ Hw)), (DTail_ok _ Ht).
  Qed.
End LexFacts.

Lemma ascii_ok_braces : forall classify, ascii_ok classify = true ->
  classify lbrace = COther /\ classify rbrace = COther.
Proof.
  intros classify H. split.
  - change lbrace with (N.of_nat 123). rewrite (ascii_ok_class _ H) by lia. reflexivity.
  - change rbrace with (N.of_nat 125). rewrite (ascii_ok_class _ H) by lia. reflexivity.
Qed.

Lemma DName_no_brace : forall classify, ascii_ok classify = true ->
  forall e, DName classify e -> ~ In lbrace e /\ ~ In rbrace e.
Proof.
  intros classify H e D. destruct (ascii_ok_braces _ H) as [HL HR].
  pose proof (DName_ok _ _ D) as OK. rewrite forallb_forall in OK.
  split; intros I; apply OK in I; unfold okchar, is_blank, is_word, is_dot in I;
    [rewrite HL in I | rewrite HR in I]; discriminate.
Qed.

Lemma len5 : forall (A : Type) (p l o e c : list A),
  length (p ++ l ++ o ++ e ++ c) = length p + length l + length o + length e + length c.
Proof. intros. rewrite !app_length. lia. Qed.

Section Scan.
  Variable classify : N -> cclass.
  Hypothesis AOK : ascii_ok classify = true.

  Lemma scan_nil : forall f p, scan classify (S f) (p ++ []) (length p) = Ok [].
  Proof. intros f p. cbn [scan]. now rewrite app_nil_r, Nat.leb_refl. Qed.

  Lemma scan_unfold : forall f p t, t <> [] ->
    scan classify (S f) (p ++ t) (length p) =
    match find_from open2 t (length p), find_from close2 t (length p) with
    | None, None => Ok [ILit t]
    | Some _, None => Raise FormatStringError
    | None, Some _ => Raise FormatStringError
    | Some bs, Some ee =>
      if ee <? bs then Raise FormatStringError
      else
        let text := slice (p ++ t) (bs + 2) ee in
        match interp_expr classify text with
        | Raise e => if is_expression_error e then Raise FormatStringError else Raise e
        | Ok name =>
          do rest <- scan classify f (p ++ t) (ee + 2);
          Ok (ILit (slice (p ++ t) (length p) bs) :: IExpr bs (ee + 2) text name :: rest)
        end
    end.
  Proof.
    intros f p t Ht. cbn [scan]. rewrite !find_app, skipn_app_len.
    replace (length (p ++ t) <=? length p) with false; [reflexivity|].
    symmetry. apply Nat.leb_gt. rewrite app_length. destruct t; [congruence|simpl; lia].
  Qed.

  (* one full iteration on a string whose next reference is known *)
  Lemma scan_step : forall f p l tx r,
    NoSub open2 (l ++ [lbrace]) -> NoSub close2 ((l ++ open2 ++ tx) ++ [rbrace]) ->
    let p' := p ++ l ++ open2 ++ tx ++ close2 in
    scan classify (S f) (p ++ l ++ open2 ++ tx ++ close2 ++ r) (length p) =
    match interp_expr classify tx with
    | Raise e => if is_expression_error e then Raise FormatStringError else Raise e
    | Ok name =>
      do rest <- scan classify f (p' ++ r) (length p');
      Ok (ILit l :: IExpr (length p + length l) (length p') tx name :: rest)
    end.
  Proof.
    intros f p l tx r HO HC p'. rewrite scan_unfold by (destruct l; discriminate).
    rewrite (find_from_first lbrace l _ _ HO).
    pose proof (find_from_first rbrace _ r (length p) HC : find_from close2 (_ ++ close2 ++ r) _ = _) as FC.
    rewrite <- !app_assoc in FC. rewrite FC.
    set (s := p ++ l ++ open2 ++ tx ++ close2 ++ r).
    assert (E1 : s = (p ++ l ++ open2) ++ tx ++ close2 ++ r) by (now rewrite <- !app_assoc).
    assert (E2 : s = p' ++ r) by (unfold p'; now rewrite <- !app_assoc).
    assert (L : length p + length (l ++ open2 ++ tx) + 2 = length p') by (unfold p'; rewrite !app_length; simpl; lia).
    replace (_ <? _) with false by (symmetry; apply Nat.ltb_ge; rewrite !app_length; lia).
    cbv zeta. rewrite L, (slice_at s p l _ _ _ eq_refl eq_refl eq_refl).
    rewrite (slice_at s _ tx _ _ _ E1) by (rewrite !app_length; simpl; lia).
    now rewrite E2.
  Qed.

  Lemma close_nosub : forall l e,
    NoSub close2 l -> DName classify e -> NoSub close2 ((l ++ open2 ++ e) ++ [rbrace]).
  Proof.
    intros l e Hl D. destruct (DName_no_brace _ AOK _ D) as [_ HR].
    replace ((l ++ open2 ++ e) ++ [rbrace]) with (l ++ lbrace :: (lbrace :: e ++ [rbrace]))
      by (unfold open2; simpl; now rewrite <- !app_assoc).
    unfold close2. apply NoSub_join; [exact Hl|discriminate|].
    apply NoSub_cons_ne; [discriminate|]. apply NoSub_cons_ne; [discriminate|].
    now apply NoSub_notin_snoc.
  Qed.

  Lemma scan_complete : forall t segs last, Decomp classify t segs last ->
    forall f p, length t < f ->
    scan classify f (p ++ t) (length p) = Ok (items_of classify (length p) segs last).
  Proof.
    intros t segs last D.
    induction D as [l HO HC | l e rest segs last HC HO HD D IH]; intros [|f] p Hf; try lia.
    - destruct l as [|c l]; [apply scan_nil|]. rewrite scan_unfold by discriminate.
      now rewrite (proj2 (find_from_none _ _ _) HO), (proj2 (find_from_none _ _ _) HC).
    - rewrite scan_step; [|exact HO|now apply close_nosub].
      rewrite (interp_complete _ _ HD), IH by (rewrite !app_length in Hf; simpl in Hf; lia).
      cbn [bind items_of]. now rewrite len5.
  Qed.

  (* whatever the scanner returns is a decomposition; it fails only with
     FormatStringError (in particular the fuel is never exhausted) *)
  Lemma scan_sound : forall f p t, length t < f ->
    match scan classify f (p ++ t) (length p) with
    | Ok its => exists segs last, Decomp classify t segs last /\ its = items_of classify (length p) segs last
    | Raise e => e = FormatStringError
    end.
  Proof.
    induction f as [|f IH]; intros p t Hf; [lia|].
    destruct t as [|c0 t0] eqn:Et.
    { rewrite scan_nil. exists [], []. split; [|reflexivity]. apply D_last; apply NoSub_nil. }
    rewrite <- Et in *. assert (Hne : t <> []) by (rewrite Et; discriminate). clear c0 t0 Et.
    pose proof (find_from_spec lbrace t (length p)) as FO. fold open2 in FO.
    pose proof (find_from_spec rbrace t (length p)) as FC. fold close2 in FC.
    destruct (find_from open2 t (length p)) as [bs|] eqn:EO;
      destruct (find_from close2 t (length p)) as [ee|] eqn:EC;
      [destruct (ee <? bs) eqn:Lt|..];
      try (rewrite scan_unfold, EO, EC, ?Lt by exact Hne; reflexivity).
    - (* the text between the first "{{" and the first "}}", which comes later *)
      apply Nat.ltb_ge in Lt.
      destruct FO as [l [r1 [E1 [-> NO]]]], FC as [a [r2 [E2 [-> NC]]]].
      rewrite E1 in E2. destruct (app_split_le _ _ _ _ _ E2) as [a' [-> Er]]; [lia|].
      destruct a' as [|x1 [|x2 tx]]; simpl in Er; try discriminate Er.
      injection Er as <- <- ->. subst t. change (rbrace :: rbrace :: r2) with (close2 ++ r2) in *.
      rewrite scan_step; [|exact NO|exact NC].
      destruct (interp_expr classify tx) as [name|e] eqn:I; [|now rewrite (interp_raise _ _ _ I)].
      apply interp_iff in I as [HD ->].
      assert (Hr : length r2 < f) by (rewrite !app_length in Hf; simpl in Hf; lia).
      specialize (IH (p ++ l ++ open2 ++ tx ++ close2) r2 Hr).
      destruct (scan classify f _ _) as [rest|e]; cbn [bind]; [|exact IH].
      destruct IH as [segs [last [D ->]]]. exists ((l, tx) :: segs), last. split.
      + apply D_seg; auto. apply NoSub_app_l with (v := open2 ++ tx ++ [rbrace]).
        now rewrite <- !app_assoc in NC.
      + cbn [items_of]. now rewrite len5.
    - rewrite scan_unfold, EO, EC by exact Hne. exists [], t. split; [now apply D_last|].
      destruct t; [congruence|reflexivity].
  Qed.
End Scan.

Lemma lookup_dom : forall sigma n, lookup sigma n = None <-> mem_str n (dom sigma) = false.
Proof.
  induction sigma as [|[k v] sigma IH]; intros n; simpl.
  - tauto.
  - destruct (str_eqb n k); simpl; [split; discriminate | apply IH].
Qed.

(* names referenced by a format string, in order *)
Definition names (f : fstr) : list str := map (fun x => fst (fst x)) (expressions f).

Section Main.
  Variable classify : N -> cclass.
  Hypothesis AOK : ascii_ok classify = true.

  Notation Dec := (Decomp classify).
  Notation itemsOf := (items_of classify).

  Lemma mk_spec : forall s,
    match mk classify s with
    | Ok f => exists segs last, Dec s segs last /\ f = mkF s (itemsOf 0 segs last)
    | Raise e => e = FormatStringError
    end.
  Proof.
    intros s. pose proof (scan_sound classify (S (length s)) [] s (Nat.lt_succ_diag_r _)) as SS.
    unfold mk. cbn [app length] in SS. destruct (scan classify (S (length s)) s 0) as [its|e]; [|exact SS].
    destruct SS as [segs [last [D ->]]]. cbn [bind]. eauto.
  Qed.

  Theorem mk_value_iff : forall s f,
    mk classify s = Ok f <->
    exists segs last, Dec s segs last /\ f = mkF s (itemsOf 0 segs last).
  Proof.
    intros s f. split.
    - intros H. pose proof (mk_spec s) as SS. rewrite H in SS. exact SS.
    - intros [segs [last [D ->]]].
      pose proof (scan_complete classify AOK s segs last D (S (length s)) [] (Nat.lt_succ_diag_r _)) as SC.
      cbn [app length] in SC. unfold mk. now rewrite SC.
  Qed.

  Theorem mk_errors : forall s e, mk classify s = Raise e -> e = FormatStringError.
  Proof. intros s e H. pose proof (mk_spec s) as SS. rewrite H in SS. exact SS. Qed.

  Theorem mk_accept_iff : forall s,
    (exists f, mk classify s = Ok f) <-> (exists segs last, Dec s segs last).
  Proof.
    intros s. split.
    - intros [f H]. apply mk_value_iff in H as [segs [last [D _]]]. eauto.
    - intros [segs [last D]]. eexists. apply mk_value_iff. eauto.
  Qed.

  Lemma items_of_inj : forall segs1 segs2 off last1 last2,
    itemsOf off segs1 last1 = itemsOf off segs2 last2 -> segs1 = segs2 /\ last1 = last2.
  Proof.
    induction segs1 as [|[l1 e1] segs1 IH]; intros [|[l2 e2] segs2] off last1 last2 H.
    - simpl in H. destruct last1, last2; try discriminate; auto. injection H as -> ->. auto.
    - simpl in H. destruct last1; discriminate.
    - simpl in H. destruct last2; discriminate.
    - cbn [items_of] in H. injection H as -> _ _ -> _ H.
      destruct (IH _ _ _ _ H) as [-> ->]. auto.
  Qed.

  Theorem decomp_unique : forall s segs1 last1 segs2 last2,
    Dec s segs1 last1 -> Dec s segs2 last2 -> segs1 = segs2 /\ last1 = last2.
  Proof.
    intros s segs1 last1 segs2 last2 D1 D2.
    assert (H1 : mk classify s = Ok (mkF s (itemsOf 0 segs1 last1))) by (apply mk_value_iff; eauto).
    assert (H2 : mk classify s = Ok (mkF s (itemsOf 0 segs2 last2))) by (apply mk_value_iff; eauto).
    rewrite H1 in H2. injection H2 as H2. now apply items_of_inj in H2.
  Qed.

  Lemma decomp_concat : forall s segs last, Dec s segs last ->
    forall off, concat (map piece_text (itemsOf off segs last)) = s.
  Proof.
    intros s segs last D. induction D as [l HO HC | l e rest segs last HC HO HD D IH]; intros off.
    - simpl. destruct l; [reflexivity|]. simpl. now rewrite app_nil_r.
    - cbn [items_of map concat piece_text]. rewrite IH. now rewrite <- !app_assoc.
  Qed.

  Theorem mk_eq : forall s f, mk classify s = Ok f ->
    orig f = s /\ concat (map piece_text (items f)) = s.
  Proof.
    intros s f H. apply mk_value_iff in H as [segs [last [D ->]]]. split; [reflexivity|].
    simpl. now apply decomp_concat.
  Qed.

  Lemma expressions_items_of : forall s segs last off,
    expressions (mkF s (itemsOf off segs last)) = spec_exprs classify off segs.
  Proof.
    intros s segs last. unfold expressions. simpl.
    induction segs as [|[l e] segs IH]; intros off.
    - simpl. destruct last; reflexivity.
    - cbn [items_of flat_map spec_exprs app]. now rewrite IH.
  Qed.

  (* the positions computed by the specification are the true spans *)
  Lemma spec_spans : forall s segs last, Dec s segs last -> forall p,
    Forall2 (fun le x => fst (fst x) = norm classify (snd le) /\
                         slice (p ++ s) (snd (fst x)) (snd x) = open2 ++ snd le ++ close2)
            segs (spec_exprs classify (length p) segs).
  Proof.
    intros s segs last D. induction D as [l HO HC | l e rest segs last HC HO HD D IH]; intros p.
    - constructor.
    - cbn [spec_exprs]. constructor.
      + cbn [fst snd]. split; [reflexivity|]. apply (slice_at _ (p ++ l) _ rest).
        * now rewrite <- !app_assoc.
        * symmetry. apply app_length.
        * rewrite !app_length. lia.
      + specialize (IH (p ++ l ++ open2 ++ e ++ close2)). rewrite len5, <- !app_assoc in IH. exact IH.
  Qed.

  Theorem mk_spans : forall s f, mk classify s = Ok f ->
    exists segs last, Dec s segs last /\
      expressions f = spec_exprs classify 0 segs /\
      Forall2 (fun le x => fst (fst x) = norm classify (snd le) /\
                           slice s (snd (fst x)) (snd x) = open2 ++ snd le ++ close2)
              segs (expressions f).
  Proof.
    intros s f H. apply mk_value_iff in H as [segs [last [D ->]]].
    exists segs, last. split; [exact D|]. rewrite expressions_items_of. split; [reflexivity|].
    exact (spec_spans s segs last D []).
  Qed.

  Lemma names_items_of : forall s segs last off,
    names (mkF s (itemsOf off segs last)) = refs classify segs.
  Proof.
    intros s segs last off. unfold names. rewrite expressions_items_of. revert off.
    induction segs as [|[l e] segs IH]; intros off; [reflexivity|].
    cbn [spec_exprs map refs]. f_equal. apply IH.
  Qed.

  Lemma resolve_items_of : forall sigma s segs last off,
    resolve sigma (mkF s (itemsOf off segs last)) =
    match spec_resolve classify sigma segs last with
    | Some r => Ok r
    | None => Raise FormatStringError
    end.
  Proof.
    intros sigma s segs last. unfold resolve. simpl.
    induction segs as [|[l e] segs IH]; intros off.
    - simpl. destruct last; [reflexivity|]. simpl. now rewrite app_nil_r.
    - cbn [items_of resolve_items spec_resolve]. rewrite IH.
      unfold expr_evaluate, node_evaluate.
      destruct (lookup sigma (norm classify e)) as [v|]; [|reflexivity].
      destruct (spec_resolve classify sigma segs last); reflexivity.
  Qed.

  Theorem mk_resolve : forall s f segs last sigma, mk classify s = Ok f -> Dec s segs last ->
    resolve sigma f = match spec_resolve classify sigma segs last with
                      | Some r => Ok r
                      | None => Raise FormatStringError
                      end.
  Proof.
    intros s f segs last sigma H D. apply mk_value_iff in H as [segs' [last' [D' ->]]].
    destruct (decomp_unique _ _ _ _ _ D D') as [-> ->]. apply resolve_items_of.
  Qed.

  Lemma spec_resolve_none : forall sigma segs last,
    spec_resolve classify sigma segs last = None <->
    exists n, In n (refs classify segs) /\ lookup sigma n = None.
  Proof.
    intros sigma segs last. rewrite <- Exists_exists. unfold refs.
    induction segs as [|[l e] segs IH]; cbn [spec_resolve map snd].
    - split; [discriminate|]. intros H. inversion H.
    - rewrite Exists_cons, <- IH.
      destruct (lookup sigma (norm classify e)), (spec_resolve classify sigma segs last); intuition congruence.
  Qed.

  Theorem mk_resolve_bound : forall s f segs last sigma, mk classify s = Ok f -> Dec s segs last ->
    (forall n, In n (refs classify segs) -> lookup sigma n <> None) ->
    exists r, spec_resolve classify sigma segs last = Some r /\ resolve sigma f = Ok r.
  Proof.
    intros s f segs last sigma H D B. rewrite (mk_resolve _ _ _ _ sigma H D).
    destruct (spec_resolve classify sigma segs last) as [r|] eqn:R; [eauto|].
    apply spec_resolve_none in R as [n [I Hn]]. exfalso. exact (B n I Hn).
  Qed.

  Lemma validate_refs_names : forall symbols f,
    validate_refs symbols f = filter (fun n => negb (mem_str n symbols)) (names f).
  Proof.
    intros symbols f. unfold validate_refs, names, node_validate.
    induction (expressions f) as [|[[n a] b] l IH]; [reflexivity|].
    cbn [flat_map map fst filter]. rewrite IH. destruct (mem_str n symbols); reflexivity.
  Qed.

  Lemma validate_refs_nonempty : forall symbols f,
    validate_refs symbols f <> [] <-> exists n, In n (names f) /\ mem_str n symbols = false.
  Proof.
    intros symbols f. rewrite validate_refs_names, <- Exists_exists.
    induction (names f) as [|n l IH]; cbn [filter].
    - split; [congruence|]. intros H. inversion H.
    - rewrite Exists_cons, <- IH. destruct (mem_str n symbols); cbn [negb]; intuition congruence.
  Qed.

  Theorem mk_resolve_fail_iff : forall s f sigma, mk classify s = Ok f ->
    (resolve sigma f = Raise FormatStringError <-> exists n, In n (names f) /\ lookup sigma n = None) /\
    ((exists n, In n (names f) /\ lookup sigma n = None) <-> validate_refs (dom sigma) f <> []) /\
    (forall e, resolve sigma f = Raise e -> e = FormatStringError).
  Proof.
    intros s f sigma H. apply mk_value_iff in H as [segs [last [D ->]]].
    rewrite resolve_items_of, names_items_of. repeat split.
    - intros R. apply (spec_resolve_none sigma segs last). destruct (spec_resolve classify sigma segs last); [discriminate|reflexivity].
    - intros E. apply (spec_resolve_none sigma segs last) in E. now rewrite E.
    - intros [n [I Hn]]. apply validate_refs_nonempty. rewrite names_items_of.
      exists n. split; [exact I|now apply lookup_dom].
    - intros V. apply validate_refs_nonempty in V as [n [I Hn]]. rewrite names_items_of in I.
      exists n. split; [exact I|now apply lookup_dom].
    - intros e R. destruct (spec_resolve classify sigma segs last); [discriminate|congruence].
  Qed.
End Main.

(* every reference text of a decomposition is free of braces: its "}}" is the next one *)
Lemma decomp_refs_brace_free : forall classify, ascii_ok classify = true ->
  forall s segs last, Decomp classify s segs last ->
  Forall (fun le => ~ In lbrace (snd le) /\ ~ In rbrace (snd le)) segs.
Proof.
  intros classify AOK s segs last D.
  induction D as [l HO HC | l e rest segs last HC HO HD D IH]; constructor; auto.
  simpl. now apply (DName_no_brace classify AOK).
Qed.

(* when '.' is the only character of the lexer's dot class (true of the real lexer, whose DOT
   pattern is the literal "\."), the normalised name is the text with blanks removed *)
Lemma norm_blanks_removed : forall classify,
  (forall c, is_dot classify c = true -> c = dotc) ->
  forall e, norm classify e = filter (fun c => negb (is_blank classify c)) e.
Proof.
  intros classify Hd e. unfold norm.
  induction (filter (fun c => negb (is_blank classify c)) e) as [|c l IH]; [reflexivity|].
  simpl. rewrite IH. destruct (is_dot classify c) eqn:E; [|reflexivity]. now rewrite (Hd c E).
Qed.

(* resolve never raises anything but FormatStringError *)
Lemma resolve_items_errors : forall sigma its e, resolve_items sigma its = Raise e -> e = FormatStringError.
Proof.
  intros sigma its. induction its as [|it r IH]; intros e H; [discriminate H|].
  destruct it as [l|a b t name]; cbn [resolve_items] in H.
  - destruct (resolve_items sigma r) as [t'|e'] eqn:E; cbn [bind] in H; [discriminate H|].
    injection H as <-. apply IH. reflexivity.
  - unfold expr_evaluate, node_evaluate in H.
    destruct (FormatStr.lookup sigma name) as [v|].
    + destruct (resolve_items sigma r) as [t'|e'] eqn:E; cbn [bind] in H; [discriminate H|].
      injection H as <-. apply IH. reflexivity.
    + cbn in H. injection H as <-. reflexivity.
Qed.
