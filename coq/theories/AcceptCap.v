(* AcceptCap.v — C01/C02 part B: the capability-name validator ([capability_name_ok], the model of
   validate_amount_capability_name / validate_attribute_capability_name with the regex of
   _capabilities.py) is equivalent to the declarative grammar [CapName] of WF.v. *)
From Coq Require Import List NArith ZArith Bool String Lia.
Import ListNotations.
Require Import OJD.Base OJD.Lexer OJD.Json OJD.Schema OJD.Generated OJD.Charsets OJD.Numerals OJD.FsRefs
               OJD.CreateJob OJD.Validators OJD.WF OJD.ListLib OJD.AcceptRules.
Local Open Scope string_scope.
Local Open Scope list_scope.

(* ---------- segments ---------- *)
Lemma seg_ok_iff s : seg_ok s = true <-> Seg s.
Proof.
  apply head_tail_iff; intros c; [|rewrite <- orb_assoc; apply or_iff; [reflexivity|]];
    (apply or_iff; [reflexivity|apply N.eqb_eq]).
Qed.

(* a segment character is neither '.' nor ':' *)
Lemma seg_char_not x : is_lower x = true \/ is_digit09 x = true \/ x = 95%N -> x <> 46%N /\ x <> 58%N.
Proof.
  unfold is_lower, is_digit09. intros [H|[H|H]].
  - apply andb_true_iff in H. destruct H as [H1 H2]. apply N.leb_le in H1. lia.
  - apply andb_true_iff in H. destruct H as [H1 H2]. apply N.leb_le in H2. lia.
  - lia.
Qed.

Lemma Seg_no s x : Seg s -> (x = 46%N \/ x = 58%N) -> ~ In x s.
Proof.
  intros (c & r & E & H1 & H2) Hx Hin. subst s. destruct Hin as [Hc|Hr].
  - subst x. assert (Hc : is_lower c = true \/ is_digit09 c = true \/ c = 95%N) by tauto.
    apply seg_char_not in Hc. lia.
  - rewrite Forall_forall in H2. specialize (H2 x Hr). apply seg_char_not in H2. lia.
Qed.

Lemma kind_no k x : k = $"amount" \/ k = $"attr" -> (x = 46%N \/ x = 58%N) -> ~ In x k.
Proof.
  intros [E|E] Hx Hin; subst k; cbn in Hin; lia.
Qed.

(* ---------- splitting on a separator ---------- *)
Lemma app_sing_assoc {A} (w : list A) c r : (w ++ [c]) ++ r = w ++ c :: r.
Proof. rewrite <- app_assoc. reflexivity. Qed.

Lemma join_dot_cons_char c p ps : join_dot ((c :: p) :: ps) = c :: join_dot (p :: ps).
Proof. destruct ps; reflexivity. Qed.

Lemma join_dot_app_head a b q ps : join_dot ((a ++ b) :: q :: ps) = a ++ join_dot (b :: q :: ps).
Proof. cbn [join_dot]. rewrite <- app_assoc. reflexivity. Qed.

Lemma split_on_nosep sep p : forall acc rest,
  ~ In sep p -> split_on sep acc (p ++ rest) = split_on sep (rev p ++ acc) rest.
Proof.
  induction p as [|c r IH]; intros acc rest Hn; [reflexivity|].
  cbn [app split_on]. destruct (N.eqb c sep) eqn:E.
  - apply N.eqb_eq in E. exfalso. apply Hn. left. exact E.
  - rewrite IH; [|intros Hin; apply Hn; right; exact Hin]. cbn [rev]. rewrite <- app_assoc. reflexivity.
Qed.

Lemma split_on_join sep (Hsep : sep = 46%N) : forall ps p acc,
  Forall (fun q => ~ In sep q) (p :: ps) ->
  split_on sep acc (join_dot (p :: ps)) = (rev acc ++ p) :: ps.
Proof.
  induction ps as [|q qs IH]; intros p acc HF.
  - cbn [join_dot]. rewrite <- (app_nil_r p) at 1. rewrite split_on_nosep by (inversion HF; assumption).
    cbn [split_on]. rewrite rev_app_distr, rev_involutive. reflexivity.
  - assert (E : join_dot (p :: q :: qs) = p ++ sep :: join_dot (q :: qs)) by (subst sep; reflexivity).
    rewrite E. rewrite split_on_nosep by (inversion HF; assumption).
    cbn [split_on]. rewrite N.eqb_refl. rewrite rev_app_distr, rev_involutive.
    rewrite IH by (inversion HF; assumption). reflexivity.
Qed.

Lemma split_on_inv sep (Hsep : sep = 46%N) : forall s acc,
  exists p ps, split_on sep acc s = (rev acc ++ p) :: ps /\ s = join_dot (p :: ps) /\
               Forall (fun q => ~ In sep q) (p :: ps).
Proof.
  induction s as [|c r IH]; intros acc.
  - exists [], []. cbn. rewrite app_nil_r. repeat split. constructor; [intros []|constructor].
  - cbn [split_on]. destruct (N.eqb c sep) eqn:E.
    + apply N.eqb_eq in E. destruct (IH []) as (p & ps & H1 & H2 & H3).
      exists [], (p :: ps). rewrite H1. cbn [rev app]. rewrite app_nil_r. split; [reflexivity|]. split.
      * subst c sep. rewrite H2. reflexivity.
      * constructor; [intros []|exact H3].
    + destruct (IH (c :: acc)) as (p & ps & H1 & H2 & H3).
      exists (c :: p), ps. rewrite H1. cbn [rev]. rewrite <- app_assoc. split; [reflexivity|]. split.
      * rewrite join_dot_cons_char, <- H2. reflexivity.
      * inversion H3 as [|? ? Hp Hps]. constructor; [|exact Hps].
        intros [Hc|Hin]; [subst c; rewrite N.eqb_refl in E; discriminate|exact (Hp Hin)].
Qed.

Lemma split_first_ok sep v : forall acc c,
  ~ In sep v -> split_first sep acc (v ++ sep :: c) = Some (rev acc ++ v, c).
Proof.
  induction v as [|x r IH]; intros acc c Hn.
  - cbn. rewrite N.eqb_refl, app_nil_r. reflexivity.
  - cbn [app split_first]. destruct (N.eqb x sep) eqn:E.
    + apply N.eqb_eq in E. exfalso. apply Hn. left. exact E.
    + rewrite IH by (intros Hin; apply Hn; right; exact Hin). cbn [rev]. rewrite <- app_assoc. reflexivity.
Qed.

Lemma split_first_none sep s : forall acc, ~ In sep s -> split_first sep acc s = None.
Proof.
  induction s as [|x r IH]; intros acc Hn; [reflexivity|]. cbn [split_first].
  destruct (N.eqb x sep) eqn:E.
  - apply N.eqb_eq in E. exfalso. apply Hn. left. exact E.
  - apply IH. intros Hin. apply Hn. right. exact Hin.
Qed.

Lemma split_first_inv sep s : forall acc,
  match split_first sep acc s with
  | Some (v, c) => exists v', v = rev acc ++ v' /\ s = v' ++ sep :: c /\ ~ In sep v'
  | None => ~ In sep s
  end.
Proof.
  induction s as [|x r IH]; intros acc; [intros []|]. cbn [split_first].
  destruct (N.eqb x sep) eqn:E.
  - apply N.eqb_eq in E. subst x. exists []. rewrite app_nil_r. repeat split. intros [].
  - specialize (IH (x :: acc)). destruct (split_first sep (x :: acc) r) as [[v c]|].
    + destruct IH as (v' & H1 & H2 & H3). exists (x :: v'). cbn [rev] in H1. rewrite <- app_assoc in H1.
      split; [exact H1|]. split; [rewrite H2; reflexivity|].
      intros [Hx|Hin]; [subst x; rewrite N.eqb_refl in E; discriminate|exact (H3 Hin)].
    + intros [Hx|Hin]; [subst x; rewrite N.eqb_refl in E; discriminate|exact (IH Hin)].
Qed.

Lemma In_join_dot x : forall ps, In x (join_dot ps) -> x = 46%N \/ exists p, In p ps /\ In x p.
Proof.
  induction ps as [|p qs IH]; intros Hin; [contradiction|].
  destruct qs as [|q qs'].
  - right. exists p. split; [left; reflexivity|exact Hin].
  - change (join_dot (p :: q :: qs')) with (p ++ 46%N :: join_dot (q :: qs')) in Hin.
    apply in_app_or in Hin. destruct Hin as [Hp|[E|Hr]].
    + right. exists p. split; [left; reflexivity|exact Hp].
    + left. symmetry. exact E.
    + destruct (IH Hr) as [E|(p' & H1 & H2)]; [left; exact E|].
      right. exists p'. split; [right; exact H1|exact H2].
Qed.

(* ---------- the regex ---------- *)
Definition CapShape (vendor : option str) (capability : str) (kind seg1 : str) (segs : list str) : Prop :=
  capability = join_dot (kind :: seg1 :: segs) /\
  (forall v, vendor = Some v -> Seg v /\ 2 <= List.length v) /\
  (kind = $"amount" \/ kind = $"attr") /\ Seg seg1 /\ Forall Seg segs.

(* no piece of a capability contains '.' or ':' *)
Lemma pieces_no x kind seg1 segs :
  (x = 46%N \/ x = 58%N) -> (kind = $"amount" \/ kind = $"attr") -> Seg seg1 -> Forall Seg segs ->
  Forall (fun q => ~ In x q) (kind :: seg1 :: segs).
Proof.
  intros Hx Hk H1 Hs. constructor; [apply kind_no; assumption|].
  constructor; [apply Seg_no; assumption|].
  apply Forall_forall. intros q Hq. rewrite Forall_forall in Hs. apply Seg_no; [apply Hs; exact Hq|exact Hx].
Qed.

Lemma cap_regex_iff vendor capability :
  cap_regex_ok vendor capability = true <-> exists kind seg1 segs, CapShape vendor capability kind seg1 segs.
Proof.
  unfold cap_regex_ok, CapShape.
  rewrite (and_iff _ _ _ _
             (opt_match_iff vendor _ _ (fun v => and_iff _ _ _ _ (seg_ok_iff v) (Nat.leb_le 2 (List.length v))))
             (iff_refl _)).
  assert (HB : forall kind seg1 segs,
             (str_eqb kind $"amount" || str_eqb kind $"attr") && seg_ok seg1 && forallb seg_ok segs = true <->
             (kind = $"amount" \/ kind = $"attr") /\ Seg seg1 /\ Forall Seg segs).
  { intros kind seg1 segs. rewrite <- andb_assoc, Forall_forall. repeat apply and_iff.
    - apply or_iff; apply str_eqb_eq.
    - apply seg_ok_iff.
    - apply forallb_iff, seg_ok_iff. }
  split.
  - intros [Hv H]. destruct (split_on_inv 46%N eq_refl capability []) as (p & ps & H1 & H2 & _).
    rewrite H1 in H. cbn [rev app] in H. destruct ps as [|seg1 segs]; [discriminate|].
    exists p, seg1, segs. split; [exact H2|]. split; [exact Hv|]. apply HB. exact H.
  - intros (kind & seg1 & segs & E & Hv & Hk & H1 & Hs). split; [exact Hv|]. subst capability.
    rewrite (split_on_join 46%N eq_refl) by (apply pieces_no; auto). apply HB. exact (conj Hk (conj H1 Hs)).
Qed.

(* ---------- the validator ---------- *)
(* How the code reads a name that the grammar decomposes: the vendor is what precedes the first ':',
   the scope (second piece on '.') is the first segment. *)
Lemma decomp_splits vendor kind seg1 segs :
  (forall v, vendor = Some v -> Seg v /\ 2 <= List.length v) ->
  (kind = $"amount" \/ kind = $"attr") -> Seg seg1 -> Forall Seg segs ->
  let cap := join_dot (kind :: seg1 :: segs) in
  let pre := match vendor with Some v => v ++ [58%N] | None => [] end in
  split_first 58 [] (pre ++ cap) = match vendor with Some v => Some (v, cap) | None => None end /\
  split_on 46 [] (pre ++ cap) = (pre ++ kind) :: seg1 :: segs.
Proof.
  intros Hv Hk H1 Hs cap pre.
  pose proof (pieces_no 46%N kind seg1 segs (or_introl eq_refl) Hk H1 Hs) as N46.
  pose proof (pieces_no 58%N kind seg1 segs (or_intror eq_refl) Hk H1 Hs) as N58.
  destruct vendor as [v|]; subst pre cap.
  - destruct (Hv v eq_refl) as [Sv _]. split.
    + rewrite app_sing_assoc. apply (split_first_ok 58%N v []), Seg_no; [exact Sv|right; reflexivity].
    + rewrite <- join_dot_app_head. apply (split_on_join 46%N eq_refl).
      inversion N46 as [|? ? Hkd Hrest]. constructor; [|exact Hrest].
      intros Hin. apply in_app_or in Hin. destruct Hin as [Hin|Hin]; [|exact (Hkd Hin)].
      apply in_app_or in Hin. destruct Hin as [Hin|[Hin|[]]]; [|discriminate Hin].
      revert Hin. apply Seg_no; [exact Sv|left; reflexivity].
  - split; [|apply (split_on_join 46%N eq_refl); exact N46].
    apply split_first_none. intros Hin. apply In_join_dot in Hin. destruct Hin as [C|(p & Hp & Hin)]; [discriminate C|].
    rewrite Forall_forall in N58. exact (N58 p Hp Hin).
Qed.

(* Conversely, a name on which the regex succeeds decomposes. *)
Lemma regex_decomp low :
  (let '(vendor, cap) := match split_first 58 [] low with Some (v, c) => (Some v, c) | None => (None, low) end in
   cap_regex_ok vendor cap) = true ->
  exists vendor kind seg1 segs,
    low = (match vendor with Some v => v ++ [58%N] | None => [] end) ++ join_dot (kind :: seg1 :: segs) /\
    (forall v, vendor = Some v -> Seg v /\ 2 <= List.length v) /\
    (kind = $"amount" \/ kind = $"attr") /\ Seg seg1 /\ Forall Seg segs.
Proof.
  pose proof (split_first_inv 58%N low []) as HSF.
  destruct (split_first 58 [] low) as [[v cap]|]; intros RX; apply cap_regex_iff in RX;
    destruct RX as (kind & seg1 & segs & Ecap & Hd).
  - destruct HSF as (v' & Ev & Elow & _). cbn [rev app] in Ev. subst v' cap.
    exists (Some v), kind, seg1, segs. split; [rewrite app_sing_assoc; exact Elow|exact Hd].
  - exists None, kind, seg1, segs. split; [exact Ecap|exact Hd].
Qed.

(* the last clause of the rule, as the code tests it *)
Lemma cap_clause_iff (nv std pf rs : bool) (NV STD RS : Prop) :
  (nv = true <-> NV) -> (std = true <-> STD) -> (rs = true <-> RS) ->
  ((if nv && std then true else if negb pf then false else negb rs) = true <-> (NV /\ STD) \/ (pf = true /\ ~ RS)).
Proof. intros <- <- <-. destruct nv, std, pf, rs; cbn; intuition discriminate. Qed.

(* what [capability_name_ok] does with the lower-cased name once it has found no reference in it *)
Definition cap_checks (standard : list string) (required_prefix low : str) : bool :=
  let '(vendor, capability) := match split_first 58 [] low with Some (v, c) => (Some v, c) | None => (None, low) end in
  if negb (cap_regex_ok vendor capability) then false
  else
    let no_vendor := match vendor with None => true | Some v => match v with [] => true | _ => false end end in
    if no_vendor && existsb (fun s => str_eqb capability (str_of_string s)) standard then true
    else if negb (str_prefix required_prefix capability) then false
    else
      match split_on 46 [] low with
      | _ :: scope :: _ => negb (existsb (fun r => str_eqb scope (str_of_string r)) Generated.reserved_scopes)
      | _ => false
      end.

(* on a decomposition of the name, the checks compute the last clause of the rule *)
Lemma cap_checks_decomp standard pfx vendor kind seg1 segs :
  (forall v, vendor = Some v -> Seg v /\ 2 <= List.length v) ->
  (kind = $"amount" \/ kind = $"attr") -> Seg seg1 -> Forall Seg segs ->
  let cap := join_dot (kind :: seg1 :: segs) in
  cap_checks standard pfx ((match vendor with Some v => v ++ [58%N] | None => [] end) ++ cap) = true <->
  (vendor = None /\ In cap (map str_of_string standard)) \/
  (str_prefix pfx cap = true /\ ~ In seg1 (map str_of_string Generated.reserved_scopes)).
Proof.
  intros Hv Hk H1 Hs cap. unfold cap_checks.
  destruct (decomp_splits vendor kind seg1 segs Hv Hk H1 Hs) as [SF SO]. fold cap in SF, SO.
  assert (RX : cap_regex_ok vendor cap = true).
  { apply cap_regex_iff. exists kind, seg1, segs. exact (conj eq_refl (conj Hv (conj Hk (conj H1 Hs)))). }
  destruct vendor as [v|]; cbn [app] in SF, SO |- *; rewrite SF, SO, RX; cbn [negb]; apply cap_clause_iff;
    try apply existsb_sos_In.
  - destruct (Hv v eq_refl) as [(c & r & -> & _) _]. split; discriminate.
  - split; reflexivity.
Qed.

Section Cap.
Variable classify : N -> cclass.

Theorem capability_name_iff : forall standard required_prefix name,
  capability_name_ok classify standard required_prefix name = true <->
  CapName classify standard required_prefix name.
Proof.
  intros standard pfx name. unfold CapName.
  change (capability_name_ok classify standard pfx name)
    with (if has_refs classify name then true else cap_checks standard pfx (lower_s name)).
  pose proof (has_refs_iff classify name) as HRf.
  destruct (has_refs classify name).
  { split; [intros _; left; apply HRf; reflexivity|reflexivity]. }
  assert (NR : ~ HasRefs classify name) by (intros C; apply HRf in C; discriminate C).
  generalize (lower_s name). intros low. split.
  - intros H. right.
    destruct (regex_decomp low) as (vendor & kind & seg1 & segs & E & Hv & Hk & H1 & Hs).
    { unfold cap_checks in H.
      destruct (split_first 58 [] low) as [[v c]|]; [destruct (cap_regex_ok (Some v) c)|destruct (cap_regex_ok None low)];
        (reflexivity || discriminate H). }
    subst low. exists vendor, kind, seg1, segs. cbv zeta.
    split; [reflexivity|]. split; [exact Hv|]. split; [exact Hk|]. split; [exact H1|]. split; [exact Hs|].
    apply (cap_checks_decomp standard pfx vendor kind seg1 segs Hv Hk H1 Hs). exact H.
  - intros [C|(vendor & kind & seg1 & segs & E & Hv & Hk & H1 & Hs & Hd)]; [contradiction|].
    cbv zeta in E. subst low. apply (cap_checks_decomp standard pfx vendor kind seg1 segs Hv Hk H1 Hs). exact Hd.
Qed.

(* ---------- the two requirement classes ---------- *)
Theorem amount_rule_iff : forall fs,
  (capability_name_ok classify Generated.std_amount_caps $"amount." (mstr (fget "name" fs))
   && (match num_of (fget "min" fs) with Some v => num_leb (num_of_Z 0) v | None => true end)
   && (match num_of (fget "max" fs) with Some v => num_ltb (num_of_Z 0) v | None => true end)
   && opt_le (fget "min" fs) (fget "max" fs)) = true <-> AmountRule classify fs.
Proof.
  intros fs. unfold AmountRule. rewrite <- !andb_assoc. repeat apply and_iff.
  - apply capability_name_iff.
  - apply opt_match_iff. reflexivity.
  - apply opt_match_iff. reflexivity.
  - apply opt_le_iff.
Qed.

Theorem attribute_rule_iff : forall fs,
  (capability_name_ok classify (map fst Generated.std_attr_caps) $"attr." (mstr (fget "name" fs))
   && attribute_list_ok classify (fget "name" fs) (fget "anyOf" fs) false
   && attribute_list_ok classify (fget "name" fs) (fget "allOf" fs) true) = true <-> AttributeRule classify fs.
Proof.
  intros fs. unfold AttributeRule. rewrite <- !andb_assoc. repeat apply and_iff.
  - apply capability_name_iff.
  - apply attribute_list_rule_iff.
  - apply attribute_list_rule_iff.
Qed.
End Cap.
