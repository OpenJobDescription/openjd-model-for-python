(* LexerProofs.v — blanks and the shared lexer (Lexer.v): the token list depends only on WHERE the
   runs of Space-class characters are, not on which characters they are or how long the runs are,
   and not on leading / trailing blanks.  This is what TokenStream.__init__'s
   re.sub(r"\s+", " ", expr).strip() achieves.  No premise on the class table. *)
From Coq Require Import List NArith ZArith Bool Lia.
Import ListNotations.
Require Import OJD.Base OJD.Lexer.
Local Open Scope list_scope.

Section Blanks.
  Variable classify : N -> cclass.
  Notation go := (lex_go classify).

  (* One character, from each of the three states.  Every other lemma goes through these three
     equations: unfolding [lex_go] anew costs a comparison of its whole body for every recursive call
     in sight, and from [LName] / [LInt] the fall-back branches show some fifty of them. *)
  Lemma lex_go_none : forall c r,
    go LNone (c :: r) =
    match classify c with
    | CSpace => go LNone r
    | CNameStart => go (LName [c]) r
    | CDigit => go (LInt (c - 48)) r
    | CUDigit | COther => Raise TokenError
    | cl => match punct cl with
            | Some t => cons_toks [t] (go LNone r)
            | None => Raise TokenError
            end
    end.
  Proof. intros c r. cbn [lex_go]. destruct (classify c); reflexivity. Qed.

  Lemma lex_go_name : forall acc c r,
    go (LName acc) (c :: r) =
    match classify c with
    | CNameStart | CDigit | CUDigit => go (LName (c :: acc)) r
    | _ => cons_toks (flush (LName acc)) (go LNone (c :: r))
    end.
  Proof. reflexivity. Qed.

  Lemma lex_go_int : forall v c r,
    go (LInt v) (c :: r) =
    match classify c with
    | CDigit => go (LInt (10 * v + (c - 48))) r
    | _ => cons_toks (flush (LInt v)) (go LNone (c :: r))
    end.
  Proof. reflexivity. Qed.

  Lemma cons_toks_nil : forall m, cons_toks [] m = m.
  Proof. intros [ts|e]; reflexivity. Qed.

  Lemma cons_toks_raise : forall pre m e, cons_toks pre m = Raise e -> m = Raise e.
  Proof. intros pre [ts|x] e H; [discriminate H|exact H]. Qed.

  Lemma lex_go_boundary : forall st c s,
    match classify c with CNameStart | CDigit | CUDigit => False | _ => True end ->
    go st (c :: s) = cons_toks (flush st) (go LNone (c :: s)).
  Proof.
    intros [|acc|v] c s H; [symmetry; apply cons_toks_nil|rewrite lex_go_name|rewrite lex_go_int];
      destruct (classify c); reflexivity || contradiction.
  Qed.

  Lemma lex_go_blank_none : forall b s, classify b = CSpace -> go LNone (b :: s) = go LNone s.
  Proof. intros b s Hb. rewrite lex_go_none, Hb. reflexivity. Qed.

  Lemma lex_go_blank : forall st b s, classify b = CSpace ->
    go st (b :: s) = cons_toks (flush st) (go LNone s).
  Proof.
    intros st b s Hb. rewrite lex_go_boundary by (rewrite Hb; exact I). rewrite lex_go_blank_none by exact Hb.
    reflexivity.
  Qed.

  Lemma lex_go_app_cong : forall s1 t t' st,
    (forall st', go st' t = go st' t') -> go st (s1 ++ t) = go st (s1 ++ t').
  Proof.
    induction s1 as [|c r IH]; intros t t' st H; [exact (H st)|].
    assert (E : forall st0, go st0 (r ++ t) = go st0 (r ++ t')) by (intros st0; apply IH; exact H).
    assert (N : go LNone (c :: r ++ t) = go LNone (c :: r ++ t')) by (rewrite !lex_go_none, !E; reflexivity).
    cbn [app]. destruct st as [|acc|v]; [exact N|rewrite !lex_go_name|rewrite !lex_go_int]; rewrite N, E; reflexivity.
  Qed.

  Theorem lex_leading_blank : forall b s, classify b = CSpace -> lex classify (b :: s) = lex classify s.
  Proof. intros b s Hb. unfold lex. apply lex_go_blank_none. exact Hb. Qed.

  Lemma lex_go_trailing : forall s st b, classify b = CSpace -> go st (s ++ [b]) = go st s.
  Proof.
    intros s st b Hb. rewrite <- (app_nil_r s) at 2. apply lex_go_app_cong. intros st'.
    rewrite lex_go_blank by exact Hb. cbn [lex_go cons_toks]. rewrite app_nil_r. reflexivity.
  Qed.

  Theorem lex_trailing_blank : forall b s, classify b = CSpace -> lex classify (s ++ [b]) = lex classify s.
  Proof. intros b s Hb. unfold lex. apply lex_go_trailing. exact Hb. Qed.

  Theorem lex_blank_run : forall b b' s1 s2, classify b = CSpace -> classify b' = CSpace ->
    lex classify (s1 ++ b :: b' :: s2) = lex classify (s1 ++ b :: s2).
  Proof.
    intros b b' s1 s2 Hb Hb'. unfold lex. apply lex_go_app_cong. intros st'.
    rewrite (lex_go_blank st' b (b' :: s2) Hb), (lex_go_blank st' b s2 Hb), (lex_go_blank_none b' s2 Hb').
    reflexivity.
  Qed.

  Theorem lex_blank_kind : forall b b' s1 s2, classify b = CSpace -> classify b' = CSpace ->
    lex classify (s1 ++ b :: s2) = lex classify (s1 ++ b' :: s2).
  Proof.
    intros b b' s1 s2 Hb Hb'. unfold lex. apply lex_go_app_cong. intros st'.
    rewrite (lex_go_blank st' b) by exact Hb. rewrite (lex_go_blank st' b') by exact Hb'. reflexivity.
  Qed.

  (* a blank next to a single-character (punctuation) token is immaterial: "a , b" = "a,b" *)
  Definition is_punct (c : N) : bool := match punct (classify c) with Some _ => true | None => false end.

  Lemma lex_go_punct : forall st c s, is_punct c = true ->
    go st (c :: s) = cons_toks (flush st) (go LNone (c :: s)).
  Proof.
    intros st c s Hp. apply lex_go_boundary. unfold is_punct in Hp.
    destruct (classify c); try exact I; discriminate Hp.
  Qed.

  Lemma lex_go_punct_next : forall c s, is_punct c = true ->
    exists t, punct (classify c) = Some t /\ go LNone (c :: s) = cons_toks [t] (go LNone s).
  Proof.
    intros c s Hp. unfold is_punct in Hp. rewrite lex_go_none.
    destruct (classify c); cbn [punct] in *; try discriminate Hp; eexists; split; reflexivity.
  Qed.

  Theorem lex_blank_before_punct : forall b c s1 s2, classify b = CSpace -> is_punct c = true ->
    lex classify (s1 ++ b :: c :: s2) = lex classify (s1 ++ c :: s2).
  Proof.
    intros b c s1 s2 Hb Hp. unfold lex. apply lex_go_app_cong. intros st'.
    rewrite lex_go_blank by exact Hb. symmetry. apply lex_go_punct. exact Hp.
  Qed.

  Theorem lex_blank_after_punct : forall b c s1 s2, classify b = CSpace -> is_punct c = true ->
    lex classify (s1 ++ c :: b :: s2) = lex classify (s1 ++ c :: s2).
  Proof.
    intros b c s1 s2 Hb Hp. unfold lex. apply lex_go_app_cong. intros st'.
    rewrite !(lex_go_punct st' c) by exact Hp.
    destruct (lex_go_punct_next c (b :: s2) Hp) as [t [Ht E1]].
    destruct (lex_go_punct_next c s2 Hp) as [t' [Ht' E2]].
    rewrite E1, E2. rewrite Ht in Ht'. injection Ht' as <-.
    rewrite lex_go_blank_none by exact Hb. reflexivity.
  Qed.

  (* the same for the parser front end: a token-kind filter looks at the tokens only *)
  Lemma lex_for_cong : forall kinds s s', lex classify s = lex classify s' ->
    lex_for classify kinds s = lex_for classify kinds s'.
  Proof. intros kinds s s' H. unfold lex_for. rewrite H. reflexivity. Qed.
End Blanks.

Lemma lex_go_raise cls s : forall st e, lex_go cls st s = Raise e -> e = TokenError.
Proof.
  induction s as [|c r IH]; intros st e H; [discriminate H|].
  assert (N : forall e, lex_go cls LNone (c :: r) = Raise e -> e = TokenError).
  { clear st e H. intros e H. rewrite lex_go_none in H.
    destruct (cls c); cbn [punct] in H; try apply cons_toks_raise in H; eauto; injection H as <-; reflexivity. }
  destruct st as [|acc|v]; [eauto|rewrite lex_go_name in H|rewrite lex_go_int in H];
    destruct (cls c); try apply cons_toks_raise in H; eauto.
Qed.

Lemma lex_for_raise cls kinds s e : lex_for cls kinds s = Raise e -> e = TokenError.
Proof.
  unfold lex_for, lex. destruct (lex_go cls LNone s) as [ts|x] eqn:H; cbn [bind].
  - destruct (forallb (supported kinds) ts); [discriminate|]. intros [= <-]. reflexivity.
  - intros [= <-]. exact (lex_go_raise cls s LNone x H).
Qed.

Lemma cclass_eqb_eq : forall a b, cclass_eqb a b = true <-> a = b.
Proof. intros a b. split; [destruct a, b; simpl; intros; congruence| intros ->; destruct b; reflexivity]. Qed.

Lemma ascii_ok_class : forall classify, ascii_ok classify = true ->
  forall k : nat, k < 128 -> classify (N.of_nat k) = ascii_class (N.of_nat k).
Proof.
  intros classify H k Hk. unfold ascii_ok in H. rewrite forallb_forall in H.
  apply cclass_eqb_eq. apply H. unfold ascii_codes. apply in_map. apply in_seq. lia.
Qed.
