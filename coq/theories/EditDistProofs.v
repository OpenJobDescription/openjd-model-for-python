(* EditDistProofs.v — C20: the two-row dynamic programme IS the Levenshtein distance, `closest`
   IS the (capped) arg-min set, suggestions are arg-min sets below the threshold.
   All statements are for all strings / symbol lists (induction; nothing bounded). *)
From Coq Require Import List NArith Arith Bool Lia Permutation.
Import ListNotations.
Require Import OJD.Base OJD.Generated OJD.EditDist OJD.EditDistSpec OJD.ListLib.

Definition delta (x y : N) : nat := if N.eqb x y then 0 else 1.

Lemma lev_nil_l : forall b, lev [] b = length b.
Proof. reflexivity. Qed.

Lemma lev_nil_r : forall a, lev a [] = length a.
Proof. destruct a; reflexivity. Qed.

Lemma lev_cons : forall x a y b,
  lev (x :: a) (y :: b) = min3 (lev a (y :: b) + 1) (lev (x :: a) b + 1) (lev a b + delta x y).
Proof. reflexivity. Qed.

(* from here on, and in the files that import this one, [lev] is used through the three equations above:
   [simpl]/[cbn] must not unfold its nested fixpoint, and on closed strings it is evaluated through
   [lev_dp_eq] (the recursion itself is exponential); props/C20.v's [lev_compute] relies on this *)
Global Opaque lev.

Lemma min3_cases : forall p q r, (min3 p q r = p /\ p <= q /\ p <= r) \/
                                 (min3 p q r = q /\ q <= p /\ q <= r) \/
                                 (min3 p q r = r /\ r <= p /\ r <= q).
Proof. intros p q r. unfold min3. lia. Qed.

Lemma script_nil_l : forall b, script [] b (length b).
Proof. induction b as [|y b IH]; [constructor | simpl; constructor; exact IH]. Qed.

Lemma script_nil_r : forall a, script a [] (length a).
Proof. induction a as [|x a IH]; [constructor | simpl; constructor; exact IH]. Qed.

(* lev is the cost of some edit script ... *)
Lemma lev_script : forall a b, script a b (lev a b).
Proof.
  induction a as [|x a IHa]; intro b.
  - rewrite lev_nil_l. apply script_nil_l.
  - induction b as [|y b IHb].
    + rewrite lev_nil_r. apply script_nil_r.
    + rewrite lev_cons.
      destruct (min3_cases (lev a (y :: b) + 1) (lev (x :: a) b + 1) (lev a b + delta x y))
        as [[E _]|[[E _]|[E _]]]; rewrite E.
      * rewrite Nat.add_1_r. apply sc_del. apply IHa.
      * rewrite Nat.add_1_r. apply sc_ins. exact IHb.
      * apply sc_sub. apply IHa.
Qed.

Lemma lev_del_le : forall x a b, lev (x :: a) b <= S (lev a b).
Proof.
  intros x a [|y b].
  - rewrite !lev_nil_r. simpl. lia.
  - rewrite lev_cons. unfold min3. lia.
Qed.

Lemma lev_ins_le : forall y a b, lev a (y :: b) <= S (lev a b).
Proof.
  intros y [|x a] b.
  - rewrite !lev_nil_l. simpl. lia.
  - rewrite lev_cons. unfold min3. lia.
Qed.

Lemma lev_sub_le : forall x y a b, lev (x :: a) (y :: b) <= lev a b + delta x y.
Proof. intros. rewrite lev_cons. unfold min3. lia. Qed.

(* ... and no edit script is cheaper *)
Lemma lev_least : forall a b n, script a b n -> lev a b <= n.
Proof.
  intros a b n H. induction H as [|x a b n H IH|y a b n H IH|x y a b n H IH].
  - rewrite lev_nil_l. simpl. lia.
  - pose proof (lev_del_le x a b). lia.
  - pose proof (lev_ins_le y a b). lia.
  - pose proof (lev_sub_le x y a b). unfold delta in *. lia.
Qed.

(* edit scripts compose left to right, hence can be reversed *)
Lemma script_app : forall a b n a' b' n',
  script a b n -> script a' b' n' -> script (a ++ a') (b ++ b') (n + n').
Proof.
  intros a b n a' b' n' H H'. induction H as [|x a b n H IH|y a b n H IH|x y a b n H IH]; simpl.
  - exact H'.
  - apply sc_del. exact IH.
  - apply sc_ins. exact IH.
  - rewrite Nat.add_shuffle0. apply sc_sub. exact IH.
Qed.

Lemma script_rev : forall a b n, script a b n -> script (rev a) (rev b) n.
Proof.
  intros a b n H. induction H as [|x a b n H IH|y a b n H IH|x y a b n H IH]; simpl.
  - constructor.
  - rewrite <- (app_nil_r (rev b)), <- Nat.add_1_r. apply script_app; [exact IH | repeat constructor].
  - rewrite <- (app_nil_r (rev a)), <- Nat.add_1_r. apply script_app; [exact IH | repeat constructor].
  - apply script_app; [exact IH|]. apply (sc_sub x y [] [] 0). constructor.
Qed.

Lemma script_sym : forall a b n, script a b n -> script b a n.
Proof.
  intros a b n H. induction H as [|x a b n H IH|y a b n H IH|x y a b n H IH].
  - constructor.
  - apply sc_ins. exact IH.
  - apply sc_del. exact IH.
  - rewrite N.eqb_sym. apply sc_sub. exact IH.
Qed.

Lemma script_length : forall a b n, script a b n -> length a <= length b + n /\ length b <= length a + n.
Proof.
  intros a b n H. induction H as [|x a b n H IH|y a b n H IH|x y a b n H IH]; simpl; lia.
Qed.

Lemma lev_rev : forall a b, lev (rev a) (rev b) = lev a b.
Proof.
  intros a b. apply Nat.le_antisymm.
  - apply lev_least. apply script_rev. apply lev_script.
  - rewrite <- (rev_involutive a) at 1. rewrite <- (rev_involutive b) at 1.
    apply lev_least. apply script_rev. apply lev_script.
Qed.

Lemma lev_sym : forall a b, lev a b = lev b a.
Proof.
  intros a b. apply Nat.le_antisymm; apply lev_least; apply script_sym; apply lev_script.
Qed.

(* the recursion on LAST characters, which is what a prefix-indexed DP table uses *)
Lemma lev_snoc : forall a x b y,
  lev (a ++ [x]) (b ++ [y]) =
  min3 (lev a (b ++ [y]) + 1) (lev (a ++ [x]) b + 1) (lev a b + delta x y).
Proof.
  intros a x b y.
  rewrite <- (lev_rev (a ++ [x]) (b ++ [y])), <- (lev_rev a (b ++ [y])),
          <- (lev_rev (a ++ [x]) b), <- (lev_rev a b).
  rewrite !rev_unit. apply lev_cons.
Qed.

Lemma get_some : forall (A : Type) (r : list A) i v, nth_error r i = Some v -> get r i = Ok v.
Proof. intros A r i v H. unfold get. rewrite H. reflexivity. Qed.

Lemma set_at_app : forall pre y suf k v,
  length pre = k -> set_at (pre ++ y :: suf) k v = Ok (pre ++ v :: suf).
Proof.
  induction pre as [|p pre IH]; intros y suf k v <-; simpl; [reflexivity|].
  rewrite (IH y suf _ v eq_refl). reflexivity.
Qed.

Lemma foldM_app : forall (A S : Type) (f : S -> A -> outcome S) l1 l2 s,
  foldM f (l1 ++ l2) s = bind (foldM f l1 s) (foldM f l2).
Proof.
  intros A S f l1. induction l1 as [|x l1 IH]; intros l2 s; simpl; [reflexivity|].
  destruct (f s x) as [s'|e]; simpl; [apply IH | reflexivity].
Qed.

(* a loop invariant indexed by the list of items already processed *)
Lemma foldM_inv : forall (A S : Type) (f : S -> A -> outcome S) (I : list A -> S -> Prop),
  (forall P s x, I P s -> exists s', f s x = Ok s' /\ I (P ++ [x]) s') ->
  forall l P s, I P s -> exists s', foldM f l s = Ok s' /\ I (P ++ l) s'.
Proof.
  intros A S f I Hstep. induction l as [|x l IH]; intros P s HI; simpl.
  - exists s. rewrite app_nil_r. auto.
  - destruct (Hstep P s x HI) as (s1 & E1 & I1). rewrite E1. simpl.
    destruct (IH (P ++ [x]) s1 I1) as (s2 & E2 & I2). exists s2. split; [exact E2|].
    rewrite <- app_assoc in I2. exact I2.
Qed.

Lemma nth_error_seq : forall len start i, i < len -> nth_error (seq start len) i = Some (start + i).
Proof.
  induction len as [|len IH]; intros start i Hi; [lia|].
  destruct i as [|i]; simpl.
  - f_equal. lia.
  - rewrite IH by lia. f_equal. lia.
Qed.

Lemma firstn_snoc : forall (A : Type) (l : list A) i x,
  nth_error l i = Some x -> firstn (S i) l = firstn i l ++ [x].
Proof.
  induction l as [|y l IH]; intros i x H.
  - destruct i; discriminate.
  - destruct i as [|i].
    + simpl in H. injection H as ->. reflexivity.
    + simpl in H. change (firstn (S (S i)) (y :: l)) with (y :: firstn (S i) l).
      rewrite (IH i x H). reflexivity.
Qed.

Section DP.
  Variables a b : str.    (* a = s1 (one DP row per prefix of a), b = s2 (one column per prefix of b) *)
  Let n := length b.

  (* cell i j of the full DP matrix, the first j cells of row i, and row i *)
  Definition cell (i j : nat) : nat := lev (firstn i a) (firstn j b).
  Definition cells (i j : nat) : list nat := map (cell i) (seq 0 j).
  Definition row (i : nat) : list nat := map (cell i) (seq 0 (S n)).

  Lemma cells_length : forall i j, length (cells i j) = j.
  Proof. intros i j. unfold cells. rewrite map_length. apply seq_length. Qed.

  Lemma cells_S : forall i j, cells i (S j) = cells i j ++ [cell i j].
  Proof. intros i j. unfold cells. rewrite seq_S, map_app. reflexivity. Qed.

  Lemma cells_nth : forall i j k suf, k < j -> nth_error (cells i j ++ suf) k = Some (cell i k).
  Proof.
    intros i j k suf Hk. rewrite nth_error_app1 by (rewrite cells_length; exact Hk).
    unfold cells. apply map_nth_error. rewrite nth_error_seq by exact Hk. reflexivity.
  Qed.

  Lemma row_length : forall i, length (row i) = S n.
  Proof. intro i. apply cells_length. Qed.

  Lemma row_nth : forall i j, j <= n -> nth_error (row i) j = Some (cell i j).
  Proof. intros i j Hj. rewrite <- (app_nil_r (row i)). apply cells_nth. lia. Qed.

  Lemma cell_0_l : forall j, j <= n -> cell 0 j = j.
  Proof.
    intros j Hj. unfold cell. simpl. rewrite lev_nil_l. apply firstn_length_le. exact Hj.
  Qed.

  Lemma cell_0_r : forall i, i <= length a -> cell i 0 = i.
  Proof.
    intros i Hi. unfold cell. simpl. rewrite lev_nil_r. apply firstn_length_le. exact Hi.
  Qed.

  Lemma cell_step : forall i j x y,
    nth_error a i = Some x -> nth_error b j = Some y ->
    cell (S i) (S j) = min3 (cell i (S j) + 1) (cell (S i) j + 1) (cell i j + delta x y).
  Proof.
    intros i j x y Hx Hy. unfold cell.
    rewrite (firstn_snoc _ a i x Hx), (firstn_snoc _ b j y Hy). apply lev_snoc.
  Qed.

  Lemma row_0 : seq 0 (length b + 1) = row 0.
  Proof.
    unfold row. rewrite Nat.add_1_r. fold n.
    rewrite <- (map_id (seq 0 (S n))) at 1.
    apply map_ext_in. intros j Hj. apply in_seq in Hj. symmetry. apply cell_0_l. lia.
  Qed.

  (* inner loop, outer index S i, entered with a1[0] = S i: after the iterations s2_idx = 1..j the row
     a1 is the first S j cells of row (S i) followed by what is left of its stale values *)
  Lemma inner_loop : forall i x t0, nth_error a i = Some x -> length t0 = n ->
    forall j, j <= n ->
    exists suf, foldM (inner_step a b (S i) (row i)) (seq 1 j) (S i :: t0) = Ok (cells (S i) (S j) ++ suf) /\
                length suf = n - j.
  Proof.
    intros i x t0 Hx Lt.
    assert (Hi : i < length a) by (apply nth_error_Some; rewrite Hx; discriminate).
    induction j as [|j IH]; intro Hj.
    - exists t0. unfold cells. simpl. rewrite cell_0_r by lia. split; [reflexivity | lia].
    - destruct IH as (suf & E & Ls); [lia|].
      rewrite seq_S, foldM_app, E. cbn [bind foldM Nat.add].
      destruct suf as [|y0 suf]; [simpl in Ls; lia|].
      destruct (nth_error b j) as [y|] eqn:Hy; [|apply nth_error_None in Hy; fold n in Hy; lia].
      unfold inner_step, get. cbn [Nat.sub]. rewrite !Nat.sub_0_r.
      rewrite (row_nth i (S j) Hj), (cells_nth (S i) (S j) j _ (Nat.lt_succ_diag_r j)),
              (row_nth i j (Nat.lt_le_incl _ _ Hj)), Hx, Hy.
      cbn [bind]. rewrite (set_at_app _ y0 suf (S j) _ (cells_length _ _)).
      exists suf. split; [|simpl in Ls; lia].
      rewrite (cells_S (S i) (S j)), <- app_assoc, (cell_step i j x y Hx Hy). reflexivity.
  Qed.

  (* outer loop: after the iterations s1_idx = 1..i, a0 is row i of the matrix *)
  Lemma outer_loop : forall i, i <= length a ->
    exists a1, foldM (outer_step a b) (seq 1 i) (row 0, row 0) = Ok (row i, a1) /\ length a1 = S n.
  Proof.
    induction i as [|i IH]; intro Hi.
    - exists (row 0). simpl. split; [reflexivity | apply row_length].
    - destruct IH as (a1 & E & La1); [lia|].
      rewrite seq_S, foldM_app, E. simpl.
      destruct (nth_error a i) as [x|] eqn:Hx; [|apply nth_error_None in Hx; lia].
      destruct a1 as [|y0 t0]; [discriminate La1|]. injection La1 as Lt. simpl.
      destruct (inner_loop i x t0 Hx Lt n (le_n n)) as ([|y suf] & E2 & Ls); [|simpl in Ls; lia].
      fold n. rewrite E2, app_nil_r. simpl.
      exists (row i). split; [reflexivity | apply row_length].
  Qed.
End DP.

(* C20_lev: the two-row dynamic programme never raises and returns the Levenshtein distance *)
Theorem edit_distance_lev : forall a b, edit_distance a b = Ok (lev a b).
Proof.
  intros a b. unfold edit_distance.
  destruct (length a =? 0) eqn:Ea.
  - apply Nat.eqb_eq, length_zero_iff_nil in Ea. subst a. rewrite lev_nil_l. reflexivity.
  - destruct (length b =? 0) eqn:Eb.
    + apply Nat.eqb_eq, length_zero_iff_nil in Eb. subst b. rewrite lev_nil_r. reflexivity.
    + rewrite (row_0 a b).
      destruct (outer_loop a b (length a) (le_n _)) as (a1 & E & _).
      rewrite E. simpl.
      rewrite (get_some _ _ _ _ (row_nth a b (length a) (length b) (le_n _))).
      unfold cell. rewrite !firstn_all. reflexivity.
Qed.

Lemma set_add_In : forall x s t, In t (set_add x s) <-> t = x \/ In t s.
Proof.
  intros x s t. unfold set_add. destruct (mem_str x s) eqn:E.
  - apply mem_str_In in E. split; [auto | intros [->|H]; assumption].
  - simpl. split; intros [H|H]; auto.
Qed.

Lemma set_add_NoDup : forall x s, NoDup s -> NoDup (set_add x s).
Proof.
  intros x s H. unfold set_add. destruct (mem_str x s) eqn:E; [exact H|].
  constructor; [|exact H]. intro HI. apply mem_str_In in HI. congruence.
Qed.

Lemma min_cost_snoc : forall bound P m s,
  min_cost bound (P ++ [s]) m = Nat.min (min_cost bound P m) (dist m s).
Proof.
  intros bound P m s. unfold min_cost. induction P as [|p P IH]; simpl.
  - lia.
  - fold (min_cost bound (P ++ [s]) m) in *. fold (min_cost bound P m) in *. lia.
Qed.

(* what [min_cost] is: a lower bound of bound and of every distance, attained *)
Lemma min_cost_spec : forall bound S m,
  min_cost bound S m <= bound /\
  (forall s, In s S -> min_cost bound S m <= dist m s) /\
  (min_cost bound S m = bound \/ exists s, In s S /\ dist m s = min_cost bound S m).
Proof.
  intros bound S m. unfold min_cost. induction S as [|p S (IH1 & IH2 & IH3)]; simpl.
  - repeat split; [lia | tauto | left; reflexivity].
  - split; [lia|]. split.
    + intros s [->|H]; [lia | specialize (IH2 s H); lia].
    + destruct (Nat.min_spec (dist m p) (fold_right Nat.min bound (map (dist m) S)))
        as [[_ ->]|[_ ->]].
      * right. exists p. auto.
      * destruct IH3 as [E|(s & Hs & E)]; [left; exact E | right; exists s; auto].
Qed.

Lemma min_cost_unique : forall bound S m d,
  d <= bound -> (forall s, In s S -> d <= dist m s) ->
  (d = bound \/ exists s, In s S /\ dist m s = d) -> d = min_cost bound S m.
Proof.
  intros bound S m d H1 H2 H3. destruct (min_cost_spec bound S m) as (M1 & M2 & M3).
  apply Nat.le_antisymm.
  - destruct M3 as [E|(s & Hs & E)]; [rewrite E; exact H1 | rewrite <- E; apply H2; exact Hs].
  - destruct H3 as [E|(s & Hs & E)]; [rewrite E; exact M1 | rewrite <- E; apply M2; exact Hs].
Qed.

Lemma min_cost_same_set : forall bound S S' m,
  same_set S S' -> min_cost bound S m = min_cost bound S' m.
Proof.
  intros bound S S' m H. destruct (min_cost_spec bound S m) as (M1 & M2 & M3).
  apply min_cost_unique; [exact M1 | |].
  - intros s Hs. apply M2. apply H. exact Hs.
  - destruct M3 as [E|(s & Hs & E)]; [left; exact E | right; exists s; split; [apply H; exact Hs | exact E]].
Qed.

(* loop invariant of `for sym in symbols` *)
Definition closest_inv (m : str) (P : list str) (st : nat * list str) : Prop :=
  fst st = min_cost (length m + 1) P m /\ NoDup (snd st) /\
  forall t, In t (snd st) <-> In t P /\ dist m t = fst st.

Lemma closest_step_inv : forall m P st s, closest_inv m P st ->
  exists st', closest_step m st s = Ok st' /\ closest_inv m (P ++ [s]) st'.
Proof.
  intros m P [d T] s (Hd & HN & HT). simpl in Hd, HN, HT.
  unfold closest_step. rewrite edit_distance_lev. simpl. fold (dist m s).
  pose proof (min_cost_spec (length m + 1) P m) as (_ & Hle & _). rewrite <- Hd in Hle.
  (* in each of the three branches the new state is read off; its cost is the new minimum; what is left
     is that the new set has no duplicates and holds exactly the members of [P ++ [s]] at that cost *)
  destruct (Nat.ltb_spec (dist m s) d) as [L|L]; [|destruct (Nat.eqb_spec (dist m s) d) as [E|E]];
    (eexists; split; [reflexivity|]; unfold closest_inv; simpl;
     rewrite min_cost_snoc, <- Hd; split; [lia|]; split).
  - (* strictly nearer: the set is [s] alone *)
    repeat constructor. simpl. tauto.
  - intro t. rewrite in_app_iff. simpl. split; [intros [<-|[]]; auto|].
    intros [[Ht|[<-|[]]] Hdt]; [specialize (Hle t Ht); lia | auto].
  - (* as near as the best so far: [s] is added *)
    apply set_add_NoDup. exact HN.
  - intro t. rewrite set_add_In, in_app_iff, HT. simpl.
    split; [intros [->|[Ht Hdt]]; auto | intros [[Ht|[<-|[]]] Hdt]; auto].
  - (* farther: nothing changes *)
    exact HN.
  - intro t. rewrite in_app_iff, HT. simpl. split; [intros [Ht Hdt]; auto | intros [[Ht|[<-|[]]] Hdt]; [auto | lia]].
Qed.

(* closest never raises; its result is the capped minimum and exactly the members at that distance *)
Theorem closest_spec : forall S m, exists d T,
  closest S m = Ok (d, T) /\ d = min_cost (length m + 1) S m /\ NoDup T /\
  forall t, In t T <-> In t S /\ dist m t = d.
Proof.
  intros S m. unfold closest.
  destruct (foldM_inv _ _ (closest_step m) (closest_inv m) (closest_step_inv m) S []
                      (length m + 1, [])) as ([d T] & E & (Hd & HN & HT)).
  - unfold closest_inv. simpl. split; [reflexivity|]. split; [apply NoDup_nil|]. intro t. tauto.
  - exists d, T. simpl in *. auto.
Qed.

Corollary closest_result : forall S m d T, closest S m = Ok (d, T) ->
  d = min_cost (length m + 1) S m /\ NoDup T /\ forall t, In t T <-> In t S /\ dist m t = d.
Proof.
  intros S m d T E. destruct (closest_spec S m) as (d' & T' & E' & H).
  rewrite E in E'. injection E' as <- <-. exact H.
Qed.

Lemma closest_empty : forall m, closest [] m = Ok (length m + 1, []).
Proof. reflexivity. Qed.

Lemma is_min_unique : forall S m d d', is_min S m d -> is_min S m d' -> d = d'.
Proof.
  intros S m d d' [(t & Ht & Et) Hl] [(t' & Ht' & Et') Hl'].
  specialize (Hl t' Ht'). specialize (Hl' t Ht). lia.
Qed.

(* regime 1: some symbol is within len(match)+1 -> distance = true minimum, set = arg-min set *)
Lemma closest_near : forall S m d T d0,
  closest S m = Ok (d, T) -> is_min S m d0 -> d0 <= length m + 1 ->
  d = d0 /\ T <> [] /\ forall t, In t T <-> argmin S m t.
Proof.
  intros S m d T d0 E [(t0 & Ht0 & Et0) Hl] Hb.
  destruct (closest_result S m d T E) as (Hd & HN & HT).
  assert (d = d0) as ->.
  { rewrite Hd. symmetry. apply min_cost_unique; [exact Hb | exact Hl | right; exists t0; auto]. }
  split; [reflexivity|]. split.
  - intro HE. assert (In t0 T) as HI by (apply HT; auto). rewrite HE in HI. exact HI.
  - intro t. rewrite HT. unfold argmin. split.
    + intros [Ht Hdt]. split; [exact Ht|]. intros s Hs. rewrite Hdt. apply Hl. exact Hs.
    + intros [Ht Hmin]. split; [exact Ht|].
      specialize (Hmin t0 Ht0). specialize (Hl t Ht). lia.
Qed.

(* regime 2: no symbol within len(match)+1 (in particular the empty symbol set):
   the initial values are returned unchanged *)
Lemma closest_far : forall S m d T,
  closest S m = Ok (d, T) -> (forall s, In s S -> length m + 1 < dist m s) ->
  d = length m + 1 /\ T = [].
Proof.
  intros S m d T E Hfar.
  destruct (closest_result S m d T E) as (Hd & HN & HT).
  assert (d = length m + 1) as Hd'.
  { rewrite Hd. symmetry. apply min_cost_unique; [lia | | left; reflexivity].
    intros s Hs. specialize (Hfar s Hs). lia. }
  split; [exact Hd'|].
  destruct T as [|t T]; [reflexivity|]. exfalso.
  destruct (HT t) as [HI _]. destruct HI as [Ht Hdt]; [left; reflexivity|].
  specialize (Hfar t Ht). lia.
Qed.

(* the iteration order of the Python set, and duplicates, do not matter *)
Theorem closest_set_invariant : forall S S' m d T,
  same_set S S' -> closest S m = Ok (d, T) ->
  exists T', closest S' m = Ok (d, T') /\ same_set T T' /\ Permutation T T'.
Proof.
  intros S S' m d T HS E.
  destruct (closest_result S m d T E) as (Hd1 & HN1 & HT1).
  destruct (closest_spec S' m) as (d2 & T2 & E2 & Hd2 & HN2 & HT2).
  assert (d2 = d) as -> by (rewrite Hd1, Hd2; symmetry; apply min_cost_same_set; exact HS).
  exists T2. split; [exact E2|].
  assert (same_set T T2) as HTT.
  { intro t. rewrite HT1, HT2. rewrite (HS t). tauto. }
  split; [exact HTT | apply NoDup_Permutation; assumption].
Qed.

Lemma nearest_oracle_spec : forall S m d T,
  closest S m = Ok (d, T) -> fst (nearest_oracle S m) = d /\ same_set T (snd (nearest_oracle S m)).
Proof.
  intros S m d T E.
  destruct (closest_result S m d T E) as (Hd & HN & HT).
  unfold nearest_oracle. simpl. rewrite <- Hd. split; [reflexivity|].
  intro t. rewrite HT, filter_In, Nat.eqb_eq. tauto.
Qed.

Lemma suggest_eq : forall S m d T, closest S m = Ok (d, T) ->
  suggest S m = Ok (if d <? max_match_distance then T else []).
Proof.
  intros S m d T E. unfold suggest. rewrite E. simpl.
  destruct (d <? max_match_distance); [|reflexivity].
  destruct T as [|t1 [|t2 T]]; reflexivity.
Qed.

(* a non-empty result of [closest] attains the true minimum, which is then within the initial bound *)
Lemma closest_nonempty : forall S m d T, closest S m = Ok (d, T) -> T <> [] ->
  is_min S m d /\ d <= length m + 1.
Proof.
  intros S m d T E HT0. destruct (closest_result S m d T E) as (Hd & _ & HT).
  destruct (min_cost_spec (length m + 1) S m) as (M1 & M2 & _). rewrite <- Hd in M1, M2.
  destruct T as [|t0 T]; [congruence|]. destruct (proj1 (HT t0) (or_introl eq_refl)) as [Ht0 Hd0].
  split; [split; [exists t0; auto | exact M2] | exact M1].
Qed.

(* a suggestion, when made, is the complete set of nearest in-scope names and the distance is
   below the threshold (the code's comparison is `distance < MAX_MATCH_DISTANCE_THRESHOLD`) *)
Theorem suggest_sound : forall S m T, suggest S m = Ok T -> T <> [] ->
  NoDup T /\
  (forall t, In t T -> In t S) /\
  (forall t, In t T <-> argmin S m t) /\
  exists d, is_min S m d /\ d < max_match_distance /\ forall t, In t T -> dist m t = d.
Proof.
  intros S m T E HT0.
  destruct (closest_spec S m) as (d & T' & E' & Hd & HN & HT).
  rewrite (suggest_eq S m d T' E') in E.
  destruct (d <? max_match_distance) eqn:Elt; injection E as <-; [|congruence].
  destruct (closest_nonempty S m d T' E' HT0) as [Hmin Hb].
  split; [exact HN|]. split; [intros t Ht; apply HT; exact Ht|]. split.
  - apply (closest_near S m d T' d E' Hmin Hb).
  - exists d. split; [exact Hmin|]. split; [apply Nat.ltb_lt; exact Elt|]. intros t Ht. apply HT. exact Ht.
Qed.

(* exactly when a suggestion is made *)
Theorem suggest_iff : forall S m, exists T, suggest S m = Ok T /\
  (T <> [] <-> exists d, is_min S m d /\ d < max_match_distance /\ d <= length m + 1).
Proof.
  intros S m. destruct (closest_spec S m) as (d & T & E & _).
  rewrite (suggest_eq S m d T E). eexists. split; [reflexivity|]. split.
  - intro HT0. destruct (d <? max_match_distance) eqn:Elt; [|congruence].
    destruct (closest_nonempty S m d T E HT0) as [Hmin Hb].
    exists d. split; [exact Hmin|]. split; [apply Nat.ltb_lt; exact Elt | exact Hb].
  - intros (d0 & Hmin & Hlt & Hb).
    destruct (closest_near S m d T d0 E Hmin Hb) as (-> & HT0 & _).
    apply Nat.ltb_lt in Hlt. rewrite Hlt. exact HT0.
Qed.

(* converse: minimum below the threshold (and within the initial bound of `closest`) ->
   the suggestion is exactly the arg-min set *)
Theorem suggest_complete : forall S m d,
  is_min S m d -> d < max_match_distance -> d <= length m + 1 ->
  exists T, suggest S m = Ok T /\ T <> [] /\ forall t, In t T <-> argmin S m t.
Proof.
  intros S m d Hmin Hlt Hb.
  destruct (closest_spec S m) as (d' & T & E & _).
  destruct (closest_near S m d' T d E Hmin Hb) as (-> & HT0 & HA).
  rewrite (suggest_eq S m d T E). apply Nat.ltb_lt in Hlt. rewrite Hlt.
  exists T. auto.
Qed.

(* the side condition d <= len(match)+1 is automatic when every visible name has at least
   2*threshold - 3 (= 7) code points -- true of every template variable name: the shortest are
   "Param.x" (7) *)
Theorem suggest_complete_long_names : forall S m d,
  is_min S m d -> d < max_match_distance ->
  (forall s, In s S -> 2 * max_match_distance <= length s + 3) ->
  exists T, suggest S m = Ok T /\ T <> [] /\ forall t, In t T <-> argmin S m t.
Proof.
  intros S m d Hmin Hlt Hlong. apply (suggest_complete S m d Hmin Hlt).
  destruct Hmin as [(t & Ht & Et) _]. specialize (Hlong t Ht).
  unfold dist in Et. pose proof (script_length _ _ _ (lev_script t m)) as [L1 _]. lia.
Qed.

Theorem validate_symbol_refs_spec : forall S name,
  (In name S -> validate_symbol_refs S name = Ok None) /\
  (~ In name S -> exists T, validate_symbol_refs S name = Ok (Some T) /\ suggest S name = Ok T).
Proof.
  intros S name. unfold validate_symbol_refs. split; intro H.
  - apply mem_str_In in H. rewrite H. reflexivity.
  - destruct (mem_str name S) eqn:E; [apply mem_str_In in E; contradiction|].
    destruct (suggest_iff S name) as (T & ET & _). rewrite ET. simpl. eauto.
Qed.

(* to evaluate [lev] on concrete strings in polynomial time (examples in props/C20.v) *)
Lemma lev_dp_eq : forall a b, lev a b = match edit_distance a b with Ok d => d | Raise _ => 0 end.
Proof. intros a b. rewrite edit_distance_lev. reflexivity. Qed.
