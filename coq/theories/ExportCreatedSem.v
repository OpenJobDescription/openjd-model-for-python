(* ExportCreatedSem.v — "whatever the decoder makes of the export of x is equal to x", as a property of an
   instance value x and a kind / class / field of the schema, with the rules to establish it.

     good v x      v is equal to x as pydantic compares instances (ExportCreatedRel.mval_equiv) and exports to the same
                   document up to member order (JsonEquiv.json_equiv)
     SEMK k x      every successful parse of the export of x AS KIND k (any fuel) returns a v with [good v x]
     SEMC c x      the same for a parse AS CLASS c;   SEMV fl x   for a parse as the value of field fl

   The rules are representation facts only (which constructor of [mval] sits under which kind): no constraint of
   the target class is needed, because the parse is ASSUMED to succeed (create_job's own validation, Export.nodes_ok,
   provides that for the root).  [sem_cls] is the rule for a model node: the node's class may be ANOTHER class with
   the same field names and aliases (the subclasses create_job instantiates), and its fields may come in any order.
   Any pre / post validators: they only decide whether the parse succeeds. *)
From Coq Require Import List NArith ZArith Bool String Lia.
Import ListNotations.
Require Import OJD.Base OJD.Lexer OJD.Json OJD.Schema OJD.Charsets OJD.Numerals OJD.NumRoundtrip OJD.CreateJob
               OJD.Parse OJD.ExportProofs OJD.JsonEquiv OJD.CreateJobExactLib OJD.ExportCreatedRel OJD.ListLib.
Local Open Scope string_scope.
Local Open Scope list_scope.

Notation G := Generated.schema.
Notation T := (tobj Generated.schema).

Definition good (v x : mval) : Prop := mval_equiv v x /\ json_equiv (T v) (T x).

Lemma good_refl : forall x, good x x.
Proof. intros x. split; [apply mval_equiv_refl|apply json_equiv_refl]. Qed.

Lemma mval_equiv_none_l : forall v x, mval_equiv v x -> x = MNone -> v = MNone.
Proof. intros v x H E. subst x. inversion H; subst; try reflexivity. discriminate. Qed.

Lemma mval_equiv_none_r : forall v x, mval_equiv v x -> v = MNone -> x = MNone.
Proof. intros v x H E. subst v. inversion H; subst; try reflexivity. discriminate. Qed.

Lemma mnone_false : forall x, mnone x = false <-> x <> MNone.
Proof. intros x. destruct x; split; intros H; try reflexivity; try discriminate; try congruence. Qed.

Lemma good_mnone : forall v x, good v x -> mnone v = mnone x.
Proof.
  intros v x [H _]. destruct (mnone x) eqn:Ex.
  - destruct x; try discriminate Ex. rewrite (mval_equiv_none_l _ _ H eq_refl). reflexivity.
  - destruct (mnone v) eqn:Ev; [|reflexivity]. destruct v; try discriminate Ev.
    rewrite (mval_equiv_none_r _ _ H eq_refl) in Ex. discriminate Ex.
Qed.

Lemma T_not_null : forall x, mnone x = false -> T x <> JNull.
Proof. intros x H E. apply tobj_null in E. subst x. discriminate H. Qed.

(* the members [tobj] emits for a field list, the key of a field name being [al name] *)
Definition mems (al : string -> string) (fs : list (string * mval)) : list (str * json) :=
  flat_map (fun fv : string * mval => match snd fv with
                                      | MNone => []
                                      | _ => [(str_of_string (al (fst fv)), T (snd fv))]
                                      end) fs.

Lemma T_model : forall c fs, T (MModel c fs) = JObj (mems (alias_of G c) fs).
Proof. reflexivity. Qed.

Lemma mems_cons : forall al n x r,
  mems al ((n, x) :: r) = (if mnone x then [] else [(str_of_string (al n), T x)]) ++ mems al r.
Proof. intros al n x r. unfold mems. cbn [flat_map fst snd]. destruct x; reflexivity. Qed.

Lemma mems_nonnull : forall al fs kv, In kv (mems al fs) -> snd kv <> JNull.
Proof.
  intros al fs kv H. unfold mems in H. apply in_flat_map in H. destruct H as [[n x] [_ H]]. cbn [fst snd] in H.
  destruct (mnone x) eqn:E; [destruct x; try discriminate E; destruct H|].
  assert (H' : kv = (str_of_string (al n), T x)) by (destruct x; try discriminate E; destruct H as [<-|[]]; reflexivity).
  subst kv. cbn [snd]. apply T_not_null. exact E.
Qed.

Lemma jfind_nonnull : forall k ms, (forall kv, In kv ms -> snd kv <> JNull) -> jfind k ms = assoc k ms.
Proof.
  induction ms as [|[k' v] r IH]; intros H; [reflexivity|].
  cbn [jfind assoc]. destruct (str_eqb k k').
  - assert (Hv : v <> JNull) by (apply (H (k', v)); left; reflexivity). destruct v; try reflexivity. contradiction.
  - apply IH. intros kv Hkv. apply H. right. exact Hkv.
Qed.

Lemma mfield_cons : forall k n (x : mval) r,
  mfield k ((n, x) :: r) = if String.eqb n k then x else mfield k r.
Proof. intros k n x r. unfold mfield. cbn [lookup_s]. destruct (String.eqb n k); reflexivity. Qed.

Lemma mfield_notin : forall k (fs : list (string * mval)), ~ In k (map fst fs) -> mfield k fs = MNone.
Proof. intros k fs H. unfold mfield. rewrite lookup_s_notin by exact H. reflexivity. Qed.

Lemma assoc_mems_absent : forall al fs key,
  (forall n, In n (map fst fs) -> str_of_string (al n) <> key) -> assoc key (mems al fs) = None.
Proof.
  induction fs as [|[n x] r IH]; intros key H; [reflexivity|].
  rewrite mems_cons.
  assert (Hr : assoc key (mems al r) = None) by (apply IH; intros m Hm; apply H; right; exact Hm).
  destruct (mnone x); [exact Hr|]. cbn [app assoc].
  rewrite (proj2 (str_eqb_neq _ _)); [exact Hr|]. intros E. apply (H n); [left; reflexivity|]. symmetry. exact E.
Qed.

Lemma assoc_mems : forall al fs n0,
  NoDup (map fst fs) ->
  (forall n, In n (map fst fs) -> al n = al n0 -> n = n0) ->
  assoc (str_of_string (al n0)) (mems al fs)
  = if mnone (mfield n0 fs) then None else Some (T (mfield n0 fs)).
Proof.
  induction fs as [|[n x] r IH]; intros n0 Hnd Hinj; [reflexivity|].
  cbn [map fst] in Hnd. inversion Hnd as [|? ? Hnotin Hnd']. subst.
  rewrite mems_cons, mfield_cons. destruct (String.eqb n n0) eqn:En.
  - apply String.eqb_eq in En. subst n0.
    destruct (mnone x) eqn:Ex.
    + cbn [app]. apply assoc_mems_absent. intros m Hm E. apply str_of_string_inj in E.
      assert (m = n) by (apply Hinj; [right; exact Hm|exact E]). subst m. contradiction.
    + cbn [app assoc]. rewrite str_eqb_refl. reflexivity.
  - apply String.eqb_neq in En.
    assert (Hr : assoc (str_of_string (al n0)) (mems al r)
                 = if mnone (mfield n0 r) then None else Some (T (mfield n0 r))).
    { apply IH; [exact Hnd'|]. intros m Hm E. apply Hinj; [right; exact Hm|exact E]. }
    destruct (mnone x); [exact Hr|]. cbn [app assoc].
    rewrite (proj2 (str_eqb_neq _ _)); [exact Hr|]. intros E. apply str_of_string_inj in E. apply En.
    apply Hinj; [left; reflexivity|]. symmetry. exact E.
Qed.

Section Sem.
  Variable classify : N -> cclass.
  Variable pre : string -> json -> bool.
  Variable post : string -> json -> list (string * mval) -> bool.
  Notation PK := (parse_kind G classify pre post).
  Notation PC := (parse_cls G classify pre post).

  Definition SEMK (k : kind) (x : mval) : Prop := forall f v, PK f k (T x) = Ok v -> good v x.
  Definition SEMC (c : string) (x : mval) : Prop := forall f v, PC f c (T x) = Ok v -> good v x.
  Definition SEMV (fl : field) (x : mval) : Prop := forall f y, field_value (PK f) fl (T x) = Ok y -> good y x.

  Lemma sem_text : forall k x s, str_kind k = true -> mtext x = Some s -> SEMK k x.
  Proof.
    intros k x s Hk Hx f v H.
    assert (Ex : T x = JStr s) by (destruct x; try discriminate Hx; injection Hx as <-; reflexivity).
    rewrite Ex in H. destruct f as [|f]; [discriminate H|].
    rewrite parse_kind_Sb, (kind_body_scalar _ _ _ _ _ (scalar_of_str _ Hk)) in H.
    assert (Hv : mtext v = Some s).
    { destruct k as [lit|members|strict minl maxl cs|fc minl maxl cs| | | | | | |]; try discriminate Hk;
        cbn [scalar_body] in H; unfold reject in H.
      - destruct (str_eqb s $lit); [|discriminate H]. injection H as <-. reflexivity.
      - destruct (existsb _ members); [|discriminate H]. injection H as <-. reflexivity.
      - apply DecodeInv.check_str_ok, proj1 in H. subst v. reflexivity.
      - destruct (len_ok minl maxl s && cs_ok cs s && fs_ok classify s); [|discriminate H]. injection H as <-. reflexivity. }
    split; [eapply ME_text; eassumption|].
    assert (Ev : T v = JStr s) by (destruct v; try discriminate Hv; injection Hv as <-; reflexivity).
    rewrite Ev, Ex. apply json_equiv_refl.
  Qed.

  Lemma sem_exact : forall k x, scalar_kind k = true ->
    (forall v, scalar_body classify k (T x) = Ok v -> v = x) -> SEMK k x.
  Proof.
    intros k x Hk H f v Hp. destruct f as [|f]; [discriminate Hp|].
    rewrite parse_kind_Sb, (kind_body_scalar _ _ _ _ _ Hk) in Hp. rewrite (H v Hp). apply good_refl.
  Qed.

  Lemma sem_bool : forall st b, SEMK (KBool st) (MBool b).
  Proof. intros st b. apply sem_exact; [reflexivity|]. cbn [scalar_body tobj]. intros v H. injection H as <-. reflexivity. Qed.

  Lemma sem_int : forall st ge le gt z, SEMK (KInt st ge le gt) (MInt z).
  Proof.
    intros st ge le gt z. apply sem_exact; [reflexivity|]. cbn [scalar_body tobj]. intros v H.
    destruct (zopt_ok ge le gt z); [|discriminate H]. injection H as <-. reflexivity.
  Qed.

  Lemma sem_float : forall gt m e, SEMK (KFloat gt) (MFloat m e).
  Proof.
    intros gt m e. apply sem_exact; [reflexivity|]. cbn [scalar_body tobj]. intros v H.
    destruct gt as [b|]; [destruct (num_ltb _ _); [|discriminate H]|]; injection H as <-; reflexivity.
  Qed.

  Lemma sem_dec : forall m e, SEMK KDec (MDec m e).
  Proof.
    intros m e. apply sem_exact; [reflexivity|]. cbn [scalar_body tobj]. intros v H.
    rewrite parse_dec_print_dec in H. injection H as <-. reflexivity.
  Qed.

  (* a scalar kind never accepts an array or an object *)
  Lemma sem_scalar_composite : forall k x, scalar_kind k = true ->
    (exists l, T x = JArr l) \/ (exists ms, T x = JObj ms) -> SEMK k x.
  Proof.
    intros k x Hk Hx f v H. exfalso. destruct f as [|f]; [discriminate H|].
    rewrite parse_kind_Sb, (kind_body_scalar _ _ _ _ _ Hk) in H.
    destruct Hx as [[l E]|[ms E]]; rewrite E in H;
      destruct k as [lit|members|strict minl maxl cs|fc minl maxl cs|strict|strict ge le gt|gt| | | |];
      try discriminate Hk; cbn [scalar_body] in H; unfold reject, unsupported in H; try discriminate H;
      destruct strict; discriminate H.
  Qed.

  Lemma sem_model : forall c x, SEMC c x -> SEMK (KModel c) x.
  Proof.
    intros c x Hc f v H. destruct f as [|f]; [discriminate H|].
    rewrite parse_kind_Sb in H. cbn [kind_body] in H. eapply Hc. exact H.
  Qed.

  Lemma find_first_key : forall (mp : list (string * string)) kk c,
    NoDup (map fst mp) -> In (kk, c) mp ->
    List.find (fun kc => str_eqb (str_of_string (fst kc)) (str_of_string kk)) mp = Some (kk, c).
  Proof.
    induction mp as [|[k1 c1] r IH]; intros kk c Hnd Hin; [destruct Hin|].
    cbn [map fst] in Hnd. inversion Hnd as [|? ? Hnotin Hnd']. subst.
    cbn [List.find fst]. destruct Hin as [Hin|Hin].
    - injection Hin as -> ->. rewrite str_eqb_refl. reflexivity.
    - rewrite (proj2 (str_eqb_neq _ _)); [apply IH; assumption|].
      intros E. apply str_of_string_inj in E. subst k1. apply Hnotin.
      apply (in_map fst r (kk, c)). exact Hin.
  Qed.

  Lemma sem_disc : forall key mp kk c x ms,
    NoDup (map fst mp) -> In (kk, c) mp ->
    T x = JObj ms -> assoc (str_of_string key) ms = Some (JStr (str_of_string kk)) ->
    SEMC c x -> SEMK (KDisc key mp) x.
  Proof.
    intros key mp kk c x ms Hnd Hin Ex Ha Hc f v H. destruct f as [|f]; [discriminate H|].
    rewrite parse_kind_Sb in H. cbn [kind_body] in H. unfold disc_value in H. rewrite Ex in H.
    rewrite Ha in H. rewrite (find_first_key mp kk c Hnd Hin) in H. rewrite <- Ex in H. eapply Hc. exact H.
  Qed.

  Definition SEMA (a : ualt) (x : mval) : Prop :=
    forall f v, alt_value (PK f) a (T x) = Ok v -> good v x.

  Lemma sem_union : forall alts x, (forall a, In a alts -> SEMA a x) -> SEMK (KUnion alts) x.
  Proof.
    intros alts x Ha f v H. destruct f as [|f]; [discriminate H|].
    rewrite parse_kind_Sb in H. cbn [kind_body] in H.
    induction alts as [|a r IH]; [discriminate H|].
    cbn [try_alts_b] in H. destruct (alt_value (PK f) a (T x)) as [y|e] eqn:E.
    - injection H as <-. eapply (Ha a); [left; reflexivity|exact E].
    - apply IH; [intros a' Ha'; apply Ha; right; exact Ha'|]. destruct e; try discriminate H; exact H.
  Qed.

  Lemma sema_scalar : forall k x, SEMK k x -> SEMA (UScalar k) x.
  Proof. intros k x H f v Hp. cbn [alt_value] in Hp. eapply H. exact Hp. Qed.

  Lemma semv_none : forall fl, SEMV fl MNone.
  Proof.
    intros fl f y H. cbn [tobj field_value] in H. destruct (f_required fl); [discriminate H|].
    injection H as <-. apply good_refl.
  Qed.

  Lemma field_value_present : forall pk fl x, mnone x = false ->
    field_value pk fl (T x) = shape_value pk fl (T x).
  Proof. intros pk fl x H. apply field_value_nonnull. apply T_not_null. exact H. Qed.

  Lemma semv_single : forall fl x, f_shape fl = Single -> SEMK (f_kind fl) x -> SEMV fl x.
  Proof.
    intros fl x Hs Hk f y H. destruct (mnone x) eqn:Ex.
    - destruct x; try discriminate Ex. eapply semv_none. exact H.
    - rewrite field_value_present in H by exact Ex. unfold shape_value in H. rewrite Hs in H. eapply Hk. exact H.
  Qed.

  Lemma good_list : forall ys l, Forall2 good ys l -> good (MList ys) (MList l).
  Proof.
    intros ys l H. split.
    - constructor. induction H as [|y x ys l [Hm _] _ IH]; constructor; assumption.
    - cbn [tobj]. constructor. induction H as [|y x ys l [_ Hj] _ IH]; constructor; assumption.
  Qed.

  Lemma list_value_sem : forall f minl maxl k l y,
    (forall x, In x l -> SEMK k x) ->
    list_value (PK f) minl maxl k (T (MList l)) = Ok y -> good y (MList l).
  Proof.
    intros f minl maxl k l y Hl H. cbn [tobj] in H. unfold list_value in H.
    destruct (len_ok_n minl maxl (List.length (map T l))); [|discriminate H].
    destruct (mapM (PK f k) (map T l)) as [ys|e] eqn:Em; cbn [bind] in H; [|discriminate H]. injection H as <-.
    apply good_list. apply mapM_Forall2 in Em.
    revert ys Em. induction l as [|x r IH]; intros ys Em; inversion Em; subst; constructor.
    - eapply (Hl x); [left; reflexivity|eassumption].
    - apply IH; [intros x' Hx'; apply Hl; right; exact Hx'|assumption].
  Qed.

  Lemma semv_list : forall fl lo hi l, f_shape fl = ListOf lo hi ->
    (forall x, In x l -> SEMK (f_kind fl) x) -> SEMV fl (MList l).
  Proof.
    intros fl lo hi l Hs Hl f y H. rewrite field_value_present in H by reflexivity.
    unfold shape_value in H. rewrite Hs in H. eapply list_value_sem; eassumption.
  Qed.

  Lemma sema_list : forall lo hi k l, (forall x, In x l -> SEMK k x) -> SEMA (UList lo hi k) (MList l).
  Proof. intros lo hi k l Hl f v H. cbn [alt_value] in H. eapply list_value_sem; eassumption. Qed.

  (* a list-valued field (or alternative) rejects whatever does not export to an array *)
  Lemma semv_list_reject : forall fl lo hi x, f_shape fl = ListOf lo hi ->
    (forall l, T x <> JArr l) -> SEMV fl x.
  Proof.
    intros fl lo hi x Hs Hx f y H. destruct (mnone x) eqn:Ex.
    - destruct x; try discriminate Ex. eapply semv_none. exact H.
    - exfalso. rewrite field_value_present in H by exact Ex. unfold shape_value in H. rewrite Hs in H.
      unfold list_value in H. destruct (T x) as [| | | | |l|]; try discriminate H. apply (Hx l). reflexivity.
  Qed.

  Lemma T_dict : forall d, (forall kv, In kv d -> mnone (snd kv) = false) ->
    T (MDict d) = JObj (map (fun kv : str * mval => (fst kv, T (snd kv))) d).
  Proof.
    intros d Hd. cbn [tobj]. f_equal. induction d as [|[k x] r IH]; [reflexivity|].
    cbn [flat_map map fst snd]. rewrite IH by (intros kv Hkv; apply Hd; right; exact Hkv).
    specialize (Hd (k, x) (or_introl eq_refl)). cbn [snd] in Hd. destruct x; try discriminate Hd; reflexivity.
  Qed.

  Lemma good_dict : forall ys d,
    Forall2 (fun p q : str * mval => fst p = fst q /\ good (snd p) (snd q)) ys d ->
    (forall kv, In kv d -> mnone (snd kv) = false) ->
    good (MDict ys) (MDict d).
  Proof.
    intros ys d H Hd. split.
    - constructor. induction H as [|p q ys d [Hk [Hm _]] _ IH]; constructor; [split; assumption|].
      apply IH. intros kv Hkv. apply Hd. right. exact Hkv.
    - assert (Hy : forall kv, In kv ys -> mnone (snd kv) = false).
      { clear - H Hd. induction H as [|p q ys d [Hk Hg] _ IH]; intros kv Hkv; [destruct Hkv|].
        destruct Hkv as [<-|Hkv].
        - rewrite (good_mnone _ _ Hg). apply Hd. left. reflexivity.
        - apply IH; [intros kv' Hkv'; apply Hd; right; exact Hkv'|exact Hkv]. }
      rewrite (T_dict ys Hy), (T_dict d Hd). apply json_equiv_obj_pointwise.
      clear Hy Hd. induction H as [|p q ys d [Hk [_ Hj]] _ IH]; constructor; [split; assumption|exact IH].
  Qed.

  Lemma semv_dict : forall fl kk d, f_shape fl = DictOf kk ->
    (forall kv, In kv d -> mnone (snd kv) = false /\ SEMK (f_kind fl) (snd kv)) -> SEMV fl (MDict d).
  Proof.
    intros fl kk d Hs Hd f y H. rewrite field_value_present in H by reflexivity.
    unfold shape_value in H. rewrite Hs in H.
    assert (Hn : forall kv, In kv d -> mnone (snd kv) = false) by (intros kv Hkv; apply (Hd kv Hkv)).
    rewrite (T_dict d Hn) in H. unfold dict_value in H.
    destruct (mapM (dict_member (PK f) kk (f_kind fl)) (map (fun kv : str * mval => (fst kv, T (snd kv))) d)) as [ys|e] eqn:Em;
      cbn [bind] in H; [|discriminate H]. injection H as <-.
    apply good_dict; [|exact Hn]. apply mapM_Forall2 in Em.
    clear Hn. revert ys Em. induction d as [|[k x] r IH]; intros ys Em; inversion Em as [|a b l l' Hab Hr]; subst; constructor.
    - unfold dict_member in Hab. cbn [fst snd] in Hab.
      destruct (PK f kk (JStr k)) as [w|e]; cbn [bind] in Hab; [|discriminate Hab].
      destruct (PK f (f_kind fl) (T x)) as [z|e] eqn:Ez; cbn [bind] in Hab; [|discriminate Hab].
      injection Hab as <-. cbn [fst snd]. split; [reflexivity|].
      destruct (Hd (k, x) (or_introl eq_refl)) as [_ Hk]. eapply Hk. exact Ez.
    - apply IH; [intros kv Hkv; apply Hd; right; exact Hkv|exact Hr].
  Qed.

  (* the node's field NAMES against the class it is parsed as: pairwise distinct, exactly the names of the
     class's fields (in any order), and the node's own class [c'] gives every field the alias the class gives it *)
  Definition fields_ok (c' : string) (k : cls) (names : list string) : bool :=
    nodup_sb names
    && forallb (fun n => mem_s n (map f_name (c_fields k))) names
    && forallb (fun fl => mem_s (f_name fl) names
                          && String.eqb (alias_of G c' (f_name fl)) (f_alias fl)) (c_fields k).

  Lemma NoDup_map_inj : forall (A B : Type) (g : A -> B) l a b,
    NoDup (map g l) -> In a l -> In b l -> g a = g b -> a = b.
  Proof.
    induction l as [|x r IH]; intros a b Hnd Ha Hb E; [destruct Ha|].
    cbn [map] in Hnd. inversion Hnd as [|? ? Hnotin Hnd']. subst.
    destruct Ha as [Ha|Ha], Hb as [Hb|Hb]; subst.
    - reflexivity.
    - exfalso. apply Hnotin. rewrite E. apply in_map. exact Hb.
    - exfalso. apply Hnotin. rewrite <- E. apply in_map. exact Ha.
    - apply IH; assumption.
  Qed.

  Lemma Forall2_mfield : forall (R : field -> mval -> Prop) fields vals, Forall2 R fields vals ->
    NoDup (map f_name fields) -> forall fl, In fl fields -> R fl (mfield (f_name fl) (combine (map f_name fields) vals)).
  Proof.
    intros R fields vals H. induction H as [|g y fields vals Hg _ IH]; intros Hnd fl Hin; [destruct Hin|].
    cbn [map] in Hnd. inversion Hnd as [|? ? Hnotin Hnd']. subst. cbn [map combine]. rewrite mfield_cons.
    destruct Hin as [->|Hin]; [rewrite String.eqb_refl; exact Hg|].
    destruct (String.eqb (f_name g) (f_name fl)) eqn:E; [|exact (IH Hnd' fl Hin)].
    apply String.eqb_eq in E. destruct Hnotin. rewrite E. apply in_map. exact Hin.
  Qed.

  Lemma lookup_s_present : forall n (F : list (string * mval)), In n (map fst F) -> lookup_s n F = Some (mfield n F).
  Proof.
    intros n F H. unfold mfield. destruct (lookup_s n F) as [x|] eqn:E; [reflexivity|]. exfalso.
    induction F as [|[m z] r IH]; [destruct H|]. cbn [lookup_s] in E. destruct (String.eqb m n) eqn:En; [discriminate E|].
    destruct H as [H|H]; [cbn [fst] in H; subst m; rewrite String.eqb_refl in En; discriminate En|exact (IH H E)].
  Qed.

  Definition node_of (fields : list field) (al : string -> string) (F : list (string * mval)) : Prop :=
    NoDup (map fst F) /\ (forall n, In n (map fst F) <-> In n (map f_name fields))
    /\ forall fl, In fl fields -> al (f_name fl) = f_alias fl.

  Lemma node_member : forall fields al F, NoDup (map f_alias fields) -> node_of fields al F ->
    forall fl, In fl fields ->
      assoc (str_of_string (f_alias fl)) (mems al F)
      = if mnone (mfield (f_name fl) F) then None else Some (T (mfield (f_name fl) F)).
  Proof.
    intros fields al F Hna [Hnd [Hnames Hal]] fl Hfl. rewrite <- (Hal fl Hfl). apply assoc_mems; [exact Hnd|].
    intros n Hn E. apply Hnames in Hn. apply in_map_iff in Hn. destruct Hn as [fl2 [<- Hfl2]].
    rewrite (Hal fl Hfl), (Hal fl2 Hfl2) in E. rewrite (NoDup_map_inj _ _ f_alias fields fl2 fl Hna Hfl2 Hfl E). reflexivity.
  Qed.

  Lemma node_no_member : forall fields al F key, node_of fields al F ->
    (forall fl, In fl fields -> str_of_string (f_alias fl) <> key) -> assoc key (mems al F) = None.
  Proof.
    intros fields al F key [_ [Hnames Hal]] Hno. apply assoc_mems_absent. intros n Hn.
    apply Hnames in Hn. apply in_map_iff in Hn. destruct Hn as [fl [<- Hfl]]. rewrite (Hal fl Hfl). apply Hno. exact Hfl.
  Qed.

  Lemma fields_ok_node : forall c' k fs, fields_ok c' k (map fst fs) = true -> node_of (c_fields k) (alias_of G c') fs.
  Proof.
    intros c' k fs Hok. unfold fields_ok in Hok. apply andb_true_iff in Hok. destruct Hok as [Hok H3].
    apply andb_true_iff in Hok. destruct Hok as [H1 H2]. rewrite forallb_forall in H2, H3.
    split; [apply nodup_sb_NoDup; exact H1|]. split.
    - intros n. split; [intros Hn; apply mem_s_In; exact (H2 n Hn)|].
      intros Hn. apply in_map_iff in Hn. destruct Hn as [fl [<- Hfl]]. apply mem_s_In.
      specialize (H3 fl Hfl). apply andb_true_iff in H3. apply H3.
    - intros fl Hfl. apply String.eqb_eq. specialize (H3 fl Hfl). apply andb_true_iff in H3. apply H3.
  Qed.

  Theorem sem_cls : forall c c' k fs,
    lookup_cls G c = Some k ->
    fields_ok c' k (map fst fs) = true ->
    (forall fl, In fl (c_fields k) -> SEMV fl (mfield (f_name fl) fs)) ->
    SEMC c (MModel c' fs).
  Proof.
    intros c c' k fs Hl Hok Hv f v H.
    destruct (generated_names_distinct c k Hl) as [Hn1 Hn2].
    destruct (parse_cls_inv G classify pre post f c _ v H) as [f' [k0 [ms [vals [_ [Hl0 [Ev [_ [Hf [-> _]]]]]]]]]].
    rewrite Hl in Hl0. injection Hl0 as <-. rewrite T_model in Ev. injection Ev as <-.
    (* the parsed node [fv] and the exported one hold exactly the fields of the class *)
    set (fv := combine (map f_name (c_fields k)) vals).
    pose proof (fields_ok_node c' k fs Hok) as N'.
    assert (Hfst : map fst fv = map f_name (c_fields k))
      by (apply map_fst_combine; rewrite map_length; symmetry; eapply Forall2_length; exact Hf).
    assert (N : node_of (c_fields k) (alias_of G c) fv).
    { split; [rewrite Hfst; exact Hn1|]. split; [intros n; rewrite Hfst; reflexivity|].
      intros fl Hfl. eapply alias_of_field; eassumption. }
    (* field by field: the parser was given the export of the field's value *)
    assert (Hgood : forall fl, In fl (c_fields k) -> good (mfield (f_name fl) fv) (mfield (f_name fl) fs)).
    { intros fl Hfl. apply (Hv fl Hfl f'). pose proof (Forall2_mfield _ _ _ Hf Hn1 fl Hfl) as Hfv. cbn beta in Hfv.
      unfold raw_of in Hfv. rewrite (node_member _ _ _ Hn2 N' fl Hfl) in Hfv.
      destruct (mfield (f_name fl) fs); exact Hfv. }
    split.
    - (* equal as instances *)
      constructor. intros n. destruct N as [_ [Nm _]], N' as [_ [Nm' _]].
      destruct (in_dec string_dec n (map f_name (c_fields k))) as [Hin|Hout].
      + rewrite (lookup_s_present n fv), (lookup_s_present n fs) by (apply Nm + apply Nm'; exact Hin).
        apply in_map_iff in Hin. destruct Hin as [fl [<- Hfl]]. constructor. apply (Hgood fl Hfl).
      + rewrite (lookup_s_notin _ n fv), (lookup_s_notin _ n fs) by (rewrite Nm + rewrite Nm'; exact Hout). constructor.
    - (* same export up to member order *)
      rewrite !T_model. constructor. intros key. rewrite !jfind_nonnull by (apply mems_nonnull).
      destruct (existsb (fun fl => str_eqb key (str_of_string (f_alias fl))) (c_fields k)) eqn:Ek.
      + apply existsb_exists in Ek. destruct Ek as [fl [Hfl Ek]]. apply str_eqb_eq in Ek. subst key.
        rewrite (node_member _ _ _ Hn2 N fl Hfl), (node_member _ _ _ Hn2 N' fl Hfl).
        pose proof (Hgood fl Hfl) as Hg. rewrite (good_mnone _ _ Hg).
        destruct (mnone (mfield (f_name fl) fs)); constructor. exact (proj2 Hg).
      + assert (Hno : forall fl, In fl (c_fields k) -> str_of_string (f_alias fl) <> key).
        { intros fl Hfl E. rewrite (proj2 (existsb_exists _ _)) in Ek; [discriminate Ek|].
          exists fl. split; [exact Hfl|]. rewrite E. apply str_eqb_refl. }
        rewrite (node_no_member _ _ _ key N Hno), (node_no_member _ _ _ key N' Hno). constructor.
  Qed.

  (* the same with one premise per field of the class, in order: for a concrete class *)
  Lemma sem_node : forall c c' k fs,
    lookup_cls G c = Some k ->
    fields_ok c' k (map fst fs) = true ->
    Forall (fun fl => SEMV fl (mfield (f_name fl) fs)) (c_fields k) ->
    SEMC c (MModel c' fs).
  Proof. intros c c' k fs Hl Hok Hv. apply (sem_cls c c' k fs Hl Hok). apply Forall_forall. exact Hv. Qed.
End Sem.
