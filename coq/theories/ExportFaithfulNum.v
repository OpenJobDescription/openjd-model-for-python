(* ExportFaithfulNum.v — C17 "faithful": the lossless-coercion facts about numerals.

     num_eqb_refl            a number equals itself whatever its exponent
     trunc_dec_same_value    a float accepted by a non-strict int field (dec_integral) and the int stored for it
                             (trunc_dec) are the same number  — the model of repo fix cb389b6
     parse_int_parse_dec     a text int() reads as z is read by decimal.Decimal as z  (white space, sign,
                             single underscores between digits: all of int()'s syntax is Decimal syntax)
     parse_dec_print_Z       Decimal(str(z)) = z
   Lemmas only. *)
From Coq Require Import List NArith ZArith Bool Lia ZifyBool.
Import ListNotations.
Require OJD.ListLib.
Require Import OJD.Base OJD.Numerals OJD.NumPrint OJD.Parse OJD.NumRoundtrip.
Local Open Scope list_scope.

Lemma num_eqb_refl : forall a, num_eqb a a = true.
Proof. intros a. unfold num_eqb, num_cmp. rewrite Z.compare_refl. reflexivity. Qed.

Lemma compare_eq_true : forall x y : Z, x = y ->
  match Z.compare x y with Eq => true | _ => false end = true.
Proof. intros x y E. subst y. rewrite Z.compare_refl. reflexivity. Qed.

Lemma trunc_dec_same_value : forall m e,
  dec_integral m e = true -> num_eqb (mkNum m e) (num_of_Z (trunc_dec m e)) = true.
Proof.
  intros m e H. unfold num_eqb, num_cmp, num_of_Z, trunc_dec. cbn [mant expo]. unfold dec_integral in H.
  apply compare_eq_true.
  destruct (0 <=? e)%Z eqn:Ee.
  - replace (Z.min e 0) with 0%Z by lia. rewrite !Z.sub_0_r, Z.pow_0_r, Z.mul_1_r. reflexivity.
  - replace (Z.min e 0) with e by lia. rewrite Z.sub_diag, Z.pow_0_r, Z.mul_1_r.
    cbn [orb] in H. apply Z.eqb_eq in H. pose proof (Z.quot_rem' m (10 ^ (- e))) as Hq.
    rewrite H, Z.add_0_r, Z.mul_comm in Hq. exact Hq.
Qed.

Lemma drop_while_split : forall (p : N -> bool) s,
  exists a, s = a ++ drop_while p s /\ forallb p a = true.
Proof.
  induction s as [|c r IH].
  - exists []. split; reflexivity.
  - cbn [drop_while]. destruct (p c) eqn:Ec.
    + destruct IH as [a [E Ha]]. exists (c :: a). split.
      * cbn [app]. f_equal. exact E.
      * cbn [forallb]. rewrite Ec. exact Ha.
    + exists []. split; reflexivity.
Qed.

Lemma forallb_rev' : forall (p : N -> bool) l, forallb p l = true -> forallb p (rev l) = true.
Proof.
  intros p l H. rewrite forallb_forall in *. intros c Hc. apply H. apply in_rev. exact Hc.
Qed.

Lemma strip_split : forall (p : N -> bool) s,
  exists a b, s = a ++ strip p s ++ b /\ forallb p a = true /\ forallb p b = true.
Proof.
  intros p s. unfold strip.
  destruct (drop_while_split p s) as [a [Ea Ha]].
  destruct (drop_while_split p (rev (drop_while p s))) as [b [Eb Hb]].
  exists a, (rev b). split; [|split; [exact Ha|apply forallb_rev'; exact Hb]].
  rewrite <- rev_app_distr. rewrite <- Eb. rewrite rev_involutive. exact Ea.
Qed.

Lemma drop_while_all : forall (p : N -> bool) a u, forallb p a = true -> drop_while p (a ++ u) = drop_while p u.
Proof.
  induction a as [|c a IH]; intros u H; [reflexivity|].
  cbn [forallb] in H. apply andb_true_iff in H. destruct H as [Hc Ha].
  cbn [app drop_while]. rewrite Hc. apply IH. exact Ha.
Qed.

Lemma strip_of_split : forall (q : N -> bool) a t b,
  forallb q a = true -> forallb q b = true -> (forall c, In c t -> q c = false) ->
  strip q (a ++ t ++ b) = t.
Proof.
  intros q a t b Ha Hb Ht. unfold strip. rewrite drop_while_all by exact Ha.
  destruct t as [|c r].
  - cbn [app]. rewrite <- (app_nil_r b), drop_while_all by exact Hb. reflexivity.
  - rewrite (drop_while_head q ((c :: r) ++ b)) by (cbn [app]; apply Ht; left; reflexivity).
    rewrite rev_app_distr. rewrite drop_while_all by (apply forallb_rev'; exact Hb).
    rewrite (drop_while_head q (rev (c :: r))); [apply rev_involutive|].
    destruct (rev (c :: r)) as [|x l] eqn:E; [exact I|]. apply Ht. apply in_rev. rewrite E. left. reflexivity.
Qed.

Lemma strip_weaker : forall (p q : N -> bool) s,
  (forall c, p c = true -> q c = true) -> (forall c, In c (strip p s) -> q c = false) ->
  strip q s = strip p s.
Proof.
  intros p q s Hpq Ht. destruct (strip_split p s) as [a [b [Es [Ha Hb]]]].
  rewrite Es at 1. apply strip_of_split; [eapply ListLib.forallb_impl; eassumption..|exact Ht].
Qed.

Lemma int_space_dec_space : forall c, int_space c = true -> dec_space c = true.
Proof. intros c H. unfold dec_space. rewrite H. reflexivity. Qed.

Definition nz (c : N) : bool := negb (c =? 95)%N.

Definition int_char (c : N) : bool := is_digit c || (c =? 95)%N.

Lemma nz_digit : forall c, is_digit c = true -> nz c = true.
Proof. intros c H. unfold nz. rewrite (NumeralsProofs.digit_neqb c 95 H eq_refl). reflexivity. Qed.

Lemma int_digits_spec : forall r acc prev z,
  int_digits acc prev r = Some z ->
  forallb int_char r = true
  /\ all_digits (filter nz r) = true
  /\ dval acc (filter nz r) = z
  /\ (prev = false -> exists c r', r = c :: r' /\ is_digit c = true).
Proof.
  induction r as [|c r IH]; intros acc prev z H.
  - cbn [int_digits] in H. destruct prev; [|discriminate]. inversion H. subst z.
    repeat split. intros E. discriminate.
  - cbn [int_digits] in H. destruct (is_digit c) eqn:Ec.
    + destruct (IH _ _ _ H) as [H1 [H2 [H3 _]]].
      assert (Enz : nz c = true) by (apply nz_digit, Ec).
      cbn [forallb filter]. rewrite Enz. unfold int_char at 1. rewrite Ec. cbn [orb andb].
      split; [exact H1|]. split; [cbn [all_digits forallb]; rewrite Ec; exact H2|].
      split; [rewrite dval_cons; exact H3|]. intros _. exists c, r. split; [reflexivity|exact Ec].
    + destruct ((c =? 95)%N && prev) eqn:E; [|discriminate].
      apply andb_true_iff in E. destruct E as [E95 Ep].
      destruct (IH _ _ _ H) as [H1 [H2 [H3 _]]].
      assert (Enz : nz c = false) by (unfold nz; rewrite E95; reflexivity).
      cbn [forallb filter]. rewrite Enz. unfold int_char at 1. rewrite E95. rewrite orb_true_r. cbn [andb].
      split; [exact H1|]. split; [exact H2|]. split; [exact H3|].
      intros Ef. rewrite Ef in Ep. discriminate.
Qed.

Lemma int_char_not_space : forall c, int_char c = true -> dec_space c = false.
Proof.
  intros c H. unfold int_char in H. destruct (is_digit c) eqn:D; [apply NumeralsProofs.digit_not_space, D|].
  unfold dec_space, int_space, uni_space. lia.
Qed.

Lemma parse_unsigned_digits : forall neg ds,
  all_digits ds = true -> ds <> [] ->
  parse_unsigned neg ds = Some (Fin (if neg then Z.opp (dval 0 ds) else dval 0 ds) 0).
Proof.
  intros neg ds Hd Hne. rewrite <- (app_nil_r ds) at 1.
  apply (parse_unsigned_num neg ds [] _ 0%Z [] 0%Z Hd Hne eq_refl eq_refl (Z.le_refl 0) eq_refl).
Qed.

Lemma split_sign_decimal : forall t neg r,
  split_sign t = (neg, r) -> forallb int_char r = true ->
  (exists c r', r = c :: r' /\ is_digit c = true) ->
  (forall c, In c t -> dec_space c = false) /\ split_sign (filter nz t) = (neg, filter nz r).
Proof.
  intros t neg r H Hr Hh.
  assert (Hsp : forall x, In x r -> dec_space x = false)
    by (rewrite forallb_forall in Hr; intros x Hx; apply int_char_not_space, Hr, Hx).
  assert (Hd : split_sign (filter nz r) = (false, filter nz r))
    by (destruct Hh as [c0 [r0 [-> Hc0]]]; cbn [filter]; rewrite (nz_digit c0 Hc0); apply split_sign_digit, Hc0).
  destruct t as [|c t']; cbn [split_sign] in H.
  { inversion H; subst r. destruct Hh as [c0 [r0 [Hh _]]]. discriminate Hh. }
  destruct (N.eqb_spec c 43) as [->|_]; [|destruct (N.eqb_spec c 45) as [->|_]]; inversion H; subst neg r.
  - split; [intros x [<-|Hx]; [reflexivity|apply Hsp, Hx]|reflexivity].
  - split; [intros x [<-|Hx]; [reflexivity|apply Hsp, Hx]|reflexivity].
  - split; [exact Hsp|exact Hd].
Qed.

Theorem parse_int_parse_dec : forall s z, parse_int s = Some z -> parse_dec s = Some (Fin z 0).
Proof.
  intros s z H. unfold parse_int in H.
  destruct (split_sign (strip int_space s)) as [neg r] eqn:Esign.
  destruct (int_digits 0 false r) as [z0|] eqn:Ed; [|discriminate]. injection H as <-.
  destruct (int_digits_spec _ _ _ _ Ed) as [Hchars [Hdig [Hval Hhead]]].
  destruct (split_sign_decimal _ _ _ Esign Hchars (Hhead eq_refl)) as [Hnsp Hsign].
  assert (Hne : filter nz r <> []).
  { destruct (Hhead eq_refl) as [c0 [r0 [-> Hc0]]]. cbn [filter]. rewrite (nz_digit c0 Hc0). discriminate. }
  unfold parse_dec. rewrite (strip_weaker int_space dec_space s int_space_dec_space Hnsp). fold nz.
  rewrite Hsign, parse_unsigned_digits, Hval by assumption. reflexivity.
Qed.

Theorem parse_dec_print_Z : forall z, parse_dec (print_Z z) = Some (Fin z 0).
Proof. intros z. apply parse_int_parse_dec. apply parse_int_print_Z. Qed.
