(* CreateJobExact.v — C05_exact, end to end:

     for every job-template document the acceptance model accepts, the object form of the Job that the
     instantiation model builds from the decoded template is the document-level specification
     [expected_job], up to [json_equiv] (member order; explicit nulls = absent members).

   Hypotheses on the document (all boolean, all schema-independent):
     [keys_distinct j]      every object has pairwise distinct keys (true of any parsed JSON / YAML value;
                            only used inside scripts, environments and dependencies);
     [lax_ints_native j]    "timeout" / "notifyPeriodInSeconds" are given as integers;
     [canonical_numbers j]  numeric strings in INT / FLOAT range lists and in amount bounds are written the
                            way str() prints them. *)
From Coq Require Import List NArith ZArith Bool String Lia.
Import ListNotations.
Require Import OJD.Base OJD.ListLib OJD.Lexer OJD.Json OJD.Schema OJD.Generated OJD.Charsets OJD.Numerals OJD.NumPrint
               OJD.FormatStr OJD.CreateJob OJD.CreateJobProofs OJD.CreateJobSpec OJD.Parse OJD.Validators OJD.Accept
               OJD.Export OJD.ExportProofs OJD.AcceptMono OJD.DecodeInv OJD.JsonEquiv OJD.CreateJobExactLib
               OJD.CreateJobExactCarried OJD.CreateJobExactParams OJD.CreateJobExactSteps OJD.CreateJobExactSpace
               OJD.CreateJobExactHost.
Local Open Scope string_scope.
Local Open Scope list_scope.

Definition canonical_step (st : json) : bool :=
  canon_space (jget "parameterSpace" st) && canon_host (jget "hostRequirements" st).

Definition canonical_numbers (j : json) : bool := forallb canonical_step (items (jget "steps" j)).

Definition plain_step (st : json) : bool := is_null (jget "parameterSpace" st) && is_null (jget "hostRequirements" st).
Definition plain_steps (j : json) : bool := forallb plain_step (items (jget "steps" j)).

Definition no_host_steps (j : json) : bool := forallb (fun st => is_null (jget "hostRequirements" st)) (items (jget "steps" j)).

Lemma kd_item : forall v it, keys_distinct v = true -> In it (items v) -> keys_distinct it = true.
Proof.
  intros v it H Hin. destruct v as [| | | | |l|]; try destruct Hin. cbn [keys_distinct] in H.
  rewrite forallb_forall in H. exact (H it Hin).
Qed.

Lemma lax_item : forall v it, lax_ints_native v = true -> In it (items v) -> lax_ints_native it = true.
Proof.
  intros v it H Hin. destruct v as [| | | | |l|]; try destruct Hin. cbn [lax_ints_native] in H.
  rewrite forallb_forall in H. exact (H it Hin).
Qed.

Lemma carried_ok_jget : forall k j, keys_distinct j = true -> lax_ints_native j = true ->
  is_lax_key (str_of_string k) = false -> str_eqb (str_of_string k) $"variables" = false ->
  carried_ok (jget k j) = true.
Proof.
  intros k j Hd Hl H1 H2. unfold carried_ok. rewrite (lax_jget k j Hl H1 H2), (dk_jget k j Hd). reflexivity.
Qed.

Section Wrap.
  Variable classify : N -> cclass.
  Variable resolve : symtab -> str -> outcome str.
  Variable vals : list (str * str * str).
  Notation sigma := (symtab_of vals).
  Notation pk := (parse_kind G classify pre_hook (post_hook classify)).

  Variable Pps Phr : json -> Prop.
  Hypothesis Hps : sub_spec_ok classify resolve sigma Pps "StepParameterSpaceDefinition" (param_space resolve sigma).
  Hypothesis Hhr : sub_spec_ok classify resolve sigma Phr "HostRequirementsTemplate" (host_req resolve sigma).

  Theorem exact_wrap : forall j t job,
    decode_job classify j = Ok t -> doc_ok Pps Phr j ->
    create_job_object G resolve vals t = Ok job ->
    exists job', expected_job resolve sigma j = Ok job' /\ json_equiv job job'.
  Proof.
    intros j t job Hd Hok H. unfold create_job_object in H. cbv zeta in H.
    destruct (inst G resolve sigma (S (mval_depth t)) t) as [y|e] eqn:Ei; cbn [bind] in H; [|discriminate H].
    assert (E : job = to_object G (S (S (S (mval_depth t)))) (coerce_job (S (mval_depth t)) y))
      by (injection H; intros <-; reflexivity).
    rewrite E. clear E H. pose proof (inst_depth G resolve sigma _ _ _ Ei) as Hdy.
    rewrite to_object_coerce_jobj by lia.
    exact (root_equiv classify resolve sigma Pps Phr Hps Hhr j t (S (mval_depth t)) y Hd Hok (Nat.lt_succ_diag_r _) Ei).
  Qed.
End Wrap.

Lemma doc_ok_of : forall (Pps Phr : json -> Prop) j,
  keys_distinct j = true -> lax_ints_native j = true ->
  (forall st, In st (items (jget "steps" j)) ->
              (jget "parameterSpace" st <> JNull -> Pps (jget "parameterSpace" st)) /\
              (jget "hostRequirements" st <> JNull -> Phr (jget "hostRequirements" st))) ->
  doc_ok Pps Phr j.
Proof.
  intros Pps Phr j Hd Hl Hst. split.
  - apply carried_ok_jget; try assumption; reflexivity.
  - intros st Hin.
    assert (Hds : keys_distinct st = true) by (apply (kd_item (jget "steps" j)); [apply dk_jget; exact Hd|exact Hin]).
    assert (Hls : lax_ints_native st = true)
      by (apply (lax_item (jget "steps" j)); [apply lax_jget; [exact Hl|reflexivity|reflexivity]|exact Hin]).
    destruct (Hst st Hin) as [H1 H2].
    repeat split; try assumption; apply carried_ok_jget; try assumption; reflexivity.
Qed.

(* the whole 2023-09 job template schema *)
Theorem C05_exact_full : forall classify j t vals job,
  ascii_ok classify = true ->
  decode_job classify j = Ok t ->
  keys_distinct j = true -> lax_ints_native j = true -> canonical_numbers j = true ->
  create_job_object G (Export.fs_resolve classify) vals t = Ok job ->
  exists job', expected_job (Export.fs_resolve classify) (symtab_of vals) j = Ok job' /\ json_equiv job job'.
Proof.
  intros classify j t vals job Hascii Hdec Hd Hl Hc H.
  change (Export.fs_resolve classify) with (CreateJobProofs.fs_resolve classify) in *.
  apply (exact_wrap classify (CreateJobProofs.fs_resolve classify) vals
                    (fun ps => canon_space ps = true) (fun h => canon_host h = true)
                    (param_space_equiv classify Hascii (symtab_of vals))
                    (host_req_equiv classify Hascii (symtab_of vals)) j t job Hdec); [|exact H].
  apply doc_ok_of; try assumption. intros st Hin.
  unfold canonical_numbers in Hc. rewrite forallb_forall in Hc. specialize (Hc st Hin).
  unfold canonical_step in Hc. apply andb_true_iff in Hc. destruct Hc as [Hc1 Hc2]. split; intros _; assumption.
Qed.

(* templates without parameter spaces and host requirements: no condition on numerals, none on [classify] *)
Theorem C05_exact_plain : forall classify resolve j t vals job,
  decode_job classify j = Ok t ->
  keys_distinct j = true -> lax_ints_native j = true -> plain_steps j = true ->
  create_job_object G resolve vals t = Ok job ->
  exists job', expected_job resolve (symtab_of vals) j = Ok job' /\ json_equiv job job'.
Proof.
  intros classify resolve j t vals job Hdec Hd Hl Hp H.
  apply (exact_wrap classify resolve vals (fun _ => False) (fun _ => False)) with (j := j) (t := t); try assumption.
  - intros f raw x F y _ [].
  - intros f raw x F y _ [].
  - apply doc_ok_of; try assumption. intros st Hin.
    unfold plain_steps in Hp. rewrite forallb_forall in Hp. specialize (Hp st Hin).
    unfold plain_step in Hp. apply andb_true_iff in Hp. destruct Hp as [Hp1 Hp2].
    split; intros Hn; exfalso; apply Hn.
    + destruct (jget "parameterSpace" st); try discriminate Hp1. reflexivity.
    + destruct (jget "hostRequirements" st); try discriminate Hp2. reflexivity.
Qed.

(* templates without host requirements *)
Theorem C05_exact_space : forall classify j t vals job,
  ascii_ok classify = true ->
  decode_job classify j = Ok t ->
  keys_distinct j = true -> lax_ints_native j = true -> no_host_steps j = true ->
  forallb (fun st => canon_space (jget "parameterSpace" st)) (items (jget "steps" j)) = true ->
  create_job_object G (Export.fs_resolve classify) vals t = Ok job ->
  exists job', expected_job (Export.fs_resolve classify) (symtab_of vals) j = Ok job' /\ json_equiv job job'.
Proof.
  intros classify j t vals job Hascii Hdec Hd Hl Hn Hc H.
  change (Export.fs_resolve classify) with (CreateJobProofs.fs_resolve classify) in *.
  apply (exact_wrap classify (CreateJobProofs.fs_resolve classify) vals
                    (fun ps => canon_space ps = true) (fun _ => False)
                    (param_space_equiv classify Hascii (symtab_of vals))) with (j := j) (t := t); try assumption.
  - intros f raw x F y _ [].
  - apply doc_ok_of; try assumption. intros st Hin.
    unfold no_host_steps in Hn. rewrite forallb_forall in Hn, Hc. specialize (Hn st Hin). specialize (Hc st Hin).
    split; [intros _; exact Hc|]. intros Hnn. exfalso. apply Hnn.
    destruct (jget "hostRequirements" st); try discriminate Hn. reflexivity.
Qed.

Lemma create_job_object_nnm : forall resolve vals t job,
  create_job_object G resolve vals t = Ok job -> no_null_members job = true.
Proof.
  intros resolve vals t job H. unfold create_job_object in H. cbv zeta in H.
  destruct (inst G resolve (symtab_of vals) (S (mval_depth t)) t) as [y|e] eqn:Ei; cbn [bind] in H; [|discriminate H].
  assert (E : job = to_object G (S (S (S (mval_depth t)))) (coerce_job (S (mval_depth t)) y))
    by (injection H; intros <-; reflexivity).
  pose proof (inst_depth G resolve (symtab_of vals) _ _ _ Ei) as Hdy.
  rewrite E. rewrite to_object_coerce_jobj by lia. apply nnm_jobj.
Qed.

(* when both Jobs have pairwise distinct keys and the specification's has no null member (both are boolean
   functions of the two values), they are the same document up to the order of object members *)
Theorem C05_exact_perm : forall classify j t vals job job',
  ascii_ok classify = true ->
  decode_job classify j = Ok t ->
  keys_distinct j = true -> lax_ints_native j = true -> canonical_numbers j = true ->
  create_job_object G (Export.fs_resolve classify) vals t = Ok job ->
  expected_job (Export.fs_resolve classify) (symtab_of vals) j = Ok job' ->
  distinct_keys job = true -> distinct_keys job' = true -> no_null_members job' = true ->
  json_perm job job'.
Proof.
  intros classify j t vals job job' Hascii Hdec Hd Hl Hc H Hs D1 D2 N2.
  destruct (C05_exact_full classify j t vals job Hascii Hdec Hd Hl Hc H) as [s [Es He]].
  rewrite Hs in Es. injection Es as <-.
  apply json_equiv_perm; try assumption. exact (create_job_object_nnm _ _ _ _ H).
Qed.
