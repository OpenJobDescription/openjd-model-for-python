(* AcceptComplete.v — the C02 direction: the frozen 2023-09 table accepts no more than the schema read
   from the live classes, hence every well-formed document is accepted. *)
From Coq Require Import List NArith String.
Require Import OJD.Base OJD.Lexer OJD.Json OJD.Schema OJD.Generated OJD.SchemaSpec OJD.SchemaOrder OJD.Parse OJD.Accept
               OJD.WF OJD.AcceptMono OJD.AcceptProofs.
Local Open Scope string_scope.
Local Open Scope list_scope.


Theorem table_le_spec_code : schema_le spec_schema Generated.schema = true.
Proof. rewrite schema_le_fix_eq. vm_compute. reflexivity. Qed.

Theorem structural_spec_code : forall classify j v,
  decode_job_on spec_schema classify j = Ok v -> decode_job classify j = Ok v.
Proof. intros classify j v. exact (decode_job_on_mono _ _ classify j v table_le_spec_code). Qed.

Theorem structural_env_spec_code : forall classify j v,
  decode_env_on spec_schema classify j = Ok v -> decode_env classify j = Ok v.
Proof. intros classify j v. exact (decode_env_on_mono _ _ classify j v table_le_spec_code). Qed.

Section Docs.
Variable classify : N -> cclass.

Lemma complete_on versions root :
  (forall pre post fuel ms v,
     parse_cls spec_schema classify pre post fuel root (JObj ms) = Ok v -> version_ok versions (JObj ms) = true) ->
  forall j, WFdoc classify root j -> exists v, decode_on versions root Generated.schema classify j = Ok v.
Proof.
  intros Hver j H. apply WFdoc_iff_spec_parse in H. destruct H as (v & H). exists v.
  apply (decode_on_mono _ _ _ _ _ _ _ table_le_spec_code), decode_on_ok.
  destruct (parse_cls_ok_obj _ _ _ _ _ _ _ _ H) as (ms & ->).
  split; [exists ms; reflexivity|]. split; [exact (Hver _ _ _ _ _ H)|exact H].
Qed.

(* C02: whatever is well-formed, decode_job_template accepts *)
Theorem job_complete : forall j, WFdoc classify "JobTemplate" j -> exists v, decode_job classify j = Ok v.
Proof. exact (complete_on Generated.job_template_versions "JobTemplate" (spec_job_version classify)). Qed.

Theorem env_complete : forall j, WFdoc classify "EnvironmentTemplate" j -> exists v, decode_env classify j = Ok v.
Proof. exact (complete_on Generated.env_template_versions "EnvironmentTemplate" (spec_env_version classify)). Qed.
End Docs.
