(* AcceptDeps.v — C01/C02 part B: the acyclicity clause of [DepsRule] (stated with C15's [acyclic]
   on the position graph [dep_job]) says the same as the name-level statement [NameAcyclic] of
   WF.v, whenever step names are pairwise distinct. *)
From Coq Require Import List NArith ZArith Bool String Lia.
Import ListNotations.
Require Import OJD.Base OJD.Json OJD.Schema OJD.CreateJob OJD.ListLib OJD.DepGraph OJD.DepGraphSpec
               OJD.Validators OJD.WF OJD.AcceptRules.
Local Open Scope string_scope.
Local Open Scope list_scope.

Lemma combine_seq_fwd {A} (l : list A) : forall s i x,
  In (i, x) (combine (seq s (List.length l)) l) -> s <= i /\ nth_error l (i - s) = Some x.
Proof.
  induction l as [|a r IH]; intros s i x Hin; [contradiction|]. cbn in Hin. destruct Hin as [E|Hin].
  - inversion E. subst. split; [lia|]. rewrite Nat.sub_diag. reflexivity.
  - destruct (IH _ _ _ Hin) as [Hle Hn]. split; [lia|].
    replace (i - s) with (S (i - S s)) by lia. exact Hn.
Qed.

Lemma combine_seq_bwd {A} (l : list A) : forall s p x,
  nth_error l p = Some x -> In (s + p, x) (combine (seq s (List.length l)) l).
Proof.
  induction l as [|a r IH]; intros s p x Hn; [destruct p; discriminate Hn|]. cbn. destruct p as [|p'].
  - cbn in Hn. inversion Hn. subst. left. f_equal. lia.
  - right. cbn in Hn. replace (s + S p') with (S s + p') by lia. apply IH. exact Hn.
Qed.

Section Names.
Variable steps : mval.
Let names := names_of steps.
Let items := mitems steps.
Let n := N.of_nat (List.length names).
Let idx (d : str) : N := match index_of d names 0 with Some k => k | None => n end.
Let j := dep_job steps.

Lemma names_map : names = map step_name items.
Proof. reflexivity. Qed.

Lemma dep_job_entries : j = map (fun iv => (N.of_nat (fst iv), map idx (dep_names (snd iv))))
                               (combine (seq 0 (List.length items)) items).
Proof. unfold j, dep_job, idx, n, names, items. rewrite !names_of_length. reflexivity. Qed.

Lemma depends_iff i k :
  depends j i k <-> exists e, In e j /\ fst e = i /\ In k (snd e).
Proof.
  unfold depends, deps_of. rewrite in_flat_map. split; intros (e & He & H); exists e.
  - cbv beta in H. destruct (N.eqb (fst e) i) eqn:E; [|contradiction]. apply N.eqb_eq in E. auto.
  - destruct H as [E Hk]. split; [exact He|]. cbv beta. subst i. rewrite N.eqb_refl. exact Hk.
Qed.

Hypothesis ND : NoDup names.

Lemma idx_at p a : nth_error names p = Some a -> idx a = N.of_nat p.
Proof.
  intros H. unfold idx. pose proof (index_of_spec a names 0%N) as HS.
  destruct (index_of a names 0) as [k|]; [|destruct (HS (nth_error_In _ _ H))].
  destruct HS as (q & -> & Hq).
  assert (q = p) by (apply (proj1 (NoDup_nth_error names) ND); [apply nth_error_Some|]; congruence).
  subst q. reflexivity.
Qed.

Lemma edge_depends a b : StepDependsOn steps a b -> depends j (idx a) (idx b).
Proof.
  intros (st & Hst & Ha & Hb). apply In_nth_error in Hst. destruct Hst as (p & Hp).
  apply depends_iff. exists (N.of_nat p, map idx (dep_names st)). split; [|split].
  - rewrite dep_job_entries. apply in_map_iff. exists (p, st). split; [reflexivity|].
    exact (combine_seq_bwd items 0 p st Hp).
  - cbn [fst]. symmetry. apply idx_at. rewrite names_map. rewrite <- Ha. apply map_nth_error. exact Hp.
  - cbn [snd]. apply in_map. exact Hb.
Qed.

Lemma depends_edge i k : depends j i k ->
  exists a b, StepDependsOn steps a b /\ idx a = i /\ idx b = k /\ In a names.
Proof.
  intros H. apply depends_iff in H. destruct H as (e & He & Hi & Hk).
  rewrite dep_job_entries in He. apply in_map_iff in He. destruct He as ([p st] & Ee & Hc). subst e.
  cbn [fst snd] in Hi, Hk. apply combine_seq_fwd in Hc. destruct Hc as [_ Hp]. rewrite Nat.sub_0_r in Hp.
  apply in_map_iff in Hk. destruct Hk as (b & Eb & Hb).
  assert (Hst : In st items) by (eapply nth_error_In; exact Hp).
  exists (step_name st), b. split; [exists st; repeat split; assumption|]. split; [|split].
  - rewrite <- Hi. apply idx_at. rewrite names_map. apply map_nth_error. exact Hp.
  - exact Eb.
  - rewrite names_map. apply in_map. exact Hst.
Qed.

Lemma idx_inj a' b : In a' names -> idx b = idx a' -> b = a'.
Proof.
  intros Hin E. unfold idx in E.
  pose proof (index_of_spec a' names 0%N) as Ha. pose proof (index_of_spec b names 0%N) as Hb.
  destruct (index_of a' names 0) as [k|]; [|contradiction]. destruct Ha as (p & -> & Hp).
  destruct (index_of b names 0) as [k'|].
  - destruct Hb as (p' & -> & Hp'). assert (p' = p) by lia. subst p'. congruence.
  - assert (p < List.length names) by (apply nth_error_Some; congruence). unfold n in E. lia.
Qed.

Lemma path_fwd a b : DepPath steps a b -> dpath j (idx a) (idx b).
Proof.
  induction 1 as [a b H|a b c H _ IH].
  - apply dpath_one. apply edge_depends. exact H.
  - eapply dpath_cons; [apply edge_depends; exact H|exact IH].
Qed.

Lemma path_bwd i k : dpath j i k ->
  exists a b, DepPath steps a b /\ idx a = i /\ idx b = k /\ In a names.
Proof.
  induction 1 as [i k H|i m k H _ IH].
  - destruct (depends_edge i k H) as (a & b & Hs & Ea & Eb & Hin). exists a, b. split; [apply DepPath_one; exact Hs|auto].
  - destruct (depends_edge i m H) as (a & b & Hs & Ea & Eb & Hin).
    destruct IH as (a' & c & Hp & Ea' & Ec & Hin').
    assert (b = a') by (apply idx_inj; [exact Hin'|congruence]). subst a'.
    exists a, c. split; [eapply DepPath_cons; [exact Hs|exact Hp]|auto].
Qed.

Lemma acyclic_names_iff : acyclic j <-> NameAcyclic steps.
Proof.
  split.
  - intros Ha a Hp. exact (Ha (idx a) (path_fwd a a Hp)).
  - intros Hn i Hp. destruct (path_bwd i i Hp) as (a & b & Hd & Ea & Eb & Hin).
    assert (b = a) by (apply idx_inj; [exact Hin|congruence]). subst b. exact (Hn a Hd).
Qed.
End Names.

Theorem deps_rule_names_iff : forall steps, DepsRule steps <-> DepsRuleNames steps.
Proof.
  intros steps. unfold DepsRule, DepsRuleNames.
  split; intros (ND & Hc & Ha); (split; [exact ND|split; [exact Hc|]]); apply (acyclic_names_iff steps ND); exact Ha.
Qed.

(* the validator as coded <-> the name-level rule *)
Theorem deps_names_rule_iff : forall steps,
  (nodupb (names_of steps)
   && negb (DepGraph.has_cycle (dep_job steps))
   && forallb (fun st => forallb (fun d => mem_str d (names_of steps)) (dep_names st)) (mitems steps)) = true
  <-> DepsRuleNames steps.
Proof. intros steps. rewrite deps_rule_iff. apply deps_rule_names_iff. Qed.
