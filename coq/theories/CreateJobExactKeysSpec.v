(* CreateJobExactKeysSpec.v — the SPECIFICATION's Job ([expected_job], CreateJobSpec.v) of an accepted document
   with distinct keys is [good]: every object has pairwise distinct keys and no null member.

   What is used of acceptance (through the class inversions of CreateJobExactSteps / Space / Host / Params.v):
     * required members are present (job / step / parameter / amount / attribute names, script, type, range);
     * the names of the job parameter definitions, and of a step's task parameter definitions, are pairwise
       distinct (validators _unique_parameter_names, StepParameterSpaceDefinition._validate) -- they become
       the keys of "parameters" / "taskParameterDefinitions";
     * range items, amount bounds, attribute values, descriptions, combination are scalars.
   Scripts, environments and dependencies are [same] of the document: distinct keys are inherited from the
   document, null members are stripped. *)
From Coq Require Import List NArith ZArith Bool String Lia.
Import ListNotations.
Require Import OJD.Base OJD.ListLib OJD.Lexer OJD.Json OJD.Schema OJD.Generated OJD.Charsets OJD.Numerals OJD.NumPrint
               OJD.FormatStr OJD.CreateJob OJD.CreateJobProofs OJD.CreateJobSpec OJD.Parse OJD.Validators OJD.Accept
               OJD.ExportProofs OJD.AcceptMono OJD.DecodeInv OJD.JsonEquiv OJD.CreateJobExactLib OJD.CreateJobExactCarried
               OJD.CreateJobExactParams OJD.CreateJobExactSteps OJD.CreateJobExactSpace OJD.CreateJobExactHost OJD.CreateJobExactKeysLib.
Local Open Scope string_scope.
Local Open Scope list_scope.

Lemma good_obj : forall ms, NoDup (map fst ms) -> (forall kv, In kv ms -> good (snd kv) /\ snd kv <> JNull) -> good (JObj ms).
Proof.
  intros ms Hnd Hv. split.
  - cbn [distinct_keys]. apply andb_true_iff. split; [apply NoDup_str_nodupb; exact Hnd|].
    rewrite forallb_forall. intros kv Hkv. exact (proj1 (proj1 (Hv kv Hkv))).
  - cbn [no_null_members]. rewrite forallb_forall. intros kv Hkv. destruct (Hv kv Hkv) as [[_ Hg] Hn].
    rewrite Hg. destruct (snd kv); try reflexivity. contradiction.
Qed.

Ltac dn_tac :=
  repeat first [ apply dn_opt_last
               | apply dn_opt
               | apply dn_cons; [solve [discriminate | assumption | apply same_nn; assumption]|]
               | apply dn_nil ].

Ltac keys_tac := cbn [map fst]; apply str_nodupb_NoDup; vm_compute; reflexivity.

Lemma leaf_tobj_scalarj : forall SC x v, leaf x = true -> tobj SC x = v -> scalarj v = true.
Proof. intros SC x v H <-. destruct x; try discriminate H; reflexivity. Qed.

Section Flat.
  Variable classify : N -> cclass.

  Lemma single_flat : forall f k raw x, read_opt classify f k raw x -> flat_kind k = true -> scalarj raw = true.
  Proof. intros f k raw x [[-> _]|[_ H]] Hk; [reflexivity|exact (pk_flat_scalarj classify f k raw x H Hk)]. Qed.

  Definition scalar_list (raw : json) : bool := match raw with JNull => true | JArr l => forallb scalarj l | _ => false end.

  Lemma list_flat : forall f k raw x, read_list classify f k raw x -> flat_kind k = true -> scalar_list raw = true.
  Proof.
    intros f k raw x [[-> _]|[its [l [-> [_ HF]]]]] Hk; [reflexivity|]. exact (Forall2_flat classify f k its l HF Hk).
  Qed.
End Flat.

Section Subst.
  Variable resolve : symtab -> str -> outcome str.
  Variable sigma : symtab.

  Lemma subst_scalar : forall v r, scalarj v = true -> CreateJobSpec.subst resolve sigma v = Ok r ->
    scalarj r = true /\ (v <> JNull -> r <> JNull).
  Proof.
    intros v r Hv H. destruct v; try discriminate Hv; cbn [CreateJobSpec.subst] in H;
      try (injection H as <-; split; [reflexivity|intros Hn; exact Hn]).
    destruct (resolve sigma s); cbn [bind] in H; [|discriminate H]. injection H as <-. split; [reflexivity|discriminate].
  Qed.

  Lemma as_text_scalar : forall v r, scalarj v = true -> as_text resolve sigma v = Ok r ->
    scalarj r = true /\ (v <> JNull -> r <> JNull).
  Proof.
    intros v r Hv H. destruct v; try discriminate Hv; cbn [as_text] in H;
      try exact (subst_scalar _ r Hv H); injection H as <-; (split; [reflexivity|discriminate]).
  Qed.

  Lemma mapM_scalars : forall (g : json -> outcome json) its l,
    (forall v r, scalarj v = true -> g v = Ok r -> scalarj r = true /\ (v <> JNull -> r <> JNull)) ->
    forallb scalarj its = true -> mapM g its = Ok l -> good (JArr l).
  Proof.
    intros g its l Hg Hs H. apply good_arr. intros x Hx. destruct (mapM_ok_in _ _ _ _ _ H x Hx) as [v [Hv Hf]].
    rewrite forallb_forall in Hs. apply good_scalar. exact (proj1 (Hg v x (Hs v Hv) Hf)).
  Qed.

  Lemma map_arr_scalars : forall (g : json -> outcome json) raw r,
    (forall v r, scalarj v = true -> g v = Ok r -> scalarj r = true /\ (v <> JNull -> r <> JNull)) ->
    scalar_list raw = true -> map_arr g raw = Ok r -> good r.
  Proof.
    intros g raw r Hg Hs H. destruct raw as [| | | | |its|]; try discriminate Hs; cbn [map_arr] in H.
    - injection H as <-. apply good_scalar. reflexivity.
    - destruct (mapM g its) as [l|e] eqn:Em; cbn [bind] in H; [|discriminate H]. injection H as <-.
      exact (mapM_scalars g its l Hg Hs Em).
  Qed.
End Subst.

Definition range_ok (r : json) : bool :=
  match r with
  | JArr l => forallb scalarj l
  | JNull | JObj _ => false
  | _ => true
  end.

Definition name_of (m : mval) : str := mstr (fget "name" (model_fields m)).

Definition task_view (it : json) (m : mval) : Prop :=
  exists n ts, jget "name" it = JStr n /\ name_of m = n /\ jget "type" it = JStr ts /\ range_ok (jget "range" it) = true.

Lemma named_items_good : forall (P : json -> mval -> Prop) (spec : json -> outcome (str * json)),
  (forall it m k s, P it m -> spec it = Ok (k, s) -> k = name_of m /\ good s /\ s <> JNull) ->
  forall its l ps, Forall2 P its l -> mapM spec its = Ok ps ->
  map fst ps = map name_of l /\ forall kv, In kv ps -> good (snd kv) /\ snd kv <> JNull.
Proof.
  intros P spec Hitem its l ps HF. revert ps. induction HF as [|it m r r' Hp _ IH]; intros ps H.
  - injection H as <-. split; [reflexivity|intros kv []].
  - apply mapM_cons_ok in H. destruct H as [[k s] [ys [Hy [Hr ->]]]]. destruct (IH ys Hr) as [IH1 IH2].
    destruct (Hitem it m k s Hp Hy) as [-> [Hg Hnn]].
    cbn [map fst]. rewrite IH1. split; [reflexivity|]. intros kv [<-|Hkv]; [split; assumption|exact (IH2 kv Hkv)].
Qed.

Section TaskView.
  Variable classify : N -> cclass.
  Notation pk := (parse_kind G classify pre_hook (post_hook classify)).

  Lemma task_view_of : forall f it m, pk f kdisc_task it = Ok m -> task_view it m.
  Proof.
    intros f it m H.
    destruct (task_def_inv classify f it m H) as [c [n [t [rg [ts [_ [-> [Hn [Hty [_ [_ [Hrg _]]]]]]]]]]]].
    exists n, ts. repeat split; try assumption.
    destruct Hrg as [[s [-> _]]|[its [l [-> [_ [Hsc _]]]]]]; [reflexivity|exact Hsc].
  Qed.
End TaskView.

Section SpecGood.
  Variable classify : N -> cclass.
  Variable resolve : symtab -> str -> outcome str.
  Variable sigma : symtab.
  Notation pk := (parse_kind G classify pre_hook (post_hook classify)).
  Notation pc := (parse_cls G classify pre_hook (post_hook classify)).

  Lemma task_param_good : forall it m k s, task_view it m -> task_param resolve sigma it = Ok (k, s) ->
    k = name_of m /\ good s /\ s <> JNull.
  Proof.
    intros it m k s [n [ts [Hn [Hm [Ht Hr]]]]] H. unfold task_param in H. rewrite Hn, Ht in H.
    assert (K : forall r, good r -> r <> JNull -> good (JObj [($"type", JStr ts); ($"range", r)])).
    { intros r Hg Hnn. apply good_obj; [keys_tac|]. intros kv [<-|[<-|[]]]; cbn [snd]; split; try discriminate; try assumption.
      apply good_scalar. reflexivity. }
    destruct (jget "range" it) as [|b|z|a e|rs|its|ms] eqn:Er; try discriminate Hr; cbn [CreateJobSpec.subst bind] in H.
    1-3: injection H as <- <-.
    4: destruct (resolve sigma rs) as [r|e]; cbn [bind] in H; [|discriminate H]; injection H as <- <-.
    1-4: split; [symmetry; exact Hm|]; split; [|discriminate]; apply K; [apply good_scalar; reflexivity|discriminate].
    destruct (mapM (as_text resolve sigma) its) as [l|e] eqn:Em; cbn [bind] in H; [|discriminate H]. injection H as <- <-.
    split; [symmetry; exact Hm|]. split; [|discriminate]. apply K; [|discriminate].
    cbn [range_ok] in Hr. exact (mapM_scalars (as_text resolve sigma) its l (as_text_scalar resolve sigma) Hr Em).
  Qed.

  Theorem param_space_good : forall f raw x s,
    pk f (KModel "StepParameterSpaceDefinition") raw = Ok x -> param_space resolve sigma raw = Ok s -> good s /\ s <> JNull.
  Proof.
    intros f raw x s H Hs.
    destruct (param_space_inv classify f raw x H) as [f' [ms [its [l [cb [_ [-> [_ [Er [HFl [Hnd [Hlc [Hcb _]]]]]]]]]]]]].
    cbn [param_space] in Hs. rewrite Er in Hs. cbn [CreateJobSpec.items] in Hs.
    destruct (mapM (task_param resolve sigma) its) as [tps|e] eqn:Et; cbn [bind] in Hs; [|discriminate Hs].
    injection Hs as <-. split; [|discriminate].
    destruct (named_items_good _ _ (fun it m k s0 Hp => task_param_good it m k s0 (task_view_of classify f' it m Hp)) its l tps HFl Et)
      as [Hk Hv].
    cbn [app]. eapply good_dn; [dn_tac|keys_tac|].
    intros k v Hin _. destruct Hin as [E|[E|[]]]; injection E as <- <-.
    - apply good_obj; [rewrite Hk; apply nodupb_NoDup; exact Hnd|exact Hv].
    - apply good_scalar. exact (leaf_tobj_scalarj G cb _ Hlc Hcb).
  Qed.

  Lemma amount_good : forall f a x s,
    pk f (KModel "AmountRequirementTemplate") a = Ok x -> amount resolve sigma a = Ok s -> good s.
  Proof.
    intros f a x s H Hs. destruct (amount_inv classify f a x H) as [f' [s0 [mn [mx [_ [Hname [Hmn Hmx]]]]]]].
    pose proof (single_flat classify f' _ _ mn Hmn eq_refl) as Smn.
    pose proof (single_flat classify f' _ _ mx Hmx eq_refl) as Smx.
    unfold amount in Hs. rewrite Hname in Hs. cbn [CreateJobSpec.subst] in Hs.
    destruct (resolve sigma s0) as [n|e]; cbn [bind] in Hs; [|discriminate Hs].
    destruct (as_text resolve sigma (jget "min" a)) as [mn'|e] eqn:Emn; cbn [bind] in Hs; [|discriminate Hs].
    destruct (as_text resolve sigma (jget "max" a)) as [mx'|e] eqn:Emx; cbn [bind] in Hs; [|discriminate Hs].
    injection Hs as <-. cbn [app]. eapply good_dn; [dn_tac|keys_tac|].
    intros k v Hin _. destruct Hin as [E|[E|[E|[]]]]; injection E as <- <-; apply good_scalar.
    - reflexivity.
    - exact (proj1 (as_text_scalar resolve sigma _ _ Smn Emn)).
    - exact (proj1 (as_text_scalar resolve sigma _ _ Smx Emx)).
  Qed.

  Lemma attribute_good : forall f a x s,
    pk f (KModel "AttributeRequirementTemplate") a = Ok x -> attribute resolve sigma a = Ok s -> good s.
  Proof.
    intros f a x s H Hs. destruct (attribute_inv classify f a x H) as [f' [s0 [any [all [_ [Hname [Hany Hall]]]]]]].
    pose proof (list_flat classify f' _ _ any Hany eq_refl) as Sany.
    pose proof (list_flat classify f' _ _ all Hall eq_refl) as Sall.
    unfold attribute in Hs. rewrite Hname in Hs. cbn [CreateJobSpec.subst] in Hs.
    destruct (resolve sigma s0) as [n|e]; cbn [bind] in Hs; [|discriminate Hs].
    destruct (map_arr (CreateJobSpec.subst resolve sigma) (jget "anyOf" a)) as [any'|e] eqn:Eany; cbn [bind] in Hs; [|discriminate Hs].
    destruct (map_arr (CreateJobSpec.subst resolve sigma) (jget "allOf" a)) as [all'|e] eqn:Eall; cbn [bind] in Hs; [|discriminate Hs].
    injection Hs as <-. cbn [app]. eapply good_dn; [dn_tac|keys_tac|].
    intros k v Hin _. destruct Hin as [E|[E|[E|[]]]]; injection E as <- <-.
    - apply good_scalar. reflexivity.
    - exact (map_arr_scalars _ _ _ (subst_scalar resolve sigma) Sany Eany).
    - exact (map_arr_scalars _ _ _ (subst_scalar resolve sigma) Sall Eall).
  Qed.

  Lemma map_arr_models_good : forall f c (spec : json -> outcome json) raw v r,
    (forall a x s, pk f (KModel c) a = Ok x -> spec a = Ok s -> good s) ->
    read_list classify f (KModel c) raw v -> map_arr spec raw = Ok r -> good r.
  Proof.
    intros f c spec raw v r Hitem [[-> _]|[its [l [-> [_ HF]]]]] H; cbn [map_arr] in H.
    - injection H as <-. apply good_scalar. reflexivity.
    - destruct (mapM spec its) as [ss|e] eqn:Em; cbn [bind] in H; [|discriminate H]. injection H as <-.
      apply good_arr. intros s Hs. destruct (mapM_ok_in _ _ _ _ _ Em s Hs) as [a [Ha Hsa]].
      clear - HF Ha Hsa Hitem. induction HF as [|it m r0 r' Hp _ IH]; [destruct Ha|].
      destruct Ha as [->|Ha]; [exact (Hitem a m s Hp Hsa)|exact (IH Ha)].
  Qed.

  Theorem host_req_good : forall f raw x s,
    pk f (KModel "HostRequirementsTemplate") raw = Ok x -> host_req resolve sigma raw = Ok s -> good s.
  Proof.
    intros f raw x s H Hs. destruct (host_req_inv classify f raw x H) as [f' [ms [am [at_ [_ [-> [_ [Ham Hat]]]]]]]].
    cbn [host_req] in Hs.
    destruct (map_arr (amount resolve sigma) (jget "amounts" (JObj ms))) as [ams|e] eqn:Eam; cbn [bind] in Hs; [|discriminate Hs].
    destruct (map_arr (attribute resolve sigma) (jget "attributes" (JObj ms))) as [ats|e] eqn:Eat; cbn [bind] in Hs; [|discriminate Hs].
    injection Hs as <-. eapply good_dn; [dn_tac|keys_tac|].
    intros k v Hin _. destruct Hin as [E|[E|[]]]; injection E as <- <-.
    - exact (map_arr_models_good f' _ (amount resolve sigma) _ am ams (amount_good f') Ham Eam).
    - exact (map_arr_models_good f' _ (attribute resolve sigma) _ at_ ats (attribute_good f') Hat Eat).
  Qed.
End SpecGood.

Section SpecGoodRoot.
  Variable classify : N -> cclass.
  Variable resolve : symtab -> str -> outcome str.
  Variable sigma : symtab.
  Notation pk := (parse_kind G classify pre_hook (post_hook classify)).
  Notation pc := (parse_cls G classify pre_hook (post_hook classify)).

  Lemma job_param_good : forall f it m k s, pk f kdisc_params it = Ok m -> job_param sigma it = Ok (k, s) ->
    k = name_of m /\ good s /\ s <> JNull.
  Proof.
    intros f it m k s Hp H. destruct (param_view_of classify resolve sigma f it m Hp) as [[n [t [d [Hkn [Hn [Hlt [Ht [Hld [Hd _]]]]]]]]] [ts Hty]].
    assert (Hname : name_of m = n).
    { unfold name_of. unfold key_of in Hkn. destruct m as [ | | | | | | | | |c fs]; try discriminate Hkn.
      cbn [model_fields]. unfold fget. destruct (mfield "name" fs); try discriminate Hkn; injection Hkn as <-; reflexivity. }
    unfold job_param in H. rewrite Hn in H. destruct (st_lookup sigma ($"RawParam." ++ n)) as [v|]; [|discriminate H].
    injection H as <- <-. split; [symmetry; exact Hname|]. split; [|discriminate].
    rewrite Hty. cbn [app]. eapply good_dn; [dn_tac|keys_tac|].
    intros k v0 Hin _. destruct Hin as [E|[E|[E|[]]]]; injection E as <- <-; apply good_scalar; try reflexivity.
    exact (leaf_tobj_scalarj G d _ Hld Hd).
  Qed.

  Theorem step_good : forall f it x s,
    pk f (KModel "StepTemplate") it = Ok x -> distinct_keys it = true -> step resolve sigma it = Ok s -> good s.
  Proof.
    intros f it x s H Hdk Hs.
    destruct (step_template_inv classify f it x H)
      as [f' [n [d [sc [se [ps [hr [dp [_ [_ [Hnn [[Hln Hn] [[Hld Hd] [[Hscn _] [_ [Hpsf [Hhrf _]]]]]]]]]]]]]]]]].
    unfold step in Hs.
    destruct (param_space resolve sigma (jget "parameterSpace" it)) as [ps'|e] eqn:Eps; cbn [bind] in Hs; [|discriminate Hs].
    destruct (host_req resolve sigma (jget "hostRequirements" it)) as [hr'|e] eqn:Ehr; cbn [bind] in Hs; [|discriminate Hs].
    injection Hs as <-. cbn [app]. eapply good_dn; [dn_tac|keys_tac|].
    intros k v Hin _. destruct Hin as [E|[E|[E|[E|[E|[E|[E|[]]]]]]]]; injection E as <- <-.
    - apply good_scalar. exact (leaf_tobj_scalarj G n _ Hln Hn).
    - exact (good_same _ (dk_jget "script" it Hdk)).
    - apply good_scalar. exact (leaf_tobj_scalarj G d _ Hld Hd).
    - exact (good_same _ (dk_jget "stepEnvironments" it Hdk)).
    - destruct Hpsf as [[E _]|[_ Hp]].
      + rewrite E in Eps. injection Eps as <-. apply good_scalar. reflexivity.
      + exact (proj1 (param_space_good classify resolve sigma f' _ ps ps' Hp Eps)).
    - destruct Hhrf as [[E _]|[_ Hp]].
      + rewrite E in Ehr. injection Ehr as <-. apply good_scalar. reflexivity.
      + exact (host_req_good classify resolve sigma f' _ hr hr' Hp Ehr).
    - exact (good_same _ (dk_jget "dependencies" it Hdk)).
  Qed.

  Lemma steps_good : forall f its l ss,
    Forall2 (fun it m => pk f (KModel "StepTemplate") it = Ok m) its l -> distinct_keys (JArr its) = true ->
    mapM (step resolve sigma) its = Ok ss -> good (JArr ss).
  Proof.
    intros f its l ss HF Hdk Hm. apply good_arr. intros s Hs. destruct (mapM_ok_in _ _ _ _ _ Hm s Hs) as [it [Hit Hst]].
    pose proof (dk_item its it Hdk Hit) as Hd. clear - HF Hit Hst Hd.
    induction HF as [|it' m r r' Hp _ IH]; [destruct Hit|].
    destruct Hit as [->|Hit]; [exact (step_good f it m s Hp Hd Hst)|exact (IH Hit)].
  Qed.

  Theorem expected_job_good : forall j t s,
    decode_job classify j = Ok t -> distinct_keys j = true -> expected_job resolve sigma j = Ok s -> good s.
  Proof.
    intros j t s H Hdk Hs.
    destruct (job_template_inv classify j t H)
      as [f' [sv [s0 [st [d [pd [je [ss [sitems [l [_ [Hname [Esteps [_ [HFst [[Hld Hd] [Hpd [Hnd _]]]]]]]]]]]]]]]]]].
    unfold expected_job in Hs. rewrite Hname in Hs. cbn [CreateJobSpec.subst] in Hs.
    destruct (resolve sigma s0) as [n|e]; cbn [bind] in Hs; [|discriminate Hs].
    rewrite Esteps in Hs. cbn [CreateJobSpec.items] in Hs.
    destruct (mapM (step resolve sigma) sitems) as [sts|e] eqn:Est; cbn [bind] in Hs; [|discriminate Hs].
    match type of Hs with (do params <- ?P; _) = _ => destruct P as [params|e] eqn:Epar; cbn [bind] in Hs; [|discriminate Hs] end.
    injection Hs as <-. cbn [app]. eapply good_dn; [dn_tac|keys_tac|].
    intros k v Hin _. destruct Hin as [E|[E|[E|[E|[E|[]]]]]]; injection E as <- <-.
    - apply good_scalar. reflexivity.
    - apply (steps_good f' sitems l sts HFst); [|exact Est]. rewrite <- Esteps. exact (dk_jget "steps" j Hdk).
    - apply good_scalar. exact (leaf_tobj_scalarj G d _ Hld Hd).
    - (* the parameters object: its keys are the (pairwise distinct) parameter names *)
      destruct Hpd as [[E _]|[pitems [pl [Er [-> HFp]]]]].
      + rewrite E in Epar. injection Epar as <-. apply good_scalar. reflexivity.
      + rewrite Er in Epar. cbn [CreateJobSpec.items] in Epar.
        destruct (mapM (job_param sigma) pitems) as [pps|e] eqn:Ep; cbn [bind] in Epar; [|discriminate Epar].
        injection Epar as <-. destruct (named_items_good _ _ (job_param_good f') pitems pl pps HFp Ep) as [Hk Hv].
        apply good_obj; [rewrite Hk; apply nodupb_NoDup; exact Hnd|exact Hv].
    - exact (good_same _ (dk_jget "jobEnvironments" j Hdk)).
  Qed.
End SpecGoodRoot.
