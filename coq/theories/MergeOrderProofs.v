(* MergeOrderProofs.v — for definitions WITHOUT defaults, whether the merge is refused depends
   only on the SET of definitions taking part: not on their order, not on repetitions. *)
From Coq Require Import List NArith ZArith Bool Lia Permutation.
Import ListNotations.
Require Import OJD.Base OJD.ListLib OJD.Numerals OJD.NumeralsSpec OJD.NumeralsProofs OJD.JobParams OJD.JobParamsSpec
        OJD.JobParamsProofs OJD.Merge OJD.MergeSpec OJD.MergeProofs.
Local Open Scope Z_scope.

Definition same_members {A} (l l' : list A) : Prop := forall x, In x l <-> In x l'.

Lemma same_members_map : forall {A B} (g : A -> B) l l', same_members l l' -> same_members (map g l) (map g l').
Proof.
  intros A B g l l' H y. rewrite !in_map_iff. split; intros [x [E Hx]]; exists x; split; auto; apply H; exact Hx.
Qed.

Lemma same_members_somes : forall {A} (l l' : list (option A)), same_members l l' -> same_members (somes l) (somes l').
Proof. intros A l l' H x. rewrite !in_somes. apply H. Qed.

Lemma same_members_sym : forall {A} (l l' : list A), same_members l l' -> same_members l' l.
Proof. intros A l l' H x. symmetry. apply H. Qed.

Section FoldExt.
  Context {A : Type} (le : A -> A -> Prop) (f : A -> A -> A).
  Hypothesis f_lub : forall a b c, le (f a b) c <-> le a c /\ le b c.

  Lemma fold_opt_bound_ext : forall l l' c, same_members l l' ->
    (opt_all (fold_opt f None l) (fun b => le b c) <-> opt_all (fold_opt f None l') (fun b => le b c)).
  Proof.
    intros l l' c H. rewrite !(fold_opt_bound le f f_lub). cbn [opt_all].
    split; intros [_ K]; (split; [exact I|]); intros o Ho; apply K; apply H; exact Ho.
  Qed.
End FoldExt.

Lemma fold_opt_none_ext : forall {A} (f : A -> A -> A) l l', same_members l l' ->
  (fold_opt f None l = None <-> fold_opt f None l' = None).
Proof.
  intros A f l l' H. rewrite !fold_opt_none.
  split; intros [_ K]; (split; [reflexivity|]); intros o Ho; apply K; apply H; exact Ho.
Qed.

(* under an order with Leibniz antisymmetry the merged bound itself only depends on the members *)
Section FoldEq.
  Context {A : Type} (le : A -> A -> Prop) (f : A -> A -> A).
  Hypothesis f_lub : forall a b c, le (f a b) c <-> le a c /\ le b c.
  Hypothesis le_refl : forall a, le a a.
  Hypothesis le_antisym : forall a b, le a b -> le b a -> a = b.

  Lemma fold_opt_ext : forall l l', same_members l l' -> fold_opt f None l = fold_opt f None l'.
  Proof.
    intros l l' H.
    destruct (fold_opt f None l) as [a|] eqn:E, (fold_opt f None l') as [a'|] eqn:E'.
    - f_equal. apply le_antisym.
      + pose proof (fold_opt_bound_ext le f f_lub l l' a' H) as K. rewrite E, E' in K. apply K, le_refl.
      + pose proof (fold_opt_bound_ext le f f_lub l l' a H) as K. rewrite E, E' in K. apply K, le_refl.
    - apply (fold_opt_none_ext f l l' H) in E'. congruence.
    - apply (fold_opt_none_ext f l l' H) in E. congruence.
    - reflexivity.
  Qed.
End FoldEq.

(* "merged minimum <= merged maximum" only depends on the members *)
Section MinMax.
  Context {A : Type} (le : A -> A -> Prop) (fmax fmin : A -> A -> A).
  Hypothesis max_lub : forall a b c, le (fmax a b) c <-> le a c /\ le b c.
  Hypothesis min_glb : forall a b c, le c (fmin a b) <-> le c a /\ le c b.

  Definition compat (lo hi : option A) : Prop := opt_all lo (fun a => opt_all hi (fun b => le a b)).

  Lemma compat_ext : forall mins mins' maxs maxs',
    same_members mins mins' -> same_members maxs maxs' ->
    compat (fold_opt fmax None mins) (fold_opt fmin None maxs) ->
    compat (fold_opt fmax None mins') (fold_opt fmin None maxs').
  Proof.
    intros mins mins' maxs maxs' Hm HM C. unfold compat in *.
    destruct (fold_opt fmax None mins') as [a'|] eqn:Ea'; cbn [opt_all]; [|exact I].
    destruct (fold_opt fmin None maxs') as [b'|] eqn:Eb'; cbn [opt_all]; [|exact I].
    (* a' <= b': a' is below b' iff every min is, and a min is below b' iff it is below every max *)
    pose proof (fold_opt_bound_ext le fmax max_lub mins mins' b' Hm) as T1. rewrite Ea' in T1. cbn [opt_all] in T1.
    apply T1. clear T1.
    destruct (fold_opt fmax None mins) as [a|] eqn:Ea; cbn [opt_all] in *; [|exact I].
    pose proof (fold_opt_bound_ext (fun b c => le c b) fmin (fun x y z => min_glb x y z) maxs maxs' a HM) as T2.
    cbn beta in T2. rewrite Eb' in T2. cbn [opt_all] in T2. apply T2. exact C.
  Qed.

  (* the same for the test the code makes *)
  Variable ltb : A -> A -> bool.
  Hypothesis ltb_false : forall a b, ltb a b = false <-> le b a.

  Lemma crossed_compat : forall lo hi,
    match lo, hi with Some a, Some b => ltb b a | _, _ => false end = false <-> compat lo hi.
  Proof.
    intros [a|] [b|]; cbn [compat opt_all]; [apply ltb_false| | |]; split; intro; [exact I|reflexivity..].
  Qed.

  Lemma crossed_ext : forall mins mins' maxs maxs',
    same_members mins mins' -> same_members maxs maxs' ->
    match fold_opt fmax None mins, fold_opt fmin None maxs with Some a, Some b => ltb b a | _, _ => false end = false ->
    match fold_opt fmax None mins', fold_opt fmin None maxs' with Some a, Some b => ltb b a | _, _ => false end = false.
  Proof.
    intros mins mins' maxs maxs' Hm HM E. apply crossed_compat. apply (compat_ext mins mins' maxs maxs' Hm HM).
    apply crossed_compat. exact E.
  Qed.

  Context {V : Type} (msr : V -> A) (within : option A -> option A -> V -> bool).
  Hypothesis within_spec : forall lo hi x,
    within lo hi x = true <-> opt_all lo (fun b => le b (msr x)) /\ opt_all hi (fun b => le (msr x) b).

  Lemma within_ext : forall mins mins' maxs maxs' x,
    same_members mins mins' -> same_members maxs maxs' ->
    within (fold_opt fmax None mins) (fold_opt fmin None maxs) x = true ->
    within (fold_opt fmax None mins') (fold_opt fmin None maxs') x = true.
  Proof.
    intros mins mins' maxs maxs' x Hm HM H. apply within_spec in H. apply within_spec. destruct H as [H1 H2]. split.
    - apply (fold_opt_bound_ext le fmax max_lub mins mins' (msr x) Hm). exact H1.
    - pose proof (fold_opt_bound_ext (fun b c => le c b) fmin (fun a b c => min_glb a b c) maxs maxs' (msr x) HM) as K.
      cbn beta in K. apply K. exact H2.
  Qed.
End MinMax.

Section AllowedExt.
  Context {A : Type} (mem : A -> list A -> bool) (eqv : A -> A -> Prop).
  Hypothesis mem_spec : forall x l, mem x l = true <-> exists y, In y l /\ eqv x y.
  Hypothesis eqv_refl : forall a, eqv a a.
  Hypothesis eqv_sym : forall a b, eqv a b -> eqv b a.
  Hypothesis eqv_trans : forall a b c, eqv a b -> eqv b c -> eqv a c.

  Notation loop := (merge_allowed_loop false mem None).

  (* the two things the merge reads off the result of the loop: the "empty intersection" error, and the
     re-validation of the merged list against a test [w] *)
  Lemma allowed_flags : forall (w : A -> bool) ls,
    (snd (merge_allowed false mem ls) = false <-> loop ls <> Some []) /\
    (match fst (merge_allowed false mem ls) with Some [] => true | Some l => negb (forallb w l) | None => false end = false
     <-> opt_all (loop ls) (Forall (fun x => w x = true))).
  Proof.
    intros w ls. unfold merge_allowed. destruct (loop ls) as [[|y L]|]; cbn [fst snd opt_all].
    - split; split; try congruence; constructor.
    - rewrite negb_false_iff, forallb_forall, Forall_forall. split; [split; [discriminate|reflexivity]|reflexivity].
    - split; split; try discriminate; trivial.
  Qed.

  (* x is (equivalent to) a member of every given list *)
  Definition common (ls : list (option (list A))) (x : A) : Prop :=
    forall o, In o ls -> opt_all (truthy_list o) (memP eqv x).

  Lemma loop_common : forall ls L x, loop ls = Some L -> (memP eqv x L <-> common ls x).
  Proof.
    intros ls L x E. pose proof (loop_memP mem eqv mem_spec eqv_sym eqv_trans ls None x) as K.
    rewrite E in K. cbn [opt_all] in K. unfold common. tauto.
  Qed.

  (* the result of the loop for a list with the same members: a list exactly when the first is one, non-empty
     when the first is, and of elements equivalent to elements of the first *)
  Lemma loop_ext : forall (w w' : A -> bool) ls ls',
    (forall a b, eqv a b -> w a = true -> w b = true) -> (forall x, w x = true -> w' x = true) ->
    same_members ls ls' -> loop ls <> Some [] -> opt_all (loop ls) (Forall (fun x => w x = true)) ->
    loop ls' <> Some [] /\ opt_all (loop ls') (Forall (fun x => w' x = true)).
  Proof.
    intros w w' ls ls' We Ww H NE F.
    destruct (loop ls') as [L'|] eqn:E'; [|split; [discriminate|exact I]].
    destruct (loop ls) as [L|] eqn:E.
    2: { apply (loop_none mem) in E. assert (N : loop ls' = None) by (apply (loop_none mem); split; [reflexivity|]; intros o Ho; apply E, H, Ho).
         congruence. }
    cbn [opt_all] in *. rewrite Forall_forall in F.
    assert (T : forall ls1 ls2 L1 L2 x, same_members ls1 ls2 -> loop ls1 = Some L1 -> loop ls2 = Some L2 -> In x L1 -> memP eqv x L2).
    { intros ls1 ls2 L1 L2 x H12 E1 E2 Hx. apply (loop_common _ _ _ E2). intros o Ho.
      apply (proj1 (loop_common _ _ x E1)); [exists x; auto|apply H12, Ho]. }
    split.
    - destruct L as [|y L]; [congruence|]. destruct (T ls ls' _ _ y H E E' (or_introl eq_refl)) as (z & Hz & _).
      intro K. injection K as ->. destruct Hz.
    - apply Forall_forall. intros x Hx. destruct (T ls' ls _ _ x (same_members_sym _ _ H) E' E Hx) as (y & Hy & Exy).
      apply Ww, (We y x (eqv_sym _ _ Exy)), F, Hy.
  Qed.

  Lemma allowed_test_ext : forall (w w' : A -> bool) ls ls',
    (forall a b, eqv a b -> w a = true -> w b = true) -> (forall x, w x = true -> w' x = true) ->
    same_members ls ls' -> snd (merge_allowed false mem ls) = false ->
    match fst (merge_allowed false mem ls) with Some [] => true | Some l => negb (forallb w l) | None => false end = false ->
    snd (merge_allowed false mem ls') = false /\
    match fst (merge_allowed false mem ls') with Some [] => true | Some l => negb (forallb w' l) | None => false end = false.
  Proof.
    intros w w' ls ls' We Ww H E R. destruct (allowed_flags w ls) as [S1 T1]. destruct (allowed_flags w' ls') as [S2 T2].
    destruct (loop_ext w w' ls ls' We Ww H (proj1 S1 E) (proj1 T1 R)) as [NE' F']. split; [apply S2, NE'|apply T2, F'].
  Qed.
End AllowedExt.

Lemma somes_all_none : forall {A} (l : list (option A)), (forall o, In o l -> o = None) -> somes l = [].
Proof.
  intros A l. induction l as [|o r IH]; intro H; [reflexivity|].
  rewrite somes_cons, (H o (or_introl eq_refl)). cbn [app]. apply IH. intros o' Ho. apply H. right. exact Ho.
Qed.

Lemma within_num_eqv : forall lo hi a b, num_eq a b -> within_num lo hi a = true -> within_num lo hi b = true.
Proof.
  intros lo hi a b E H. apply within_num_spec in H. apply within_num_spec. destruct H as [H1 H2]. split.
  - destruct lo; cbn [opt_all] in *; [|exact I]. eapply num_le_eq_r; eauto.
  - destruct hi; cbn [opt_all] in *; [|exact I]. eapply num_le_eq_l; eauto.
Qed.

Lemma num_eq_refl : forall a, num_eq a a.
Proof. intro a. unfold num_eq. reflexivity. Qed.

Lemma cfail_false : forall b, b = false -> cfail b = Ok tt.
Proof. intros b ->. reflexivity. Qed.

Section Transfer.
  Variables ds ds' : list pdef.
  Hypothesis SM : same_members ds ds'.
  Hypothesis ND : forall d, In d ds -> pdefault d = None.

  Let ND' : forall d, In d ds' -> pdefault d = None.
  Proof. intros d Hd. apply ND. apply SM. exact Hd. Qed.

  Lemma no_default : forall l, (forall d, In d l -> pdefault d = None) -> last_opt (somes (map pdefault l)) = None.
  Proof.
    intros l H. rewrite somes_all_none; [reflexivity|].
    intros o Ho. apply in_map_iff in Ho. destruct Ho as [d [<- Hd]]. apply H. exact Hd.
  Qed.

  Lemma transfer_number : forall dl dl',
    is_numeric (ptyp dl) = true -> ptyp dl' = ptyp dl ->
    merge_errors false ds dl = false -> revalidate (candidate false ds dl) = Ok tt ->
    merge_errors false ds' dl' = false /\ revalidate (candidate false ds' dl') = Ok tt.
  Proof.
    intros dl dl' N T E R.
    destruct (merge_errors_false ds dl E) as [E1 [_ [_ [_ [_ E6]]]]].
    assert (NP : ptype_eqb (ptyp dl) PATH = false) by (destruct (ptyp dl); try discriminate; reflexivity).
    unfold revalidate in R. change (ptyp (candidate false ds dl)) with (ptyp dl) in R. rewrite N in R.
    destruct (revalidate_number_ok _ R) as [_ R2].
    cbn [candidate pminv pmaxv pallowed_n] in R2.
    unfold merged_allowed_n, merged_minv, merged_maxv in *. rewrite N in *.
    pose proof (same_members_map pminv _ _ SM) as Hmin. pose proof (same_members_map pmaxv _ _ SM) as Hmax.
    pose proof (crossed_ext num_le num_max num_min num_max_spec num_min_spec num_ltb num_ltb_false _ _ _ _ Hmin Hmax E6) as E6'.
    destruct (allowed_test_ext mem_num num_eq mem_num_spec num_eq_refl num_eq_sym num_eq_trans _ _ _ _
                (within_num_eqv _ _)
                (fun x => within_ext num_le num_max num_min num_max_spec num_min_spec (fun x => x) within_num within_num_spec _ _ _ _ x Hmin Hmax)
                (same_members_map pallowed_n _ _ SM) E1 R2) as [A1 R2'].
    split.
    - unfold merge_errors. rewrite T. unfold merged_allowed_n, merged_allowed_s, merged_minlen, merged_maxlen, merged_minv, merged_maxv.
      rewrite N, NP, A1, E6'. reflexivity.
    - unfold revalidate. change (ptyp (candidate false ds' dl')) with (ptyp dl'). rewrite T, N.
      unfold revalidate_number. cbn [candidate pminv pmaxv pallowed_n pdefault].
      rewrite T. unfold merged_allowed_n, merged_minv, merged_maxv. rewrite N.
      rewrite (no_default ds' ND'), E6', R2'. reflexivity.
  Qed.

  Lemma all_equal_ext : forall {A} (eqb : A -> A -> bool) (l l' : list A),
    (forall a b, eqb a b = true <-> a = b) -> same_members l l' ->
    all_equal eqb l = true -> all_equal eqb l' = true.
  Proof.
    intros A eqb l l' EQ H AE. apply (all_equal_spec eqb l' EQ). intros x y Hx Hy.
    apply (proj1 (all_equal_spec eqb l EQ) AE); apply H; assumption.
  Qed.

  Lemma transfer_string : forall dl dl',
    is_numeric (ptyp dl) = false -> ptyp dl' = ptyp dl ->
    merge_errors false ds dl = false -> revalidate (candidate false ds dl) = Ok tt ->
    merge_errors false ds' dl' = false /\ revalidate (candidate false ds' dl') = Ok tt.
  Proof.
    intros dl dl' N T E R.
    destruct (merge_errors_false ds dl E) as [_ [E2 [E3 [E4 [E5 _]]]]].
    unfold revalidate in R. change (ptyp (candidate false ds dl)) with (ptyp dl) in R. rewrite N in R.
    destruct (revalidate_string_ok _ R) as [R1 [R2 R3]].
    cbn [candidate pminlen pmaxlen pallowed_s] in R1, R2, R3.
    unfold merged_allowed_s, merged_minlen, merged_maxlen in *. rewrite N in *.
    (* lengths are integers: the merged bounds are the same numbers for both lists *)
    pose proof (fold_opt_ext Z.le Z.max Z.max_lub_iff Z.le_refl Z.le_antisymm _ _ (same_members_map pminlen _ _ SM)) as Emin.
    pose proof (fold_opt_ext (fun b c => c <= b) Z.min (fun a b c => Z.min_glb_iff a b c) Z.le_refl
                  (fun a b H1 H2 => Z.le_antisymm a b H2 H1) _ _ (same_members_map pmaxlen _ _ SM)) as Emax.
    assert (ET : forall a b c : str, a = b -> b = c -> a = c) by (intros; congruence).
    destruct (allowed_test_ext mem_str eq mem_str_spec (@eq_refl str) (@eq_sym str) ET _ _ _ _
                ltac:(intros a b -> K; exact K) (fun x K => K)
                (same_members_map pallowed_s _ _ SM) E2 R3) as [A1 R3'].
    (* objectType / dataFlow *)
    assert (E3' : ptype_eqb (ptyp dl) PATH && negb (all_equal objtype_eqb (map eff_objtype ds')) = false).
    { destruct (ptype_eqb (ptyp dl) PATH); [|reflexivity]. cbn [andb] in *. apply negb_false_iff in E3. apply negb_false_iff.
      apply (all_equal_ext objtype_eqb _ _ objtype_eqb_eq (same_members_map eff_objtype _ _ SM) E3). }
    assert (E4' : ptype_eqb (ptyp dl) PATH && negb (all_equal dataflow_eqb (somes (map pdataflow ds'))) = false).
    { destruct (ptype_eqb (ptyp dl) PATH); [|reflexivity]. cbn [andb] in *. apply negb_false_iff in E4. apply negb_false_iff.
      apply (all_equal_ext dataflow_eqb _ _ dataflow_eqb_eq (same_members_somes _ _ (same_members_map pdataflow _ _ SM)) E4). }
    split.
    - unfold merge_errors. rewrite T. unfold merged_allowed_n, merged_allowed_s, merged_minlen, merged_maxlen, merged_minv, merged_maxv.
      rewrite N, <- Emin, <- Emax, A1, E3', E4', E5. reflexivity.
    - unfold revalidate. change (ptyp (candidate false ds' dl')) with (ptyp dl'). rewrite T, N.
      unfold revalidate_string. cbn [candidate pminlen pmaxlen pallowed_s pdefault].
      rewrite T. unfold merged_allowed_s, merged_minlen, merged_maxlen.
      rewrite N, <- Emin, <- Emax, (no_default ds' ND'), R1, R2, R3'. reflexivity.
  Qed.
End Transfer.

(* whether a set of default-free definitions merges depends only on its members *)
Theorem merge_ok_members : forall ds ds' m,
  same_members ds ds' -> (forall d, In d ds -> pdefault d = None) ->
  merge false ds = Ok m -> exists m', merge false ds' = Ok m'.
Proof.
  intros ds ds' m SM ND H.
  destruct (merge_ok_inv ds m H) as [dl [L [Nm [Ty [E [-> R]]]]]].
  pose proof (last_opt_in _ _ L) as Hdl.
  destruct (last_opt ds') as [dl'|] eqn:L'; [|apply last_opt_none in L'; subst ds'; apply SM in Hdl; destruct Hdl].
  pose proof (last_opt_in _ _ L') as Hdl'. apply SM in Hdl'.
  assert (T : ptyp dl' = ptyp dl) by (apply Ty; exact Hdl').
  assert (TR : merge_errors false ds' dl' = false /\ revalidate (candidate false ds' dl') = Ok tt).
  { destruct (is_numeric (ptyp dl)) eqn:N.
    - apply (transfer_number ds ds' SM ND dl dl' N T E R).
    - apply (transfer_string ds ds' SM ND dl dl' N T E R). }
  destruct TR as [E' R'].
  exists (candidate false ds' dl'). unfold merge. rewrite L'.
  assert (F1 : forallb (fun d => str_eqb (pname d) (pname dl')) ds' = true).
  { apply forallb_forall. intros d Hd. apply str_eqb_eq. apply SM in Hd. rewrite (Nm d Hd), (Nm dl' Hdl'). reflexivity. }
  assert (F2 : forallb (fun d => ptype_eqb (ptyp d) (ptyp dl')) ds' = true).
  { apply forallb_forall. intros d Hd. apply ptype_eqb_eq. apply SM in Hd. rewrite (Ty d Hd), T. reflexivity. }
  rewrite F1, F2, E', R'. reflexivity.
Qed.

Theorem merge_refusal_order : forall ds ds',
  Permutation ds ds' -> (forall d, In d ds -> pdefault d = None) ->
  is_ok (merge false ds) = is_ok (merge false ds').
Proof.
  intros ds ds' P ND.
  assert (SM : same_members ds ds').
  { intro x. split; intro Hx; [eapply Permutation_in; eauto|eapply Permutation_in; [apply Permutation_sym; exact P|exact Hx]]. }
  assert (ND' : forall d, In d ds' -> pdefault d = None) by (intros d Hd; apply ND; apply SM; exact Hd).
  destruct (merge false ds) as [m|e] eqn:H; destruct (merge false ds') as [m'|e'] eqn:H'; try reflexivity; exfalso.
  - destruct (merge_ok_members ds ds' m SM ND H) as [x K]. congruence.
  - destruct (merge_ok_members ds' ds m' (same_members_sym _ _ SM) ND' H') as [x K]. congruence.
Qed.
