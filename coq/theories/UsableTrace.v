(* UsableTrace.v — what instantiate_model makes of an ACCEPTED job template, as far as the two consumers
   of the Job look at it (generic in the resolver and the symbol table):

     task_param_shape    a task parameter definition becomes a RangeExpression... node with a resolved
                         range string, or a *RangeList... node with a non-empty list of numbers / resolved
                         strings ([def_shape raw_item]; the numbers are printed by coerce_job);
     param_space_shape   a StepParameterSpaceDefinition becomes a StepParameterSpace whose definitions are
                         keyed by the (pairwise distinct) parameter names, in order, and whose combination
                         is the template's: absent, or a string that parses and names every key once
                         ([space_shape], from StepParameterSpaceDefinition._validate_combination);
     step_shape          a step keeps its name and its dependencies; its parameter space is as above;
     job_shape           the Job has one step per template step, in order; the template passed
                         job_template_ok (unique step names, known dependencies, no cycle).
   The shape of an instantiated definition comes from ConformInst (typed nodes); steps, the root, parameter spaces
   and task parameter definitions are read through the class inversions of CreateJobExactSteps / Space; nothing is
   assumed about the document beyond decode_job = Ok. *)
From Coq Require Import List NArith ZArith Bool String Lia.
Import ListNotations.
Require Import OJD.Base OJD.Lexer OJD.Json OJD.Schema OJD.Charsets OJD.CreateJob
               OJD.CreateJobProofs OJD.Parse OJD.Validators OJD.Accept OJD.AcceptMono OJD.DecodeInv
               OJD.CreateJobExactLib OJD.CreateJobExactCarried OJD.CreateJobExactParams
               OJD.CreateJobExactSteps OJD.CreateJobExactSpace OJD.WF OJD.ListLib OJD.ConformNodes
               OJD.ConformTyped OJD.ConformInst OJD.UsableGlue OJD.UsableShape OJD.UsableParse.
Local Open Scope string_scope.
Local Open Scope list_scope.

Section Trace.
  Variable classify : N -> cclass.
  Variable resolve : symtab -> str -> outcome str.
  Variable sigma : symtab.
  Notation pk := (parse_kind G classify pre_hook (post_hook classify)).
  Notation pc := (parse_cls G classify pre_hook (post_hook classify)).

  Lemma inst_elem_model : forall rec f c v x, pk f (KModel c) v = Ok x -> inst_elem rec x = rec x.
  Proof. intros rec f c v x H. destruct (pk_model_shape classify _ _ _ _ H) as [fs ->]. reflexivity. Qed.

  (* ConformInst's shape of an instantiated definition, with the non-emptiness the iterator needs *)
  Lemma jdef_raw_shape : forall y, jdef_raw y ->
    (forall l, mfield "range" (model_fields y) = MList l -> l <> []) -> def_shape raw_item y.
  Proof.
    intros y [its Hi|r|its Hi|ty its Hty Hi] Hne; [|apply DS_expr; discriminate| |].
    - apply DS_list; [left; reflexivity|discriminate|exact (Hne its eq_refl)|].
      eapply Forall_impl; [|exact Hi]. intros x [H|H]; [left|right; right]; exact H.
    - apply DS_list; [right; left; reflexivity|discriminate|exact (Hne its eq_refl)|].
      eapply Forall_impl; [|exact Hi]. intros x [H|H]; right; [left|right]; exact H.
    - apply DS_list; [right; right; left; reflexivity|destruct Hty as [-> | ->]; discriminate|exact (Hne its eq_refl)|].
      eapply Forall_impl; [|exact Hi]. intros x H. right. right. exact H.
  Qed.

  Theorem task_param_shape : forall f F it m y,
    pk f kdisc_task it = Ok m -> mval_depth m < F ->
    inst_elem (inst G resolve sigma F) m = Ok y -> def_shape raw_item y.
  Proof.
    intros f F it m y H _ Hy.
    destruct (disc_task_class m (proj1 (parse_typed G classify pre_hook (post_hook classify) f) _ _ _ H)) as [c [Hc Htc]].
    rewrite (inst_elem_tc _ _ _ Htc) in Hy.
    destruct (inst_task_def_len resolve sigma F c m y Hc Htc Hy) as [Hj Hlen].
    apply (jdef_raw_shape y Hj). intros l' El ->. destruct (Hlen [] El) as [l [Em Hl]].
    destruct l; [|discriminate Hl].
    destruct (task_def_inv classify f it m H) as [c0 [n [t [rg [ts [_ [-> [_ [_ [_ [_ [Hrg _]]]]]]]]]]]].
    cbn [model_fields mfield lookup_s String.eqb Ascii.eqb Bool.eqb] in Em. subst rg.
    destruct Hrg as [[s [_ E]]|[its [l [_ [E [_ [_ Hne]]]]]]]; [discriminate E|injection E as <-; exact (Hne eq_refl)].
  Qed.

  Theorem param_space_shape : forall f raw x F y,
    pk f (KModel "StepParameterSpaceDefinition") raw = Ok x -> mval_depth x < F -> inst G resolve sigma F x = Ok y ->
    space_shape classify raw_item y.
  Proof.
    intros f raw x F y H HF Hy.
    destruct (param_space_inv classify f raw x H) as [f' [ms [its [l [cb [_ [_ [-> [_ [HFl [Hnd [Hlc [_ [Hne Hca]]]]]]]]]]]]]].
    destruct F as [|F]; [exact (False_ind _ (Nat.nlt_0_r _ HF))|].
    pose proof (fields_below _ _ _ HF "taskParameterDefinitions" (MList l) ltac:(in_tac)) as Dl.
    rewrite shape_ParamSpace in Hy; [|reflexivity|exact Hlc].
    destruct (keyed (inst G resolve sigma F) "name" (MList l)) as [d|e] eqn:Ek; cbn [bind] in Hy; [|discriminate Hy].
    injection Hy as <-.
    destruct (keyed_names _ _ _ _ Ek Hnd) as [kys [-> [Hkeys HK]]].
    exists kys, cb. split; [reflexivity|]. split.
    { intros ->. apply Forall2_length in HK. destruct l; [exact (Hne eq_refl)|discriminate HK]. }
    split; [rewrite Hkeys; apply nodupb_NoDup; exact Hnd|]. split.
    - apply Forall_forall. intros ky Hky. destruct (Forall2_in_r _ _ _ _ _ ky HK Hky) as [m [Hm [_ Hy]]].
      destruct (Forall2_in_r _ _ _ _ _ m HFl Hm) as [it [_ Hp]].
      apply (task_param_shape f' F it m (snd ky) Hp); [pose proof (item_depth l m Hm); lia|exact Hy].
    - rewrite Hkeys. exact Hca.
  Qed.

  Definition step_rel (m y : mval) : Prop :=
    step_name y = step_name m /\ dep_names y = dep_names m /\
    (step_space y = MNone \/ space_shape classify raw_item (step_space y)).

  Theorem step_shape : forall f it x F y,
    pk f (KModel "StepTemplate") it = Ok x -> mval_depth x < F -> inst G resolve sigma F x = Ok y -> step_rel x y.
  Proof.
    intros f it x F y H HF Hy.
    destruct (step_template_inv classify f it x H)
      as [f' [n [d [sc [se [ps [hr [dp [_ [-> [_ [[Hln _] [[Hld _] [[_ Hsc] [Hse [Hpsf [Hhrf Hdp]]]]]]]]]]]]]]]]].
    destruct F as [|F]; [exact (False_ind _ (Nat.nlt_0_r _ HF))|]. pose proof (fields_below _ _ _ HF) as D.
    destruct (step_inst classify resolve sigma f' _ _ _ _ _ n d sc se ps hr dp F y Hln Hld Hsc Hse Hpsf Hhrf Hdp HF Hy)
      as [ps' [hr' [Eps [_ ->]]]].
    unfold step_rel. split; [reflexivity|]. split; [reflexivity|].
    unfold step_space. cbn [model_fields mfield lookup_s String.eqb Ascii.eqb Bool.eqb].
    destruct Hpsf as [[_ ->]|[_ Hp]].
    - cbn [inst_elem] in Eps. injection Eps as <-. left. reflexivity.
    - right. rewrite (inst_elem_model _ _ _ _ _ Hp) in Eps.
      apply (param_space_shape _ _ ps F ps' Hp); [apply (D "parameterSpace"); in_tac|exact Eps].
  Qed.

  Lemma steps_shape : forall f F items l l',
    Forall2 (fun it m => pk f (KModel "StepTemplate") it = Ok m) items l ->
    (forall m, In m l -> mval_depth m < F) ->
    mapM (inst_elem (inst G resolve sigma F)) l = Ok l' ->
    Forall2 step_rel l l'.
  Proof.
    intros f F items l l' HF. revert l'. induction HF as [|it m r r' Hp _ IH]; intros l' Hd Hm.
    - injection Hm as <-. constructor.
    - apply mapM_cons_ok in Hm. destruct Hm as [y [ys [Ey [Er ->]]]]. rewrite (inst_elem_model _ _ _ _ _ Hp) in Ey.
      constructor.
      + exact (step_shape f it m F y Hp (Hd m (or_introl eq_refl)) Ey).
      + apply IH; [intros m' Hm'; apply Hd; right; exact Hm'|exact Er].
  Qed.

  Lemma decode_job_post : forall j c fs, decode_job classify j = Ok (MModel c fs) -> job_template_ok classify j fs = true.
  Proof.
    intros j c fs H. unfold decode_job in H. destruct j as [| | | | | |ms]; try discriminate H.
    destruct (version_ok Generated.job_template_versions (JObj ms)); [|discriminate H].
    unfold parse_template, parse_root in H.
    destruct (pc_inv _ _ _ _ _ _ _ _ H) as [f' [c0 [ms' [fields [_ [_ [_ [Ex [_ [_ [_ Hpost]]]]]]]]]]].
    injection Ex as _ <-. exact Hpost.
  Qed.

  Theorem job_shape : forall j t F y,
    decode_job classify j = Ok t -> mval_depth t < F -> inst G resolve sigma F t = Ok y ->
    exists fs_t l fs_j l',
      t = MModel "JobTemplate" fs_t /\ fget "steps" fs_t = MList l /\ job_template_ok classify j fs_t = true /\
      y = MModel "Job" fs_j /\ mfield "steps" fs_j = MList l' /\ Forall2 step_rel l l'.
  Proof.
    intros j t F y H HF Hy.
    destruct (job_template_inv classify j t H)
      as (f' & sv & s & st & d & pd & je & ss & sitems & l & Et & _ & _ & -> & HFst & (Hld & _) & Hpd & _ & Hje).
    subst t. pose proof (decode_job_post _ _ _ H) as Hpost.
    destruct F as [|F]; [exact (False_ind _ (Nat.nlt_0_r _ HF))|]. pose proof (fields_below _ _ _ HF) as D.
    rewrite (shape_JobTemplate resolve sigma F sv s (MList l) d pd je ss) in Hy;
      [|reflexivity|exact Hld|exact (read_list_opt_list _ _ _ _ _ Hpd)|exact (read_list_opt_list _ _ _ _ _ Hje)].
    destruct (resolve sigma s) as [n|e]; cbn [bind] in Hy; [|discriminate Hy].
    cbn [elems] in Hy.
    destruct (mapM (inst_elem (inst G resolve sigma F)) l) as [l'|e] eqn:El; cbn [bind] in Hy; [|discriminate Hy].
    destruct (keyed (inst G resolve sigma F) "name" pd) as [p|e]; cbn [bind] in Hy; [|discriminate Hy].
    destruct (CreateJobProofs.elems (inst G resolve sigma F) je) as [je'|e]; cbn [bind] in Hy; [|discriminate Hy].
    injection Hy as <-.
    eexists. exists l. eexists. exists l'. split; [reflexivity|]. split; [reflexivity|]. split; [exact Hpost|].
    split; [reflexivity|]. split; [reflexivity|].
    apply (steps_shape f' F sitems l l' HFst); [|exact El].
    intros m Hm. pose proof (item_depth l m Hm). pose proof (D "steps" (MList l) ltac:(in_tac)). lia.
  Qed.
End Trace.
