(* CreateJobExactParams.v — C05_exact, the job parameters: for an accepted parameter definition
   object, the JobParameter that instantiate_model builds exports as the specification's
   { type, value, description? }. *)
From Coq Require Import List NArith ZArith Bool String Lia.
Import ListNotations.
Require Import OJD.Base OJD.ListLib OJD.Lexer OJD.Json OJD.Schema OJD.Generated OJD.Charsets OJD.Numerals OJD.NumPrint
               OJD.FormatStr OJD.CreateJob OJD.CreateJobProofs OJD.CreateJobSpec OJD.Parse OJD.Validators OJD.Accept
               OJD.ExportProofs OJD.AcceptMono OJD.DecodeInv OJD.JsonEquiv OJD.CreateJobExactLib OJD.CreateJobExactCarried.
Local Open Scope string_scope.
Local Open Scope list_scope.

Notation G := Generated.schema.

(* the export of a node of a class that exports its fields under their own names (every job-side class) *)
Lemma json_equiv_plain : forall c fs s, aliases_plain G c = true ->
  json_equiv (JObj (map (fun fv => (str_of_string (fst fv), jval G (fst fv) (snd fv))) fs)) s ->
  json_equiv (jobj G (MModel c fs)) s.
Proof.
  intros c fs s Hc H. apply json_equiv_model. unfold jfields.
  rewrite (map_ext _ (fun fv => (str_of_string (fst fv), jval G (fst fv) (snd fv)))); [exact H|].
  intros fv. rewrite (alias_plain G c Hc). reflexivity.
Qed.

(* a job-side model node with an explicit field list against an object with explicit (possibly [opt]) members
   under literal keys: one goal per field *)
Ltac by_keys :=
  apply json_equiv_plain; [reflexivity|]; cbn [map fst snd];
  eapply json_equiv_meq_r; [cbn [app]; meq_tac|];
  apply json_equiv_obj_assoc; [reflexivity|reflexivity|reflexivity|]; keys_split; cbn.

(* the exported value of a field against a member of the specification's object: equivalent, absent = null *)
Definition exports (x : mval) (v : json) : Prop := opt_rel json_equiv (onn (jobj G x)) (onn v).

Lemma exports_leaf : forall x v, leaf x = true -> tobj G x = v -> exports x v.
Proof. intros x v H <-. unfold exports. rewrite (leaf_jobj G x H). apply onn_equiv, json_equiv_refl. Qed.

Section Params.
  Variable classify : N -> cclass.
  Variable sigma : symtab.
  Notation pk := (parse_kind G classify pre_hook (post_hook classify)).
  Notation pc := (parse_cls G classify pre_hook (post_hook classify)).

  Lemma field_exact_inv : forall f ms fl y, parse_field (pk f) ms fl = Ok y ->
    f_shape fl = Single -> exact_kind (f_kind fl) = true ->
    exists x, y = (f_name fl, x) /\ leaf x = true /\ tobj G x = field_raw ms fl.
  Proof.
    intros f ms fl y H Hs Hk. apply parse_field_inv in H. destruct H as [x [-> Hv]]. exists x. split; [reflexivity|].
    destruct (field_raw ms fl) eqn:Eraw.
    1: { apply parse_value_null in Hv. subst x. split; reflexivity. }
    all: rewrite <- Eraw in *; assert (Hn : field_raw ms fl <> JNull) by (rewrite Eraw; discriminate);
      apply (parse_value_single G classify pre_hook (post_hook classify) f fl _ x Hs Hn) in Hv;
      exact (pk_exact_tobj G classify _ _ f _ _ x Hk Hv).
  Qed.

  Lemma field_any_inv : forall f ms fl y, parse_field (pk f) ms fl = Ok y -> exists x, y = (f_name fl, x).
  Proof. intros f ms fl y H. apply parse_field_inv in H. destruct H as [x [-> _]]. exists x. reflexivity. Qed.

  Lemma job_parameter_equiv : forall (p : json) n t d v,
    jget "name" p = JStr n -> leaf t = true -> tobj G t = jget "type" p -> leaf d = true -> tobj G d = jget "description" p ->
    st_lookup sigma ($"RawParam." ++ n) = Some v ->
    exists s, CreateJobSpec.job_param sigma p = Ok (n, s) /\
              json_equiv (jobj G (MModel "JobParameter" [("type", t); ("description", d); ("value", MStr v)])) s.
  Proof.
    intros p n t d v Hn Hlt Ht Hld Hd Hv. unfold CreateJobSpec.job_param. rewrite Hn, Hv. eexists. split; [reflexivity|].
    by_keys;
      [exact (exports_leaf t _ Hlt Ht)|exact (exports_leaf d _ Hld Hd)|constructor; apply json_equiv_refl].
  Qed.
End Params.

Section Keyed.
  Variable rec : mval -> outcome mval.
  Variable kf : string.

  Lemma keyed_fold_raise : forall items e, fold_left (keyed_step rec kf) items (Raise e) = Raise e.
  Proof. induction items as [|it r IH]; intros e; [reflexivity|]. cbn [fold_left]. apply IH. Qed.

  Lemma keyed_ok_inv : forall items acc d,
    fold_left (keyed_step rec kf) items (Ok acc) = Ok d ->
    exists kys, Forall2 (fun item ky => key_of item kf = Ok (fst ky) /\ inst_elem rec item = Ok (snd ky)) items kys.
  Proof.
    induction items as [|it r IH]; intros acc d H; [exists []; constructor|].
    cbn [fold_left] in H. unfold keyed_step at 2 in H. cbn [bind] in H.
    destruct (key_of it kf) as [k|e] eqn:Ek; cbn [bind] in H; [|rewrite keyed_fold_raise in H; discriminate H].
    destruct (inst_elem rec it) as [y|e] eqn:Ey; cbn [bind] in H; [|rewrite keyed_fold_raise in H; discriminate H].
    destruct (IH _ _ H) as [kys HF]. exists ((k, y) :: kys). constructor; [split; assumption|exact HF].
  Qed.

  Lemma key_of_mstr : forall m k, key_of m kf = Ok k -> mstr (fget kf (model_fields m)) = k.
  Proof.
    intros m k H. unfold key_of in H. destruct m as [ | | | | | | | | |c fs]; try discriminate H.
    cbn [model_fields]. unfold fget. destruct (mfield kf fs); try discriminate H; injection H as <-; reflexivity.
  Qed.

  Lemma keyed_names : forall l p, keyed rec kf (MList l) = Ok p ->
    nodupb (map (fun m => mstr (fget kf (model_fields m))) l) = true ->
    exists kys, p = MDict kys /\ map fst kys = map (fun m => mstr (fget kf (model_fields m))) l /\
                Forall2 (fun m ky => key_of m kf = Ok (fst ky) /\ inst_elem rec m = Ok (snd ky)) l kys.
  Proof.
    intros l p Ek Hnd. pose proof Ek as Ek'. unfold keyed in Ek'.
    destruct (fold_left (keyed_step rec kf) l (Ok [])) as [d0|e] eqn:Efold; cbn [bind] in Ek'; [|discriminate Ek'].
    destruct (keyed_ok_inv l [] d0 Efold) as [kys HK]. exists kys.
    assert (Hkeys : map fst kys = map (fun m => mstr (fget kf (model_fields m))) l).
    { clear - HK. induction HK as [|m ky r r' [Hk _] _ IH]; [reflexivity|]. cbn [map]. rewrite IH, (key_of_mstr m _ Hk). reflexivity. }
    split; [|split; [exact Hkeys|exact HK]].
    rewrite (keyed_distinct rec kf l kys HK) in Ek; [injection Ek as <-; reflexivity|].
    rewrite Hkeys. apply nodupb_NoDup. exact Hnd.
  Qed.

  Variable Q : json -> mval -> Prop.
  Variable spec_item : json -> outcome (str * json).
  Hypothesis Hitem : forall it m k y, Q it m -> key_of m kf = Ok k -> inst_elem rec m = Ok y ->
    exists s, spec_item it = Ok (k, s) /\ json_equiv (jobj G y) s /\ y <> MNone.

  Theorem keyed_dict_equiv : forall items l p,
    Forall2 Q items l ->
    nodupb (map (fun m => mstr (fget kf (model_fields m))) l) = true ->
    keyed rec kf (MList l) = Ok p ->
    exists ps, mapM spec_item items = Ok ps /\ json_equiv (jobj G p) (JObj ps).
  Proof.
    intros items l p HQ Hnd H. destruct (keyed_names l p H Hnd) as [kys [-> [_ HF]]]. clear H Hnd.
    assert (Hps : exists ps, mapM spec_item items = Ok ps /\
                             Forall2 (fun ky p => fst ky = fst p /\ json_equiv (jobj G (snd ky)) (snd p) /\ snd ky <> MNone) kys ps).
    { revert kys HF. induction HQ as [|it m r r' Hq _ IH]; intros kys HF.
      - inversion HF; subst. exists []. split; [reflexivity|constructor].
      - inversion HF as [|m' ky r0 kys' [Hk Hy] HF']; subst.
        destruct (Hitem it m (fst ky) (snd ky) Hq Hk Hy) as [s [Hs [He Hn]]].
        destruct (IH kys' HF') as [ps [Hm HP]].
        exists ((fst ky, s) :: ps). split.
        + cbn [mapM]. rewrite Hs. cbn [bind]. rewrite Hm. reflexivity.
        + constructor; [repeat split; assumption|exact HP]. }
    destruct Hps as [ps [Hm HP]]. exists ps. split; [exact Hm|].
    assert (E : jobj G (MDict kys) = JObj (map (fun ky => (fst ky, jobj G (snd ky))) kys)).
    { cbn [jobj]. f_equal. clear - HP. induction HP as [|ky p r r' [_ [_ Hn]] _ IH]; [reflexivity|].
      cbn [flat_map map]. rewrite IH. destruct (snd ky); try reflexivity. contradiction. }
    rewrite E. apply json_equiv_obj_pointwise.
    clear - HP. induction HP as [|ky p r r' [Hk [He _]] _ IH]; cbn [map]; constructor; [|exact IH].
    cbn [fst snd]. split; assumption.
  Qed.
End Keyed.

Ltac cls_open H :=
  let f' := fresh "f'" in let c0 := fresh "c0" in let ms := fresh "ms" in let fields := fresh "fields" in
  let Ef := fresh "Ef" in let Hlk := fresh "Hlk" in let Ev := fresh "Ev" in let Ex := fresh "Ex" in
  let Hpre := fresh "Hpre" in let Hex := fresh "Hex" in let Hm := fresh "Hm" in let Hpost := fresh "Hpost" in
  destruct (pc_inv _ _ _ _ _ _ _ _ H) as [f' [c0 [ms [fields [Ef [Hlk [Ev [Ex [Hpre [Hex [Hm Hpost]]]]]]]]]]];
  match type of Hlk with lookup_cls _ ?c = _ =>
    let n := eval vm_compute in (List.length (fields_of c)) in
    rewrite (cls_fields c c0 n Hlk eq_refl) in Hm; cbn [map seq] in Hm
  end.

(* While the members of an object are read one by one the statement being proved is kept folded: every case
   analysis would otherwise carry a copy of it, string literals and all, into the proof term. *)
Ltac fold_goal X := match goal with |- ?g => set (X := g) end.

Ltac next_field Hm y r Hy :=
  apply mapM_cons_ok in Hm; destruct Hm as [y [r [Hy [Hm ->]]]].

Definition kdisc_params : kind :=
  KDisc "type" [("INT", "JobIntParameterDefinition"); ("FLOAT", "JobFloatParameterDefinition");
                ("STRING", "JobStringParameterDefinition"); ("PATH", "JobPathParameterDefinition")].

Section ParamClasses.
  Variable classify : N -> cclass.
  Variable resolve : symtab -> str -> outcome str.
  Variable sigma : symtab.
  Notation pk := (parse_kind G classify pre_hook (post_hook classify)).
  Notation pc := (parse_cls G classify pre_hook (post_hook classify)).

  (* what every parameter definition class yields: (name, type, description) read from the object,
     and the JobParameter instantiate_model builds from it *)
  Definition param_view (p : json) (x : mval) : Prop :=
    exists n t d,
      key_of x "name" = Ok n /\ jget "name" p = JStr n /\
      leaf t = true /\ tobj G t = jget "type" p /\ leaf d = true /\ tobj G d = jget "description" p /\
      forall f, inst G resolve sigma (S f) x = job_parameter sigma n t d.

  (* name and type are the first two fields of the four classes; description is the fourth, in the PATH class the sixth *)
  Lemma param_view_cls : forall c, In c param_classes -> forall f ims x, pc f c (JObj ims) = Ok x -> param_view (JObj ims) x.
  Proof.
    intros c Hc f ims x H.
    destruct (pc_inv _ _ _ _ _ _ _ _ H) as [f' [c0 [ms [fields [_ [Hlk [Ev [-> [_ [_ [Hm _]]]]]]]]]]]. injection Ev as <-. clear H.
    destruct (fields_values _ _ _ _ _ _ _ _ Hm) as [-> HF]. clear Hm.
    destruct Hc as [<-|[<-|[<-|[<-|[]]]]]; vm_compute in Hlk; injection Hlk as <-; cbn [c_fields map f_name].
    all: pose proof (HF 0 _ eq_refl) as H1; apply name_field_inv in H1; destruct H1 as [c [r [E1 Hn]]];
      apply (f_equal snd) in E1; cbn [snd] in E1; rewrite E1;
      pose proof (HF 1 _ eq_refl) as H2; (apply field_exact_inv in H2; [|reflexivity|reflexivity]);
      destruct H2 as [t [E2 [Hlt Ht]]]; apply (f_equal snd) in E2; cbn [snd] in E2; rewrite E2.
    1-3: pose proof (HF 3 _ eq_refl) as H4.
    4: pose proof (HF 5 _ eq_refl) as H4.
    all: (apply field_exact_inv in H4; [|reflexivity|reflexivity]); destruct H4 as [d [E4 [Hld Hd]]];
      apply (f_equal snd) in E4; cbn [snd] in E4; rewrite E4; clear HF;
      exists (c :: r), t, d; repeat split; try assumption; intros f0.
    - apply shape_JobIntParam; assumption.
    - apply shape_JobFloatParam; assumption.
    - apply shape_JobStringParam; assumption.
    - apply shape_JobPathParam; assumption.
  Qed.

  Lemma param_view_of : forall f it m, pk f kdisc_params it = Ok m ->
    param_view it m /\ exists ts, jget "type" it = JStr ts.
  Proof.
    intros f it m H.
    destruct (pk_disc_inv _ _ _ _ _ _ _ _ _ H) as [f' [ims [ts [k' [c' [_ [-> [Ea [Hin [_ H']]]]]]]]]]. split.
    - apply (param_view_cls c') with (f := f'); [|exact H'].
      destruct Hin as [E|[E|[E|[E|[]]]]]; injection E as <- <-; in_tac.
    - exists ts. cbn [jget]. rewrite Ea. reflexivity.
  Qed.

  Theorem job_param_item : forall f F it m k y,
    pk f kdisc_params it = Ok m -> key_of m "name" = Ok k -> mval_depth m < F ->
    inst_elem (inst G resolve sigma F) m = Ok y ->
    exists s, CreateJobSpec.job_param sigma it = Ok (k, s) /\ json_equiv (jobj G y) s /\ y <> MNone.
  Proof.
    intros f F it m k y H Hk HF Hy. destruct (param_view_of f it m H) as [V _].
    destruct V as [n [t [d [Hkn [Hn [Hlt [Ht [Hld [Hd Hinst]]]]]]]]].
    rewrite Hkn in Hk. injection Hk as <-.
    assert (Hm : exists c fs, m = MModel c fs).
    { unfold key_of in Hkn. destruct m; try discriminate Hkn. eexists. eexists. reflexivity. }
    destruct Hm as [c [fs ->]]. cbn [inst_elem] in Hy.
    destruct F as [|F]; [exact (False_ind _ (Nat.nlt_0_r _ HF))|]. rewrite Hinst in Hy. unfold job_parameter in Hy.
    destruct (st_lookup sigma ($"RawParam." ++ n)) as [v|] eqn:Ev; [|discriminate Hy]. injection Hy as <-.
    destruct (job_parameter_equiv sigma it n t d v Hn Hlt Ht Hld Hd Ev) as [sp [Hs He]].
    exists sp. split; [exact Hs|]. split; [exact He|discriminate].
  Qed.
End ParamClasses.
