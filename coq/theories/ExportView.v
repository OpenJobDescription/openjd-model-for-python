(* ExportView.v — C17, the template roots: what the reference specification of C03 (ScopeSpec.v) reads of a
   document is preserved by  j |-> export (decode j).

   1. field-by-field inversion of a successful class parse together with the shape of its re-export
      ([fld_exp] and its corollaries by shape / kind: [fld_exact], [fld_model], [fld_models], [fld_discs],
      [fld_dict], [fld_lit], [fld_raw]);  the relation  [dx c v v']  =  "v decodes as class c to some x and
      v' is the export of x";
   2. one lemma per model class the specification walks through: the specification's value on v' equals
      its value on v (scripts, environments, host requirements, declared names), or — task parameter ranges,
      where an INT item given as text is exported as a number and a FLOAT item as Decimal text — is empty
      whenever it is empty on v;
   3. [spec_job_stable] / [spec_env_stable]: the specification reports nothing on the re-export of an
      accepted root whose source it reported nothing on.
   Lemmas only. *)
From Coq Require Import List NArith ZArith Bool String Lia Arith.
Import ListNotations.
Require Import OJD.Base OJD.Lexer OJD.Json OJD.Schema OJD.Generated OJD.Charsets OJD.Numerals OJD.NumPrint
               OJD.CreateJob OJD.Parse OJD.ScopeWalk OJD.ScopeSpec OJD.NumRoundtrip OJD.ExportProofs.
Require OJD.ExportFaithfulProofs.
Local Open Scope string_scope.
Local Open Scope list_scope.

Lemma F2_flat_map_eq : forall (A B : Type) (R : A -> A -> Prop) (f g : A -> list B) l l',
  Forall2 R l l' -> (forall a a', R a a' -> g a' = f a) -> flat_map g l' = flat_map f l.
Proof.
  intros A B R f g l l' H Hfg. induction H as [|a a' l l' Ha _ IH]; [reflexivity|].
  cbn [flat_map]. rewrite (Hfg _ _ Ha), IH. reflexivity.
Qed.

Lemma F2_flat_map_nil : forall (A B : Type) (R : A -> A -> Prop) (f g : A -> list B) l l',
  Forall2 R l l' -> (forall a a', R a a' -> f a = [] -> g a' = []) -> flat_map f l = [] -> flat_map g l' = [].
Proof.
  intros A B R f g l l' H Hfg. induction H as [|a a' l l' Ha _ IH]; intros Hn; [reflexivity|].
  cbn [flat_map] in *. apply app_eq_nil in Hn. destruct Hn as [H1 H2].
  rewrite (Hfg _ _ Ha H1), (IH H2). reflexivity.
Qed.

Lemma F2_concat_seq_eq : forall (A B : Type) (R : A -> A -> Prop) (f g : nat * A -> list B) l l',
  Forall2 R l l' -> (forall i a a', R a a' -> g (i, a') = f (i, a)) ->
  forall s, List.concat (map g (combine (seq s (List.length l')) l')) = List.concat (map f (combine (seq s (List.length l)) l)).
Proof.
  intros A B R f g l l' H Hfg. induction H as [|a a' l l' Ha _ IH]; intros s; [reflexivity|].
  cbn [List.length seq combine map List.concat]. rewrite (Hfg _ _ _ Ha), IH. reflexivity.
Qed.

Lemma F2_concat_seq_nil : forall (A B : Type) (R : A -> A -> Prop) (f g : nat * A -> list B) l l',
  Forall2 R l l' -> (forall i a a', R a a' -> f (i, a) = [] -> g (i, a') = []) ->
  forall s, List.concat (map f (combine (seq s (List.length l)) l)) = [] ->
            List.concat (map g (combine (seq s (List.length l')) l')) = [].
Proof.
  intros A B R f g l l' H Hfg. induction H as [|a a' l l' Ha _ IH]; intros s Hn; [reflexivity|].
  cbn [List.length seq combine map List.concat] in *. apply app_eq_nil in Hn. destruct Hn as [H1 H2].
  rewrite (Hfg _ _ _ Ha H1), (IH _ H2). reflexivity.
Qed.

Lemma app_nil_2 : forall (A : Type) (a b a' b' : list A),
  (a = [] -> a' = []) -> (b = [] -> b' = []) -> a ++ b = [] -> a' ++ b' = [].
Proof.
  intros A a b a' b' Ha Hb H. apply app_eq_nil in H. destruct H as [H1 H2].
  rewrite (Ha H1), (Hb H2). reflexivity.
Qed.

Definition is_listof (s : shape) : bool := match s with ListOf _ _ => true | _ => false end.
Definition is_dictof (s : shape) : bool := match s with DictOf _ => true | _ => false end.
Definition kind_model_is (c : string) (k : kind) : bool :=
  match k with KModel c' => String.eqb c' c | _ => false end.
Definition kind_disc_in (cs : list string) (k : kind) : bool :=
  match k with KDisc _ mapping => forallb (fun kc => mem_s (snd kc) cs) mapping | _ => false end.
Definition kind_lit_is (lit : string) (k : kind) : bool :=
  match k with KLiteral l => String.eqb l lit | _ => false end.

(* stored as given: exact kind, single or list *)
Definition exact_fld (fl : field) : bool :=
  exact_kind (f_kind fl) && (single_shape (f_shape fl) || is_listof (f_shape fl)).

(* field number [i] of live class [c] is read under the key [a] and satisfies [p] *)
Definition fld_is (c : string) (i : nat) (a : string) (p : field -> bool) : bool :=
  match lookup_cls Generated.schema c with
  | Some k => Nat.ltb i (List.length (c_fields k)) && String.eqb (f_alias (nth i (c_fields k) dflt_field)) a
              && p (nth i (c_fields k) dflt_field)
  | None => false
  end.

Lemma fld_is_inv : forall c i a p, fld_is c i a p = true ->
  exists k, lookup_cls Generated.schema c = Some k /\ In (fld c i) (c_fields k)
            /\ f_alias (fld c i) = a /\ p (fld c i) = true.
Proof.
  intros c i a p H. unfold fld_is in H. unfold fld.
  generalize dependent (lookup_cls Generated.schema c). intros [k|] H; [|discriminate].
  apply andb_true_iff in H. destruct H as [H Hp]. apply andb_true_iff in H. destruct H as [Hi Ha].
  apply Nat.ltb_lt in Hi. apply String.eqb_eq in Ha.
  exists k. repeat split; try assumption. apply nth_In. exact Hi.
Qed.

Definition nul2 (R : json -> json -> Prop) (v v' : json) : Prop := (v = JNull /\ v' = JNull) \/ R v v'.
Definition arr2 (R : json -> json -> Prop) (v v' : json) : Prop :=
  exists items items', v = JArr items /\ v' = JArr items' /\ Forall2 R items items'.

(* the form of every per-item clause of the specification, on a list field and on its re-export *)
Definition each {B : Type} (f : nat * json -> list B) (v : json) : list B :=
  match v with JArr items => List.concat (map f (indexed items)) | _ => [] end.

Lemma each_eq : forall (B : Type) (R : json -> json -> Prop) (f g : nat * json -> list B) v v',
  nul2 (arr2 R) v v' -> (forall i a a', R a a' -> g (i, a') = f (i, a)) -> each g v' = each f v.
Proof.
  intros B R f g v v' [[-> ->]|[items [items' [-> [-> HF]]]]] Hfg; [reflexivity|].
  unfold each, indexed. eapply F2_concat_seq_eq; eassumption.
Qed.

Lemma each_nil : forall (B : Type) (R : json -> json -> Prop) (f g : nat * json -> list B) v v',
  nul2 (arr2 R) v v' -> (forall i a a', R a a' -> f (i, a) = [] -> g (i, a') = []) ->
  each f v = [] -> each g v' = [].
Proof.
  intros B R f g v v' [[-> ->]|[items [items' [-> [-> HF]]]]] Hfg; [auto|].
  unfold each, indexed. eapply F2_concat_seq_nil; eassumption.
Qed.

Section Tool.
  Variable classify : N -> cclass.
  Variable pre : string -> json -> bool.
  Variable post : string -> json -> list (string * mval) -> bool.
  Notation G := Generated.schema.
  Notation PK := (parse_kind G classify pre post).
  Notation PC := (parse_cls G classify pre post).
  Notation EXP := (exp G).

  Definition dx (c : string) (v v' : json) : Prop := exists g x, PC g c v = Ok x /\ v' = EXP x.
  Definition dx_any (cs : list string) (v v' : json) : Prop := exists c, In c cs /\ dx c v v'.

  Lemma fld_exp : forall f c v x k fl,
    PC f c v = Ok x -> lookup_cls G c = Some k -> In fl (c_fields k) ->
    exists f' y, f = S f' /\ field_value (PK f') fl (jget (f_alias fl) v) = Ok y
                 /\ jget (f_alias fl) (EXP x) = EXP y.
  Proof.
    intros f c v x k fl H Hl. destruct (generated_names_distinct c k Hl) as [Hn1 Hn2].
    exact (parse_cls_field _ _ _ _ f c v x k fl H Hl Hn1 Hn2).
  Qed.

  Lemma fld_raw : forall f c v x i a p,
    PC f c v = Ok x -> fld_is c i a p = true ->
    exists f' y, f = S f' /\ field_value (PK f') (fld c i) (jget a v) = Ok y /\ jget a (EXP x) = EXP y
                 /\ p (fld c i) = true.
  Proof.
    intros f c v x i a p H Hi. destruct (fld_is_inv _ _ _ _ Hi) as [k [Hl [Hin [Ha Hp]]]].
    destruct (fld_exp f c v x k _ H Hl Hin) as [f' [y [Ef [Hfv He]]]]. rewrite Ha in *.
    exists f', y. auto.
  Qed.

  Lemma dx_inv : forall c v v', dx c v v' ->
    exists g x, PC g c v = Ok x /\ v' = EXP x /\ is_obj v = true /\ is_obj v' = true.
  Proof.
    intros c v v' [g [x [H Ev']]]. exists g, x. split; [exact H|]. split; [exact Ev'|].
    destruct g as [|g']; [discriminate|]. rewrite parse_cls_Sb in H.
    destruct (ExportFaithfulProofs.cls_body_exp _ _ _ ExportFaithfulProofs.generated_faithful_ok _ _ _ _ H)
      as [k [ms [vals [-> [E _]]]]].
    subst v'. rewrite E. split; reflexivity.
  Qed.

  Lemma list_value_inv : forall (pk : kind -> json -> outcome mval) minl maxl k raw y,
    list_value pk minl maxl k raw = Ok y ->
    exists items ys, raw = JArr items /\ y = MList ys /\ Forall2 (fun it z => pk k it = Ok z) items ys.
  Proof.
    intros pk minl maxl k raw y H. destruct (AcceptMono.list_items_ok _ _ _ _ _ _ H) as [items [ys [-> [E ->]]]].
    exists items, ys. repeat split. apply ListLib.mapM_Forall2, E.
  Qed.

  Lemma fv_list : forall f' fl raw y, is_listof (f_shape fl) = true ->
    field_value (PK f') fl raw = Ok y ->
    (raw = JNull /\ y = MNone)
    \/ exists items ys, raw = JArr items /\ y = MList ys /\ Forall2 (fun it z => PK f' (f_kind fl) it = Ok z) items ys.
  Proof.
    intros f' fl raw y Hs H. destruct (field_value_cases _ _ _ _ H) as [[Er [Ey _]]|[Er Hsv]]; [left; auto|right].
    unfold shape_value in Hsv. destruct (f_shape fl); try discriminate. eapply list_value_inv. exact Hsv.
  Qed.

  Lemma exp_items_exact : forall f' k items ys, exact_kind k = true ->
    Forall2 (fun it z => PK f' k it = Ok z) items ys -> map EXP ys = items.
  Proof.
    intros f' k items ys Hk H. induction H as [|a b l l' Hab _ IH]; [reflexivity|].
    cbn [map]. rewrite IH. rewrite (pk_exact _ _ _ _ _ _ _ _ Hk Hab). reflexivity.
  Qed.

  Lemma fv_exact : forall f' fl raw y, exact_fld fl = true -> field_value (PK f') fl raw = Ok y -> EXP y = raw.
  Proof.
    intros f' fl raw y He H. unfold exact_fld in He. apply andb_true_iff in He. destruct He as [Hk Hs].
    destruct (field_value_cases _ _ _ _ H) as [[Er [Ey _]]|[Er Hsv]]; [subst; reflexivity|].
    unfold shape_value in Hsv. destruct (f_shape fl); try discriminate.
    - eapply pk_exact; eassumption.
    - destruct (list_value_inv _ _ _ _ _ _ Hsv) as [items [ys [E1 [E2 HF]]]]. subst.
      rewrite exp_list. f_equal. eapply exp_items_exact; eassumption.
  Qed.

  Lemma pk_model : forall f' c' it z, PK f' (KModel c') it = Ok z -> exists g, PC g c' it = Ok z.
  Proof.
    intros f' c' it z H. destruct f' as [|g]; [discriminate|]. rewrite parse_kind_Sb in H. cbn [kind_body] in H.
    exists g. exact H.
  Qed.

  Lemma pk_disc : forall f' key mapping it z cs, forallb (fun kc => mem_s (snd kc) cs) mapping = true ->
    PK f' (KDisc key mapping) it = Ok z -> exists c' g, In c' cs /\ PC g c' it = Ok z.
  Proof.
    intros f' key mapping it z cs Hm H. destruct f' as [|g]; [discriminate|]. rewrite parse_kind_Sb in H.
    cbn [kind_body] in H. unfold disc_value in H. destruct it as [| | | | | |ms]; try discriminate.
    destruct (assoc $key ms) as [[| | | |s| |]|]; try discriminate.
    destruct (List.find (fun kc => str_eqb $(fst kc) s) mapping) as [[t c']|] eqn:Ef; [|discriminate].
    apply find_some in Ef. destruct Ef as [Hin _]. rewrite forallb_forall in Hm. specialize (Hm _ Hin).
    cbn [snd] in Hm. apply ListLib.mem_s_In in Hm. exists c', g. split; assumption.
  Qed.

  Lemma F2_map_r : forall (A B C : Type) (R : A -> C -> Prop) (h : B -> C) l l',
    Forall2 (fun a b => R a (h b)) l l' -> Forall2 R l (map h l').
  Proof. intros A B C R h l l' HF. induction HF; cbn [map]; constructor; auto. Qed.

  (* [fld c i] is a lookup in the generated schema: each lemma makes it a variable before its case analyses, so
     that the terms checked again at Qed do not carry the schema *)
  Lemma fld_exact : forall f c v x i a,
    PC f c v = Ok x -> fld_is c i a exact_fld = true -> jget a (EXP x) = jget a v.
  Proof.
    intros f c v x i a H Hi. destruct (fld_raw _ _ _ _ _ _ _ H Hi) as [f' [y [_ [Hfv [He Hp]]]]].
    set (fl := fld c i) in *. clearbody fl.
    rewrite He. eapply fv_exact; eassumption.
  Qed.

  Lemma fld_model : forall f c v x i a c',
    PC f c v = Ok x -> fld_is c i a (fun fl => single_shape (f_shape fl) && kind_model_is c' (f_kind fl)) = true ->
    nul2 (dx c') (jget a v) (jget a (EXP x)).
  Proof.
    intros f c v x i a c' H Hi. destruct (fld_raw _ _ _ _ _ _ _ H Hi) as [f' [y [_ [Hfv [He Hp]]]]].
    set (fl := fld c i) in *. clearbody fl.
    apply andb_true_iff in Hp. destruct Hp as [Hs Hk]. rewrite He.
    destruct (field_value_cases _ _ _ _ Hfv) as [[Er [Ey _]]|[Er Hsv]]; [left; subst y; rewrite Er; auto|right].
    unfold shape_value in Hsv. destruct (f_shape fl); try discriminate.
    destruct (f_kind fl) as [| | | | | | | |c''| |]; try discriminate. cbn [kind_model_is] in Hk.
    apply String.eqb_eq in Hk. subst c''. destruct (pk_model _ _ _ _ Hsv) as [g Hg]. exists g, y. auto.
  Qed.

  Lemma fld_list : forall f c v x i a (p : kind -> bool) (R : json -> json -> Prop),
    PC f c v = Ok x -> fld_is c i a (fun fl => is_listof (f_shape fl) && p (f_kind fl)) = true ->
    (forall f' k it z, p k = true -> PK f' k it = Ok z -> R it (EXP z)) ->
    nul2 (arr2 R) (jget a v) (jget a (EXP x)).
  Proof.
    intros f c v x i a p R H Hi HR. destruct (fld_raw _ _ _ _ _ _ _ H Hi) as [f' [y [_ [Hfv [He Hp]]]]].
    set (fl := fld c i) in *. clearbody fl.
    apply andb_true_iff in Hp. destruct Hp as [Hs Hk]. rewrite He.
    destruct (fv_list _ _ _ _ Hs Hfv) as [[Er Ey]|[items [ys [Er [Ey HF]]]]]; [left; subst y; rewrite Er; auto|right].
    subst y. rewrite Er, exp_list. exists items, (map EXP ys). repeat split.
    apply F2_map_r. eapply ListLib.Forall2_impl; [|exact HF]. intros it z Hz. exact (HR _ _ _ _ Hk Hz).
  Qed.

  Lemma fld_models : forall f c v x i a c',
    PC f c v = Ok x -> fld_is c i a (fun fl => is_listof (f_shape fl) && kind_model_is c' (f_kind fl)) = true ->
    nul2 (arr2 (dx c')) (jget a v) (jget a (EXP x)).
  Proof.
    intros f c v x i a c' H Hi. apply (fld_list _ _ _ _ _ _ _ _ H Hi). intros f' k it z Hk Hz.
    destruct k as [| | | | | | | |c''| |]; try discriminate. apply String.eqb_eq in Hk. subst c''.
    destruct (pk_model _ _ _ _ Hz) as [g Hg]. exists g, z. auto.
  Qed.

  Lemma fld_discs : forall f c v x i a cs,
    PC f c v = Ok x -> fld_is c i a (fun fl => is_listof (f_shape fl) && kind_disc_in cs (f_kind fl)) = true ->
    nul2 (arr2 (dx_any cs)) (jget a v) (jget a (EXP x)).
  Proof.
    intros f c v x i a cs H Hi. apply (fld_list _ _ _ _ _ _ _ _ H Hi). intros f' k it z Hk Hz.
    destruct k as [| | | | | | | | |key mapping|]; try discriminate.
    destruct (pk_disc _ _ _ _ _ _ Hk Hz) as [c' [g [Hc Hg]]]. exists c'. split; [exact Hc|]. exists g, z. auto.
  Qed.

  Lemma fld_lit : forall f c v x i a lit,
    PC f c v = Ok x ->
    fld_is c i a (fun fl => single_shape (f_shape fl) && f_required fl && kind_lit_is lit (f_kind fl)) = true ->
    jget a v = JStr $lit.
  Proof.
    intros f c v x i a lit H Hi. destruct (fld_raw _ _ _ _ _ _ _ H Hi) as [f' [y [_ [Hfv [_ Hp]]]]].
    set (fl := fld c i) in *. clearbody fl.
    apply andb_true_iff in Hp. destruct Hp as [Hp Hk]. apply andb_true_iff in Hp. destruct Hp as [Hs Hr].
    destruct (field_value_cases _ _ _ _ Hfv) as [[_ [_ Erq]]|[Er Hsv]]; [rewrite Erq in Hr; discriminate|].
    unfold shape_value in Hsv. destruct (f_shape fl); try discriminate.
    destruct (f_kind fl) as [l| | | | | | | | | |]; try discriminate. cbn [kind_lit_is] in Hk.
    apply String.eqb_eq in Hk. subst l. destruct f' as [|g]; [discriminate|]. rewrite parse_kind_Sb in Hsv.
    cbn [kind_body scalar_body] in Hsv. destruct (jget a v); try discriminate.
    destruct (str_eqb s $lit) eqn:E; [|discriminate]. apply ListLib.str_eqb_eq in E. subst s. reflexivity.
  Qed.

  Lemma fld_dict : forall f c v x i a,
    PC f c v = Ok x -> fld_is c i a (fun fl => is_dictof (f_shape fl) && exact_kind (f_kind fl)) = true ->
    jget a (EXP x) = jget a v.
  Proof.
    intros f c v x i a H Hi. destruct (fld_raw _ _ _ _ _ _ _ H Hi) as [f' [y [_ [Hfv [He Hp]]]]].
    set (fl := fld c i) in *. clearbody fl.
    apply andb_true_iff in Hp. destruct Hp as [Hs Hk]. rewrite He.
    destruct (field_value_cases _ _ _ _ Hfv) as [[Er [Ey _]]|[Er Hsv]]; [subst y; rewrite Er; reflexivity|].
    unfold shape_value in Hsv. destruct (f_shape fl) as [| |kk]; try discriminate.
    destruct (dict_value_inv _ (proj1 (parse_nn G classify pre post f')) _ _ _ _ Hsv)
      as [members [l [-> [-> Hm]]]].
    rewrite exp_dict by (intros kv Hkv; destruct (ListLib.Forall2_in_r _ _ _ _ _ _ Hm Hkv) as [a0 [_ [_ [Hnn _]]]]; exact Hnn).
    f_equal. clear Hsv Hfv He. induction Hm as [|a0 b l l' [E1 [_ [E3 _]]] _ IH]; [reflexivity|].
    cbn [map]. rewrite IH, <- E1, (pk_exact _ _ _ _ _ _ _ _ Hk E3). destruct a0; reflexivity.
  Qed.
End Tool.

Definition task_def_classes : list string :=
  ["IntTaskParameterDefinition"; "FloatTaskParameterDefinition"; "StringTaskParameterDefinition"; "PathTaskParameterDefinition"].
Definition job_def_classes : list string :=
  ["JobIntParameterDefinition"; "JobFloatParameterDefinition"; "JobStringParameterDefinition"; "JobPathParameterDefinition"].

Lemma decl_name_eq : forall o o', is_obj o' = is_obj o -> jget "name" o' = jget "name" o -> decl_name o' = decl_name o.
Proof.
  intros o o' Ho Hn. destruct o, o'; cbn [is_obj] in Ho; try discriminate; try reflexivity.
  unfold decl_name. rewrite Hn. reflexivity.
Qed.

Lemma type_is_eq : forall o o' t, jget "type" o' = jget "type" o -> type_is o' t = type_is o t.
Proof. intros o o' t H. unfold type_is. rewrite H. reflexivity. Qed.

Lemma has_param_type_eq : forall o o', jget "type" o' = jget "type" o -> has_param_type o' = has_param_type o.
Proof. intros o o' H. unfold has_param_type. rewrite !(type_is_eq o o' _ H). reflexivity. Qed.

Definition same_decl (o o' : json) : Prop :=
  is_obj o' = is_obj o /\ jget "name" o' = jget "name" o /\ jget "type" o' = jget "type" o.

Lemma declared_eq : forall (ok : json -> bool) items items',
  Forall2 same_decl items items' ->
  (forall o o', jget "type" o' = jget "type" o -> ok o' = ok o) ->
  declared ok (JArr items') = declared ok (JArr items).
Proof.
  intros ok items items' HF Hok. unfold declared, obj_list.
  eapply F2_flat_map_eq; [exact HF|]. intros a a' [H1 [H2 H3]].
  rewrite (Hok _ _ H3), (decl_name_eq _ _ H1 H2). reflexivity.
Qed.

Section View.
  Variable classify : N -> cclass.
  Variable pre : string -> json -> bool.
  Variable post : string -> json -> list (string * mval) -> bool.
  Notation G := Generated.schema.
  Notation PK := (parse_kind G classify pre post).
  Notation PC := (parse_cls G classify pre post).
  Notation EXP := (exp G).
  Notation DX := (dx classify pre post).
  Notation DXA := (dx_any classify pre post).

  Variable refs : str -> option (list str).
  (* no reference is read off the string *)
  Definition quiet (s : str) : Prop := refs s = None \/ refs s = Some [].
  Hypothesis Hq : forall m e, quiet (print_dec m e).

  Lemma chk_quiet : forall vis l s, quiet s -> chk refs vis l (JStr s) = [].
  Proof. intros vis l s [H|H]; cbn [chk]; rewrite H; reflexivity. Qed.

  Lemma v_action : forall vis l a a', nul2 (DX "Action") a a' -> spec_action refs vis l a' = spec_action refs vis l a.
  Proof.
    intros vis l a a' [[-> ->]|[g [x [H [-> [Ho Ho']]]]]%dx_inv]; [reflexivity|].
    unfold spec_action. rewrite Ho, Ho'.
    rewrite (fld_exact _ _ _ g "Action" a x 0 "command" H eq_refl).
    rewrite (fld_exact _ _ _ g "Action" a x 1 "args" H eq_refl). reflexivity.
  Qed.

  Lemma v_file : forall it it', DX "EmbeddedFileText" it it' ->
    is_obj it' = is_obj it /\ jget "name" it' = jget "name" it /\ jget "data" it' = jget "data" it.
  Proof.
    intros it it' H. apply dx_inv in H. destruct H as [g [x [H [-> [Ho Ho']]]]].
    split; [congruence|]. split.
    - exact (fld_exact _ _ _ g "EmbeddedFileText" it x 0 "name" H eq_refl).
    - exact (fld_exact _ _ _ g "EmbeddedFileText" it x 2 "data" H eq_refl).
  Qed.

  Lemma v_files : forall vis l fs fs', nul2 (arr2 (DX "EmbeddedFileText")) fs fs' ->
    spec_files refs vis l fs' = spec_files refs vis l fs /\ file_names fs' = file_names fs.
  Proof.
    intros vis l fs fs' Hfs. split.
    - apply (each_eq _ _ _ _ _ _ Hfs). intros i a a' Ha. cbn [fst snd].
      destruct (v_file _ _ Ha) as [H1 [H2 H3]]. rewrite H1, H3. reflexivity.
    - destruct Hfs as [[-> ->]|[items [items' [-> [-> HF]]]]]; [reflexivity|]. unfold file_names, declared, obj_list. eapply F2_flat_map_eq; [exact HF|]. intros a a' Ha.
      destruct (v_file _ _ Ha) as [H1 [H2 H3]]. rewrite (decl_name_eq _ _ H1 H2). reflexivity.
  Qed.

  Lemma v_env_script : forall base l s s', nul2 (DX "EnvironmentScript") s s' ->
    spec_env_script refs base l s' = spec_env_script refs base l s.
  Proof.
    intros base l s s' [[-> ->]|[g [x [H [-> [Ho Ho']]]]]%dx_inv]; [reflexivity|].
    pose proof (fld_model _ _ _ g "EnvironmentScript" s x 0 "actions" "EnvironmentActions" H eq_refl) as Ha.
    pose proof (fld_models _ _ _ g "EnvironmentScript" s x 1 "embeddedFiles" "EmbeddedFileText" H eq_refl) as Hf.
    unfold spec_env_script. rewrite Ho, Ho'. cbv zeta.
    destruct (v_files (fun _ => true) [] _ _ Hf) as [_ Hfn]. rewrite Hfn.
    f_equal; [|apply v_files; exact Hf].
    destruct Ha as [[-> ->]|[g2 [x2 [H2 [-> [Hoa Hoa']]]]]%dx_inv]; [reflexivity|]. rewrite Hoa, Hoa'.
    f_equal; apply v_action.
    - exact (fld_model _ _ _ g2 "EnvironmentActions" _ x2 0 "onEnter" "Action" H2 eq_refl).
    - exact (fld_model _ _ _ g2 "EnvironmentActions" _ x2 1 "onExit" "Action" H2 eq_refl).
  Qed.

  Lemma v_env : forall base l e e', nul2 (DX "Environment") e e' -> spec_env refs base l e' = spec_env refs base l e.
  Proof.
    intros base l e e' [[-> ->]|[g [x [H [-> [Ho Ho']]]]]%dx_inv]; [reflexivity|].
    unfold spec_env. rewrite Ho, Ho'. f_equal.
    - apply v_env_script. exact (fld_model _ _ _ g "Environment" e x 1 "script" "EnvironmentScript" H eq_refl).
    - rewrite (fld_dict _ _ _ g "Environment" e x 2 "variables" H eq_refl). reflexivity.
  Qed.

  Lemma v_env_list : forall base l envs envs', nul2 (arr2 (DX "Environment")) envs envs' ->
    spec_env_list refs base l envs' = spec_env_list refs base l envs.
  Proof.
    intros base l envs envs' H. apply (each_eq _ _ _ _ _ _ H). intros i a a' Ha. cbn [fst snd].
    apply v_env. right. exact Ha.
  Qed.

  Lemma v_step_script : forall base tps l s s', nul2 (DX "StepScript") s s' ->
    spec_step_script refs base tps l s' = spec_step_script refs base tps l s.
  Proof.
    intros base tps l s s' [[-> ->]|[g [x [H [-> [Ho Ho']]]]]%dx_inv]; [reflexivity|].
    pose proof (fld_model _ _ _ g "StepScript" s x 0 "actions" "StepActions" H eq_refl) as Ha.
    pose proof (fld_models _ _ _ g "StepScript" s x 1 "embeddedFiles" "EmbeddedFileText" H eq_refl) as Hf.
    unfold spec_step_script. rewrite Ho, Ho'. cbv zeta.
    destruct (v_files (fun _ => true) [] _ _ Hf) as [_ Hfn]. rewrite Hfn.
    f_equal; [|apply v_files; exact Hf].
    destruct Ha as [[-> ->]|[g2 [x2 [H2 [-> [Hoa Hoa']]]]]%dx_inv]; [reflexivity|]. rewrite Hoa, Hoa'.
    apply v_action. exact (fld_model _ _ _ g2 "StepActions" _ x2 0 "onRun" "Action" H2 eq_refl).
  Qed.

  Lemma v_host_req : forall vis l h h', nul2 (DX "HostRequirementsTemplate") h h' ->
    spec_host_req refs vis l h' = spec_host_req refs vis l h.
  Proof.
    intros vis l h h' [[-> ->]|[g [x [H [-> [Ho Ho']]]]]%dx_inv]; [reflexivity|].
    unfold spec_host_req. rewrite Ho, Ho'. f_equal.
    - apply (each_eq _ _ _ _ _ _
               (fld_models _ _ _ g "HostRequirementsTemplate" h x 0 "amounts" "AmountRequirementTemplate" H eq_refl)).
      intros i a a' Ha. cbn [fst snd].
      apply dx_inv in Ha. destruct Ha as [g2 [x2 [H2 [-> [Hoa Hoa']]]]]. rewrite Hoa, Hoa'.
      rewrite (fld_exact _ _ _ g2 "AmountRequirementTemplate" a x2 0 "name" H2 eq_refl). reflexivity.
    - apply (each_eq _ _ _ _ _ _
               (fld_models _ _ _ g "HostRequirementsTemplate" h x 1 "attributes" "AttributeRequirementTemplate" H eq_refl)).
      intros i a a' Ha. cbn [fst snd]. cbv zeta.
      apply dx_inv in Ha. destruct Ha as [g2 [x2 [H2 [-> [Hoa Hoa']]]]]. rewrite Hoa, Hoa'.
      rewrite (fld_exact _ _ _ g2 "AttributeRequirementTemplate" a x2 0 "name" H2 eq_refl).
      rewrite (fld_exact _ _ _ g2 "AttributeRequirementTemplate" a x2 1 "anyOf" H2 eq_refl).
      rewrite (fld_exact _ _ _ g2 "AttributeRequirementTemplate" a x2 2 "allOf" H2 eq_refl). reflexivity.
  Qed.

  Lemma v_def : forall cs it it',
    (forall c, In c cs -> fld_is c 0 "name" exact_fld = true /\ fld_is c 1 "type" exact_fld = true) ->
    DXA cs it it' -> same_decl it it'.
  Proof.
    intros cs it it' Hcs [c [Hc [g [x [H [-> [Ho Ho']]]]]%dx_inv]]. destruct (Hcs c Hc) as [Hn Ht].
    split; [congruence|]. split; [exact (fld_exact _ _ _ g c it x 0 "name" H Hn)|exact (fld_exact _ _ _ g c it x 1 "type" H Ht)].
  Qed.

  Lemma v_task_def : forall it it', DXA task_def_classes it it' -> same_decl it it'.
  Proof. intros it it'. apply v_def. intros c [<-|[<-|[<-|[<-|[]]]]]; split; reflexivity. Qed.

  Lemma v_job_def : forall it it', DXA job_def_classes it it' -> same_decl it it'.
  Proof. intros it it'. apply v_def. intros c [<-|[<-|[<-|[<-|[]]]]]; split; reflexivity. Qed.

  Lemma v_pdefs : forall pd pd', nul2 (arr2 (DXA job_def_classes)) pd pd' ->
    all_params pd' = all_params pd /\ nonpath_params pd' = nonpath_params pd /\ path_params pd' = path_params pd.
  Proof.
    intros pd pd' [[-> ->]|[items [items' [-> [-> HF]]]]]; [repeat split; reflexivity|].
    assert (HF' : Forall2 same_decl items items') by (eapply ListLib.Forall2_impl; [|exact HF]; apply v_job_def).
    unfold all_params, nonpath_params, path_params. repeat split; apply declared_eq; try exact HF'.
    - apply has_param_type_eq.
    - intros o o' Ht. rewrite (has_param_type_eq _ _ Ht), (type_is_eq _ _ _ Ht). reflexivity.
    - intros o o' Ht. apply type_is_eq. exact Ht.
  Qed.

  Lemma stp_cong : forall vis l tp tp',
    is_obj tp' = is_obj tp -> jget "type" tp' = jget "type" tp -> jget "range" tp' = jget "range" tp ->
    spec_task_param refs vis l tp' = spec_task_param refs vis l tp.
  Proof.
    intros vis l tp tp' Ho Ht Hr. unfold spec_task_param. rewrite Ho. cbv zeta. rewrite Hr.
    rewrite !(type_is_eq _ _ _ Ht). reflexivity.
  Qed.

  Lemma pk_dec : forall g a z, PK g KDec a = Ok z -> exists m e, z = MDec m e.
  Proof.
    intros g a z H. destruct g as [|g]; [discriminate|]. rewrite parse_kind_Sb in H. cbn [kind_body] in H.
    apply scalar_body_stored in H. destruct z; try discriminate H. eauto.
  Qed.

  Notation K_int_item := (KUnion [UScalar (KInt false None None None);
                                  UScalar (KFormat "TaskParameterStringValue" None None CS_any)]).
  Notation K_float_item := (KUnion [UScalar KDec; UScalar (KFormat "TaskParameterStringValue" None None CS_any)]).

  Lemma int_item : forall g a z, PK g K_int_item a = Ok z -> EXP z = a \/ exists n, EXP z = JInt n.
  Proof.
    intros g a z H. destruct g as [|g]; [discriminate|]. rewrite parse_kind_Sb in H. cbn [kind_body] in H.
    destruct (try_alts_two_ok _ _ _ _ _ H) as [E1|[_ H2]]; cbn [alt_value] in *.
    - right. pose proof (pk_jt _ _ _ _ _ _ _ _ E1) as Ht. cbn [jt] in Ht.
      destruct (EXP z); try discriminate. eauto.
    - left. eapply pk_exact; [|exact H2]. reflexivity.
  Qed.

  Lemma float_item : forall g a z, PK g K_float_item a = Ok z -> EXP z = a \/ exists m e, EXP z = JStr (print_dec m e).
  Proof.
    intros g a z H. destruct g as [|g]; [discriminate|]. rewrite parse_kind_Sb in H. cbn [kind_body] in H.
    destruct (try_alts_two_ok _ _ _ _ _ H) as [E1|[_ H2]]; cbn [alt_value] in *.
    - right. destruct (pk_dec _ _ _ E1) as [m [e Ez]]. subst z. exists m, e. reflexivity.
    - left. eapply pk_exact; [|exact H2]. reflexivity.
  Qed.

  Lemma v_task_param : forall vis l it it', DXA task_def_classes it it' ->
    spec_task_param refs vis l it = [] -> spec_task_param refs vis l it' = [].
  Proof.
    intros vis l it it' Hd. destruct (v_task_def _ _ Hd) as [Ho [_ Ht]].
    destruct Hd as [c [Hc H]]. apply dx_inv in H. destruct H as [g [x [H [-> [Hoi Hoi']]]]].
    destruct Hc as [<-|[<-|[<-|[<-|[]]]]].
    3,4: (* STRING, PATH: the range is stored as given *)
      rewrite (stp_cong vis l it _ (eq_trans Hoi' (eq_sym Hoi)) Ht (fld_exact _ _ _ g _ it x 2 "range" H eq_refl)); auto.
    - (* INT *)
      pose proof (fld_lit _ _ _ g _ it x 1 "type" "INT" H eq_refl) as Ety.
      destruct (fld_raw _ _ _ g _ it x 2 "range" (fun _ => true) H eq_refl) as [f' [y [_ [Hfv [He _]]]]].
      assert (Eint : type_is it "INT" = true) by (unfold type_is; rewrite Ety; reflexivity).
      unfold spec_task_param. rewrite Hoi, Hoi'. cbv zeta. rewrite !(type_is_eq _ _ _ Ht), Eint. rewrite He.
      set (F := fld "IntTaskParameterDefinition" 2) in Hfv. vm_compute in F. subst F.
      destruct (field_value_cases _ _ _ _ Hfv) as [[_ [_ Erq]]|[_ Hsv]]; [discriminate|].
      unfold shape_value in Hsv. cbn [f_shape f_kind] in Hsv.
      destruct f' as [|f']; [discriminate|]. rewrite parse_kind_Sb in Hsv. cbn [kind_body] in Hsv.
      destruct (try_alts_two_ok _ _ _ _ _ Hsv) as [E1|[_ H2]]; cbn [alt_value] in *.
      + destruct (list_value_inv _ _ _ _ _ _ E1) as [items [ys [Er [Ey HF]]]].
        subst y. rewrite Er, exp_list.
        apply (F2_flat_map_nil _ _ (fun a a' => a' = a \/ exists n, a' = JInt n)).
        * apply F2_map_r. eapply ListLib.Forall2_impl; [|exact HF]. intros a z Hz. cbn beta in Hz. eapply int_item. exact Hz.
        * intros a a' [->|[n ->]] Hn; [exact Hn|reflexivity].
      + rewrite (pk_exact _ _ _ _ _ (KFormat "RangeString" (Some 1%N) None CS_any) _ _ eq_refl H2). auto.
    - (* FLOAT *)
      pose proof (fld_lit _ _ _ g _ it x 1 "type" "FLOAT" H eq_refl) as Ety.
      destruct (fld_raw _ _ _ g _ it x 2 "range" (fun _ => true) H eq_refl) as [f' [y [_ [Hfv [He _]]]]].
      assert (Eint : type_is it "INT" = false) by (unfold type_is; rewrite Ety; reflexivity).
      assert (Eflt : type_is it "FLOAT" = true) by (unfold type_is; rewrite Ety; reflexivity).
      unfold spec_task_param. rewrite Hoi, Hoi'. cbv zeta. rewrite !(type_is_eq _ _ _ Ht), Eint, Eflt.
      cbn [orb]. rewrite He.
      set (F := fld "FloatTaskParameterDefinition" 2) in Hfv. vm_compute in F. subst F.
      eapply fv_list in Hfv; [|reflexivity]. destruct Hfv as [[Er Ey]|[items [ys [Er [Ey HF]]]]].
      + subst y. rewrite Er. auto.
      + subst y. rewrite Er, exp_list. cbn [f_kind] in HF. unfold chk_list, indexed.
        apply (F2_concat_seq_nil _ _ (fun a a' => a' = a \/ exists m e, a' = JStr (print_dec m e))).
        * apply F2_map_r. eapply ListLib.Forall2_impl; [|exact HF]. intros a z Hz. cbn beta in Hz. eapply float_item. exact Hz.
        * intros i a a' [->|[m [e ->]]] Hn; [exact Hn|]. cbn [snd fst]. apply chk_quiet. apply Hq.
  Qed.

  Lemma v_param_space : forall ps ps', nul2 (DX "StepParameterSpaceDefinition") ps ps' ->
    task_param_names ps' = task_param_names ps
    /\ forall vis l, spec_param_space refs vis l ps = [] -> spec_param_space refs vis l ps' = [].
  Proof.
    intros ps ps' [[-> ->]|[g [x [H [-> [Ho Ho']]]]]%dx_inv]; [split; [reflexivity|auto]|].
    unfold task_param_names, spec_param_space. rewrite Ho, Ho'.
    pose proof (fld_discs _ _ _ g "StepParameterSpaceDefinition" ps x 0 "taskParameterDefinitions" task_def_classes H eq_refl)
      as Hd.
    split.
    - destruct Hd as [[-> ->]|[items [items' [-> [-> HF]]]]]; [reflexivity|].
      apply declared_eq; [|apply has_param_type_eq]. eapply ListLib.Forall2_impl; [|exact HF]. apply v_task_def.
    - intros vis l. apply (each_nil _ _ _ _ _ _ Hd). intros i a a' Ha. cbn [fst snd]. apply v_task_param. exact Ha.
  Qed.

  Lemma vis_eq : forall pd pd',
    all_params pd' = all_params pd -> nonpath_params pd' = nonpath_params pd -> path_params pd' = path_params pd ->
    vis_template pd' = vis_template pd /\ vis_session pd' = vis_session pd.
  Proof.
    intros pd pd' H1 H2 H3. unfold vis_session, vis_template. rewrite H1, H2, H3. split; reflexivity.
  Qed.

  Lemma v_step : forall pd pd' l st st', DX "StepTemplate" st st' ->
    vis_template pd' = vis_template pd -> vis_session pd' = vis_session pd ->
    spec_step refs pd l st = [] -> spec_step refs pd' l st' = [].
  Proof.
    intros pd pd' l st st' H Evt Evs.
    apply dx_inv in H. destruct H as [g [x [H [-> [Ho Ho']]]]].
    unfold spec_step. rewrite Ho, Ho', Evt, Evs.
    destruct (v_param_space _ _ (fld_model _ _ _ g "StepTemplate" st x 4 "parameterSpace" "StepParameterSpaceDefinition" H eq_refl))
      as [Etp Hps].
    rewrite Etp.
    rewrite (v_step_script _ _ _ _ _ (fld_model _ _ _ g "StepTemplate" st x 2 "script" "StepScript" H eq_refl)).
    rewrite (v_env_list _ _ _ _ (fld_models _ _ _ g "StepTemplate" st x 3 "stepEnvironments" "Environment" H eq_refl)).
    rewrite (v_host_req _ _ _ _ (fld_model _ _ _ g "StepTemplate" st x 5 "hostRequirements" "HostRequirementsTemplate" H eq_refl)).
    apply app_nil_2; [auto|]. apply app_nil_2; [auto|]. apply app_nil_2; [apply Hps|auto].
  Qed.

  Theorem spec_job_stable : forall f v x,
    PC f "JobTemplate" v = Ok x -> spec_job_template refs v = [] -> spec_job_template refs (EXP x) = [].
  Proof.
    intros f v x H. unfold spec_job_template. cbv zeta.
    destruct (v_pdefs _ _ (fld_discs _ _ _ f "JobTemplate" v x 4 "parameterDefinitions" job_def_classes H eq_refl))
      as [H1 [H2 H3]].
    destruct (vis_eq _ _ H1 H2 H3) as [Evt Evs]. rewrite Evt, Evs.
    rewrite (fld_exact _ _ _ f "JobTemplate" v x 1 "name" H eq_refl).
    rewrite (v_env_list _ _ _ _ (fld_models _ _ _ f "JobTemplate" v x 5 "jobEnvironments" "Environment" H eq_refl)).
    apply app_nil_2; [auto|]. apply app_nil_2; [|auto].
    apply (each_nil _ _ _ _ _ _ (fld_models _ _ _ f "JobTemplate" v x 2 "steps" "StepTemplate" H eq_refl)).
    intros i a a' Ha. cbn [fst snd]. apply v_step; assumption.
  Qed.

  Theorem spec_env_stable : forall f v x,
    PC f "EnvironmentTemplate" v = Ok x -> spec_env_template refs (EXP x) = spec_env_template refs v.
  Proof.
    intros f v x H. unfold spec_env_template. cbv zeta.
    destruct (v_pdefs _ _ (fld_discs _ _ _ f "EnvironmentTemplate" v x 1 "parameterDefinitions" job_def_classes H eq_refl))
      as [H1 [H2 H3]].
    destruct (vis_eq _ _ H1 H2 H3) as [_ Evs]. rewrite Evs.
    apply v_env. exact (fld_model _ _ _ f "EnvironmentTemplate" v x 2 "environment" "Environment" H eq_refl).
  Qed.
End View.
