(* GlueLib.v — small schema-independent lemmas shared by the glue proofs (C04, C06, C09, C18, C19).
   [gl_str_eqb_sym] and [gl_str_eqb_app_l] are ListLib's facts. *)
From Coq Require Import List.
Import ListNotations.
Require Import OJD.Base OJD.Json OJD.ListLib.
Local Open Scope list_scope.

Lemma gl_str_eqb_sym : forall a b, str_eqb a b = str_eqb b a.
Proof. exact ListLib.str_eqb_sym. Qed.

Lemma gl_str_eqb_app_l : forall p a b, str_eqb (p ++ a) (p ++ b) = str_eqb a b.
Proof. exact ListLib.str_eqb_app_l. Qed.

Lemma gl_concat_nil : forall (A : Type) (ls : list (list A)),
  List.concat ls = [] -> forall l, In l ls -> l = [].
Proof.
  induction ls as [|x r IH]; intros H l Hin; [destruct Hin|].
  simpl in H. apply app_eq_nil in H. destruct H as [H1 H2].
  destruct Hin as [<-|Hin]; [exact H1|]. apply IH; assumption.
Qed.

Lemma gl_flat_map_nil : forall (A B : Type) (f : A -> list B) l,
  flat_map f l = [] -> forall x, In x l -> f x = [].
Proof.
  induction l as [|a r IH]; intros H x Hin; [destruct Hin|].
  simpl in H. apply app_eq_nil in H. destruct H as [H1 H2].
  destruct Hin as [<-|Hin]; [exact H1|]. apply IH; assumption.
Qed.

Lemma gl_in_combine_seq : forall (A : Type) (l : list A) x (s : nat),
  In x l -> exists i, In (i, x) (combine (seq s (List.length l)) l).
Proof.
  induction l as [|a r IH]; intros x s Hin; [destruct Hin|].
  simpl. destruct Hin as [<-|Hin].
  - exists s. left. reflexivity.
  - destruct (IH x (S s) Hin) as [i Hi]. exists i. right. exact Hi.
Qed.
