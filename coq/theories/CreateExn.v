(* CreateExn.v — lemmas behind props/C06.v, part 2: which exceptions can leave the create_job model
   (CreateJob.inst + Export.nodes_ok / create_job_verdict), and when KeyError can. *)
From Coq Require Import List NArith ZArith Bool String Lia.
Import ListNotations.
Require Import OJD.Base OJD.Lexer OJD.Json OJD.Schema OJD.Generated OJD.FormatStr OJD.FormatStrProofs
               OJD.CreateJob OJD.CreateJobProofs OJD.Parse OJD.Validators OJD.Accept OJD.Export
               OJD.ListLib OJD.ParseOutcomes.
Local Open Scope string_scope.
Local Open Scope list_scope.

(* FormatString(s).resolve(symtab): FormatStringError or nothing — for any class table *)
Lemma fs_resolve_only_fse : forall classify sigma s e,
  Export.fs_resolve classify sigma s = Raise e -> e = FormatStringError.
Proof.
  intros classify sigma s e H. unfold Export.fs_resolve in H.
  destruct (mk classify s) as [f|e0] eqn:Hm.
  - unfold resolve in H. eapply resolve_items_errors. exact H.
  - injection H as <-. eapply mk_errors. exact Hm.
Qed.

(* names of the job parameter definitions of an instance tree: the models whose creation metadata
   adds {"value": symtab["RawParam.<name>"]} *)
Fixpoint adds_names (SC : schema_t) (v : mval) : list str :=
  match v with
  | MList l => flat_map (adds_names SC) l
  | MDict l => flat_map (fun kv => adds_names SC (snd kv)) l
  | MModel c fs =>
    (if j_adds_value (jcm_of SC c) then match mfield "name" fs with MStr n => [n] | _ => [] end else [])
    ++ flat_map (fun kv => adds_names SC (snd kv)) fs
  | _ => []
  end.

Lemma direct_adds : forall SC x y n, In y (direct x) -> In n (adds_names SC y) -> In n (adds_names SC x).
Proof.
  intros SC x y n H Hn. destruct x; simpl in H;
    try (destruct H as [H|[]]; subst; exact Hn).
  - simpl. apply in_flat_map. exists y. split; assumption.
  - simpl. apply in_map_iff in H. destruct H as [kv [E H]]. subst y.
    apply in_flat_map. exists kv. split; assumption.
Qed.

Section Raise.
  Variable resolve : symtab -> str -> outcome str.
  Variable sigma : symtab.
  Variable rec : mval -> outcome mval.
  Variable j : jcm.

  Definition key_exn (e : exn) : Prop := e = TypeError \/ e = AttributeError.

  Lemma key_of_raise : forall v kf e, key_of v kf = Raise e -> key_exn e.
  Proof.
    intros v kf e H. unfold key_of in H. destruct v as [ | | | | | | | | |c fields]; try (injection H as <-; right; reflexivity).
    destruct (mfield kf fields); try discriminate H; injection H as <-; left; reflexivity.
  Qed.

  Lemma inst_item_raise : forall fn x e, inst_item resolve sigma rec j fn x = Raise e ->
    rec x = Raise e \/ exists s, resolve sigma s = Raise e.
  Proof.
    intros fn x e H. unfold inst_item in H. destruct x as [ | | | | | |s| | |c fields]; try discriminate H.
    - destruct (mem_s fn (j_resolve j)); [|discriminate H].
      destruct (resolve sigma s) as [r|e'] eqn:Er; cbn [bind] in H; [discriminate H|].
      injection H as <-. right. exists s. exact Er.
    - left. exact H.
  Qed.

  Lemma inst_member_raise : forall kv e, inst_member resolve sigma rec j kv = Raise e ->
    rec (snd kv) = Raise e \/ exists s, resolve sigma s = Raise e.
  Proof.
    intros kv e H. unfold inst_member in H.
    destruct (snd kv) as [ | | | | | |s| | |cls fields] eqn:Es; cbn [bind] in H; try discriminate H.
    - destruct (existsb _ (j_resolve j)); cbn [bind] in H; [|discriminate H].
      destruct (resolve sigma s) as [r|e'] eqn:Er; cbn [bind] in H; [discriminate H|].
      injection H as <-. right. exists s. exact Er.
    - destruct (rec (MModel cls fields)) as [y|e'] eqn:Er; cbn [bind] in H; [discriminate H|].
      injection H as <-. left. reflexivity.
  Qed.

  Lemma reshape_fold_raise : forall fn kf items acc e,
    fold_left (reshape_step resolve sigma rec j fn kf) items acc = Raise e ->
    acc = Raise e \/
    exists item, In item items /\ (key_of item kf = Raise e \/ inst_item resolve sigma rec j fn item = Raise e).
  Proof.
    intros fn kf items. induction items as [|it r IH]; intros acc e H; [left; exact H|].
    cbn [fold_left] in H. apply IH in H. destruct H as [H|[item [Hin Hx]]].
    - unfold reshape_step in H. destruct acc as [a|e0]; cbn [bind] in H.
      + right. exists it. split; [left; reflexivity|].
        destruct (key_of it kf) as [k|e1]; cbn [bind] in H.
        * destruct (inst_item resolve sigma rec j fn it) as [y|e2]; cbn [bind] in H; [discriminate H|].
          right. injection H as <-. reflexivity.
        * left. injection H as <-. reflexivity.
      + left. exact H.
    - right. exists item. split; [right; exact Hin|exact Hx].
  Qed.

  (* where a TypeError / AttributeError of a reshape key comes from *)
  Definition key_fail (fn : string) (x : mval) (e : exn) : Prop :=
    exists items kf item, x = MList items /\ lookup_s fn (j_reshape j) = Some kf /\ In item items /\
                          key_of item kf = Raise e.

  Lemma inst_val_raise : forall fn x e, inst_val resolve sigma rec j fn x = Raise e ->
    (exists y, In y (direct x) /\ rec y = Raise e) \/ (exists s, resolve sigma s = Raise e) \/ key_fail fn x e.
  Proof.
    intros fn x e H. unfold inst_val in H.
    assert (K : inst_item resolve sigma rec j fn x = Raise e -> direct x = [x] ->
                (exists y, In y (direct x) /\ rec y = Raise e) \/ (exists s, resolve sigma s = Raise e) \/ key_fail fn x e).
    { intros Hi Hd. apply inst_item_raise in Hi. destruct Hi as [Hi|Hi].
      - left. exists x. split; [rewrite Hd; left; reflexivity|exact Hi].
      - right. left. exact Hi. }
    destruct x as [ | | | | | | |l|l|c fields]; try (apply K; [exact H|reflexivity]).
    - destruct (lookup_s fn (j_reshape j)) as [kf|] eqn:Ek.
      + destruct (fold_left _ l (Ok [])) as [d|e'] eqn:Ef; cbn [bind] in H; [discriminate H|].
        injection H as <-. apply reshape_fold_raise in Ef.
        destruct Ef as [Ef|[item [Hin [Hk|Hi]]]]; [discriminate Ef| |].
        * right. right. exists l, kf, item. repeat split; assumption.
        * apply inst_item_raise in Hi. destruct Hi as [Hi|Hi].
          -- left. exists item. split; [exact Hin|exact Hi].
          -- right. left. exact Hi.
      + destruct (mapM _ l) as [l'|e'] eqn:Em; cbn [bind] in H; [discriminate H|].
        injection H as <-. apply mapM_raise_in in Em. destruct Em as [y [Hin Hi]].
        apply inst_item_raise in Hi. destruct Hi as [Hi|Hi].
        * left. exists y. split; [exact Hin|exact Hi].
        * right. left. exact Hi.
    - destruct (mapM _ l) as [l'|e'] eqn:Em; cbn [bind] in H; [discriminate H|].
      injection H as <-. apply mapM_raise_in in Em. destruct Em as [kv [Hin Hi]].
      apply inst_member_raise in Hi. destruct Hi as [Hi|Hi].
      + left. exists (snd kv). split; [cbn [direct]; apply in_map; exact Hin|exact Hi].
      + right. left. exact Hi.
  Qed.

  Lemma key_fail_exn : forall fn x e, key_fail fn x e -> key_exn e.
  Proof. intros fn x e [items [kf [item [_ [_ [_ Hk]]]]]]. eapply key_of_raise. exact Hk. Qed.

  Lemma add_value_raise : forall fields fs e, add_value sigma j fields fs = Raise e ->
    (e = AttributeError /\ j_adds_value j = true /\ forall n, mfield "name" fields <> MStr n) \/
    (e = KeyError /\ j_adds_value j = true /\
     exists n, mfield "name" fields = MStr n /\ st_lookup sigma ($"RawParam." ++ n) = None).
  Proof.
    intros fields fs e H. unfold add_value in H.
    destruct (j_adds_value j); [|discriminate H].
    destruct (mfield "name" fields) eqn:En;
      try (injection H as <-; left; split; [reflexivity|]; split; [reflexivity|]; intros n E; discriminate E).
    destruct (st_lookup sigma ($"RawParam." ++ s)) eqn:El; [discriminate H|].
    injection H as <-. right. split; [reflexivity|]. split; [reflexivity|]. exists s. split; [reflexivity|exact El].
  Qed.

  (* provenance of a raise of instantiate_model on one node *)
  Lemma inst_model_raise_fine : forall c fields e, inst_model resolve sigma rec j c fields = Raise e ->
    (exists fv y, In fv fields /\ In y (direct (snd fv)) /\ rec y = Raise e)
    \/ (exists s, resolve sigma s = Raise e)
    \/ (exists fv, In fv fields /\ key_fail (fst fv) (snd fv) e)
    \/ (e = AttributeError /\ j_adds_value j = true /\ forall n, mfield "name" fields <> MStr n)
    \/ (e = KeyError /\ j_adds_value j = true /\
        exists n, mfield "name" fields = MStr n /\ st_lookup sigma ($"RawParam." ++ n) = None).
  Proof.
    intros c fields e H. unfold inst_model in H.
    destruct (mapM (inst_field resolve sigma rec j) fields) as [fs|e'] eqn:Em; cbn [bind] in H.
    - destruct (add_value sigma j fields (List.concat fs)) as [fs'|e''] eqn:Ea; cbn [bind] in H; [discriminate H|].
      injection H as <-. apply add_value_raise in Ea. destruct Ea as [Ea|Ea].
      + right. right. right. left. exact Ea.
      + right. right. right. right. exact Ea.
    - injection H as <-. apply mapM_raise_in in Em. destruct Em as [[fn x] [Hin Hi]].
      unfold inst_field in Hi. destruct (mem_s fn (j_exclude j)); [discriminate Hi|].
      destruct (inst_val resolve sigma rec j fn x) as [y|e1] eqn:Ev; cbn [bind] in Hi; [discriminate Hi|].
      injection Hi as <-. apply inst_val_raise in Ev. destruct Ev as [[y [Hy Hr]]|[Hs|Hk]].
      + left. exists (fn, x), y. split; [exact Hin|]. split; [exact Hy|exact Hr].
      + right. left. exact Hs.
      + right. right. left. exists (fn, x). split; [exact Hin|exact Hk].
  Qed.

  Lemma inst_model_raise : forall c fields e, inst_model resolve sigma rec j c fields = Raise e ->
    (exists fv y, In fv fields /\ In y (direct (snd fv)) /\ rec y = Raise e)
    \/ (exists s, resolve sigma s = Raise e)
    \/ key_exn e
    \/ (e = KeyError /\ j_adds_value j = true /\
        exists n, mfield "name" fields = MStr n /\ st_lookup sigma ($"RawParam." ++ n) = None).
  Proof.
    intros c fields e H. apply inst_model_raise_fine in H.
    destruct H as [H|[H|[[fv [_ Hk]]|[[-> _]|H]]]].
    - left. exact H.
    - right. left. exact H.
    - right. right. left. eapply key_fail_exn. exact Hk.
    - right. right. left. right. reflexivity.
    - right. right. right. exact H.
  Qed.
End Raise.

(* the five exception families that can leave [inst] *)
Definition inst_exn (e : exn) : Prop :=
  e = FormatStringError \/ e = KeyError \/ e = TypeError \/ e = AttributeError \/ e = RuntimeError.

Theorem inst_raises : forall SC resolve sigma,
  (forall s e, resolve sigma s = Raise e -> e = FormatStringError) ->
  forall fuel v e, inst SC resolve sigma fuel v = Raise e -> inst_exn e.
Proof.
  intros SC resolve sigma Hres. induction fuel as [|f IH]; intros v e H.
  - rewrite inst_O in H. injection H as <-. unfold inst_exn. tauto.
  - rewrite inst_S in H. destruct v; try discriminate H.
    apply inst_model_raise in H. destruct H as [[fv [y [_ [_ Hr]]]]|[[s Hs]|[[ -> | -> ]|[ -> _]]]].
    + eapply IH. exact Hr.
    + apply Hres in Hs. subst e. unfold inst_exn. tauto.
    + unfold inst_exn. tauto.
    + unfold inst_exn. tauto.
    + unfold inst_exn. tauto.
Qed.

(* KeyError: only the lookup symtab["RawParam.<name>"] of a job parameter definition *)
Theorem inst_keyerror : forall SC resolve sigma,
  (forall s e, resolve sigma s = Raise e -> e = FormatStringError) ->
  forall fuel v, inst SC resolve sigma fuel v = Raise KeyError ->
  exists n, In n (adds_names SC v) /\ st_lookup sigma ($"RawParam." ++ n) = None.
Proof.
  intros SC resolve sigma Hres. induction fuel as [|f IH]; intros v H.
  - rewrite inst_O in H. discriminate H.
  - rewrite inst_S in H. destruct v as [ | | | | | | | | |c fields]; try discriminate H.
    apply inst_model_raise in H. destruct H as [[fv [y [Hfv [Hy Hr]]]]|[[s Hs]|[[E|E]|[_ [Ha [n [Hn Hl]]]]]]].
    + destruct (IH y Hr) as [n [Hn Hl]]. exists n. split; [|exact Hl].
      cbn [adds_names]. apply in_or_app. right. apply in_flat_map. exists fv. split; [exact Hfv|].
      eapply direct_adds; eassumption.
    + apply Hres in Hs. discriminate Hs.
    + discriminate E.
    + discriminate E.
    + exists n. split; [|exact Hl]. cbn [adds_names]. apply in_or_app. left. rewrite Ha, Hn. left. reflexivity.
Qed.

Lemma first_named_some : forall n vals, In n (map v_name vals) -> first_named n vals <> None.
Proof.
  intros n vals Hin Hn. unfold first_named in Hn. apply in_map_iff in Hin. destruct Hin as [e [<- He]].
  pose proof (find_none _ _ Hn e He) as E. cbv beta in E. rewrite str_eqb_refl in E. discriminate E.
Qed.

(* with values for every job parameter of the template, no KeyError *)
Theorem inst_no_keyerror : forall SC resolve vals,
  (forall s e, resolve (symtab_of vals) s = Raise e -> e = FormatStringError) ->
  forall fuel v, (forall n, In n (adds_names SC v) -> In n (map v_name vals)) ->
  inst SC resolve (symtab_of vals) fuel v <> Raise KeyError.
Proof.
  intros SC resolve vals Hres fuel v Hc H.
  destruct (inst_keyerror SC resolve (symtab_of vals) Hres fuel v H) as [n [Hn Hl]].
  change (str_of_string "RawParam.") with p_raw in Hl. rewrite symtab_raw in Hl.
  specialize (Hc n Hn). apply first_named_some in Hc. destruct (first_named n vals); [discriminate Hl|contradiction].
Qed.

(* ------------------------------------------------------------------ nodes_ok / create_job_verdict *)

Lemma all_fold_raise : forall (F : mval -> outcome bool) l acc e,
  fold_left (fun (acc : outcome bool) x => do a <- acc; if a then F x else Ok false) l acc = Raise e ->
  acc = Raise e \/ exists x, In x l /\ F x = Raise e.
Proof.
  intros F l. induction l as [|y r IH]; intros acc e H; [left; exact H|].
  cbn [fold_left] in H. apply IH in H. destruct H as [H|[x [Hx Hf]]].
  - destruct acc as [a|e0]; cbn [bind] in H; [|left; exact H].
    destruct a; [|discriminate H]. right. exists y. split; [left; reflexivity|exact H].
  - right. exists x. split; [right; exact Hx|exact Hf].
Qed.

Theorem nodes_ok_raises : forall classify fuel v e, nodes_ok classify fuel v = Raise e -> e = RuntimeError.
Proof.
  intros classify. induction fuel as [|f IH]; intros v e H; [injection H as <-; reflexivity|].
  cbn [nodes_ok] in H.
  assert (A : forall l, fold_left (fun (acc : outcome bool) x => do a <- acc; if a then nodes_ok classify f x else Ok false)
                                  l (Ok true) = Raise e -> e = RuntimeError).
  { intros l Hl. apply all_fold_raise in Hl. destruct Hl as [Hl|[x [_ Hx]]]; [discriminate Hl|]. eapply IH. exact Hx. }
  destruct v as [ | | | | | | |l|l|cls fields]; try discriminate H.
  - apply A in H. exact H.
  - apply A in H. exact H.
  - destruct (fold_left _ (map snd fields) (Ok true)) as [below|e'] eqn:Eb; cbn [bind] in H.
    + destruct below; [|discriminate H].
      destruct (parse_any classify cls (export (MModel cls fields))) as [m|e1] eqn:Ep; [discriminate H|].
      apply parse_any_outcomes in Ep. destruct Ep as [ -> | -> ]; [discriminate H|].
      injection H as <-. reflexivity.
    + injection H as <-. apply A in Eb. exact Eb.
Qed.

Theorem create_job_verdict_raises : forall classify vals t e,
  create_job_verdict classify vals t = Raise e ->
  e <> FormatStringError /\
  (e = KeyError \/ e = TypeError \/ e = AttributeError \/ e = RuntimeError) /\
  (e = KeyError -> exists n, In n (adds_names Generated.schema t) /\ ~ In n (map v_name vals)).
Proof.
  intros classify vals t e H. unfold create_job_verdict in H.
  assert (Hres : forall s e', Export.fs_resolve classify (symtab_of vals) s = Raise e' -> e' = FormatStringError).
  { intros s e'. apply fs_resolve_only_fse. }
  destruct (inst Generated.schema (Export.fs_resolve classify) (symtab_of vals) (S (mval_depth t)) t) as [job|e0] eqn:Ei.
  - apply nodes_ok_raises in H. subst e. split; [discriminate|]. split; [tauto|]. discriminate.
  - pose proof (inst_raises _ _ _ Hres _ _ _ Ei) as He0.
    assert (E : e0 = e /\ e0 <> FormatStringError).
    { destruct e0; try (injection H as <-; split; [reflexivity|discriminate]). discriminate H. }
    destruct E as [<- Hne]. split; [exact Hne|]. split.
    + unfold inst_exn in He0. tauto.
    + intros ->. destruct (inst_keyerror _ _ _ Hres _ _ Ei) as [n [Hn Hl]].
      exists n. split; [exact Hn|]. intros Hin.
      change (str_of_string "RawParam.") with p_raw in Hl. rewrite symtab_raw in Hl.
      apply first_named_some in Hin. destruct (first_named n vals); [discriminate Hl|contradiction].
Qed.

(* the classes whose creation adds a value: the four job parameter definition classes *)
Definition adds_value_classes (s : schema_t) : list string :=
  flat_map (fun nc => if j_adds_value (c_jcm (snd nc)) then [fst nc] else []) s.

Lemma adds_value_classes_ok :
  adds_value_classes Generated.schema =
  ["JobStringParameterDefinition"; "JobPathParameterDefinition"; "JobIntParameterDefinition"; "JobFloatParameterDefinition"].
Proof. vm_compute. reflexivity. Qed.

(* the classes with a reshape (list -> dict keyed by a field): where TypeError / AttributeError of
   key_of could arise; the key field is the constr "name" of a model, always a string *)
Definition reshape_table (s : schema_t) : list (string * list (string * string)) :=
  flat_map (fun nc => match j_reshape (c_jcm (snd nc)) with [] => [] | l => [(fst nc, l)] end) s.

Lemma reshape_table_ok :
  reshape_table Generated.schema =
  [("StepParameterSpaceDefinition", [("taskParameterDefinitions", "name")]);
   ("JobTemplate", [("parameterDefinitions", "name")])].
Proof. vm_compute. reflexivity. Qed.
