(* JsonEquiv.v — a schema-independent equivalence of JSON documents, for C05_exact:

     * scalars are equal; arrays are equivalent pointwise (same length, same order);
     * objects are compared as FINITE MAPS: a member whose value is JNull is the same as no member,
       among the remaining members the first binding of a key is the one that counts, and the two
       objects must bind the same keys to equivalent values.  Member order is irrelevant.

   [json_equiv] is an equivalence relation; [strip_nulls] (the specification's "explicit nulls are
   absent members") maps every document to an equivalent one. *)
From Coq Require Import List NArith ZArith Bool String Lia.
Import ListNotations.
Require Import OJD.Base OJD.Json OJD.ListLib.
Local Open Scope list_scope.

Section JsonInd.
  Variable P : json -> Prop.
  Hypothesis HNull : P JNull.
  Hypothesis HBool : forall b, P (JBool b).
  Hypothesis HInt : forall z, P (JInt z).
  Hypothesis HDec : forall m e, P (JDec m e).
  Hypothesis HStr : forall s, P (JStr s).
  Hypothesis HArr : forall l, Forall P l -> P (JArr l).
  Hypothesis HObj : forall ms, Forall (fun kv => P (snd kv)) ms -> P (JObj ms).

  Fixpoint json_ind2 (j : json) : P j :=
    match j with
    | JNull => HNull
    | JBool b => HBool b
    | JInt z => HInt z
    | JDec m e => HDec m e
    | JStr s => HStr s
    | JArr l =>
      HArr l ((fix go (l : list json) : Forall P l :=
                 match l with
                 | [] => Forall_nil _
                 | x :: r => Forall_cons x (json_ind2 x) (go r)
                 end) l)
    | JObj ms =>
      HObj ms ((fix go (l : list (str * json)) : Forall (fun kv => P (snd kv)) l :=
                  match l with
                  | [] => Forall_nil _
                  | x :: r => Forall_cons x (json_ind2 (snd x)) (go r)
                  end) ms)
    end.
End JsonInd.

(* a value that is present *)
Definition onn (v : json) : option json := match v with JNull => None | _ => Some v end.

(* the binding of [k]: first member with that key whose value is not null *)
Fixpoint jfind (k : str) (ms : list (str * json)) : option json :=
  match ms with
  | [] => None
  | (k', v) :: r => if str_eqb k k' then (match onn v with Some x => Some x | None => jfind k r end) else jfind k r
  end.

Inductive opt_rel {A : Type} (R : A -> A -> Prop) : option A -> option A -> Prop :=
| OR_none : opt_rel R None None
| OR_some : forall a b, R a b -> opt_rel R (Some a) (Some b).

Inductive json_equiv : json -> json -> Prop :=
| JE_null : json_equiv JNull JNull
| JE_bool : forall b, json_equiv (JBool b) (JBool b)
| JE_int : forall z, json_equiv (JInt z) (JInt z)
| JE_dec : forall m e, json_equiv (JDec m e) (JDec m e)
| JE_str : forall s, json_equiv (JStr s) (JStr s)
| JE_arr : forall l l', Forall2 json_equiv l l' -> json_equiv (JArr l) (JArr l')
| JE_obj : forall ms ms', (forall k, opt_rel json_equiv (jfind k ms) (jfind k ms')) ->
                          json_equiv (JObj ms) (JObj ms').

Lemma jfind_in : forall k ms v, jfind k ms = Some v -> In (k, v) ms /\ v <> JNull.
Proof.
  induction ms as [|[k' x] r IH]; intros v H; [discriminate H|].
  cbn [jfind] in H. destruct (str_eqb k k') eqn:E.
  - apply str_eqb_eq in E. subst k'. destruct x; cbn [onn] in H;
      try (injection H as <-; split; [left; reflexivity|discriminate]).
    destruct (IH v H) as [H1 H2]. split; [right; exact H1|exact H2].
  - destruct (IH v H) as [H1 H2]. split; [right; exact H1|exact H2].
Qed.

Lemma jfind_notin : forall k ms, ~ In k (map fst ms) -> jfind k ms = None.
Proof.
  induction ms as [|[k' x] r IH]; intros H; [reflexivity|].
  cbn [jfind]. rewrite (proj2 (str_eqb_neq k k')) by (intros E; apply H; left; symmetry; exact E).
  apply IH. intros Hc. apply H. right. exact Hc.
Qed.

Lemma jfind_app : forall k a b,
  jfind k (a ++ b) = match jfind k a with Some v => Some v | None => jfind k b end.
Proof.
  induction a as [|[k' x] r IH]; intros b; [reflexivity|].
  cbn [app jfind]. destruct (str_eqb k k'); [|apply IH].
  destruct (onn x); [reflexivity|apply IH].
Qed.

Lemma jfind_nil : forall k, jfind k [] = None.
Proof. reflexivity. Qed.

Lemma jfind_miss : forall k k' v r, str_eqb k k' = false -> jfind k ((k', v) :: r) = jfind k r.
Proof. intros k k' v r H. cbn [jfind]. rewrite H. reflexivity. Qed.

Lemma jfind_hit : forall k k' v r, str_eqb k k' = true -> jfind k r = None -> jfind k ((k', v) :: r) = onn v.
Proof. intros k k' v r H Hr. cbn [jfind]. rewrite H, Hr. destruct (onn v); reflexivity. Qed.

Lemma jfind_assoc : forall k ms, NoDup (map fst ms) ->
  jfind k ms = match assoc k ms with Some v => onn v | None => None end.
Proof.
  induction ms as [|[k' x] r IH]; intros Hnd; [reflexivity|].
  cbn [map fst] in Hnd. inversion Hnd as [|y l Hnotin Hnd']. subst y l.
  cbn [jfind assoc]. destruct (str_eqb k k') eqn:E.
  - apply str_eqb_eq in E. subst k'. rewrite (jfind_notin k r Hnotin). destruct (onn x); reflexivity.
  - apply IH. exact Hnd'.
Qed.

Lemma assoc_none_notin : forall (A : Type) k (ms : list (str * A)), assoc k ms = None -> ~ In k (map fst ms).
Proof. intros A k ms. apply assoc_None. Qed.

Lemma onn_equiv : forall a b, json_equiv a b -> opt_rel json_equiv (onn a) (onn b).
Proof. intros a b H. inversion H; subst; cbn [onn]; constructor; exact H. Qed.

Theorem json_equiv_refl : forall j, json_equiv j j.
Proof.
  induction j as [ | | | | |l IH|ms IH] using json_ind2; try constructor.
  - apply Forall2_refl_in. exact IH.
  - intros k. destruct (jfind k ms) as [v|] eqn:E; constructor.
    apply jfind_in in E. destruct E as [E _]. rewrite Forall_forall in IH. exact (IH (k, v) E).
Qed.

Lemma opt_rel_some_l : forall (A : Type) (R : A -> A -> Prop) a o, opt_rel R (Some a) o -> exists b, o = Some b /\ R a b.
Proof. intros A R a o H. inversion H; subst. eexists. split; [reflexivity|assumption]. Qed.

Lemma opt_rel_none_l : forall (A : Type) (R : A -> A -> Prop) o, opt_rel R None o -> o = None.
Proof. intros A R o H. inversion H. reflexivity. Qed.

Theorem json_equiv_sym : forall a b, json_equiv a b -> json_equiv b a.
Proof.
  induction a as [ | | | | |l IH|ms IH] using json_ind2; intros j' H; inversion H as [| | | | |? l' HF|? ms' HF]; subst;
    constructor.
  - clear H. induction HF as [|x y r r' Hxy _ IH2]; constructor; inversion IH; subst; auto.
  - intros k. specialize (HF k). rewrite Forall_forall in IH. destruct (jfind k ms) as [v|] eqn:E.
    + destruct (opt_rel_some_l _ _ _ _ HF) as [y [-> Hvy]]. constructor. apply jfind_in in E. exact (IH (k, v) (proj1 E) y Hvy).
    + rewrite (opt_rel_none_l _ _ _ HF). constructor.
Qed.

Theorem json_equiv_trans : forall a b c, json_equiv a b -> json_equiv b c -> json_equiv a c.
Proof.
  induction a as [ | | | | |l IH|ms IH] using json_ind2; intros j' j'' H1 H2;
    inversion H1 as [| | | | |? l1 A1|? ms1 A1]; subst; inversion H2 as [| | | | |? l2 A2|? ms2 A2]; subst; constructor.
  - clear H1 H2. revert l2 A2. induction A1 as [|x y r r' Hxy _ IH2]; intros l2 A2; inversion A2; subst; constructor;
      inversion IH; subst; eauto.
  - intros k. specialize (A1 k). specialize (A2 k). rewrite Forall_forall in IH. destruct (jfind k ms) as [v|] eqn:E.
    + destruct (opt_rel_some_l _ _ _ _ A1) as [y [Ey Hvy]]. rewrite Ey in A2.
      destruct (opt_rel_some_l _ _ _ _ A2) as [z [-> Hyz]]. constructor.
      apply jfind_in in E. exact (IH (k, v) (proj1 E) y z Hvy Hyz).
    + rewrite (opt_rel_none_l _ _ _ A1) in A2. rewrite (opt_rel_none_l _ _ _ A2). constructor.
Qed.

Definition drop_null_members (g : json -> json) (ms : list (str * json)) : list (str * json) :=
  flat_map (fun kv => match snd kv with JNull => [] | x => [(fst kv, g x)] end) ms.

Lemma onn_nn : forall v, v <> JNull -> onn v = Some v.
Proof. intros v H. destruct v; try reflexivity. contradiction. Qed.

Lemma jfind_drop_nulls : forall g k ms, (forall x, x <> JNull -> g x <> JNull) ->
  jfind k (drop_null_members g ms) = option_map g (jfind k ms).
Proof.
  intros g k ms Hg. induction ms as [|[k' x] r IH]; [reflexivity|].
  unfold drop_null_members. cbn [flat_map snd fst]. fold (drop_null_members g r).
  destruct x; cbn [app jfind onn]; [destruct (str_eqb k k'); exact IH|..];
    (rewrite onn_nn by (apply Hg; discriminate); destruct (str_eqb k k'); [reflexivity|exact IH]).
Qed.

Require Import Coq.Sorting.Permutation.

(* the same document up to the order of object members: scalars equal, arrays pointwise, objects a
   permutation of members with the same keys and (recursively) the same values *)
Inductive json_perm : json -> json -> Prop :=
| JP_null : json_perm JNull JNull
| JP_bool : forall b, json_perm (JBool b) (JBool b)
| JP_int : forall z, json_perm (JInt z) (JInt z)
| JP_dec : forall m e, json_perm (JDec m e) (JDec m e)
| JP_str : forall s, json_perm (JStr s) (JStr s)
| JP_arr : forall l l', Forall2 json_perm l l' -> json_perm (JArr l) (JArr l')
| JP_obj : forall ms mid ms', Permutation ms mid ->
                              Forall2 (fun a b => fst a = fst b /\ json_perm (snd a) (snd b)) mid ms' ->
                              json_perm (JObj ms) (JObj ms').

(* no object member is null (null ARRAY items are allowed: arrays are compared pointwise) *)
Fixpoint no_null_members (j : json) : bool :=
  match j with
  | JArr l => forallb no_null_members l
  | JObj ms => forallb (fun kv => negb (is_null (snd kv)) && no_null_members (snd kv)) ms
  | _ => true
  end.

Fixpoint str_nodupb (l : list str) : bool :=
  match l with
  | [] => true
  | x :: r => negb (mem_str x r) && str_nodupb r
  end.

Fixpoint distinct_keys (j : json) : bool :=
  match j with
  | JArr l => forallb distinct_keys l
  | JObj ms => str_nodupb (map fst ms) && forallb (fun kv => distinct_keys (snd kv)) ms
  | _ => true
  end.

Lemma str_nodupb_NoDup : forall l, str_nodupb l = true -> NoDup l.
Proof.
  induction l as [|x r IH]; intros H; [constructor|].
  cbn [str_nodupb] in H. apply andb_true_iff in H. destruct H as [H1 H2]. constructor; [|exact (IH H2)].
  apply mem_str_false, negb_true_iff. exact H1.
Qed.

Lemma dk_members : forall ms, distinct_keys (JObj ms) = true ->
  NoDup (map fst ms) /\ forall k v, In (k, v) ms -> distinct_keys v = true.
Proof.
  intros ms H. cbn [distinct_keys] in H. apply andb_true_iff in H. destruct H as [H1 H2]. split.
  - apply str_nodupb_NoDup. exact H1.
  - intros k v Hin. rewrite forallb_forall in H2. exact (H2 (k, v) Hin).
Qed.

Lemma dk_jget : forall k j, distinct_keys j = true -> distinct_keys (jget k j) = true.
Proof.
  intros k j H. destruct j as [| | | | | |ms]; try reflexivity. cbn [jget].
  destruct (assoc (str_of_string k) ms) as [v|] eqn:E; [|reflexivity].
  apply assoc_In in E. exact (proj2 (dk_members ms H) _ _ E).
Qed.

Lemma dk_item : forall l it, distinct_keys (JArr l) = true -> In it l -> distinct_keys it = true.
Proof. intros l it H Hin. cbn [distinct_keys] in H. rewrite forallb_forall in H. exact (H it Hin). Qed.

Lemma in_assoc_nodup : forall (A : Type) k (v : A) ms, NoDup (map fst ms) -> In (k, v) ms -> assoc k ms = Some v.
Proof.
  induction ms as [|[k' x] r IH]; intros Hnd Hin; [destruct Hin|].
  cbn [map fst] in Hnd. inversion Hnd as [|a l Hnotin Hnd']. subst a l. cbn [assoc].
  destruct Hin as [Hin|Hin].
  - injection Hin as -> ->. rewrite str_eqb_refl. reflexivity.
  - destruct (str_eqb k k') eqn:E; [|exact (IH Hnd' Hin)].
    apply str_eqb_eq in E. subst k'. exfalso. apply Hnotin. apply (in_map fst) in Hin. exact Hin.
Qed.

Lemma json_equiv_obj_assoc : forall ms ms',
  str_nodupb (map fst ms) = true -> str_nodupb (map fst ms') = true ->
  forallb (fun k => mem_str k (map fst ms)) (map fst ms') = true ->
  Forall (fun kv => opt_rel json_equiv (onn (snd kv))
                            (onn (match assoc (fst kv) ms' with Some v => v | None => JNull end))) ms ->
  json_equiv (JObj ms) (JObj ms').
Proof.
  intros ms ms' H1 H2 H3 HF. apply str_nodupb_NoDup in H1, H2. constructor. intros k.
  rewrite (jfind_assoc k ms H1), (jfind_assoc k ms' H2).
  destruct (assoc k ms) as [v|] eqn:E.
  - apply assoc_In in E. rewrite Forall_forall in HF. specialize (HF (k, v) E). cbn [fst snd] in HF.
    destruct (assoc k ms'); exact HF.
  - destruct (assoc k ms') as [v'|] eqn:E'; [exfalso|constructor].
    apply assoc_None in E. apply E. apply mem_str_In. rewrite forallb_forall in H3. apply H3.
    apply assoc_In in E'. exact (in_map fst _ _ E').
Qed.

Lemma NoDup_pairs : forall (A : Type) (ms : list (str * A)), NoDup (map fst ms) -> NoDup ms.
Proof.
  induction ms as [|[k x] r IH]; intros H; [constructor|].
  cbn [map fst] in H. inversion H as [|a l Hnotin Hnd]. subst a l. constructor; [|exact (IH Hnd)].
  intros Hin. apply Hnotin. apply (in_map fst) in Hin. exact Hin.
Qed.

Lemma jfind_member : forall ms k v, NoDup (map fst ms) ->
  (forall kv, In kv ms -> negb (is_null (snd kv)) && no_null_members (snd kv) = true) ->
  In (k, v) ms -> jfind k ms = Some v.
Proof.
  intros ms k v Hnd Hnn Hin. rewrite (jfind_assoc k ms Hnd), (in_assoc_nodup _ k v ms Hnd Hin).
  specialize (Hnn _ Hin). cbn [snd] in Hnn. apply andb_true_iff in Hnn. destruct v; try reflexivity. discriminate (proj1 Hnn).
Qed.

Theorem json_equiv_perm : forall a b,
  json_equiv a b ->
  no_null_members a = true -> no_null_members b = true -> distinct_keys a = true -> distinct_keys b = true ->
  json_perm a b.
Proof.
  induction a as [ | | | | |l IH|ms IH] using json_ind2; intros j' H Na Nb Da Db;
    try solve [inversion H; subst; constructor].
  - inversion H as [| | | | |la lb H2|]; subst. constructor.
    cbn [no_null_members distinct_keys] in Na, Nb, Da, Db. clear H.
    revert Na Nb Da Db. induction H2 as [|x y r r' Hxy _ IH2]; intros Na Nb Da Db; constructor.
    + cbn [forallb] in *. apply andb_true_iff in Na, Nb, Da, Db. inversion IH; subst. apply H1; tauto.
    + cbn [forallb] in *. apply andb_true_iff in Na, Nb, Da, Db. inversion IH; subst. apply IH2; tauto.
  - inversion H as [| | | | | |msa ms' HF]; subst.
    cbn [no_null_members distinct_keys] in Na, Nb, Da, Db.
    apply andb_true_iff in Da. destruct Da as [Da1 Da2]. apply andb_true_iff in Db. destruct Db as [Db1 Db2].
    apply str_nodupb_NoDup in Da1. apply str_nodupb_NoDup in Db1.
    rewrite forallb_forall in Na, Nb, Da2, Db2. rewrite Forall_forall in IH.
    pose proof (fun k v => jfind_member ms k v Da1 Na) as Fa. pose proof (fun k v => jfind_member ms' k v Db1 Nb) as Fb.
    (* the middle list of [JP_obj]: the members of [ms], in the order of [ms'] *)
    set (pick := fun kv' : str * json => (fst kv', match assoc (fst kv') ms with Some v => v | None => JNull end)).
    apply (JP_obj ms (map pick ms') ms').
    + apply NoDup_Permutation.
      * apply NoDup_pairs. exact Da1.
      * apply NoDup_pairs. rewrite map_map. cbn [pick fst]. exact Db1.
      * intros [k v]. split.
        -- intros Hin. pose proof (Fa k v Hin) as E. specialize (HF k). rewrite E in HF. inversion HF as [|x y Hxy Ex Ey]; subst.
           symmetry in Ey. apply jfind_in in Ey. destruct Ey as [Ey _].
           apply in_map_iff. exists (k, y). split; [|exact Ey]. unfold pick. cbn [fst].
           rewrite (in_assoc_nodup _ k v ms Da1 Hin). reflexivity.
        -- intros Hin. apply in_map_iff in Hin. destruct Hin as [[k' v'] [E Hin']]. unfold pick in E. cbn [fst] in E.
           injection E as <- <-. pose proof (Fb k' v' Hin') as E. specialize (HF k'). rewrite E in HF.
           inversion HF as [|x y Hxy Ex Ey]; subst. symmetry in Ex. apply jfind_in in Ex. destruct Ex as [Ex _].
           rewrite (in_assoc_nodup _ k' x ms Da1 Ex). exact Ex.
    + assert (K : forall kv', In kv' ms' -> fst (pick kv') = fst kv' /\ json_perm (snd (pick kv')) (snd kv')).
      { intros [k' v'] Hin'. split; [reflexivity|]. unfold pick. cbn [fst snd].
        pose proof (Fb k' v' Hin') as E. specialize (HF k'). rewrite E in HF.
        inversion HF as [|x y Hxy Ex Ey]; subst. symmetry in Ex. apply jfind_in in Ex. destruct Ex as [Ex _].
        rewrite (in_assoc_nodup _ k' x ms Da1 Ex).
        apply (IH (k', x) Ex); cbn [snd]; try assumption.
        - specialize (Na _ Ex). cbn [snd] in Na. apply andb_true_iff in Na. tauto.
        - specialize (Nb _ Hin'). cbn [snd] in Nb. apply andb_true_iff in Nb. tauto.
        - exact (Da2 _ Ex).
        - exact (Db2 _ Hin'). }
      clear - K. induction ms' as [|kv r IHr]; cbn [map]; constructor.
      * apply K. left. reflexivity.
      * apply IHr. intros kv' Hin. apply K. right. exact Hin.
Qed.
