(* RenameStepsProofs.v — lemmas behind props/C19xs.v (C19_rename_steps): decoding commutes with a
   consistent renaming of steps and environments.

     decode_job classify (rename_steps_envs rho_s rho_e j)
       = omap (mrename_job rho_s rho_e) (decode_job classify j)

   for [rho_s], [rho_e] that respect the names' own rule ([name_fine (rho n) = name_fine n]) and are
   injective ON THE NAMES OF THE DOCUMENT ([job_snames j], [job_enames j]; a fortiori for maps injective on the
   strings of the document, [InjOn rho (jstrings j)]: a renaming of the names that occur onto fresh names,
   extended by the identity, is injective there although it is not injective on all strings).
   Structure:
     1. the structural layer under a member-wise renaming of ONE object ([pc_members]): if every
        field's value parser commutes with the renaming of that member and the class's validators
        agree, [parse_cls] commutes; for a renaming given by tables of member / attribute names only the
        fields that the tables mention need an argument ([pc_tables]);
     2. what accepted instances look like ([has_mstr P]: the name attribute is a string, namely that member
        of the document), read off the parser;
     3. the reference walk does not read step / environment names (through ScopeSpec.v);
     4. the validators of StepTemplate / JobTemplate / EnvironmentTemplate see names only through
        [str_eqb]-based tests (nodupb, mem_str, index_of), invariant under a map that is injective on
        the names at hand; the dependency graph is built on step INDICES and is literally unchanged;
     5. the seven classes of the live schema that hold a renamed attribute, bottom up. *)
From Coq Require Import List NArith ZArith Bool String.
Import ListNotations.
Require Import OJD.Base OJD.Lexer OJD.Json OJD.Schema OJD.Generated OJD.Charsets OJD.FsRefs
               OJD.CreateJob OJD.Parse OJD.Validators OJD.Accept OJD.AcceptMono OJD.ScopeWalk OJD.ScopeSpec
               OJD.ScopeProofs OJD.RenameProofs OJD.DeepKeyOrder OJD.DecodeInv OJD.RenameSteps OJD.ListLib.

Local Open Scope string_scope.
Local Open Scope list_scope.

Lemma omap_id : forall (A : Type) (g : A -> A) (o : outcome A), (forall a, g a = a) -> omap g o = o.
Proof. intros A g o H. destruct o; cbn [omap]; [rewrite H|]; reflexivity. Qed.

Lemma is_ok_omap : forall (A B : Type) (g : A -> B) o, is_ok (omap g o) = is_ok o.
Proof. intros A B g o. destruct o; reflexivity. Qed.

Lemma mapM_map_omap : forall (A B : Type) (f f' : A -> outcome B) (jr : A -> A) (mr : B -> B) l,
  (forall x, In x l -> f' (jr x) = omap mr (f x)) ->
  mapM f' (map jr l) = omap (map mr) (mapM f l).
Proof.
  intros A B f f' jr mr l. induction l as [|a r IH]; intros H; [reflexivity|].
  cbn [map mapM]. rewrite (H a (or_introl eq_refl)).
  rewrite IH by (intros x Hx; apply H; right; exact Hx).
  destruct (f a) as [b|e]; cbn [omap bind]; [|reflexivity].
  destruct (mapM f r) as [bs|e]; reflexivity.
Qed.

Lemma model_fields_on_fields : forall g m, model_fields (on_fields g m) = mapf g (model_fields m).
Proof. intros g m. destruct m; reflexivity. Qed.

Lemma mitems_on_mlist : forall G v, mitems (on_mlist G v) = map G (mitems v).
Proof. intros G v. destruct v; reflexivity. Qed.

Lemma fget_mapf : forall g n fs, g n MNone = MNone -> fget n (mapf g fs) = g n (fget n fs).
Proof.
  intros g n fs Hn. unfold fget, mfield, mapf. induction fs as [|[k v] r IH]; [symmetry; exact Hn|].
  cbn [map lookup_s fst snd]. destruct (String.eqb k n) eqn:E; [|exact IH].
  apply String.eqb_eq in E. subst k. reflexivity.
Qed.

(* an instance whose attribute [n] holds a string, which satisfies P *)
Definition has_mstr (P : str -> Prop) (n : string) (m : mval) : Prop :=
  exists s, fget n (model_fields m) = MStr s /\ P s.

Lemma has_mstr_weaken : forall (P Q : str -> Prop) n m, (forall s, P s -> Q s) -> has_mstr P n m -> has_mstr Q n m.
Proof. intros P Q n m H [s [Hs Hp]]. exists s. split; [exact Hs|exact (H s Hp)]. Qed.

(* [x.<n> for x in v] after renaming the attribute <n> of every item *)
Lemma attr_names_ren : forall (P : str -> Prop) (rho : str -> str) g n v,
  (forall x, g n x = mren_str rho x) -> Forall (has_mstr P n) (mitems v) ->
  map (fun m => mstr (fget n (model_fields m))) (mitems (on_mlist (on_fields g) v))
  = map rho (map (fun m => mstr (fget n (model_fields m))) (mitems v)).
Proof.
  intros P rho g n v Hg Hs. rewrite mitems_on_mlist, !map_map.
  induction Hs as [|m r [s [Hm _]] _ IH]; [reflexivity|].
  cbn [map]. rewrite IH. f_equal.
  rewrite model_fields_on_fields, fget_mapf by (rewrite Hg; reflexivity).
  rewrite Hg, Hm. reflexivity.
Qed.

Lemma attr_names_P : forall (P : str -> Prop) n v, Forall (has_mstr P n) (mitems v) ->
  Forall P (map (fun m => mstr (fget n (model_fields m))) (mitems v)).
Proof.
  intros P n v Hs. induction Hs as [|m r [s [Hm Hp]] _ IH]; [constructor|].
  cbn [map]. constructor; [rewrite Hm; exact Hp|exact IH].
Qed.

Lemma names_of_ren : forall (P : str -> Prop) (rho : str -> str) g v,
  (forall x, g "name" x = mren_str rho x) -> Forall (has_mstr P "name") (mitems v) ->
  names_of (on_mlist (on_fields g) v) = map rho (names_of v).
Proof. intros P rho g v Hg Hs. unfold names_of. apply (attr_names_ren P); assumption. Qed.

Lemma names_of_P : forall (P : str -> Prop) v, Forall (has_mstr P "name") (mitems v) -> Forall P (names_of v).
Proof. intros P v Hs. unfold names_of. apply attr_names_P. exact Hs. Qed.

(* the name tests of the validators under a map that is injective on the names at hand *)
Section Inj.
  Variable rho : str -> str.
  Variable P : str -> Prop.
  Hypothesis rho_inj : forall a b, P a -> P b -> rho a = rho b -> a = b.

  Lemma str_eqb_inj : forall a b, P a -> P b -> str_eqb (rho a) (rho b) = str_eqb a b.
  Proof.
    intros a b Ha Hb. destruct (str_eqb a b) eqn:E.
    - apply str_eqb_eq in E. subst b. apply str_eqb_refl.
    - apply str_eqb_neq. apply str_eqb_neq in E. intros H. apply E. apply rho_inj; assumption.
  Qed.

  Lemma mem_str_inj : forall x l, P x -> Forall P l -> mem_str (rho x) (map rho l) = mem_str x l.
  Proof.
    intros x l Hx Hl. induction Hl as [|y r Hy _ IH]; [reflexivity|].
    cbn [map mem_str]. rewrite (str_eqb_inj x y Hx Hy), IH. reflexivity.
  Qed.

  Lemma nodupb_inj : forall l, Forall P l -> nodupb (map rho l) = nodupb l.
  Proof.
    intros l Hl. induction Hl as [|x r Hx Hr IH]; [reflexivity|].
    cbn [map nodupb]. rewrite (mem_str_inj x r Hx Hr), IH. reflexivity.
  Qed.

  Lemma index_of_inj : forall x l i, P x -> Forall P l -> index_of (rho x) (map rho l) i = index_of x l i.
  Proof.
    intros x l i Hx Hl. revert i. induction Hl as [|y r Hy _ IH]; intros i; [reflexivity|].
    cbn [map index_of]. rewrite (str_eqb_inj x y Hx Hy), IH. reflexivity.
  Qed.

  (* every name of l is / is not among [names] (p the identity or [negb]) *)
  Lemma forallb_mem_inj : forall (p : bool -> bool) names l, Forall P names -> Forall P l ->
    forallb (fun d => p (mem_str d (map rho names))) (map rho l) = forallb (fun d => p (mem_str d names)) l.
  Proof.
    intros p names l Hn Hl. induction Hl as [|x r Hx _ IH]; [reflexivity|].
    cbn [map forallb]. rewrite (mem_str_inj x names Hx Hn), IH. reflexivity.
  Qed.

  Lemma unique_names_ren : forall g v,
    (forall x, g "name" x = mren_str rho x) -> Forall (has_mstr P "name") (mitems v) ->
    unique_names (on_mlist (on_fields g) v) = unique_names v.
  Proof.
    intros g v Hg Hs. unfold unique_names.
    assert (E : nodupb (names_of (on_mlist (on_fields g) v)) = nodupb (names_of v))
      by (rewrite (names_of_ren P rho g v Hg Hs); apply nodupb_inj; apply names_of_P; exact Hs).
    destruct v; try exact E; reflexivity.
  Qed.
End Inj.

Definition InjOn (rho : str -> str) (S : list str) : Prop :=
  forall a b, In a S -> In b S -> rho a = rho b -> a = b.

(* The names of a document, which are all that the renamings need to be injective on.  [jstr n v s]: the member [n]
   of v is the string s; [item_of n v y]: y is an item of the array v.<n>. *)
Definition jstr (n : string) (v : json) (s : str) : Prop := jget n v = JStr s.
Definition item_of (n : string) (v y : json) : Prop := In y (obj_list (jget n v)).

(* step names: steps[i].name and steps[i].dependencies[k].dependsOn *)
Definition step_snames (st : json) (s : str) : Prop :=
  jstr "name" st s \/ exists d, item_of "dependencies" st d /\ jstr "dependsOn" d s.
Definition job_snames (j : json) (s : str) : Prop := exists st, item_of "steps" j st /\ step_snames st s.

(* environment names: jobEnvironments[i].name and steps[i].stepEnvironments[k].name *)
Definition step_enames (st : json) (s : str) : Prop := exists e, item_of "stepEnvironments" st e /\ jstr "name" e s.
Definition job_enames (j : json) (s : str) : Prop :=
  (exists e, item_of "jobEnvironments" j e /\ jstr "name" e s) \/ exists st, item_of "steps" j st /\ step_enames st s.

(* the names are strings of the document *)
Lemma jstrings_jget : forall n v, incl (jstrings (jget n v)) (jstrings v).
Proof.
  intros n v s Hs. destruct v as [| | | | | |ms]; try destruct Hs. cbn [jget] in Hs.
  destruct (assoc (str_of_string n) ms) as [x|] eqn:E; [|destruct Hs].
  cbn [jstrings]. apply in_flat_map. exists (str_of_string n, x). split; [exact (assoc_In _ _ _ _ E)|exact Hs].
Qed.

Lemma jstr_jstrings : forall n v s, jstr n v s -> In s (jstrings v).
Proof. intros n v s H. apply (jstrings_jget n). unfold jstr in H. rewrite H. left. reflexivity. Qed.

Lemma item_jstrings : forall n v y, item_of n v y -> incl (jstrings y) (jstrings v).
Proof.
  intros n v y Hy s Hs. apply (jstrings_jget n). unfold item_of in Hy.
  destruct (jget n v) as [| | | | |l|]; try destruct Hy.
  cbn [jstrings]. apply in_flat_map. exists y. split; assumption.
Qed.

Lemma step_snames_jstrings : forall st s, step_snames st s -> In s (jstrings st).
Proof.
  intros st s [H|[d [Hd H]]]; [exact (jstr_jstrings _ _ _ H)|exact (item_jstrings _ _ _ Hd s (jstr_jstrings _ _ _ H))].
Qed.

Lemma job_snames_jstrings : forall j s, job_snames j s -> In s (jstrings j).
Proof. intros j s [st [Hst H]]. exact (item_jstrings _ _ _ Hst s (step_snames_jstrings _ _ H)). Qed.

Lemma job_enames_jstrings : forall j s, job_enames j s -> In s (jstrings j).
Proof.
  intros j s [[e [He H]]|[st [Hst [e [He H]]]]].
  - exact (item_jstrings _ _ _ He s (jstr_jstrings _ _ _ H)).
  - exact (item_jstrings _ _ _ Hst s (item_jstrings _ _ _ He s (jstr_jstrings _ _ _ H))).
Qed.

Lemma depth_on_obj : forall h v, (forall k x, json_depth (h k x) = json_depth x) ->
  json_depth (on_obj h v) = json_depth v.
Proof.
  intros h v H. destruct v as [| | | | | |ms]; try reflexivity.
  cbn [on_obj json_depth]. f_equal. induction ms as [|[k x] r IH]; [reflexivity|].
  cbn [map fold_right fst snd]. rewrite H, IH. reflexivity.
Qed.

Lemma depth_on_arr : forall g v, (forall x, json_depth (g x) = json_depth x) ->
  json_depth (on_arr g v) = json_depth v.
Proof.
  intros g v H. destruct v as [| | | | |l|]; try reflexivity.
  cbn [on_arr json_depth]. f_equal. induction l as [|x r IH]; [reflexivity|].
  cbn [map fold_right]. rewrite H, IH. reflexivity.
Qed.

Lemma depth_dispatch : forall tbl k x,
  Forall (fun ng => forall y, json_depth (snd ng y) = json_depth y) tbl ->
  json_depth (dispatch tbl k x) = json_depth x.
Proof.
  intros tbl k x H. induction H as [|[n g] r Hg _ IH]; [reflexivity|].
  cbn [dispatch]. destruct (str_eqb k (str_of_string n)); [apply Hg|exact IH].
Qed.

Lemma depth_ren_str : forall rho v, json_depth (ren_str rho v) = json_depth v.
Proof. intros rho v. destruct v; reflexivity. Qed.

Lemma dispatch_null : forall tbl k, Forall (fun ng => snd ng JNull = JNull) tbl -> dispatch tbl k JNull = JNull.
Proof.
  intros tbl k H. induction H as [|[n g] r Hg _ IH]; [reflexivity|].
  cbn [dispatch]. destruct (str_eqb k (str_of_string n)); [exact Hg|exact IH].
Qed.

(* a member / an attribute that the table does not list is left alone *)
Lemma dispatch_other : forall tbl k x,
  existsb (fun ng => str_eqb k (str_of_string (fst ng))) tbl = false -> dispatch tbl k x = x.
Proof.
  induction tbl as [|[n g] r IH]; intros k x H; [reflexivity|].
  cbn [existsb fst] in H. apply orb_false_iff in H. cbn [dispatch]. rewrite (proj1 H). exact (IH k x (proj2 H)).
Qed.

Lemma mdispatch_other : forall tbl k x, existsb (fun ng => String.eqb k (fst ng)) tbl = false -> mdispatch tbl k x = x.
Proof.
  induction tbl as [|[n g] r IH]; intros k x H; [reflexivity|].
  cbn [existsb fst] in H. apply orb_false_iff in H. cbn [mdispatch]. rewrite (proj1 H). exact (IH k x (proj2 H)).
Qed.

(* ------------------------------------------------------------------ 1. the structural layer, one object *)
Section Members.
  Variable SC : schema_t.
  Variable classify : N -> cclass.
  Variable pre : string -> json -> bool.
  Variable post : string -> json -> list (string * mval) -> bool.
  Notation pk := (parse_kind SC classify pre post).
  Notation pc := (parse_cls SC classify pre post).

  Definition ren_members (h : str -> json -> json) (ms : list (str * json)) : list (str * json) :=
    map (fun kv => (fst kv, h (fst kv) (snd kv))) ms.

  Lemma field_raw_ren : forall h ms fl, h (str_of_string (f_alias fl)) JNull = JNull ->
    field_raw (ren_members h ms) fl = h (str_of_string (f_alias fl)) (field_raw ms fl).
  Proof.
    intros h ms fl Hn. unfold field_raw, ren_members. rewrite assoc_on_obj.
    destruct (assoc (str_of_string (f_alias fl)) ms); [reflexivity|symmetry; exact Hn].
  Qed.

  Lemma extra_bad_ren : forall c0 h ms, extra_bad c0 (ren_members h ms) = extra_bad c0 ms.
  Proof.
    intros c0 h ms. unfold extra_bad. f_equal. f_equal.
    apply (forallb_map_fst _ (alias_known (c_fields c0))).
    unfold ren_members. rewrite map_map. reflexivity.
  Qed.

  (* parse_cls commutes with a member-wise renaming of the object, given: the pre validator agrees,
     every field's value parser commutes ON THE MEMBER THE OBJECT HAS, and the post validator agrees on
     what the fields parse to *)
  Lemma pc_members : forall f c c0 (h : str -> json -> json) (g : string -> mval -> mval) ms,
    lookup_cls SC c = Some c0 ->
    pre c (JObj (ren_members h ms)) = pre c (JObj ms) ->
    (forall fl, In fl (c_fields c0) -> h (str_of_string (f_alias fl)) JNull = JNull) ->
    (forall fl, In fl (c_fields c0) ->
       parse_value (pk f) fl (h (str_of_string (f_alias fl)) (field_raw ms fl))
       = omap (g (f_name fl)) (parse_value (pk f) fl (field_raw ms fl))) ->
    (forall fs, mapM (parse_field (pk f) ms) (c_fields c0) = Ok fs ->
       post c (JObj (ren_members h ms)) (mapf g fs) = post c (JObj ms) fs) ->
    pc (S f) c (JObj (ren_members h ms)) = omap (on_fields g) (pc (S f) c (JObj ms)).
  Proof.
    intros f c c0 h g ms El Hpre Hnull Hval Hpost. rewrite !parse_cls_S, El, Hpre.
    destruct (negb (pre c (JObj ms))); [reflexivity|].
    rewrite extra_bad_ren. destruct (extra_bad c0 ms); [reflexivity|].
    assert (Hf : forall fls, incl fls (c_fields c0) ->
              mapM (parse_field (pk f) (ren_members h ms)) fls = omap (mapf g) (mapM (parse_field (pk f) ms) fls)).
    { induction fls as [|fl r IH]; intros Hincl; [reflexivity|].
      assert (Hfl : In fl (c_fields c0)) by (apply Hincl; left; reflexivity).
      cbn [mapM]. rewrite IH by (intros x Hx; apply Hincl; right; exact Hx).
      unfold parse_field at 1 3. rewrite (field_raw_ren h ms fl (Hnull fl Hfl)), (Hval fl Hfl).
      destruct (parse_value (pk f) fl (field_raw ms fl)) as [x|e]; cbn [omap bind]; [|reflexivity].
      destruct (mapM (parse_field (pk f) ms) r) as [xs|e]; reflexivity. }
    rewrite (Hf _ (incl_refl _)).
    destruct (mapM (parse_field (pk f) ms) (c_fields c0)) as [fs|e] eqn:Em; cbn [omap bind]; [|reflexivity].
    rewrite (Hpost fs eq_refl). destruct (post c (JObj ms) fs); reflexivity.
  Qed.

  (* the renamings at hand go by tables ([dispatch] on the member names, [mdispatch] on the attribute names):
     only the fields that a table mentions need an argument *)
  Definition mentions (htbl : list (string * (json -> json))) (gtbl : list (string * (mval -> mval))) (fl : field) : bool :=
    existsb (fun nh => str_eqb (str_of_string (f_alias fl)) (str_of_string (fst nh))) htbl
    || existsb (fun ng => String.eqb (f_name fl) (fst ng)) gtbl.

  Lemma pc_tables : forall f c c0 htbl gtbl ms,
    lookup_cls SC c = Some c0 ->
    Forall (fun nh => snd nh JNull = JNull) htbl ->
    pre c (JObj (ren_members (dispatch htbl) ms)) = pre c (JObj ms) ->
    Forall (fun fl => parse_value (pk f) fl (dispatch htbl (str_of_string (f_alias fl)) (field_raw ms fl))
                      = omap (mdispatch gtbl (f_name fl)) (parse_value (pk f) fl (field_raw ms fl)))
           (filter (mentions htbl gtbl) (c_fields c0)) ->
    (forall fs, mapM (parse_field (pk f) ms) (c_fields c0) = Ok fs ->
       post c (JObj (ren_members (dispatch htbl) ms)) (mapf (mdispatch gtbl) fs) = post c (JObj ms) fs) ->
    pc (S f) c (JObj (ren_members (dispatch htbl) ms)) = omap (on_fields (mdispatch gtbl)) (pc (S f) c (JObj ms)).
  Proof.
    intros f c c0 htbl gtbl ms El Hnull Hpre Hval Hpost.
    apply (pc_members f c c0 _ _ ms El Hpre); [intros fl _; exact (dispatch_null _ _ Hnull)| |exact Hpost].
    intros fl Hin. destruct (mentions htbl gtbl fl) eqn:E.
    - rewrite Forall_forall in Hval. apply Hval. apply filter_In. split; assumption.
    - apply orb_false_iff in E. rewrite (dispatch_other _ _ _ (proj1 E)). symmetry. apply omap_id.
      intros x. exact (mdispatch_other _ _ x (proj2 E)).
  Qed.

  (* without fuel, or on a document that is not an object, both sides are the same failure *)
  Lemma pc_on_obj : forall c c0 h g f v, lookup_cls SC c = Some c0 ->
    (forall f' ms, v = JObj ms ->
       pc (S f') c (JObj (ren_members h ms)) = omap (on_fields g) (pc (S f') c (JObj ms))) ->
    pc f c (on_obj h v) = omap (on_fields g) (pc f c v).
  Proof.
    intros c c0 h g f v El H. destruct f as [|f']; [reflexivity|].
    destruct v as [| | | | | |ms]; try (rewrite !parse_cls_S, El; reflexivity). exact (H f' ms eq_refl).
  Qed.

  (* value parsers of the three kinds of renamed member: a name, a list of models, one model *)
  (* a required constr name: the renaming respects the rule *)
  Lemma pv_name : forall f (rho : str -> str) n a x,
    (forall s, name_fine (rho s) = name_fine s) ->
    let fl := mkField n a true Single (KStr true (Some 1%N) (Some 64%N) CS_standard) in
    parse_value (pk f) fl (ren_str rho x) = omap (mren_str rho) (parse_value (pk f) fl x).
  Proof.
    intros f rho n a x Hfine fl. unfold fl, parse_value. cbn [f_required f_shape f_kind].
    destruct f as [|f']; [destruct x; reflexivity|].
    destruct x as [|b|z|m e|s|l|ms]; try reflexivity.
    cbn [ren_str]. rewrite !parse_kind_S. cbn [parse_scalar]. unfold check_str.
    change (len_ok (Some 1%N) (Some 64%N) (rho s) && cs_ok CS_standard (rho s)) with (name_fine (rho s)).
    change (len_ok (Some 1%N) (Some 64%N) s && cs_ok CS_standard s) with (name_fine s).
    rewrite Hfine. destruct (name_fine s); reflexivity.
  Qed.

  Lemma pv_list : forall pkf fl lo hi (jr : json -> json) (mr : mval -> mval) x,
    f_shape fl = ListOf lo hi ->
    (forall y, In y (obj_list x) -> pkf (f_kind fl) (jr y) = omap mr (pkf (f_kind fl) y)) ->
    parse_value pkf fl (on_arr jr x) = omap (on_mlist mr) (parse_value pkf fl x).
  Proof.
    intros pkf fl lo hi jr mr x Hs Hy. unfold parse_value. rewrite Hs.
    destruct x as [|b|z|m e|s|l|ms]; try reflexivity.
    - cbn [on_arr]. destruct (f_required fl); reflexivity.
    - cbn [on_arr list_items]. rewrite map_length.
      destruct (len_ok_n lo hi (List.length l)); [|reflexivity].
      rewrite (mapM_map_omap _ _ (pkf (f_kind fl)) (pkf (f_kind fl)) jr mr l) by (intros y Hin; apply Hy; exact Hin).
      destruct (mapM (pkf (f_kind fl)) l); reflexivity.
  Qed.

  Lemma pv_single_nonnull : forall pkf fl y, f_shape fl = Single -> is_null y = false ->
    parse_value pkf fl y = pkf (f_kind fl) y.
  Proof. intros pkf fl y Hs Hn. unfold parse_value. rewrite Hs. destruct y; try reflexivity. discriminate Hn. Qed.

  Lemma pv_model : forall pkf fl (jr : json -> json) (mr : mval -> mval) x,
    f_shape fl = Single -> f_required fl = true ->
    is_null (jr x) = is_null x ->
    pkf (f_kind fl) (jr x) = omap mr (pkf (f_kind fl) x) ->
    parse_value pkf fl (jr x) = omap mr (parse_value pkf fl x).
  Proof.
    intros pkf fl jr mr x Hs Hr En Hy. destruct (is_null x) eqn:Ex.
    - destruct x; try discriminate Ex. destruct (jr JNull); try discriminate En.
      unfold parse_value. rewrite Hr. reflexivity.
    - rewrite (pv_single_nonnull pkf fl (jr x) Hs En), (pv_single_nonnull pkf fl x Hs Ex). exact Hy.
  Qed.

  (* parse_kind at a model kind, from parse_cls at every fuel *)
  Lemma pk_model : forall c (jr : json -> json) (mr : mval -> mval) v,
    (forall f, pc f c (jr v) = omap mr (pc f c v)) ->
    forall f, pk f (KModel c) (jr v) = omap mr (pk f (KModel c) v).
  Proof.
    intros c jr mr v H f. destruct f as [|f']; [reflexivity|]. rewrite !parse_kind_S. apply H.
  Qed.

  (* a list of models of class [c] *)
  Lemma pv_models : forall f fl lo hi c (jr : json -> json) (mr : mval -> mval) x,
    f_shape fl = ListOf lo hi -> f_kind fl = KModel c ->
    (forall y, In y (obj_list x) -> forall f', pc f' c (jr y) = omap mr (pc f' c y)) ->
    parse_value (pk f) fl (on_arr jr x) = omap (on_mlist mr) (parse_value (pk f) fl x).
  Proof.
    intros f fl lo hi c jr mr x Hs Hk H. apply (pv_list (pk f) fl lo hi jr mr x Hs).
    intros y Hy. rewrite Hk. exact (pk_model c jr mr y (H y Hy) f).
  Qed.

  (* ---------------------------------------------------------------- 2. what accepted instances look like *)
  Lemma pc_ok_inv : forall f c c0 v m, lookup_cls SC c = Some c0 -> pc f c v = Ok m ->
    exists f' ms fs, f = S f' /\ v = JObj ms /\ m = MModel c fs /\ mapM (parse_field (pk f') ms) (c_fields c0) = Ok fs.
  Proof.
    intros f c c0 v m El H.
    destruct (parse_cls_ok_inv _ _ _ _ _ _ _ _ H) as (f' & c1 & ms & fs & -> & El' & -> & _ & _ & Hm & _ & ->).
    rewrite El in El'. injection El' as <-. exists f', ms, fs. auto.
  Qed.

  (* the attribute of a field is what its value parser returned *)
  Lemma fields_fget : forall pkf ms fls fs, mapM (parse_field pkf ms) fls = Ok fs ->
    NoDup (map f_name fls) ->
    forall fl, In fl fls -> parse_value pkf fl (field_raw ms fl) = Ok (fget (f_name fl) fs).
  Proof.
    intros pkf ms fls. induction fls as [|a r IH]; intros fs H Hnd fl Hin; [destruct Hin|].
    destruct (mapM_cons_ok _ _ _ _ _ _ H) as [y [ys [Ha [Hr ->]]]].
    unfold parse_field in Ha.
    destruct (parse_value pkf a (field_raw ms a)) as [x|e] eqn:Ex; cbn [bind] in Ha; [|discriminate Ha].
    injection Ha as <-. cbn [map] in Hnd. inversion Hnd as [|? ? Hnot Hnd']; subst.
    unfold fget, mfield. cbn [lookup_s]. destruct Hin as [<-|Hin].
    - rewrite String.eqb_refl. exact Ex.
    - destruct (String.eqb (f_name a) (f_name fl)) eqn:E.
      + exfalso. apply String.eqb_eq in E. apply Hnot. rewrite E. apply in_map. exact Hin.
      + apply (IH ys Hr Hnd' fl Hin).
  Qed.

  (* ... so the fields are the declared attributes, in order *)
  Lemma fields_eta : forall pkf ms fls fs, mapM (parse_field pkf ms) fls = Ok fs -> NoDup (map f_name fls) ->
    fs = map (fun fl => (f_name fl, fget (f_name fl) fs)) fls.
  Proof.
    intros pkf ms fls fs H Hnd.
    assert (E : mapM (parse_field pkf ms) fls = Ok (map (fun fl => (f_name fl, fget (f_name fl) fs)) fls)).
    { apply mapM_map. intros fl Hin. unfold parse_field. rewrite (fields_fget _ _ _ _ H Hnd fl Hin). reflexivity. }
    rewrite H in E. injection E as E. exact E.
  Qed.

  Lemma pv_list_shape : forall pkf fl lo hi raw x (P : mval -> Prop),
    parse_value pkf fl raw = Ok x -> f_shape fl = ListOf lo hi ->
    (forall y m, In y (obj_list raw) -> pkf (f_kind fl) y = Ok m -> P m) -> Forall P (mitems x).
  Proof.
    intros pkf fl lo hi raw x P H Hs HP. unfold parse_value in H. rewrite Hs in H.
    destruct raw as [|b|z|m e|s|l|ms]; try discriminate H.
    - destruct (f_required fl); [discriminate H|]. injection H as <-. constructor.
    - cbn [list_items] in H. destruct (len_ok_n lo hi (List.length l)); [|discriminate H].
      destruct (mapM (pkf (f_kind fl)) l) as [l'|e] eqn:Em; cbn [bind] in H; [|discriminate H].
      injection H as <-. cbn [mitems]. apply Forall_forall. intros m Hm.
      destruct (mapM_ok_in _ _ _ _ _ Em m Hm) as [y [Hin Hy]]. exact (HP y m Hin Hy).
  Qed.

  Lemma pv_name_shape : forall f n a raw x,
    parse_value (pk f) (mkField n a true Single (KStr true (Some 1%N) (Some 64%N) CS_standard)) raw = Ok x ->
    exists s, x = MStr s /\ raw = JStr s.
  Proof.
    intros f n a raw x H. unfold parse_value in H. cbn [f_required f_shape f_kind] in H.
    destruct f as [|f']; [destruct raw; discriminate H|].
    destruct raw as [|b|z|m e|s|l|ms]; try discriminate H.
    rewrite parse_kind_S in H. cbn [parse_scalar] in H. apply check_str_ok in H.
    exists s. split; [exact (proj1 H)|reflexivity].
  Qed.
End Members.

(* ------------------------------------------------------------------ 3. the reference walk does not read the names *)
Lemma Forall2_map_graph : forall (A : Type) (g : A -> A) l, Forall2 (fun x y => y = g x) l (map g l).
Proof. intros A g l. induction l as [|x r IH]; constructor; [reflexivity|exact IH]. Qed.

Lemma concat_indexed_map : forall (B : Type) (F F' : nat * json -> list B) g items,
  (forall i x, F' (i, g x) = F (i, x)) ->
  List.concat (map F' (indexed (map g items))) = List.concat (map F (indexed items)).
Proof.
  intros B F F' g items H. symmetry.
  apply (concat_indexed_eq _ _ (fun x y => y = g x)); [apply Forall2_map_graph|].
  intros i x y ->. symmetry. apply H.
Qed.

Section SpecInv.
  Variables rho_s rho_e : str -> str.
  Variable refs : str -> option (list str).
  Notation rs_env := (rs_env rho_e).
  Notation rs_step := (rs_step rho_s rho_e).
  Notation rnj := (rename_steps_envs rho_s rho_e).
  Notation rne := (rename_env_name rho_e).

  (* The walk reads an object through [is_obj] and [jget] at fixed keys.  By [jget_on_obj] a member of the renamed
     object is the table's entry for its key applied to the member: nothing for the keys the table does not list
     (left to the final conversion), and what the [change] steps below say for the others. *)
  Lemma spec_env_rs : forall base l e, spec_env refs base l (rs_env e) = spec_env refs base l e.
  Proof.
    intros base l e. unfold spec_env, RenameSteps.rs_env. rewrite is_obj_on_obj, !jget_on_obj by reflexivity. reflexivity.
  Qed.

  Lemma spec_env_list_rs : forall base l v,
    spec_env_list refs base l (on_arr rs_env v) = spec_env_list refs base l v.
  Proof.
    intros base l v. destruct v as [| | | | |items|]; try reflexivity.
    cbn [on_arr spec_env_list]. apply concat_indexed_map.
    intros i x. cbn [fst snd]. apply spec_env_rs.
  Qed.

  Lemma spec_step_rs : forall pd l s, spec_step refs pd l (rs_step s) = spec_step refs pd l s.
  Proof.
    intros pd l s. unfold spec_step, RenameSteps.rs_step. rewrite is_obj_on_obj, !jget_on_obj by reflexivity.
    change (rs_step_h rho_s rho_e (str_of_string "stepEnvironments") ?x) with (on_arr rs_env x).
    rewrite spec_env_list_rs. reflexivity.
  Qed.

  Theorem spec_job_rs : forall j, spec_job_template refs (rnj j) = spec_job_template refs j.
  Proof.
    intros j. unfold spec_job_template, rename_steps_envs. cbv zeta. rewrite !jget_on_obj by reflexivity.
    change (rs_job_h rho_s rho_e (str_of_string "jobEnvironments") ?x) with (on_arr rs_env x).
    change (rs_job_h rho_s rho_e (str_of_string "steps") ?x) with (on_arr rs_step x).
    rewrite spec_env_list_rs. f_equal. f_equal.
    destruct (jget "steps" j) as [| | | | |items|]; try reflexivity.
    cbn [on_arr]. apply concat_indexed_map. intros i x. cbn [fst snd]. apply spec_step_rs.
  Qed.

  Theorem spec_envt_rs : forall j, spec_env_template refs (rne j) = spec_env_template refs j.
  Proof.
    intros j. unfold spec_env_template, rename_env_name. cbv zeta. rewrite !jget_on_obj by reflexivity.
    exact (spec_env_rs _ _ (jget "environment" j)).
  Qed.

  Theorem prevalidate_job_rs : forall j,
    prevalidate Generated.schema refs "JobTemplate" (rnj j) = prevalidate Generated.schema refs "JobTemplate" j.
  Proof. intros j. rewrite !exact_job. apply spec_job_rs. Qed.

  Theorem prevalidate_envt_rs : forall j,
    prevalidate Generated.schema refs "EnvironmentTemplate" (rne j) = prevalidate Generated.schema refs "EnvironmentTemplate" j.
  Proof. intros j. rewrite !exact_env. apply spec_envt_rs. Qed.
End SpecInv.

(* ------------------------------------------------------------------ 4. the validators *)
Lemma forallb_map_in : forall (A : Type) (p p' : A -> bool) (g : A -> A) l,
  (forall x, In x l -> p' (g x) = p x) -> forallb p' (map g l) = forallb p l.
Proof.
  intros A p p' g l. induction l as [|x r IH]; intros H; [reflexivity|].
  cbn [map forallb]. rewrite (H x (or_introl eq_refl)), IH by (intros y Hy; apply H; right; exact Hy).
  reflexivity.
Qed.

Lemma combine_map_r : forall (I A : Type) (G : A -> A) (idx : list I) l,
  combine idx (map G l) = map (fun iv => (fst iv, G (snd iv))) (combine idx l).
Proof.
  intros I A G idx. induction idx as [|i r IH]; intros [|x l]; try reflexivity.
  cbn [map combine fst snd]. rewrite IH. reflexivity.
Qed.

(* distinct attribute names of a class, by computation *)
Fixpoint sdistinct (l : list string) : bool :=
  match l with
  | [] => true
  | x :: r => negb (existsb (String.eqb x) r) && sdistinct r
  end.

Lemma sdistinct_NoDup : forall l, sdistinct l = true -> NoDup l.
Proof.
  induction l as [|x r IH]; intros H; [constructor|].
  cbn [sdistinct] in H. apply andb_true_iff in H. destruct H as [H1 H2].
  constructor; [|exact (IH H2)]. intros Hin.
  assert (E : existsb (String.eqb x) r = true) by (apply existsb_exists; exists x; split; [exact Hin|apply String.eqb_refl]).
  rewrite E in H1. discriminate H1.
Qed.

Section Validators.
  Variables rho_s rho_e : str -> str.
  (* the names the renamings are injective on *)
  Variables Ps Pe : str -> Prop.
  Hypothesis inj_s : forall a b, Ps a -> Ps b -> rho_s a = rho_s b -> a = b.
  Hypothesis inj_e : forall a b, Pe a -> Pe b -> rho_e a = rho_e b -> a = b.
  Notation mr_dep := (mr_dep rho_s).
  Notation mr_env := (mr_env rho_e).
  Notation mr_step := (mr_step rho_s rho_e).
  Notation mr_step_g := (mr_step_g rho_s rho_e).
  Notation mr_job_g := (mr_job_g rho_s rho_e).

  (* an accepted StepTemplate instance, as far as the renaming needs it *)
  Definition step_shaped (st : mval) : Prop :=
    has_mstr Ps "name" st /\
    Forall (has_mstr Ps "dependsOn") (mitems (fget "dependencies" (model_fields st))) /\
    Forall (has_mstr Pe "name") (mitems (fget "stepEnvironments" (model_fields st))).

  Lemma dep_names_mr_step : forall st, step_shaped st -> dep_names (mr_step st) = map rho_s (dep_names st).
  Proof.
    intros st [_ [Hd _]]. unfold dep_names, RenameSteps.mr_step.
    rewrite model_fields_on_fields, fget_mapf by reflexivity.
    exact (attr_names_ren Ps rho_s (mr_dep_g rho_s) "dependsOn" _ (fun _ => eq_refl) Hd).
  Qed.

  Lemma dep_names_P : forall st, step_shaped st -> Forall Ps (dep_names st).
  Proof. intros st [_ [Hd _]]. unfold dep_names. apply attr_names_P. exact Hd. Qed.

  Lemma step_envs_mr_step : forall st, step_shaped st ->
    names_of (fget "stepEnvironments" (model_fields (mr_step st)))
    = map rho_e (names_of (fget "stepEnvironments" (model_fields st))).
  Proof.
    intros st [_ [_ He]]. unfold RenameSteps.mr_step.
    rewrite model_fields_on_fields, fget_mapf by reflexivity.
    exact (names_of_ren Pe rho_e (mr_env_g rho_e) _ (fun _ => eq_refl) He).
  Qed.

  Lemma step_envs_P : forall st, step_shaped st -> Forall Pe (names_of (fget "stepEnvironments" (model_fields st))).
  Proof. intros st [_ [_ He]]. apply names_of_P. exact He. Qed.

  Lemma step_name_mr_step : forall st, step_shaped st ->
    mstr (fget "name" (model_fields (mr_step st))) = rho_s (mstr (fget "name" (model_fields st))).
  Proof.
    intros st [[s [Hn _]] _]. unfold RenameSteps.mr_step.
    rewrite model_fields_on_fields, fget_mapf, Hn by reflexivity. reflexivity.
  Qed.

  Lemma step_name_P : forall st, step_shaped st -> Ps (mstr (fget "name" (model_fields st))).
  Proof. intros st [[s [Hn Hp]] _]. rewrite Hn. exact Hp. Qed.

  Lemma steps_named : forall S, Forall step_shaped (mitems S) -> Forall (has_mstr Ps "name") (mitems S).
  Proof.
    intros S HS. apply Forall_forall. intros st Hst. rewrite Forall_forall in HS. exact (proj1 (HS st Hst)).
  Qed.

  Lemma names_of_steps : forall S, Forall step_shaped (mitems S) ->
    names_of (on_mlist mr_step S) = map rho_s (names_of S).
  Proof. intros S HS. apply (names_of_ren Ps rho_s mr_step_g); [reflexivity|exact (steps_named S HS)]. Qed.

  (* StepTemplate: no duplicate dependency, unique step-environment names, no self dependency *)
  Definition step_ok (fs : list (string * mval)) : bool :=
    let deps := dep_names (MModel "StepTemplate" fs) in
    nodupb deps && unique_names (fget "stepEnvironments" fs) && negb (mem_str (mstr (fget "name" fs)) deps).

  Lemma post_step_eq : forall classify raw fs, post_hook classify "StepTemplate" raw fs = step_ok fs.
  Proof. reflexivity. Qed.

  Lemma step_ok_ren : forall fs, step_shaped (MModel "StepTemplate" fs) ->
    step_ok (mapf mr_step_g fs) = step_ok fs.
  Proof.
    intros fs Hs. unfold step_ok. cbv zeta.
    change (MModel "StepTemplate" (mapf mr_step_g fs)) with (mr_step (MModel "StepTemplate" fs)).
    rewrite (dep_names_mr_step _ Hs).
    pose proof (step_name_mr_step _ Hs) as En. cbn [RenameSteps.mr_step on_fields model_fields] in En. rewrite En.
    pose proof (step_name_P _ Hs) as Pn. cbn [model_fields] in Pn.
    rewrite (nodupb_inj rho_s Ps inj_s _ (dep_names_P _ Hs)), (mem_str_inj rho_s Ps inj_s _ _ Pn (dep_names_P _ Hs)).
    rewrite fget_mapf by reflexivity.
    f_equal. f_equal.
    exact (unique_names_ren rho_e Pe inj_e (mr_env_g rho_e) (fget "stepEnvironments" fs) (fun _ => eq_refl) (proj2 (proj2 Hs))).
  Qed.

  Lemma dep_job_ren : forall S, Forall step_shaped (mitems S) -> dep_job (on_mlist mr_step S) = dep_job S.
  Proof.
    intros S HS. unfold dep_job. rewrite (names_of_steps S HS), map_length, mitems_on_mlist.
    rewrite combine_map_r, map_map. apply map_ext_in. intros [i st] Hin. cbn [fst snd].
    assert (Hst : step_shaped st).
    { rewrite Forall_forall in HS. apply HS. exact (in_combine_r _ _ _ _ Hin). }
    rewrite (dep_names_mr_step st Hst), map_map. f_equal. apply map_ext_in. intros d Hd.
    pose proof (dep_names_P st Hst) as Hds. rewrite Forall_forall in Hds.
    rewrite (index_of_inj rho_s Ps inj_s d _ _ (Hds d Hd) (names_of_P Ps S (steps_named S HS))). reflexivity.
  Qed.

  Lemma job_template_ok_ren : forall classify raw fs,
    Forall step_shaped (mitems (fget "steps" fs)) ->
    Forall (has_mstr Pe "name") (mitems (fget "jobEnvironments" fs)) ->
    job_template_ok classify (rename_steps_envs rho_s rho_e raw) (mapf mr_job_g fs) = job_template_ok classify raw fs.
  Proof.
    intros classify raw fs HS HE. unfold job_template_ok. cbv zeta.
    rewrite !fget_mapf by reflexivity. cbn [RenameSteps.mr_job_g mdispatch String.eqb Ascii.eqb Bool.eqb].
    pose proof (names_of_P Ps _ (steps_named _ HS)) as Pnames.
    pose proof (names_of_P Pe _ HE) as Pjenv.
    rewrite (names_of_steps _ HS), (nodupb_inj rho_s Ps inj_s _ Pnames), (dep_job_ren _ HS).
    rewrite (prevalidate_job_rs rho_s rho_e (fs_refs classify) raw).
    unfold RenameSteps.mr_env at 1.
    rewrite (unique_names_ren rho_e Pe inj_e (mr_env_g rho_e)) by (try reflexivity; exact HE).
    unfold env_names, RenameSteps.mr_env.
    rewrite (names_of_ren Pe rho_e (mr_env_g rho_e) _ (fun x => eq_refl) HE).
    rewrite mitems_on_mlist.
    f_equal; [f_equal|].
    - apply forallb_map_in. intros st Hst.
      assert (Hs : step_shaped st) by (rewrite Forall_forall in HS; exact (HS st Hst)).
      rewrite (dep_names_mr_step st Hs). apply (forallb_mem_inj rho_s Ps inj_s (fun b => b)); [exact Pnames|exact (dep_names_P st Hs)].
    - apply forallb_map_in. intros st Hst.
      assert (Hs : step_shaped st) by (rewrite Forall_forall in HS; exact (HS st Hst)).
      fold (mr_env). rewrite (step_envs_mr_step st Hs).
      apply (forallb_mem_inj rho_e Pe inj_e negb); [exact Pjenv|exact (step_envs_P st Hs)].
  Qed.
End Validators.

Lemma step_shaped_weaken : forall (Ps Pe Qs Qe : str -> Prop) st,
  (forall s, Ps s -> Qs s) -> (forall s, Pe s -> Qe s) -> step_shaped Ps Pe st -> step_shaped Qs Qe st.
Proof.
  intros Ps Pe Qs Qe st Hs He [H1 [H2 H3]]. split; [exact (has_mstr_weaken _ _ _ _ Hs H1)|]. split.
  - eapply Forall_impl; [|exact H2]. intros m Hm. exact (has_mstr_weaken _ _ _ _ Hs Hm).
  - eapply Forall_impl; [|exact H3]. intros m Hm. exact (has_mstr_weaken _ _ _ _ He Hm).
Qed.

(* ------------------------------------------------------------------ 5. the live schema *)
Definition cls_or_dummy (c : string) : cls :=
  match lookup_cls Generated.schema c with
  | Some c0 => c0
  | None => mkCls false false None defs_none [] jcm_trivial [] []
  end.

Definition c_dep : cls := Eval vm_compute in cls_or_dummy "StepDependency".
Definition c_env : cls := Eval vm_compute in cls_or_dummy "Environment".
Definition c_step : cls := Eval vm_compute in cls_or_dummy "StepTemplate".
Definition c_job : cls := Eval vm_compute in cls_or_dummy "JobTemplate".
Definition c_envt : cls := Eval vm_compute in cls_or_dummy "EnvironmentTemplate".
Definition c_jstep : cls := Eval vm_compute in cls_or_dummy "Step".
Definition c_jjob : cls := Eval vm_compute in cls_or_dummy "Job".

Lemma lk_dep : lookup_cls Generated.schema "StepDependency" = Some c_dep. Proof. reflexivity. Qed.
Lemma lk_env : lookup_cls Generated.schema "Environment" = Some c_env. Proof. reflexivity. Qed.
Lemma lk_step : lookup_cls Generated.schema "StepTemplate" = Some c_step. Proof. reflexivity. Qed.
Lemma lk_job : lookup_cls Generated.schema "JobTemplate" = Some c_job. Proof. reflexivity. Qed.
Lemma lk_envt : lookup_cls Generated.schema "EnvironmentTemplate" = Some c_envt. Proof. reflexivity. Qed.
Lemma lk_jstep : lookup_cls Generated.schema "Step" = Some c_jstep. Proof. reflexivity. Qed.
Lemma lk_jjob : lookup_cls Generated.schema "Job" = Some c_jjob. Proof. reflexivity. Qed.

Lemma nd_dep : NoDup (map f_name (c_fields c_dep)). Proof. apply sdistinct_NoDup. reflexivity. Qed.
Lemma nd_env : NoDup (map f_name (c_fields c_env)). Proof. apply sdistinct_NoDup. reflexivity. Qed.
Lemma nd_step : NoDup (map f_name (c_fields c_step)). Proof. apply sdistinct_NoDup. reflexivity. Qed.
Lemma nd_job : NoDup (map f_name (c_fields c_job)). Proof. apply sdistinct_NoDup. reflexivity. Qed.

(* the fields that hold a renamed member: the required constr name field, the lists of models, the model *)
Definition fld_std (n : string) : field := mkField n n true Single (KStr true (Some 1%N) (Some 64%N) CS_standard).

Definition fld_deps : field := mkField "dependencies" "dependencies" false (ListOf (Some 1%N) None) (KModel "StepDependency").
Definition fld_senvs : field := mkField "stepEnvironments" "stepEnvironments" false (ListOf (Some 1%N) None) (KModel "Environment").
Definition fld_steps : field := mkField "steps" "steps" true (ListOf (Some 1%N) None) (KModel "StepTemplate").
Definition fld_jenvs : field := mkField "jobEnvironments" "jobEnvironments" false (ListOf (Some 1%N) None) (KModel "Environment").
Definition fld_environment : field := mkField "environment" "environment" true Single (KModel "Environment").
Definition fld_jsteps : field := mkField "steps" "steps" true (ListOf None None) (KModel "Step").

Ltac in_fields := repeat (first [left; reflexivity | right]).

(* the classes that hold a renamed attribute: template side, and the Job / Step target classes *)
Definition live_classes : list string :=
  ["StepDependency"; "Environment"; "StepTemplate"; "JobTemplate"; "EnvironmentTemplate"; "Step"; "Job"].

Section Live.
  Variable classify : N -> cclass.
  Variables rho_s rho_e : str -> str.
  Hypothesis fine_s : forall n, name_fine (rho_s n) = name_fine n.
  Hypothesis fine_e : forall n, name_fine (rho_e n) = name_fine n.
  (* the pre validators: those of Validators.v on the classes concerned (decoding uses [pre_hook] itself, the
     job-side re-validation of create_job [Export.pre_full], which adds checks on other classes only) *)
  Variable pre : string -> json -> bool.
  Hypothesis Hpre : forall c raw, In c live_classes -> pre c raw = pre_hook c raw.
  Notation SCH := Generated.schema.
  Notation post := (post_hook classify).
  Notation pk := (parse_kind SCH classify pre post).
  Notation pc := (parse_cls SCH classify pre post).
  Notation rs_dep := (rs_dep rho_s).
  Notation rs_env := (rs_env rho_e).
  Notation rs_step := (rs_step rho_s rho_e).
  Notation mr_dep := (mr_dep rho_s).
  Notation mr_env := (mr_env rho_e).
  Notation mr_step := (mr_step rho_s rho_e).
  Lemma pk_model_shape : forall c v (P : mval -> Prop),
    (forall f m, pc f c v = Ok m -> P m) -> forall f m, pk f (KModel c) v = Ok m -> P m.
  Proof.
    intros c v P H f m Hy. destruct f as [|f']; [discriminate Hy|]. rewrite parse_kind_S in Hy. exact (H f' m Hy).
  Qed.

  (* the required name field [n] of an object that parsed: the member [n] of the object, a string *)
  Lemma name_field_shape : forall f ms fls fs n,
    mapM (parse_field (pk f) ms) fls = Ok fs -> NoDup (map f_name fls) -> In (fld_std n) fls ->
    has_mstr (jstr n (JObj ms)) n (MModel "" fs).
  Proof.
    intros f ms fls fs n Hm Hnd Hin.
    pose proof (fields_fget _ _ _ _ Hm Hnd (fld_std n) Hin) as Hf.
    destruct (pv_name_shape _ _ _ _ _ _ _ _ _ Hf) as [s [Hs Hr]].
    exists s. split; [exact Hs|exact Hr].
  Qed.

  Lemma shape_dep : forall f v m, pc f "StepDependency" v = Ok m -> has_mstr (jstr "dependsOn" v) "dependsOn" m.
  Proof.
    intros f v m H. destruct (pc_ok_inv _ _ _ _ _ _ _ _ _ lk_dep H) as [f' [ms [fs [-> [-> [-> Hm]]]]]].
    exact (name_field_shape f' ms _ fs "dependsOn" Hm nd_dep ltac:(in_fields)).
  Qed.

  Lemma shape_env : forall f v m, pc f "Environment" v = Ok m -> has_mstr (jstr "name" v) "name" m.
  Proof.
    intros f v m H. destruct (pc_ok_inv _ _ _ _ _ _ _ _ _ lk_env H) as [f' [ms [fs [-> [-> [-> Hm]]]]]].
    exact (name_field_shape f' ms _ fs "name" Hm nd_env ltac:(in_fields)).
  Qed.


  (* the items of a list field that parsed, with a shape that speaks about the item they were parsed from *)
  Lemma list_field_shape : forall f ms fls fs fl lo hi c (Q : json -> mval -> Prop) (P : mval -> Prop),
    mapM (parse_field (pk f) ms) fls = Ok fs -> NoDup (map f_name fls) -> In fl fls ->
    f_shape fl = ListOf lo hi -> f_kind fl = KModel c ->
    (forall f' y m, pc f' c y = Ok m -> Q y m) ->
    (forall y m, item_of (f_alias fl) (JObj ms) y -> Q y m -> P m) ->
    Forall P (mitems (fget (f_name fl) fs)).
  Proof.
    intros f ms fls fs fl lo hi c Q P Hm Hnd Hin Hs Hk HQ HP.
    pose proof (fields_fget _ _ _ _ Hm Hnd fl Hin) as Hf.
    apply (pv_list_shape _ _ _ _ _ _ _ Hf Hs). intros y m Hy Hp. rewrite Hk in Hp.
    exact (HP y m Hy (pk_model_shape c y (Q y) (fun f' m' => HQ f' y m') f m Hp)).
  Qed.

  Lemma shape_step_fields : forall f ms fs, mapM (parse_field (pk f) ms) (c_fields c_step) = Ok fs ->
    step_shaped (step_snames (JObj ms)) (step_enames (JObj ms)) (MModel "StepTemplate" fs).
  Proof.
    intros f ms fs Hm. unfold step_shaped. cbn [model_fields]. split; [|split].
    - apply (has_mstr_weaken (jstr "name" (JObj ms))); [intros s H; left; exact H|].
      exact (name_field_shape f ms _ fs "name" Hm nd_step ltac:(in_fields)).
    - apply (list_field_shape f ms _ fs fld_deps _ _ "StepDependency"
               (fun y m => has_mstr (jstr "dependsOn" y) "dependsOn" m) _ Hm nd_step ltac:(in_fields) eq_refl eq_refl).
      + intros f' y m. apply shape_dep.
      + intros y m Hy. apply has_mstr_weaken. intros s H. right. exists y. split; assumption.
    - apply (list_field_shape f ms _ fs fld_senvs _ _ "Environment"
               (fun y m => has_mstr (jstr "name" y) "name" m) _ Hm nd_step ltac:(in_fields) eq_refl eq_refl).
      + intros f' y m. apply shape_env.
      + intros y m Hy. apply has_mstr_weaken. intros s H. exists y. split; assumption.
  Qed.

  Lemma shape_step : forall f v m, pc f "StepTemplate" v = Ok m -> step_shaped (step_snames v) (step_enames v) m.
  Proof.
    intros f v m H. destruct (pc_ok_inv _ _ _ _ _ _ _ _ _ lk_step H) as [f' [ms [fs [-> [-> [-> Hm]]]]]].
    exact (shape_step_fields f' ms fs Hm).
  Qed.

  (* The seven classes, bottom up.
     Each time: [pc_on_obj] leaves an object, [pc_tables] the pre validator, the fields that the tables of the
     renaming mention (named by a [change], which also spares the unifier the evaluation of the filter), and
     the post validator. *)
  Theorem pc_dep : forall f v, pc f "StepDependency" (rs_dep v) = omap mr_dep (pc f "StepDependency" v).
  Proof.
    intros f v. apply (pc_on_obj SCH classify pre post _ _ _ _ f v lk_dep). intros f' ms _.
    apply (pc_tables SCH classify pre post f' _ _ _ _ ms lk_dep).
    - repeat constructor.
    - rewrite !Hpre by in_fields. reflexivity.
    - change (filter _ _) with [fld_std "dependsOn"].
      constructor; [exact (pv_name SCH classify pre post f' rho_s "dependsOn" "dependsOn" _ fine_s)|constructor].
    - intros fs _. reflexivity.
  Qed.

  Theorem pc_env : forall f v, pc f "Environment" (rs_env v) = omap mr_env (pc f "Environment" v).
  Proof.
    intros f v. apply (pc_on_obj SCH classify pre post _ _ _ _ f v lk_env). intros f' ms _.
    apply (pc_tables SCH classify pre post f' _ _ _ _ ms lk_env).
    - repeat constructor.
    - rewrite !Hpre by in_fields.
      change (pre_hook "Environment" ?r) with (negb (is_null (jget "script" r)) || negb (is_null (jget "variables" r))).
      change (JObj (ren_members ?h ms)) with (on_obj h (JObj ms)).
      rewrite !jget_on_obj by reflexivity. reflexivity.
    - change (filter _ _) with [fld_std "name"].
      constructor; [exact (pv_name SCH classify pre post f' rho_e "name" "name" _ fine_e)|constructor].
    - intros fs _. change (post "Environment" ?r ?a) with (match fget "variables" a with MDict [] => false | _ => true end).
      rewrite fget_mapf by reflexivity. reflexivity.
  Qed.

  (* list-valued members of environments / dependencies: no condition on the items *)
  Lemma pv_envs : forall f fl lo hi x, f_shape fl = ListOf lo hi -> f_kind fl = KModel "Environment" ->
    parse_value (pk f) fl (on_arr rs_env x) = omap (on_mlist mr_env) (parse_value (pk f) fl x).
  Proof.
    intros f fl lo hi x Hs Hk. apply (pv_models SCH classify pre post f fl lo hi _ rs_env mr_env x Hs Hk).
    intros y _ f'. apply pc_env.
  Qed.

  Lemma pv_deps : forall f fl lo hi x, f_shape fl = ListOf lo hi -> f_kind fl = KModel "StepDependency" ->
    parse_value (pk f) fl (on_arr rs_dep x) = omap (on_mlist mr_dep) (parse_value (pk f) fl x).
  Proof.
    intros f fl lo hi x Hs Hk. apply (pv_models SCH classify pre post f fl lo hi _ rs_dep mr_dep x Hs Hk).
    intros y _ f'. apply pc_dep.
  Qed.

  Theorem pc_step : forall f v,
    (forall a b, step_snames v a -> step_snames v b -> rho_s a = rho_s b -> a = b) ->
    (forall a b, step_enames v a -> step_enames v b -> rho_e a = rho_e b -> a = b) ->
    pc f "StepTemplate" (rs_step v) = omap mr_step (pc f "StepTemplate" v).
  Proof.
    intros f v Is Ie. apply (pc_on_obj SCH classify pre post _ _ _ _ f v lk_step). intros f' ms ->.
    apply (pc_tables SCH classify pre post f' _ _ _ _ ms lk_step).
    - repeat constructor.
    - rewrite !Hpre by in_fields. reflexivity.
    - change (filter _ _) with [fld_std "name"; fld_senvs; fld_deps].
      constructor; [exact (pv_name SCH classify pre post f' rho_s "name" "name" _ fine_s)|].
      constructor; [exact (pv_envs f' fld_senvs _ _ _ eq_refl eq_refl)|].
      constructor; [exact (pv_deps f' fld_deps _ _ _ eq_refl eq_refl)|constructor].
    - intros fs Hm. rewrite !post_step_eq.
      apply (step_ok_ren rho_s rho_e (step_snames (JObj ms)) (step_enames (JObj ms)) Is Ie).
      exact (shape_step_fields f' ms fs Hm).
  Qed.

  Theorem pc_job : forall f v,
    (forall a b, job_snames v a -> job_snames v b -> rho_s a = rho_s b -> a = b) ->
    (forall a b, job_enames v a -> job_enames v b -> rho_e a = rho_e b -> a = b) ->
    pc f "JobTemplate" (rename_steps_envs rho_s rho_e v) = omap (mrename_job rho_s rho_e) (pc f "JobTemplate" v).
  Proof.
    intros f v Is Ie. apply (pc_on_obj SCH classify pre post _ _ _ _ f v lk_job). intros f' ms ->.
    apply (pc_tables SCH classify pre post f' _ _ _ _ ms lk_job).
    - repeat constructor.
    - rewrite !Hpre by in_fields. reflexivity.
    - change (filter _ _) with [fld_steps; fld_jenvs].
      constructor; [|constructor; [exact (pv_envs f' fld_jenvs _ _ _ eq_refl eq_refl)|constructor]].
      (* steps: the names of an item are names of this document *)
      apply (pv_models SCH classify pre post f' fld_steps _ _ _ rs_step mr_step _ eq_refl eq_refl). intros y Hy f''.
      apply pc_step; intros a b Ha Hb.
      + apply Is; exists y; split; assumption.
      + apply Ie; right; exists y; split; assumption.
    - intros fs Hm.
      change (post "JobTemplate" ?r ?a) with (job_template_ok classify r a).
      apply (job_template_ok_ren rho_s rho_e (job_snames (JObj ms)) (job_enames (JObj ms)) Is Ie classify (JObj ms)).
      + apply (list_field_shape f' ms _ fs fld_steps _ _ "StepTemplate"
                 (fun y m => step_shaped (step_snames y) (step_enames y) m) _ Hm nd_job ltac:(in_fields) eq_refl eq_refl).
        * intros f'' y m. apply shape_step.
        * intros y m Hy. apply step_shaped_weaken; intros s H; [|right]; exists y; split; assumption.
      + apply (list_field_shape f' ms _ fs fld_jenvs _ _ "Environment"
                 (fun y m => has_mstr (jstr "name" y) "name" m) _ Hm nd_job ltac:(in_fields) eq_refl eq_refl).
        * intros f'' y m. apply shape_env.
        * intros y m Hy. apply has_mstr_weaken. intros s H. left. exists y. split; assumption.
  Qed.


  Theorem pc_envt : forall f v,
    pc f "EnvironmentTemplate" (rename_env_name rho_e v)
    = omap (mrename_env_template rho_e) (pc f "EnvironmentTemplate" v).
  Proof.
    intros f v. apply (pc_on_obj SCH classify pre post _ _ _ _ f v lk_envt). intros f' ms _.
    apply (pc_tables SCH classify pre post f' _ _ _ _ ms lk_envt).
    - repeat constructor.
    - rewrite !Hpre by in_fields. reflexivity.
    - change (filter _ _) with [fld_environment]. constructor; [|constructor].
      apply (pv_model (pk f') fld_environment rs_env mr_env _ eq_refl eq_refl); [destruct (field_raw ms _); reflexivity|].
      apply (pk_model SCH classify pre post "Environment" rs_env mr_env). intros f''. apply pc_env.
    - intros fs _.
      change (post "EnvironmentTemplate" ?r ?a)
        with (unique_names (fget "parameterDefinitions" a)
              && (match prevalidate SCH (fs_refs classify) "EnvironmentTemplate" r with [] => true | _ => false end)).
      change (JObj (ren_members _ ms)) with (rename_env_name rho_e (JObj ms)).
      rewrite (prevalidate_envt_rs rho_e (fs_refs classify) (JObj ms)).
      rewrite fget_mapf by reflexivity. reflexivity.
  Qed.

  (* the target classes Step and Job (no uniqueness validators: no injectivity needed) *)
  Theorem pc_jstep : forall f v, pc f "Step" (rs_step v) = omap mr_step (pc f "Step" v).
  Proof.
    intros f v. apply (pc_on_obj SCH classify pre post _ _ _ _ f v lk_jstep). intros f' ms _.
    apply (pc_tables SCH classify pre post f' _ _ _ _ ms lk_jstep).
    - repeat constructor.
    - rewrite !Hpre by in_fields. reflexivity.
    - change (filter _ _) with [fld_std "name"; fld_senvs; fld_deps].
      constructor; [exact (pv_name SCH classify pre post f' rho_s "name" "name" _ fine_s)|].
      constructor; [exact (pv_envs f' fld_senvs _ _ _ eq_refl eq_refl)|].
      constructor; [exact (pv_deps f' fld_deps _ _ _ eq_refl eq_refl)|constructor].
    - intros fs _. reflexivity.
  Qed.

  Theorem pc_jjob : forall f v,
    pc f "Job" (rename_steps_envs rho_s rho_e v) = omap (mrename_job rho_s rho_e) (pc f "Job" v).
  Proof.
    intros f v. apply (pc_on_obj SCH classify pre post _ _ _ _ f v lk_jjob). intros f' ms _.
    apply (pc_tables SCH classify pre post f' _ _ _ _ ms lk_jjob).
    - repeat constructor.
    - rewrite !Hpre by in_fields. reflexivity.
    - change (filter _ _) with [fld_jsteps; fld_jenvs].
      constructor; [|constructor; [exact (pv_envs f' fld_jenvs _ _ _ eq_refl eq_refl)|constructor]].
      apply (pv_models SCH classify pre post f' fld_jsteps _ _ _ rs_step mr_step _ eq_refl eq_refl).
      intros y _ f''. apply pc_jstep.
    - intros fs _. reflexivity.
  Qed.
End Live.

Section Depth.
  Variables rho_s rho_e : str -> str.
  Notation rs_dep := (rs_dep rho_s).
  Notation rs_env := (rs_env rho_e).
  Notation rs_step := (rs_step rho_s rho_e).

  Lemma depth_rs_dep : forall v, json_depth (rs_dep v) = json_depth v.
  Proof.
    intros v. apply depth_on_obj. intros k x. apply depth_dispatch.
    repeat constructor. intros y. apply depth_ren_str.
  Qed.

  Lemma depth_rs_env : forall v, json_depth (rs_env v) = json_depth v.
  Proof.
    intros v. apply depth_on_obj. intros k x. apply depth_dispatch.
    repeat constructor. intros y. apply depth_ren_str.
  Qed.

  Lemma depth_rs_step : forall v, json_depth (rs_step v) = json_depth v.
  Proof.
    intros v. apply depth_on_obj. intros k x. apply depth_dispatch.
    constructor; [intros y; apply depth_ren_str|].
    constructor; [intros y; apply depth_on_arr; exact depth_rs_dep|].
    constructor; [intros y; apply depth_on_arr; exact depth_rs_env|]. constructor.
  Qed.

  Lemma depth_rename_steps_envs : forall j, json_depth (rename_steps_envs rho_s rho_e j) = json_depth j.
  Proof.
    intros j. apply depth_on_obj. intros k x. apply depth_dispatch.
    constructor; [intros y; apply depth_on_arr; exact depth_rs_step|].
    constructor; [intros y; apply depth_on_arr; exact depth_rs_env|]. constructor.
  Qed.

  Lemma depth_rename_env_name : forall j, json_depth (rename_env_name rho_e j) = json_depth j.
  Proof.
    intros j. apply depth_on_obj. intros k x. apply depth_dispatch.
    constructor; [exact depth_rs_env|constructor].
  Qed.

End Depth.

Section Decode.
  Variable classify : N -> cclass.
  Variables rho_s rho_e : str -> str.
  Hypothesis fine_s : forall n, name_fine (rho_s n) = name_fine n.
  Hypothesis fine_e : forall n, name_fine (rho_e n) = name_fine n.

  (* decode_job / decode_env on an object: the version test, then the root class at the fuel of the document *)
  Lemma decode_ren : forall vs root (mr : mval -> mval) j j',
    version_ok vs j' = version_ok vs j -> json_depth j' = json_depth j ->
    (forall f, parse_cls Generated.schema classify pre_hook (post_hook classify) f root j'
               = omap mr (parse_cls Generated.schema classify pre_hook (post_hook classify) f root j)) ->
    (if version_ok vs j' then parse_template classify root j' else Raise ValueError)
    = omap mr (if version_ok vs j then parse_template classify root j else Raise ValueError).
  Proof.
    intros vs root mr j j' Hv Hd Hp. rewrite Hv. destruct (version_ok vs j); [|reflexivity].
    unfold parse_template, parse_root, parse_fuel. rewrite Hd. apply Hp.
  Qed.

  (* injectivity is needed on the step names, resp. the environment names, of the document only *)
  Theorem decode_job_rs_names : forall j,
    (forall a b, job_snames j a -> job_snames j b -> rho_s a = rho_s b -> a = b) ->
    (forall a b, job_enames j a -> job_enames j b -> rho_e a = rho_e b -> a = b) ->
    decode_job classify (rename_steps_envs rho_s rho_e j) = omap (mrename_job rho_s rho_e) (decode_job classify j).
  Proof.
    intros j Is Ie. destruct j as [| | | | | |ms]; try reflexivity.
    apply (decode_ren _ "JobTemplate" (mrename_job rho_s rho_e) (JObj ms) (rename_steps_envs rho_s rho_e (JObj ms))).
    - unfold version_ok, rename_steps_envs. rewrite jget_on_obj by reflexivity. reflexivity.
    - apply depth_rename_steps_envs.
    - intros f. apply (pc_job classify rho_s rho_e fine_s fine_e pre_hook (fun c raw _ => eq_refl)); assumption.
  Qed.

  (* ... a fortiori on all strings of the document *)
  Theorem decode_job_rs_on : forall j, InjOn rho_s (jstrings j) -> InjOn rho_e (jstrings j) ->
    decode_job classify (rename_steps_envs rho_s rho_e j) = omap (mrename_job rho_s rho_e) (decode_job classify j).
  Proof.
    intros j Is Ie. apply decode_job_rs_names; intros a b Ha Hb.
    - apply Is; apply job_snames_jstrings; assumption.
    - apply Ie; apply job_enames_jstrings; assumption.
  Qed.

  Theorem decode_job_rs : forall j,
    (forall a b, rho_s a = rho_s b -> a = b) -> (forall a b, rho_e a = rho_e b -> a = b) ->
    decode_job classify (rename_steps_envs rho_s rho_e j) = omap (mrename_job rho_s rho_e) (decode_job classify j).
  Proof. intros j Hs He. apply decode_job_rs_names; intros a b _ _; [apply Hs|apply He]. Qed.

  Theorem decode_env_rs : forall j,
    decode_env classify (rename_env_name rho_e j) = omap (mrename_env_template rho_e) (decode_env classify j).
  Proof.
    intros j. destruct j as [| | | | | |ms]; try reflexivity.
    apply (decode_ren _ "EnvironmentTemplate" (mrename_env_template rho_e) (JObj ms) (rename_env_name rho_e (JObj ms))).
    - unfold version_ok, rename_env_name. rewrite jget_on_obj by reflexivity. reflexivity.
    - apply depth_rename_env_name.
    - intros f. apply (pc_envt classify rho_e fine_e pre_hook (fun c raw _ => eq_refl)).
  Qed.
End Decode.

(* renamings for the non-vacuity examples of props/C19xs.v *)

(* "spell the name backwards": injective, keeps the length and the characters, changes the sort order *)
Definition rho_rev (s : str) : str := rev s.

Lemma rho_rev_inj : forall a b, rho_rev a = rho_rev b -> a = b.
Proof. intros a b H. unfold rho_rev in H. rewrite <- (rev_involutive a), H. apply rev_involutive. Qed.

Lemma forallb_rev : forall (A : Type) (p : A -> bool) l, forallb p (rev l) = forallb p l.
Proof.
  intros A p l. induction l as [|x r IH]; [reflexivity|].
  cbn [rev forallb]. rewrite forallb_app, IH. cbn [forallb]. rewrite andb_true_r. apply andb_comm.
Qed.

Lemma rho_rev_fine : forall n, name_fine (rho_rev n) = name_fine n.
Proof.
  intros n. unfold name_fine, rho_rev, len_ok, cs_ok. rewrite rev_length, forallb_rev.
  f_equal. f_equal. destruct n as [|c r]; [reflexivity|]. cbn [rev]. destruct (rev r); reflexivity.
Qed.

Definition rho_swap (a b s : str) : str := if str_eqb s a then b else if str_eqb s b then a else s.

Lemma rho_swap_invol : forall a b s, rho_swap a b (rho_swap a b s) = s.
Proof.
  intros a b s. unfold rho_swap.
  destruct (str_eqb s a) eqn:Ea.
  - apply str_eqb_eq in Ea. subst s.
    destruct (str_eqb b a) eqn:Eba; [apply str_eqb_eq in Eba; exact Eba|].
    rewrite str_eqb_refl. reflexivity.
  - destruct (str_eqb s b) eqn:Eb.
    + apply str_eqb_eq in Eb. subst s. rewrite str_eqb_refl. reflexivity.
    + rewrite Ea, Eb. reflexivity.
Qed.

Lemma rho_swap_inj : forall a b x y, rho_swap a b x = rho_swap a b y -> x = y.
Proof. intros a b x y H. rewrite <- (rho_swap_invol a b x), H. apply rho_swap_invol. Qed.

Lemma rho_swap_fine : forall a b, name_fine a = name_fine b -> forall n, name_fine (rho_swap a b n) = name_fine n.
Proof.
  intros a b Hab n. unfold rho_swap.
  destruct (str_eqb n a) eqn:Ea; [apply str_eqb_eq in Ea; subst n; symmetry; exact Hab|].
  destruct (str_eqb n b) eqn:Eb; [apply str_eqb_eq in Eb; subst n; exact Hab|reflexivity].
Qed.

(* a finite renaming extended by the identity — what a harness does: the names of the document onto fresh
   names.  It is NOT injective on all strings (a fresh name and the name it replaces have the same image), but
   it is injective on the strings of a document in which the fresh names do not occur *)
Definition rho_tbl (tbl : list (str * str)) (s : str) : str :=
  match assoc s tbl with Some b => b | None => s end.

Lemma rho_tbl_fine : forall tbl,
  forallb (fun ab => Bool.eqb (name_fine (fst ab)) (name_fine (snd ab))) tbl = true ->
  forall n, name_fine (rho_tbl tbl n) = name_fine n.
Proof.
  intros tbl H n. unfold rho_tbl. induction tbl as [|[a b] r IH]; [reflexivity|].
  cbn [forallb fst snd] in H. apply andb_true_iff in H. destruct H as [H1 H2].
  cbn [assoc]. destruct (str_eqb n a) eqn:E; [|exact (IH H2)].
  apply str_eqb_eq in E. subst n. symmetry. apply Bool.eqb_prop. exact H1.
Qed.

(* injectivity on a given list of strings, by computation *)
Definition inj_onb (rho : str -> str) (l : list str) : bool :=
  forallb (fun a => forallb (fun b => implb (str_eqb (rho a) (rho b)) (str_eqb a b)) l) l.

Lemma inj_onb_sound : forall rho l, inj_onb rho l = true -> InjOn rho l.
Proof.
  intros rho l H a b Ha Hb E. unfold inj_onb in H. rewrite forallb_forall in H.
  specialize (H a Ha). rewrite forallb_forall in H. specialize (H b Hb).
  rewrite E, str_eqb_refl in H. cbn [implb] in H. apply str_eqb_eq. exact H.
Qed.
