(* UsableProofs.v — every Job create_job_full returns for an accepted template is usable.

   Assembly:
     * UsableTrace.job_shape: the instantiated tree has one step per template step, same names and
       dependencies, parameter spaces of the right shape, and the template passed job_template_ok;
     * coerce_job = coerce_all (the fuel suffices: instantiate_model does not deepen the tree) keeps names,
       dependencies and the shape of the spaces, and turns the numbers of range lists into strings;
     * nodes_ok = Ok true: every node of the returned Job is accepted by its own class, hence
       UsableSpace.shape_usable for every parameter space;
     * the Job's graph ([job_graph]) is the template's position graph (Validators.dep_job), which is
       well named and acyclic (the template passed AcceptRules.job_template_rule_iff's dependency rule), so C15
       gives the order. *)
From Coq Require Import List NArith ZArith Bool String Lia Permutation.
Import ListNotations.
Require Import OJD.ListLib OJD.Base OJD.Lexer OJD.Json OJD.Schema OJD.Generated OJD.CreateJob OJD.CreateJobProofs
               OJD.Parse OJD.Validators OJD.Accept OJD.Export OJD.WF OJD.AcceptRules OJD.AcceptDeps
               OJD.DepGraph OJD.DepGraphSpec OJD.DepGraphProofs OJD.CreateJobNoRT
               OJD.CreateJobFull OJD.CreateJobFullProofs
               OJD.ConformProofs OJD.UsableGlue OJD.UsableSpec OJD.UsableShape OJD.UsableSpace OJD.UsableTrace.
Local Open Scope string_scope.
Local Open Scope list_scope.

Lemma subnode_trans : forall a b c, subnode a b -> subnode b c -> subnode a c.
Proof.
  intros a b c H. induction H as [v|l x w Hx _ IH|l kv w Hkv _ IH|cl fs fv w Hfv _ IH]; intros Hc.
  - exact Hc.
  - exact (Sub_list l x c Hx (IH Hc)).
  - exact (Sub_dict l kv c Hkv (IH Hc)).
  - exact (Sub_model cl fs fv c Hfv (IH Hc)).
Qed.

Lemma subnode_mfield : forall v k x, mfield k (model_fields v) = x -> x <> MNone -> subnode v x.
Proof.
  intros v k x H Hn. unfold mfield in H.
  destruct (lookup_s k (model_fields v)) as [y|] eqn:E; [|subst x; contradiction]. subst y.
  destruct v as [ | | | | | | | | |c fs]; try discriminate E. cbn [model_fields] in E.
  apply (Sub_model c fs (k, x)); [exact (lookup_s_in _ _ _ _ E)|apply Sub_refl].
Qed.

Lemma subnode_mitems : forall v x, In x (mitems v) -> subnode v x.
Proof.
  intros v x H. destruct v as [ | | | | | | |l| | ]; try destruct H.
  apply (Sub_list l x); [exact H|apply Sub_refl].
Qed.

Definition steps_graph (steps : mval) : DepGraph.job :=
  map (fun st => (step_number steps (step_name st), map (step_number steps) (dep_names st))) (mitems steps).

Lemma map_snd_combine : forall (A B : Type) (l1 : list A) (l2 : list B),
  List.length l1 = List.length l2 -> map snd (combine l1 l2) = l2.
Proof.
  induction l1 as [|a l1 IH]; intros [|b l2] H; cbn in *; try discriminate; [reflexivity|].
  f_equal. apply IH. lia.
Qed.

(* with pairwise distinct step names, a step's number is its position: the validator's graph *)
Lemma steps_graph_dep_job : forall steps, NoDup (names_of steps) -> steps_graph steps = dep_job steps.
Proof.
  intros steps ND. unfold steps_graph, dep_job.
  rewrite names_of_length.
  rewrite <- (map_snd_combine _ _ (seq 0 (List.length (mitems steps))) (mitems steps)) at 1 by apply seq_length.
  rewrite map_map. apply map_ext_in. intros [i st] Hin. cbn [fst snd].
  apply combine_seq_fwd in Hin. destruct Hin as [_ Hn]. rewrite Nat.sub_0_r in Hn.
  f_equal.
  - unfold step_number. apply (idx_at steps ND i). unfold names_of. unfold step_name.
    apply (map_nth_error (fun m => mstr (fget "name" (model_fields m)))). exact Hn.
  - apply map_ext. intros d. unfold step_number. rewrite names_of_length. reflexivity.
Qed.

Lemma steps_graph_ext : forall (R : mval -> mval -> Prop) l l',
  (forall m y, R m y -> step_name y = step_name m /\ dep_names y = dep_names m) ->
  Forall2 R l l' -> steps_graph (MList l') = steps_graph (MList l).
Proof.
  intros R l l' HR HF.
  assert (Hnames : names_of (MList l') = names_of (MList l)).
  { unfold names_of. cbn [mitems]. clear - HR HF. induction HF as [|m y l l' Hmy _ IH]; [reflexivity|].
    cbn [map]. rewrite IH. f_equal. exact (proj1 (HR m y Hmy)). }
  unfold steps_graph. cbn [mitems].
  assert (Hnum : forall d, step_number (MList l') d = step_number (MList l) d).
  { intros d. unfold step_number. rewrite Hnames. reflexivity. }
  clear Hnames. generalize dependent (step_number (MList l')). generalize (step_number (MList l)).
  intros num num' Hnum. induction HF as [|m y l0 l0' Hmy _ IH]; [reflexivity|].
  cbn [map]. destruct (HR m y Hmy) as [E1 E2]. rewrite E1, E2, Hnum. f_equal; [|exact IH].
  f_equal. apply map_ext. exact Hnum.
Qed.

(* C15 on a graph that passed the template's dependency rule *)
Lemma deps_rule_graph : forall steps, DepsRule steps ->
  let g := dep_job steps in
  well_named g /\
  exists gr order,
    build g = Ok gr /\ topo gr = Ok order /\
    Permutation order (DepGraphSpec.names g) /\
    (forall n d, In d (deps_of g n) -> before d n order) /\
    order = stable_order g.
Proof.
  intros steps [ND [Hc Ha]] g.
  assert (Hw : well_named g) by (split; [apply dep_job_nodup|apply dep_job_closed; exact Hc]).
  split; [exact Hw|].
  destruct (edges_exact g Hw) as [gr [Hb _]].
  destruct (topo_valid_order g gr Hw Hb Ha) as [order [Ht [Hp Hbefore]]].
  exists gr, order. split; [exact Hb|]. split; [exact Ht|]. split; [exact Hp|]. split; [exact Hbefore|].
  pose proof (topo_stable_order g gr Hw Hb Ha) as Hs. rewrite Ht in Hs. injection Hs as ->. reflexivity.
Qed.

(* whatever the resolver and the symbol table: the coerced instance of an accepted template, once every node of
   it has been accepted by its own class, is usable *)
Theorem inst_nodes_usable : forall classify resolve sigma j t job0 F,
  decode_job classify j = Ok t ->
  inst Generated.schema resolve sigma (S (mval_depth t)) t = Ok job0 ->
  nodes_ok classify F (coerce_all job0) = Ok true ->
  usable_job classify (coerce_all job0).
Proof.
  intros classify resolve sigma j t job0 F Hd Ei En.
  destruct (job_shape classify resolve sigma j t (S (mval_depth t)) job0 Hd (Nat.lt_succ_diag_r _) Ei)
    as [fs_t [l [fs_j [l' [Et [Hsteps_t [Hok [Ej [Hsteps_j HF]]]]]]]]].
  subst job0. rewrite coerce_all_model in *.
  set (job := MModel "Job" (coerce_fields fs_j)) in *.
  assert (Hsv : job_steps_val job = MList (map coerce_all l')).
  { unfold job_steps_val, job. cbn [model_fields]. rewrite mfield_coerce by reflexivity. rewrite Hsteps_j. reflexivity. }
  assert (Hacc : forall w, subnode job w -> node_accepted classify w)
    by (exact (nodes_ok_accepted classify _ job En)).
  split; [|split].
  - exists (coerce_fields fs_j), (map coerce_all l'). split; [reflexivity|exact Hsv].
  - intros st Hst. unfold job_steps in Hst. rewrite Hsv in Hst. cbn [mitems] in Hst.
    apply in_map_iff in Hst. destruct Hst as [y [<- Hy]].
    destruct (Forall2_in_r _ _ _ _ _ y HF Hy) as [m [_ [_ [_ Hsp]]]].
    rewrite step_space_coerce. destruct Hsp as [E|Hshape].
    + rewrite E. apply none_usable.
    + apply shape_usable; [apply space_shape_coerce; exact Hshape|].
      intros w Hw. apply Hacc.
      assert (Hsub : subnode job (coerce_all (step_space y))).
      { apply (subnode_trans _ (job_steps_val job)).
        - apply (subnode_mfield job "steps"); [reflexivity|]. rewrite Hsv. discriminate.
        - rewrite Hsv. apply (subnode_trans _ (coerce_all y)).
          + apply subnode_mitems. cbn [mitems]. apply in_map. exact Hy.
          + rewrite <- step_space_coerce. apply (subnode_mfield _ "parameterSpace"); [reflexivity|].
            rewrite step_space_coerce. destruct Hshape as [kys [cb [-> _]]]. discriminate. }
      exact (subnode_trans _ _ _ Hsub Hw).
  - unfold usable_graph.
    assert (Hrule : DepsRule (MList l)).
    { apply (job_template_rule_iff classify) in Hok. destruct Hok as [Hdr _]. rewrite Hsteps_t in Hdr. exact Hdr. }
    assert (Eg : job_graph job = dep_job (MList l)).
    { change (job_graph job) with (steps_graph (job_steps_val job)). rewrite Hsv.
      rewrite <- (steps_graph_dep_job (MList l) (proj1 Hrule)).
      apply (steps_graph_ext (fun m y' => exists y, y' = coerce_all y /\ step_rel classify m y)).
      - intros m y' [y [-> [E1 [E2 _]]]]. rewrite step_name_coerce, dep_names_coerce. split; assumption.
      - clear - HF. induction HF as [|m y l l' Hr _ IH]; [constructor|]. cbn [map]. constructor; [|exact IH].
        exists y. split; [reflexivity|exact Hr]. }
    rewrite Eg. apply deps_rule_graph. exact Hrule.
Qed.

Theorem create_job_full_usable : forall classify j t envs vals job,
  decode_job classify j = Ok t -> accepted_envs classify envs ->
  create_job_full classify envs t vals = Ok job ->
  usable_job classify job.
Proof.
  intros classify j t envs vals job Hd _ H.
  destruct (create_job_full_ok classify envs t vals job H) as [pvals [job0 [_ [Ei [-> En]]]]].
  rewrite <- coerce_all_eq in *. exact (inst_nodes_usable classify _ _ j t job0 _ Hd Ei En).
Qed.

(* the property's ending in one statement: a usable Job, or DecodeValidationError *)
Theorem create_job_full_total_usable : forall classify j t envs vals,
  decode_job classify j = Ok t -> accepted_envs classify envs ->
  (exists job, create_job_full classify envs t vals = Ok job /\ usable_job classify job) \/
  create_job_full classify envs t vals = Raise DecodeValidationError.
Proof.
  intros classify j t envs vals Hd He.
  destruct (create_job_full_total classify j t envs vals Hd He) as [[job Hj]|Hr]; [left|right; exact Hr].
  exists job. split; [exact Hj|]. exact (create_job_full_usable classify j t envs vals job Hd He Hj).
Qed.

Theorem create_job_docs_usable : forall classify env_docs doc vals out,
  create_job_docs classify env_docs doc vals = Ok (Ok out) ->
  exists job, usable_job classify job /\ out = export job.
Proof.
  intros classify env_docs doc vals out H. unfold create_job_docs in H.
  destruct (decode_job classify doc) as [t|e0] eqn:Ed; cbn [bind] in H; [|discriminate H].
  destruct (mapM (decode_env classify) env_docs) as [envs|e1] eqn:Ee; cbn [bind] in H; [|discriminate H].
  destruct (create_job_full classify envs t vals) as [job|e2] eqn:Ec; [|discriminate H].
  exists job. split; [|congruence].
  exact (create_job_full_usable classify doc t envs vals job Ed (mapM_decode_envs _ _ _ Ee) Ec).
Qed.
