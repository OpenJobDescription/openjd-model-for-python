(* ExportFaithfulKeys.v — C17 "faithful": the export of a document with distinct member names has distinct member
   names ([keys_ok], DeepKeyOrder.v), so the decision procedure [jequivb] (ExportFaithfulDec.v) — the function
   the harness runs — returns true on (document, export of its decoded model):

     export_keys_ok       parse_kind / parse_cls f .. v = Ok x -> keys_ok v -> keys_ok (exp x)      (any schema with
                          distinct names and aliases)
     faithful_decided     keys_ok j -> parse_any classify root j = Ok v -> jequivb j (export v) = true
   Lemmas only. *)
From Coq Require Import List NArith ZArith Bool String Lia Arith.
Import ListNotations.
Require OJD.ListLib.
Require Import OJD.Base OJD.Lexer OJD.Json OJD.Schema OJD.Generated OJD.Charsets OJD.Numerals OJD.NumPrint
               OJD.CreateJob OJD.Parse OJD.Validators OJD.Accept OJD.Export OJD.DeepKeyOrder OJD.ExportProofs
               OJD.ExportFaithful OJD.ExportFaithfulNum OJD.ExportFaithfulProofs OJD.ExportFaithfulDec.
Local Open Scope string_scope.
Local Open Scope list_scope.

Lemma emit_nodupb : forall (g : mval -> json) (l : list (field * mval)),
  NoDup (map (fun p => f_alias (fst p)) l) -> nodupb (map fst (emit g l)) = true.
Proof.
  induction l as [|[fl x] r IH]; intros Hnd; [reflexivity|].
  cbn [map fst] in Hnd. inversion Hnd as [|a l' Hnotin Hnd']. subst a l'.
  specialize (IH Hnd'). unfold emit. cbn [flat_map snd fst]. fold (emit g r).
  assert (Hhead : nodupb ($(f_alias fl) :: map fst (emit g r)) = true).
  { cbn [nodupb]. rewrite IH. rewrite andb_true_r. apply negb_true_iff.
    destruct (mem_str $(f_alias fl) (map fst (emit g r))) eqn:Em; [|reflexivity]. exfalso.
    apply ListLib.mem_str_In in Em. apply in_map_iff in Em. destruct Em as [kv [Ek Hkv]].
    destruct (emit_keys _ _ _ Hkv) as [p [Hp Hk]]. rewrite Ek in Hk. apply str_of_string_inj in Hk.
    apply Hnotin. rewrite Hk. apply (in_map (fun p => f_alias (fst p)) r p). exact Hp. }
  destruct x; cbn [app map fst]; try exact Hhead. exact IH.
Qed.

Lemma emit_values : forall (g : mval -> json) (l : list (field * mval)) kv,
  In kv (emit g l) -> exists fl y, In (fl, y) l /\ mnone y = false /\ snd kv = g y.
Proof.
  intros g l kv H. unfold emit in H. apply in_flat_map in H. destruct H as [[fl y] [Hp Hin]].
  exists fl, y. split; [exact Hp|]. cbn [snd fst] in Hin.
  destruct y; cbn in Hin; try contradiction; destruct Hin as [Hin|[]]; subst kv; split; reflexivity.
Qed.

Section KStep.
  Variable SC : schema_t.
  Variable classify : N -> cclass.
  Variable pre : string -> json -> bool.
  Variable post : string -> json -> list (string * mval) -> bool.
  Hypothesis Hsc : faithful_schema_ok SC = true.

  Notation EXP := (exp SC).

  Variable pk : kind -> json -> outcome mval.
  Hypothesis NNk : forall k v x, pk k v = Ok x -> no_none_items x = true.

  Lemma dict_value_k : forall kk k v x,
    (forall k v x, pk k v = Ok x -> keys_ok v = true -> keys_ok (EXP x) = true) ->
    dict_value pk kk k v = Ok x -> keys_ok v = true -> keys_ok (EXP x) = true.
  Proof.
    intros kk k v x IHk H Hk. destruct (dict_value_inv _ NNk _ _ _ _ H) as [members [l' [-> [-> Hm]]]].
    cbn [keys_ok] in Hk. apply andb_true_iff in Hk. destruct Hk as [Hnd Hvals].
    rewrite exp_dict.
    2:{ intros kv Hkv. destruct (ListLib.Forall2_in_r _ _ _ _ _ _ Hm Hkv) as [a [_ [_ [Hnn _]]]]. exact Hnn. }
    cbn [keys_ok]. rewrite map_map. cbn [fst].
    assert (Ekeys : map (fun x : str * mval => fst x) l' = map fst members).
    { clear - Hm. induction Hm as [|a b l l' [E1 _] _ IH]; [reflexivity|]. cbn [map]. rewrite IH, E1. reflexivity. }
    rewrite Ekeys. rewrite Hnd. cbn [andb].
    clear Ekeys Hnd H. induction Hm as [|a b l l' [_ [_ [E3 _]]] _ IH]; [reflexivity|].
    cbn [forallb] in Hvals. apply andb_true_iff in Hvals. destruct Hvals as [Ha Hr].
    cbn [map forallb snd]. rewrite (IHk _ _ _ E3 Ha). cbn [andb]. apply IH. exact Hr.
  Qed.

  Lemma cls_body_k : forall c v x,
    (forall fl raw y, shape_value pk fl raw = Ok y -> keys_ok raw = true -> keys_ok (EXP y) = true) ->
    cls_body SC pre post pk c v = Ok x -> keys_ok v = true -> keys_ok (EXP x) = true.
  Proof.
    intros c v x Hsv H Hk.
    destruct (cls_body_exp SC pre post Hsc pk c v x H) as [k [ms [vals [-> [-> [_ [_ [Hf [_ Hal]]]]]]]]].
    cbn [keys_ok] in Hk |- *. apply andb_true_iff in Hk. destruct Hk as [_ Hvals].
    rewrite forallb_forall in Hvals.
    rewrite (emit_nodupb EXP _ Hal). cbn [andb]. rewrite forallb_forall. intros kv Hkv.
    destruct (emit_values _ _ _ Hkv) as [fl [y [Hy [Hnn Ev]]]]. rewrite Ev.
    pose proof (Forall2_combine_in _ _ _ _ _ _ _ Hf Hy) as Hfv. cbn beta in Hfv.
    apply field_value_some in Hfv; [|exact Hnn].
    eapply Hsv; [exact Hfv|].
    unfold raw_of. destruct (assoc $(f_alias fl) ms) as [raw|] eqn:Ea; [|reflexivity].
    apply ListLib.assoc_In in Ea. apply (Hvals _ Ea).
  Qed.
End KStep.

Section KMain.
  Variable SC : schema_t.
  Variable classify : N -> cclass.
  Variable pre : string -> json -> bool.
  Variable post : string -> json -> list (string * mval) -> bool.
  Hypothesis Hsc : faithful_schema_ok SC = true.

  Theorem export_keys_ok : forall f,
    (forall k v x, parse_kind SC classify pre post f k v = Ok x -> keys_ok v = true -> keys_ok (exp SC x) = true)
    /\ (forall c v x, parse_cls SC classify pre post f c v = Ok x -> keys_ok v = true -> keys_ok (exp SC x) = true).
  Proof.
    apply (parse_walk SC classify pre post (fun v x => keys_ok v = true -> keys_ok (exp SC x) = true)).
    - intros k v x H _. apply scalar_body_sval in H. destruct x; try discriminate; reflexivity.
    - intros items l H Hk. rewrite exp_list. cbn [keys_ok] in *.
      induction H as [|a b l0 l' Hab _ IH]; [reflexivity|].
      cbn [forallb] in Hk. apply andb_true_iff in Hk. cbn [map forallb]. rewrite (Hab (proj1 Hk)). apply IH, Hk.
    - intros pk kk k v x [NNk IHk]. apply dict_value_k; assumption.
    - intros pk c v x [NNk _]. apply cls_body_k; assumption.
  Qed.
End KMain.

Theorem export_keys_ok_live : forall classify root j v,
  keys_ok j = true -> parse_any classify root j = Ok v -> keys_ok (export v) = true.
Proof.
  intros classify root j v Hk H. unfold parse_any in H. rewrite export_exp.
  destruct (export_keys_ok Generated.schema classify (pre_full classify (parse_fuel j)) (post_hook classify)
                           generated_faithful_ok (parse_fuel j)) as [_ Hc].
  eapply Hc; eassumption.
Qed.

(* what the harness computes is what the theorem says *)
Theorem faithful_decided : forall classify root j v,
  keys_ok j = true -> parse_any classify root j = Ok v -> jequivb j (export v) = true.
Proof.
  intros classify root j v Hk H. apply jequivb_complete; [exact Hk| |].
  - eapply export_keys_ok_live; eassumption.
  - eapply faithful_any. exact H.
Qed.
