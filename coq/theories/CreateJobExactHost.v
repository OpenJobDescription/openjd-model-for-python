(* CreateJobExactHost.v — C05_exact: a step's hostRequirements.  Names and attribute values are
   substituted, amount bounds are written as text (str(Decimal)).  A bound given as a STRING is stored as
   the Decimal it denotes and written back with str(): it must be in the form str() prints
   ([canon_host], same condition as for FLOAT range items). *)
From Coq Require Import List NArith ZArith Bool String Lia.
Import ListNotations.
Require Import OJD.Base OJD.ListLib OJD.Lexer OJD.Json OJD.Schema OJD.Generated OJD.Charsets OJD.Numerals OJD.NumPrint OJD.NumRoundtrip
               OJD.FormatStr OJD.CreateJob OJD.CreateJobProofs OJD.CreateJobSpec OJD.Parse OJD.Validators OJD.Accept
               OJD.ExportProofs OJD.AcceptMono OJD.DecodeInv OJD.JsonEquiv OJD.CreateJobExactLib OJD.CreateJobExactCarried
               OJD.CreateJobExactParams OJD.CreateJobExactSteps OJD.CreateJobExactSpace.
Local Open Scope string_scope.
Local Open Scope list_scope.

Definition canon_amount (a : json) : bool := canon_dec_item (jget "min" a) && canon_dec_item (jget "max" a).
Definition canon_host (h : json) : bool := forallb canon_amount (items (jget "amounts" h)).

Section Host.
  Variable classify : N -> cclass.
  Hypothesis Hascii : ascii_ok classify = true.
  Variable sigma : symtab.
  Notation resolve := (CreateJobProofs.fs_resolve classify).
  Notation pk := (parse_kind G classify pre_hook (post_hook classify)).
  Notation pc := (parse_cls G classify pre_hook (post_hook classify)).

  Definition kattr_value : kind := KFormat "AttributeCapabilityValue" (Some 1%N) None CS_any.

  Lemma host_req_inv : forall f h x, pk f (KModel "HostRequirementsTemplate") h = Ok x ->
    exists f' ms am at_,
      f = S (S f') /\ h = JObj ms /\ x = MModel "HostRequirementsTemplate" [("amounts", am); ("attributes", at_)] /\
      read_list classify f' (KModel "AmountRequirementTemplate") (jget "amounts" h) am /\
      read_list classify f' (KModel "AttributeRequirementTemplate") (jget "attributes" h) at_.
  Proof.
    intros f h x H. fold_goal GOAL. destruct f as [|f]; [discriminate H|]. rewrite parse_kind_S in H. cls_open H. clear H.
    next_field Hm y1 r1 H1. next_field Hm y2 r2 H2. injection Hm as <-.
    apply field_optlist_inv in H1; [|exact I]. destruct H1 as [am [-> Ham]].
    apply field_optlist_inv in H2; [|exact I]. destruct H2 as [at_ [-> Hat]].
    subst GOAL f h x. exists f', ms, am, at_. repeat split; assumption.
  Qed.

  Lemma amount_inv : forall f a x, pk f (KModel "AmountRequirementTemplate") a = Ok x ->
    exists f' s mn mx,
      x = MModel "AmountRequirementTemplate" [("name", MFmt s); ("min", mn); ("max", mx)] /\ jget "name" a = JStr s /\
      read_opt classify f' KDec (jget "min" a) mn /\ read_opt classify f' KDec (jget "max" a) mx.
  Proof.
    intros f a x H. fold_goal GOAL. destruct f as [|f]; [discriminate H|]. rewrite parse_kind_S in H. cls_open H. clear H.
    next_field Hm y1 r1 H1. next_field Hm y2 r2 H2. next_field Hm y3 r3 H3. injection Hm as <-.
    apply format_field_inv in H1. destruct H1 as [s [-> [Hs _]]].
    apply field_opt_inv in H2; [|reflexivity]. destruct H2 as [mn [-> Hmn]].
    apply field_opt_inv in H3; [|reflexivity]. destruct H3 as [mx [-> Hmx]].
    subst GOAL a x. exists f', s, mn, mx. split; [reflexivity|]. split; [cbn [jget]; rewrite Hs; reflexivity|]. split; assumption.
  Qed.

  Lemma attribute_inv : forall f a x, pk f (KModel "AttributeRequirementTemplate") a = Ok x ->
    exists f' s any all,
      x = MModel "AttributeRequirementTemplate" [("name", MFmt s); ("anyOf", any); ("allOf", all)] /\ jget "name" a = JStr s /\
      read_list classify f' kattr_value (jget "anyOf" a) any /\ read_list classify f' kattr_value (jget "allOf" a) all.
  Proof.
    intros f a x H. fold_goal GOAL. destruct f as [|f]; [discriminate H|]. rewrite parse_kind_S in H. cls_open H. clear H.
    next_field Hm y1 r1 H1. next_field Hm y2 r2 H2. next_field Hm y3 r3 H3. injection Hm as <-.
    apply format_field_inv in H1. destruct H1 as [s [-> [Hs _]]].
    apply field_optlist_inv in H2; [|exact I]. destruct H2 as [any [-> Hany]].
    apply field_optlist_inv in H3; [|exact I]. destruct H3 as [all [-> Hall]].
    subst GOAL a x. exists f', s, any, all. split; [reflexivity|]. split; [cbn [jget]; rewrite Hs; reflexivity|]. split; assumption.
  Qed.

  Lemma dec_bound : forall f raw v, read_opt classify f KDec raw v -> canon_dec_item raw = true ->
    leaf v = true /\ as_text resolve sigma raw = Ok (tobj G v).
  Proof.
    intros f raw v [[-> ->]|[Hn H]] Hc; [split; reflexivity|].
    destruct f as [|f]; [discriminate H|]. rewrite parse_kind_S in H. cbn [parse_scalar] in H.
    destruct raw as [| |z|a e|s| |]; try discriminate H.
    - injection H as <-. split; [reflexivity|]. cbn [as_text tobj]. rewrite print_dec_int. reflexivity.
    - injection H as <-. split; reflexivity.
    - destruct (parse_dec s) as [[a e| |]|] eqn:Ep; try discriminate H. injection H as <-.
      cbn [canon_dec_item] in Hc. rewrite Ep in Hc. apply str_eqb_eq in Hc. subst s. split; [reflexivity|].
      cbn [as_text CreateJobSpec.subst tobj]. rewrite (resolve_plain classify Hascii sigma _ (print_dec_okc a e)). reflexivity.
  Qed.

  Lemma fmt_list_spec : forall f rec c lo hi cs its l l2,
    Forall2 (fun it m => pk f (KFormat c lo hi cs) it = Ok m) its l ->
    mapM (res_elem resolve sigma rec) l = Ok l2 ->
    mapM (CreateJobSpec.subst resolve sigma) its = Ok (map (jobj G) l2).
  Proof.
    intros f rec c lo hi cs its l l2 HF. revert l2. induction HF as [|it m r r' Hp _ IH]; intros l2 H.
    - injection H as <-. reflexivity.
    - cbn [mapM] in H. destruct (res_elem resolve sigma rec m) as [y|e] eqn:Ey; cbn [bind] in H; [|discriminate H].
      destruct (mapM _ r') as [ys|e] eqn:Er; cbn [bind] in H; [|discriminate H]. injection H as <-.
      apply kformat_inv in Hp. destruct Hp as [s [-> ->]]. cbn [res_elem] in Ey.
      cbn [mapM map CreateJobSpec.subst]. rewrite (IH ys eq_refl).
      destruct (resolve sigma s) as [t|e]; cbn [bind] in Ey |- *; [|discriminate Ey]. injection Ey as <-. reflexivity.
  Qed.

  Lemma fmt_field_spec : forall f rec c lo hi cs raw v v',
    read_list classify f (KFormat c lo hi cs) raw v -> res_elems resolve sigma rec v = Ok v' ->
    map_arr (CreateJobSpec.subst resolve sigma) raw = Ok (jobj G v').
  Proof.
    intros f rec c lo hi cs raw v v' [[-> ->]|[its [l [-> [-> HF]]]]] H.
    - injection H as <-. reflexivity.
    - cbn [res_elems] in H. destruct (mapM _ l) as [l2|e] eqn:El; cbn [bind] in H; [|discriminate H]. injection H as <-.
      cbn [map_arr]. rewrite (fmt_list_spec f rec c lo hi cs its l l2 HF El). reflexivity.
  Qed.

  Lemma amount_object_equiv : forall n mn mx vn vmn vmx, exports n vn -> exports mn vmn -> exports mx vmx ->
    json_equiv (jobj G (MModel "AmountRequirement" [("name", n); ("min", mn); ("max", mx)]))
               (JObj ([($"name", vn)] ++ opt "min" vmn ++ opt "max" vmx)).
  Proof. intros. by_keys; assumption. Qed.

  Lemma amount_equiv : forall f a x F y,
    pk f (KModel "AmountRequirementTemplate") a = Ok x -> canon_amount a = true -> mval_depth x < F ->
    inst G resolve sigma F x = Ok y ->
    exists s, amount resolve sigma a = Ok s /\ json_equiv (jobj G y) s.
  Proof.
    intros f a x F y H Hc HF Hy. destruct (amount_inv f a x H) as [f' [s [mn [mx [-> [Hname [Hmn Hmx]]]]]]].
    unfold canon_amount in Hc. apply andb_true_iff in Hc. destruct Hc as [Hc1 Hc2].
    destruct (dec_bound f' _ mn Hmn Hc1) as [Lmn Tmn]. destruct (dec_bound f' _ mx Hmx Hc2) as [Lmx Tmx].
    destruct F as [|F]; [exact (False_ind _ (Nat.nlt_0_r _ HF))|]. rewrite shape_Amount in Hy by assumption.
    destruct (resolve sigma s) as [rs|e] eqn:Ers; cbn [bind] in Hy; [|discriminate Hy]. injection Hy as <-.
    unfold amount. rewrite Hname. cbn [CreateJobSpec.subst]. rewrite Ers. cbn [bind]. rewrite Tmn, Tmx. cbn [bind].
    eexists. split; [reflexivity|].
    apply amount_object_equiv; [apply onn_equiv, json_equiv_refl|exact (exports_leaf mn _ Lmn eq_refl)|exact (exports_leaf mx _ Lmx eq_refl)].
  Qed.

  Lemma attribute_object_equiv : forall n any all vn vany vall, exports n vn -> exports any vany -> exports all vall ->
    json_equiv (jobj G (MModel "AttributeRequirement" [("name", n); ("anyOf", any); ("allOf", all)]))
               (JObj ([($"name", vn)] ++ opt "anyOf" vany ++ opt "allOf" vall)).
  Proof. intros. by_keys; assumption. Qed.

  Lemma attribute_equiv : forall f a x F y,
    pk f (KModel "AttributeRequirementTemplate") a = Ok x -> mval_depth x < F ->
    inst G resolve sigma F x = Ok y ->
    exists s, attribute resolve sigma a = Ok s /\ json_equiv (jobj G y) s.
  Proof.
    intros f a x F y H HF Hy. destruct (attribute_inv f a x H) as [f' [s [any [all [-> [Hname [Hany Hall]]]]]]].
    destruct F as [|F]; [exact (False_ind _ (Nat.nlt_0_r _ HF))|].
    rewrite shape_Attribute in Hy by (eapply read_list_opt_list; eassumption).
    destruct (resolve sigma s) as [rs|e] eqn:Ers; cbn [bind] in Hy; [|discriminate Hy].
    destruct (res_elems resolve sigma (inst G resolve sigma F) any) as [any'|e] eqn:Eany; cbn [bind] in Hy; [|discriminate Hy].
    destruct (res_elems resolve sigma (inst G resolve sigma F) all) as [all'|e] eqn:Eall; cbn [bind] in Hy; [|discriminate Hy].
    injection Hy as <-.
    unfold attribute. rewrite Hname. cbn [CreateJobSpec.subst]. rewrite Ers. cbn [bind].
    rewrite (fmt_field_spec f' _ _ _ _ _ _ any any' Hany Eany), (fmt_field_spec f' _ _ _ _ _ _ all all' Hall Eall). cbn [bind].
    eexists. split; [reflexivity|]. apply attribute_object_equiv; apply onn_equiv, json_equiv_refl.
  Qed.

  Lemma models_field_spec : forall f F c (P : json -> bool) (spec : json -> outcome json) raw v v',
    (forall a x y, pk f (KModel c) a = Ok x -> P a = true -> mval_depth x < F -> inst G resolve sigma F x = Ok y ->
                   exists s, spec a = Ok s /\ json_equiv (jobj G y) s) ->
    read_list classify f (KModel c) raw v ->
    forallb P (items raw) = true -> mval_depth v <= F ->
    elems (inst G resolve sigma F) v = Ok v' ->
    exists s, map_arr spec raw = Ok s /\ exports v' s.
  Proof.
    intros f F c P spec raw v v' Hitem [[-> ->]|[its [l [-> [-> HF]]]]] HP Hd H.
    - injection H as <-. exists JNull. split; [reflexivity|constructor].
    - cbn [elems] in H. destruct (mapM _ l) as [l2|e] eqn:El; cbn [bind] in H; [|discriminate H]. injection H as <-.
      cbn [items] in HP.
      assert (Hdl : forall m, In m l -> mval_depth m < F) by (intros m Hm; pose proof (item_depth l m Hm); lia).
      destruct (models_equiv classify resolve sigma f F c (fun a => P a = true) spec Hitem its l l2 HF) as [ss [Hss HF2]];
        [apply forallb_forall; exact HP|exact Hdl|exact El|].
      exists (JArr ss). split; [cbn [map_arr]; rewrite Hss; reflexivity|].
      apply onn_equiv. rewrite jobj_list. constructor. exact HF2.
  Qed.

  Lemma host_object_equiv : forall am at_ vam vat, exports am vam -> exports at_ vat ->
    json_equiv (jobj G (MModel "HostRequirements" [("amounts", am); ("attributes", at_)]))
               (JObj (opt "amounts" vam ++ opt "attributes" vat)).
  Proof. intros. by_keys; assumption. Qed.

  Theorem host_req_equiv : forall f raw x F y,
    raw <> JNull -> canon_host raw = true ->
    pk f (KModel "HostRequirementsTemplate") raw = Ok x -> mval_depth x < F -> inst G resolve sigma F x = Ok y ->
    exists s, host_req resolve sigma raw = Ok s /\ json_equiv (jobj G y) s /\ y <> MNone /\ s <> JNull.
  Proof.
    intros f raw x F y _ Hc H HF Hy. destruct (host_req_inv f raw x H) as [f' [ms [am [at_ [_ [-> [-> [Ham Hat]]]]]]]].
    destruct F as [|F]; [exact (False_ind _ (Nat.nlt_0_r _ HF))|]. pose proof (fields_below _ _ _ HF) as D.
    rewrite shape_HostReq in Hy by (eapply read_list_opt_list; eassumption).
    destruct (elems (inst G resolve sigma F) am) as [am'|e] eqn:Eam; cbn [bind] in Hy; [|discriminate Hy].
    destruct (elems (inst G resolve sigma F) at_) as [at'|e] eqn:Eat; cbn [bind] in Hy; [|discriminate Hy].
    injection Hy as <-.
    destruct (models_field_spec f' F _ canon_amount (amount resolve sigma) _ am am'
                (fun a x y Hp Hca Hd Hi => amount_equiv f' a x F y Hp Hca Hd Hi) Ham Hc) as [sam [Sam Ram]];
      [apply Nat.lt_le_incl, (D "amounts"); in_tac|exact Eam|].
    destruct (models_field_spec f' F _ (fun _ => true) (attribute resolve sigma) _ at_ at'
                (fun a x y Hp _ Hd Hi => attribute_equiv f' a x F y Hp Hd Hi) Hat) as [sat [Sat Rat]];
      [apply forallb_forall; reflexivity|apply Nat.lt_le_incl, (D "attributes"); in_tac|exact Eat|].
    cbn [host_req]. rewrite Sam. cbn [bind]. rewrite Sat. cbn [bind].
    eexists. split; [reflexivity|]. split; [|split; discriminate]. apply host_object_equiv; assumption.
  Qed.
End Host.
