(* ExportCreatedRel.v — the equality of model INSTANCES that pydantic 1.10 implements, as a relation on [mval].

     BaseModel.__eq__(self, other) = (self.dict() == other.dict())        (pydantic/main.py, checked on 1.10.26)

   - the CLASS of a node is not compared: RangeListTaskParameterDefinition(...) == IntRangeListTaskParameterDefinition(...)
     is True on the real classes (both ways), and a Job returned by create_job holds the subclass where the Job decoded
     from its export holds the base class;
   - .dict() is a Python dict from FIELD NAME to value: the order of the fields is irrelevant, a field whose value is
     None IS a key of that dict ({'a': None} != {}), and values are compared recursively (a nested model is its .dict());
   - FormatString is a subclass of str and compares as its text.

   [mval_equiv]: scalars equal (Decimal / float by representation, as Export.mval_eqb: the round trip must reproduce
   them exactly); str and FormatString by text; lists pointwise; a model node as the finite map  field name -> value
   (first binding of a name, as [lookup_s] and [CreateJob.mfield] read it): same names, equivalent values, class names
   and field order ignored.  Dictionaries (MDict: Job.parameters, taskParameterDefinitions, variables) are compared IN
   ORDER, key by key: stricter than Python's dict equality, so [mval_equiv a b] implies a == b for the instances.

   [meqb]: a boolean checker with fuel, sound for [mval_equiv] ([meqb_sound]); used to evaluate examples.
   Export.mval_eqb (class names ignored, fields compared IN ORDER) is finer: [mval_eqb_equiv]. *)
From Coq Require Import List NArith ZArith Bool String Lia.
Import ListNotations.
Require Import OJD.Base OJD.Schema OJD.CreateJob OJD.Export OJD.JsonEquiv OJD.CreateJobExactLib OJD.ListLib.
Local Open Scope string_scope.
Local Open Scope list_scope.

(* str(x) for the two string-valued constructors *)
Definition mtext (v : mval) : option str :=
  match v with MStr s | MFmt s => Some s | _ => None end.

Inductive mval_equiv : mval -> mval -> Prop :=
| ME_none : mval_equiv MNone MNone
| ME_bool : forall b, mval_equiv (MBool b) (MBool b)
| ME_int : forall z, mval_equiv (MInt z) (MInt z)
| ME_dec : forall m e, mval_equiv (MDec m e) (MDec m e)
| ME_float : forall m e, mval_equiv (MFloat m e) (MFloat m e)
| ME_text : forall a b s, mtext a = Some s -> mtext b = Some s -> mval_equiv a b
| ME_list : forall l l', Forall2 mval_equiv l l' -> mval_equiv (MList l) (MList l')
| ME_dict : forall l l',
    Forall2 (fun p q : str * mval => fst p = fst q /\ mval_equiv (snd p) (snd q)) l l' ->
    mval_equiv (MDict l) (MDict l')
| ME_model : forall c c' fs fs',
    (forall k, opt_rel mval_equiv (lookup_s k fs) (lookup_s k fs')) ->
    mval_equiv (MModel c fs) (MModel c' fs').

Theorem mval_equiv_refl : forall v, mval_equiv v v.
Proof.
  induction v as [ | | | | | | |l IH|l IH|c fs IH] using CreateJobProofs.mval_ind3; try constructor.
  - eapply ME_text; reflexivity.
  - eapply ME_text; reflexivity.
  - apply Forall2_refl_in. exact IH.
  - induction IH as [|kv r Hkv _ IHr]; constructor; [split; [reflexivity|exact Hkv]|exact IHr].
  - intros k. destruct (lookup_s k fs) as [v|] eqn:E; constructor.
    apply lookup_s_in in E. rewrite Forall_forall in IH. exact (IH (k, v) E).
Qed.

Fixpoint meqb (fuel : nat) (a b : mval) : bool :=
  match fuel with
  | O => false
  | S f =>
    match a, b with
    | MNone, MNone => true
    | MBool x, MBool y => Bool.eqb x y
    | MInt x, MInt y => Z.eqb x y
    | MDec m e, MDec m' e' | MFloat m e, MFloat m' e' => Z.eqb m m' && Z.eqb e e'
    | MStr x, MStr y | MFmt x, MFmt y | MStr x, MFmt y | MFmt x, MStr y => str_eqb x y
    | MList l, MList l' =>
      (fix go (p q : list mval) : bool :=
         match p, q with
         | [], [] => true
         | x :: p', y :: q' => meqb f x y && go p' q'
         | _, _ => false
         end) l l'
    | MDict l, MDict l' =>
      (fix go (p q : list (str * mval)) : bool :=
         match p, q with
         | [], [] => true
         | (k, x) :: p', (k', y) :: q' => str_eqb k k' && meqb f x y && go p' q'
         | _, _ => false
         end) l l'
    | MModel _ fs, MModel _ fs' =>
      forallb (fun k => match lookup_s k fs, lookup_s k fs' with
                        | Some x, Some y => meqb f x y
                        | None, None => true
                        | _, _ => false
                        end) (map fst fs ++ map fst fs')
    | _, _ => false
    end
  end.

(* the loops of the two checkers ([meqb] above, Export.mval_eqb): lists item by item, keyed lists entry by entry *)
Definition all2 {A : Type} (chk : A -> A -> bool) : list A -> list A -> bool :=
  fix go (p q : list A) : bool :=
    match p, q with
    | [], [] => true
    | x :: p', y :: q' => chk x y && go p' q'
    | _, _ => false
    end.

Definition all2_keyed {K A : Type} (keq : K -> K -> bool) (chk : A -> A -> bool) : list (K * A) -> list (K * A) -> bool :=
  fix go (p q : list (K * A)) : bool :=
    match p, q with
    | [], [] => true
    | (k, x) :: p', (k', y) :: q' => keq k k' && chk x y && go p' q'
    | _, _ => false
    end.

Lemma all2_sound : forall (A : Type) (chk : A -> A -> bool) (R : A -> A -> Prop),
  (forall x y, chk x y = true -> R x y) -> forall l l', all2 chk l l' = true -> Forall2 R l l'.
Proof.
  intros A chk R Hc. induction l as [|x r IH]; intros [|y r'] H; try discriminate H; constructor;
    cbn [all2] in H; apply andb_true_iff in H; [apply Hc|apply IH]; apply H.
Qed.

Lemma all2_keyed_sound : forall (K A : Type) (keq : K -> K -> bool) (chk : A -> A -> bool) (R : A -> A -> Prop),
  (forall k k', keq k k' = true -> k = k') -> (forall x y, chk x y = true -> R x y) ->
  forall l l', all2_keyed keq chk l l' = true -> Forall2 (fun p q => fst p = fst q /\ R (snd p) (snd q)) l l'.
Proof.
  intros K A keq chk R Hk Hc. induction l as [|[k x] r IH]; intros [|[k' y] r'] H; try discriminate H; constructor;
    cbn [all2_keyed] in H; apply andb_true_iff in H; destruct H as [H Hr]; [|apply IH; exact Hr].
  apply andb_true_iff in H. split; [apply Hk|apply Hc]; apply H.
Qed.

Theorem meqb_sound : forall F a b, meqb F a b = true -> mval_equiv a b.
Proof.
  induction F as [|f IH]; intros a b H; [discriminate H|].
  destruct a as [|x|x|m e|m e|x|x|l|l|c fs], b as [|y|y|m' e'|m' e'|y|y|l'|l'|c' fs']; cbn [meqb] in H; try discriminate H.
  1: constructor.
  1: apply Bool.eqb_prop in H; subst y; constructor.
  1: apply Z.eqb_eq in H; subst y; constructor.
  1-2: apply andb_true_iff in H; destruct H as [H1 H2]; apply Z.eqb_eq in H1; apply Z.eqb_eq in H2; subst; constructor.
  1-4: apply str_eqb_eq in H; subst y; eapply ME_text; reflexivity.
  - constructor. exact (all2_sound _ _ _ IH l l' H).
  - constructor. exact (all2_keyed_sound _ _ _ _ _ (fun k k' => proj1 (str_eqb_eq k k')) IH l l' H).
  - constructor. intros k. rewrite forallb_forall in H.
    destruct (in_dec string_dec k (map fst fs ++ map fst fs')) as [Hin|Hout].
    + specialize (H k Hin). destruct (lookup_s k fs) as [x|], (lookup_s k fs') as [y|]; try discriminate H; constructor.
      apply IH. exact H.
    + rewrite (lookup_s_notin _ k fs), (lookup_s_notin _ k fs'); [constructor| |];
        intros Hc; apply Hout; apply in_or_app; [right|left]; exact Hc.
Qed.

(* Export.mval_eqb (class names ignored, fields IN ORDER) is finer *)
Lemma lookup_s_pointwise : forall (R : mval -> mval -> Prop) (fs fs' : list (string * mval)),
  Forall2 (fun p q => fst p = fst q /\ R (snd p) (snd q)) fs fs' ->
  forall k, opt_rel R (lookup_s k fs) (lookup_s k fs').
Proof.
  intros R fs fs' H k. induction H as [|[n x] [n' y] r r' [Hn Hx] _ IH]; [constructor|].
  cbn [fst snd] in Hn, Hx. subst n'. cbn [lookup_s]. destruct (String.eqb n k); [constructor; exact Hx|exact IH].
Qed.

Theorem mval_eqb_equiv : forall F a b, Export.mval_eqb F a b = true -> mval_equiv a b.
Proof.
  induction F as [|f IH]; intros a b H; [discriminate H|].
  destruct a as [|x|x|m e|m e|x|x|l|l|c fs], b as [|y|y|m' e'|m' e'|y|y|l'|l'|c' fs']; cbn [mval_eqb] in H; try discriminate H.
  1-9: apply (meqb_sound 1); exact H. (* on scalars the two checkers compute the same *)
  - constructor. exact (all2_sound _ _ _ IH l l' H).
  - constructor. exact (all2_keyed_sound _ _ _ _ _ (fun k k' => proj1 (str_eqb_eq k k')) IH l l' H).
  - constructor. apply lookup_s_pointwise.
    exact (all2_keyed_sound _ _ _ _ _ (fun k k' => proj1 (String.eqb_eq k k')) IH fs fs' H).
Qed.
