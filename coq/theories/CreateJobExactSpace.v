(* CreateJobExactSpace.v — C05_exact: a step's parameterSpace.  The task parameter definitions become a
   dictionary keyed by name (without the name), their ranges are substituted (format strings) or
   printed (numbers); the combination is carried over.

   Canonical numbers.  A STRING item of an INT (FLOAT) range list that Python's int() (Decimal()) accepts is
   stored in the template as that number and written to the Job as str() of it, whereas the specification
   substitutes into the string as written: the two agree when the string is in the form str() prints
   ("5", not "+5" / " 5" / "0_5"; "1.50", not "1.5e0").  [canon_tp] states exactly that. *)
From Coq Require Import List NArith ZArith Bool String Lia.
Import ListNotations.
Require Import OJD.Base OJD.ListLib OJD.Lexer OJD.Json OJD.Schema OJD.Generated OJD.Charsets OJD.Numerals OJD.NumPrint OJD.NumRoundtrip
               OJD.FormatStr OJD.CreateJob OJD.CreateJobProofs OJD.CreateJobSpec OJD.Parse OJD.Validators OJD.Accept
               OJD.ExportProofs OJD.AcceptMono OJD.DecodeInv OJD.JsonEquiv OJD.CreateJobExactLib OJD.CreateJobExactCarried
               OJD.CreateJobExactParams OJD.CreateJobExactSteps.
Local Open Scope string_scope.
Local Open Scope list_scope.

Definition canon_int_item (it : json) : bool :=
  match it with
  | JStr s => match parse_int s with Some z => str_eqb (print_Z z) s | None => true end
  | _ => true
  end.

Definition canon_dec_item (it : json) : bool :=
  match it with
  | JStr s => match parse_dec s with Some (Fin m e) => str_eqb (print_dec m e) s | _ => true end
  | _ => true
  end.

Definition type_text_is (tp : json) (t : string) : bool :=
  match jget "type" tp with JStr s => str_eqb s (str_of_string t) | _ => false end.

Definition canon_tp (tp : json) : bool :=
  match jget "range" tp with
  | JArr l => if type_text_is tp "INT" then forallb canon_int_item l
              else if type_text_is tp "FLOAT" then forallb canon_dec_item l
              else true
  | _ => true
  end.

Definition canon_space (ps : json) : bool := forallb canon_tp (items (jget "taskParameterDefinitions" ps)).

Definition kdisc_task : kind :=
  KDisc "type" [("INT", "IntTaskParameterDefinition"); ("FLOAT", "FloatTaskParameterDefinition");
                ("STRING", "StringTaskParameterDefinition"); ("PATH", "PathTaskParameterDefinition")].

Lemma parse_scalar_scalarj : forall classify k v x, parse_scalar classify k v = Ok x -> scalarj v = true.
Proof.
  intros classify k v x H.
  destruct k as [lit|members|strict lo hi cs|c lo hi cs|strict|strict ge le gt|gt| |c|key mp|alts];
    cbn [parse_scalar] in H; cbv zeta in H; try discriminate H;
    destruct v as [| | | | |l|ms]; try reflexivity; try discriminate H; destruct strict; discriminate H.
Qed.

Definition flat_alt (a : ualt) : bool := match a with UScalar k => is_scalar k | UList _ _ _ => false end.

Definition flat_kind (k : kind) : bool :=
  match k with
  | KUnion alts => forallb flat_alt alts
  | KModel _ | KDisc _ _ => false
  | _ => true
  end.

Section Flat.
  Variable classify : N -> cclass.
  Notation pk := (parse_kind G classify pre_hook (post_hook classify)).

  Lemma pk_scalar_scalarj : forall f k v x, is_scalar k = true -> pk f k v = Ok x -> scalarj v = true.
  Proof.
    intros f k v x Hk H. destruct f as [|f]; [discriminate H|]. rewrite parse_kind_S in H.
    destruct k; try discriminate Hk; exact (parse_scalar_scalarj _ _ _ _ H).
  Qed.

  Lemma pk_flat_scalarj : forall f k v x, pk f k v = Ok x -> flat_kind k = true -> scalarj v = true.
  Proof.
    intros f k v x H Hk. destruct k as [lit|members|strict lo hi cs|c lo hi cs|strict|strict ge le gt|gt| |c|key mp|alts];
      try discriminate Hk; try (eapply pk_scalar_scalarj; [|exact H]; reflexivity).
    destruct f as [|f]; [discriminate H|]. rewrite parse_kind_S in H.
    apply try_alts_inv in H. destruct H as [a [Ha Hr]].
    cbn [flat_kind] in Hk. rewrite forallb_forall in Hk. specialize (Hk a Ha).
    destruct a as [k'|lo hi k']; [|discriminate Hk]. cbn [alt_res flat_alt] in *. exact (pk_scalar_scalarj f k' v x Hk Hr).
  Qed.

  Lemma Forall2_flat : forall f k its l,
    Forall2 (fun it m => pk f k it = Ok m) its l -> flat_kind k = true -> forallb scalarj its = true.
  Proof.
    intros f k its l HF Hk. induction HF as [|it m r r' Hp _ IH]; [reflexivity|].
    cbn [forallb]. rewrite (pk_flat_scalarj f k it m Hp Hk), IH. reflexivity.
  Qed.

End Flat.

Section Space.
  Variable classify : N -> cclass.
  Hypothesis Hascii : ascii_ok classify = true.
  Variable sigma : symtab.
  Notation resolve := (CreateJobProofs.fs_resolve classify).
  Notation pk := (parse_kind G classify pre_hook (post_hook classify)).
  Notation pc := (parse_cls G classify pre_hook (post_hook classify)).

  (* how one item of a range list was read, with the canonical-form condition where it matters *)
  Definition item_rel (it : json) (m : mval) : Prop :=
    (exists z, it = JInt z /\ m = MInt z) \/
    (exists z, it = JStr (print_Z z) /\ m = MInt z) \/
    (exists s, it = JStr s /\ m = MFmt s) \/
    (exists z, it = JInt z /\ m = MDec z 0) \/
    (exists a e, it = JDec a e /\ m = MDec a e) \/
    (exists a e, it = JStr (print_dec a e) /\ m = MDec a e).

  Lemma range_items_spec : forall rec its l l2,
    Forall2 item_rel its l -> mapM (res_elem resolve sigma rec) l = Ok l2 ->
    mapM (as_text resolve sigma) its = Ok (map (range_item G) l2).
  Proof.
    intros rec its l l2 HF. revert l2. induction HF as [|it m r r' Hr _ IH]; intros l2 H.
    - injection H as <-. reflexivity.
    - cbn [mapM] in H. destruct (res_elem resolve sigma rec m) as [y|e] eqn:Ey; cbn [bind] in H; [|discriminate H].
      destruct (mapM _ r') as [ys|e] eqn:Er; cbn [bind] in H; [|discriminate H]. injection H as <-.
      cbn [mapM map]. rewrite (IH ys eq_refl).
      destruct Hr as [[z [-> ->]]|[[z [-> ->]]|[[s [-> ->]]|[[z [-> ->]]|[[a [e [-> ->]]]|[a [e [-> ->]]]]]]]];
        cbn [res_elem] in Ey; cbn [as_text CreateJobSpec.subst].
      + injection Ey as <-. reflexivity.
      + injection Ey as <-. rewrite (resolve_plain classify Hascii sigma _ (print_Z_okc z)). reflexivity.
      + destruct (resolve sigma s) as [t|e]; cbn [bind] in Ey |- *; [|discriminate Ey]. injection Ey as <-. reflexivity.
      + injection Ey as <-. cbn [bind]. unfold range_item. cbn [coerce_range_item tobj]. rewrite print_dec_int. reflexivity.
      + injection Ey as <-. reflexivity.
      + injection Ey as <-. rewrite (resolve_plain classify Hascii sigma _ (print_dec_okc a e)). reflexivity.
  Qed.

  Definition kint_or_fmt : kind :=
    KUnion [UScalar (KInt false None None None); UScalar (KFormat "TaskParameterStringValue" None None CS_any)].
  Definition kdec_or_fmt : kind :=
    KUnion [UScalar KDec; UScalar (KFormat "TaskParameterStringValue" None None CS_any)].
  Definition kfmt_item : kind := KFormat "TaskParameterStringValue" None None CS_any.

  Lemma int_item_rel : forall f it m, pk f kint_or_fmt it = Ok m -> raw_int_or_str it = true -> canon_int_item it = true ->
    item_rel it m.
  Proof.
    intros f it m H Hraw Hc. destruct f as [|f]; [discriminate H|]. unfold kint_or_fmt in H. rewrite parse_kind_S in H.
    apply try_alts_inv in H. destruct H as [a [Ha H]].
    destruct Ha as [<-|[<-|[]]]; cbn [alt_res] in H.
    - destruct f as [|f]; [discriminate H|]. rewrite parse_kind_S in H. cbn [parse_scalar zopt_ok andb] in H.
      destruct it as [| |z| |s| |]; try discriminate Hraw.
      + injection H as <-. left. exists z. split; reflexivity.
      + destruct (parse_int s) as [z|] eqn:Ep; [|discriminate H]. injection H as <-.
        cbn [canon_int_item] in Hc. rewrite Ep in Hc. apply str_eqb_eq in Hc. subst s.
        right. left. exists z. split; reflexivity.
    - apply kformat_inv in H. destruct H as [s [-> ->]]. right. right. left. exists s. split; reflexivity.
  Qed.

  Lemma dec_item_rel : forall f it m, pk f kdec_or_fmt it = Ok m -> canon_dec_item it = true -> item_rel it m.
  Proof.
    intros f it m H Hc. destruct f as [|f]; [discriminate H|]. unfold kdec_or_fmt in H. rewrite parse_kind_S in H.
    apply try_alts_inv in H. destruct H as [a [Ha H]].
    destruct Ha as [<-|[<-|[]]]; cbn [alt_res] in H.
    - destruct f as [|f]; [discriminate H|]. rewrite parse_kind_S in H. cbn [parse_scalar] in H.
      destruct it as [| |z|a e|s| |]; try discriminate H.
      + injection H as <-. right. right. right. left. exists z. split; reflexivity.
      + injection H as <-. right. right. right. right. left. exists a, e. split; reflexivity.
      + destruct (parse_dec s) as [[a e| |]|] eqn:Ep; try discriminate H. injection H as <-.
        cbn [canon_dec_item] in Hc. rewrite Ep in Hc. apply str_eqb_eq in Hc. subst s.
        right. right. right. right. right. exists a, e. split; reflexivity.
    - apply kformat_inv in H. destruct H as [s [-> ->]]. right. right. left. exists s. split; reflexivity.
  Qed.

  Lemma fmt_item_rel : forall f it m, pk f kfmt_item it = Ok m -> item_rel it m.
  Proof. intros f it m H. apply kformat_inv in H. destruct H as [s [-> ->]]. right. right. left. exists s. split; reflexivity. Qed.

  Lemma task_param_list_equiv : forall rec (tp : json) n t its l l2 target,
    (forall a, alias_of G target a = a) ->
    jget "name" tp = JStr n -> leaf t = true -> tobj G t = jget "type" tp ->
    jget "range" tp = JArr its -> Forall2 item_rel its l -> mapM (res_elem resolve sigma rec) l = Ok l2 ->
    exists s, task_param resolve sigma tp = Ok (n, s) /\
              json_equiv (jobj G (MModel target [("type", t); ("range", MList l2)])) s.
  Proof.
    intros rec tp n t its l l2 target Hal Hn Hlt Ht Hr HF Hm.
    unfold task_param. rewrite Hn, Hr. rewrite (range_items_spec rec its l l2 HF Hm). cbn [bind].
    eexists. split; [reflexivity|].
    apply json_equiv_model. unfold jfields. cbn [map fst snd]. rewrite !Hal. unfold jval. cbn [String.eqb Ascii.eqb Bool.eqb].
    rewrite (leaf_jobj G t Hlt), Ht.
    apply json_equiv_obj_assoc; [reflexivity|reflexivity|reflexivity|]. keys_split; cbn; [apply onn_equiv|constructor]; apply json_equiv_refl.
  Qed.

  Definition task_classes : list string :=
    ["IntTaskParameterDefinition"; "FloatTaskParameterDefinition"; "StringTaskParameterDefinition"; "PathTaskParameterDefinition"].

  (* the range: an expression, or a list of scalars read item by item *)
  Definition task_range_rel (tp : json) (rg : mval) : Prop :=
    (exists s, jget "range" tp = JStr s /\ rg = MFmt s) \/
    (exists its l, jget "range" tp = JArr its /\ rg = MList l /\ forallb scalarj its = true /\
                   (canon_tp tp = true -> Forall2 item_rel its l) /\ l <> []).

  Lemma task_cls_fields : forall c, In c task_classes -> forall f ims m, pc f c (JObj ims) = Ok m ->
    exists f' n t y,
      m = MModel c [("name", MStr n); ("type", t); y] /\ jget "name" (JObj ims) = JStr n /\
      leaf t = true /\ tobj G t = jget "type" (JObj ims) /\
      parse_field (pk f') ims (fld c 2) = Ok y /\ pre_hook c (JObj ims) = true.
  Proof.
    intros c Hc f ims m H. destruct Hc as [<-|[<-|[<-|[<-|[]]]]];
      (fold_goal GOAL; cls_open H; clear H; injection Ev as <-;
       next_field Hm y1 r1 H1; next_field Hm y2 r2 H2; next_field Hm y3 r3 H3; injection Hm as <-;
       apply name_field_inv in H1; destruct H1 as [c [r [-> Hn]]];
       (apply field_exact_inv in H2; [|reflexivity|reflexivity]); destruct H2 as [t [-> [Hlt Ht]]];
       subst GOAL m; exists f', (c :: r), t, y3; repeat split; assumption).
  Qed.

  Lemma fmt_items_rel : forall f tp its l,
    jget "range" tp = JArr its -> Forall2 (fun it m => pk f kfmt_item it = Ok m) its l -> l <> [] ->
    task_range_rel tp (MList l).
  Proof.
    intros f tp its l Er Em Hne. right. exists its, l.
    repeat split; [exact Er|exact (Forall2_flat classify f _ its l Em eq_refl)| |exact Hne]. intros _.
    revert Em. apply Forall2_impl_in2. intros it m _ _ Hp. exact (fmt_item_rel f it m Hp).
  Qed.

  Lemma task_def_inv : forall f tp m, pk f kdisc_task tp = Ok m ->
    exists c n t rg ts,
      In c task_classes /\ m = MModel c [("name", MStr n); ("type", t); ("range", rg)] /\
      jget "name" tp = JStr n /\ jget "type" tp = JStr ts /\ leaf t = true /\ tobj G t = jget "type" tp /\
      task_range_rel tp rg /\ (c <> "IntTaskParameterDefinition" -> exists l, rg = MList l).
  Proof.
    intros f tp m H.
    destruct (pk_disc_inv _ _ _ _ _ _ _ _ _ H) as [f0 [ims [ts [k' [c' [_ [-> [Ea [Hin [Hs H']]]]]]]]]]. clear H.
    assert (Htt : forall t, type_text_is (JObj ims) t = String.eqb k' t)
      by (intros t0; unfold type_text_is; cbn [jget]; rewrite Ea, <- Hs; apply sos_eqb).
    assert (Hty : jget "type" (JObj ims) = JStr ts) by (cbn [jget]; rewrite Ea; reflexivity).
    assert (Hc' : In c' task_classes) by (destruct Hin as [E|[E|[E|[E|[]]]]]; injection E as _ <-; in_tac).
    destruct (task_cls_fields c' Hc' _ _ _ H') as [f' [n [t [y [-> [Hn [Hlt [Ht [H3 Hpre]]]]]]]]]. clear H' Ea Hs.
    (* the range, class by class *)
    assert (K : exists rg, y = ("range", rg) /\ task_range_rel (JObj ims) rg /\
                           (c' <> "IntTaskParameterDefinition" -> exists l, rg = MList l)).
    { destruct Hin as [E|[E|[E|[E|[]]]]]; injection E as <- <-.
      - (* INT: a list or a range expression *)
        apply field_req_inv in H3; [|reflexivity|reflexivity]. destruct H3 as [rg [-> [_ Hrp]]].
        exists rg. split; [reflexivity|]. split; [|intros Hc; contradiction].
        destruct f' as [|f2]; [discriminate Hrp|]. rewrite parse_kind_S in Hrp.
        apply try_alts_inv in Hrp. destruct Hrp as [a [Ha Hrp]].
        destruct Ha as [<-|[<-|[]]]; cbn [alt_res] in Hrp.
        + right. destruct (list_items_ne classify _ _ _ _ _ Hrp) as [its [l [Er [-> [Em Hne]]]]].
          change (field_raw ims ?fl) with (jget "range" (JObj ims)) in Er.
          exists its, l. repeat split; [exact Er|exact (Forall2_flat classify f2 _ its l Em eq_refl)| |exact Hne].
          change (pre_hook "IntTaskParameterDefinition" (JObj ims))
            with (match jget "range" (JObj ims) with JArr items => forallb raw_int_or_str items | _ => true end) in Hpre.
          unfold canon_tp. rewrite Er in Hpre |- *. rewrite (Htt "INT"). cbn [String.eqb Ascii.eqb Bool.eqb]. intros Hc.
          rewrite forallb_forall in Hpre, Hc. revert Em. apply Forall2_impl_in2. intros it m Hit _ Hp.
          exact (int_item_rel f2 it m Hp (Hpre it Hit) (Hc it Hit)).
        + left. apply kformat_inv in Hrp. destruct Hrp as [s [Er ->]]. exists s. split; [exact Er|reflexivity].
      - (* FLOAT: a list of numbers and format strings *)
        eapply field_reqlist_inv in H3; [|reflexivity|reflexivity]. destruct H3 as [its [l [-> [Er [Em Hne]]]]].
        exists (MList l). split; [reflexivity|]. split; [|intros _; exists l; reflexivity].
        right. exists its, l. repeat split; [exact Er|exact (Forall2_flat classify f' _ its l Em eq_refl)| |exact Hne].
        change (field_raw ims ?fl) with (jget "range" (JObj ims)) in Er.
        unfold canon_tp. rewrite Er, (Htt "INT"), (Htt "FLOAT"). cbn [String.eqb Ascii.eqb Bool.eqb]. intros Hc.
        rewrite forallb_forall in Hc. revert Em. apply Forall2_impl_in2. intros it m Hit _ Hp.
        exact (dec_item_rel f' it m Hp (Hc it Hit)).
      - (* STRING *)
        eapply field_reqlist_inv in H3; [|reflexivity|reflexivity]. destruct H3 as [its [l [-> [Er [Em Hne]]]]].
        exists (MList l). split; [reflexivity|]. split; [exact (fmt_items_rel f' (JObj ims) its l Er Em Hne)|intros _; exists l; reflexivity].
      - (* PATH *)
        eapply field_reqlist_inv in H3; [|reflexivity|reflexivity]. destruct H3 as [its [l [-> [Er [Em Hne]]]]].
        exists (MList l). split; [reflexivity|]. split; [exact (fmt_items_rel f' (JObj ims) its l Er Em Hne)|intros _; exists l; reflexivity]. }
    destruct K as [rg [-> [Hrg Hl]]]. exists c', n, t, rg, ts. repeat split; assumption.
  Qed.

  Lemma task_list_inst : forall c n t l F y, In c task_classes -> leaf t = true ->
    inst G resolve sigma (S F) (MModel c [("name", MStr n); ("type", t); ("range", MList l)]) = Ok y ->
    exists target l2, (forall a, alias_of G target a = a) /\
                      mapM (res_elem resolve sigma (inst G resolve sigma F)) l = Ok l2 /\
                      y = MModel target [("type", t); ("range", MList l2)].
  Proof.
    intros c n t l F y Hcl Hlt Hy. destruct Hcl as [<-|Hcl].
    - rewrite shape_IntTaskParam_list in Hy by exact Hlt.
      destruct (mapM _ l) as [l2|e]; cbn [bind] in Hy; [|discriminate Hy]. injection Hy as <-.
      exists "IntRangeListTaskParameterDefinition", l2. split; [apply alias_plain; reflexivity|]. split; reflexivity.
    - rewrite (shape_TaskParam resolve sigma F c) in Hy; [|exact Hcl|exact Hlt].
      destruct (mapM _ l) as [l2|e]; cbn [bind] in Hy; [|discriminate Hy]. injection Hy as <-.
      exists (task_param_target c), l2. split; [|split; reflexivity].
      destruct Hcl as [<-|[<-|[<-|[]]]]; apply alias_plain; reflexivity.
  Qed.

  Lemma range_expr_object_equiv : forall t rs vt,
    exports t vt ->
    json_equiv (jobj G (MModel "RangeExpressionTaskParameterDefinition" [("type", t); ("range", MStr rs)]))
               (JObj [($"type", vt); ($"range", JStr rs)]).
  Proof. intros. by_keys; [assumption|constructor; apply json_equiv_refl]. Qed.

  Theorem task_param_item : forall f F it m k y,
    pk f kdisc_task it = Ok m -> key_of m "name" = Ok k -> mval_depth m < F -> canon_tp it = true ->
    inst_elem (inst G resolve sigma F) m = Ok y ->
    exists s, task_param resolve sigma it = Ok (k, s) /\ json_equiv (jobj G y) s /\ y <> MNone.
  Proof.
    intros f F it m k y H Hk HF Hc Hy.
    destruct (task_def_inv f it m H) as [c [n [t [rg [ts [Hcl [-> [Hn [_ [Hlt [Ht [Hrg Hlist]]]]]]]]]]]].
    cbn [key_of mfield lookup_s String.eqb Ascii.eqb Bool.eqb] in Hk. injection Hk as <-.
    cbn [inst_elem] in Hy. destruct F as [|F]; [exact (False_ind _ (Nat.nlt_0_r _ HF))|].
    destruct Hrg as [[s [Er ->]]|[its [l [Er [-> [_ [HFi _]]]]]]].
    - (* a range expression: INT only *)
      destruct Hcl as [<-|Hcl]; [|destruct Hlist as [l E]; [destruct Hcl as [<-|[<-|[<-|[]]]]; discriminate|discriminate E]].
      rewrite shape_IntTaskParam_expr in Hy by exact Hlt.
      destruct (resolve sigma s) as [rs|e] eqn:Ers; cbn [bind] in Hy; [|discriminate Hy]. injection Hy as <-.
      unfold task_param. rewrite Hn, Er. cbn [CreateJobSpec.subst]. rewrite Ers. cbn [bind].
      eexists. split; [reflexivity|]. split; [|discriminate].
      apply range_expr_object_equiv. exact (exports_leaf t _ Hlt Ht).
    - (* a list *)
      specialize (HFi Hc).
      destruct (task_list_inst c n t l F y Hcl Hlt Hy) as [target [l2 [Hal [El ->]]]].
      destruct (task_param_list_equiv _ it n t its l l2 target Hal Hn Hlt Ht Er HFi El) as [s [Hs He]].
      exists s. split; [exact Hs|]. split; [exact He|discriminate].
  Qed.

  (* the combination is absent, or a string that parses and names every task parameter once
     (StepParameterSpaceDefinition._validate_combination) *)
  Definition comb_accounts (l : list mval) (cb : mval) : Prop :=
    cb = MNone \/
    exists s ct, cb = MStr s /\ Comb.parse_str classify s = Ok ct /\
                 Comb.accounting false (names_of (MList l)) (Comb.collect_ids ct) = true.

  Lemma param_space_inv : forall f ps x, pk f (KModel "StepParameterSpaceDefinition") ps = Ok x ->
    exists f' ms its l cb,
      f = S (S f') /\ ps = JObj ms /\
      x = MModel "StepParameterSpaceDefinition" [("taskParameterDefinitions", MList l); ("combination", cb)] /\
      jget "taskParameterDefinitions" ps = JArr its /\ Forall2 (fun it m => pk f' kdisc_task it = Ok m) its l /\
      nodupb (names_of (MList l)) = true /\ leaf cb = true /\ tobj G cb = jget "combination" ps /\
      l <> [] /\ comb_accounts l cb.
  Proof.
    intros f ps x H. fold_goal GOAL. destruct f as [|f]; [discriminate H|]. rewrite parse_kind_S in H. cls_open H. clear H.
    next_field Hm y1 r1 H1. next_field Hm y2 r2 H2. injection Hm as <-.
    eapply field_reqlist_inv in H1; [|reflexivity|reflexivity]. destruct H1 as [its [l [-> [Er [HFl Hne]]]]].
    pose proof H2 as H2'. apply field_opt_inv in H2'; [|reflexivity]. destruct H2' as [cb' [E Hread]].
    apply field_exact_inv in H2; [|reflexivity|reflexivity]. destruct H2 as [cb [-> [Hlc Hcb]]]. injection E as <-.
    change (nodupb (names_of (MList l))
            && match cb with
               | MStr s0 => match Comb.parse_str classify s0 with
                            | Ok t0 => Comb.accounting false (names_of (MList l)) (Comb.collect_ids t0)
                            | Raise _ => false
                            end
               | _ => true
               end = true) in Hpost.
    apply andb_true_iff in Hpost. destruct Hpost as [Hnd Hacct].
    assert (Hca : comb_accounts l cb).
    { destruct Hread as [[_ ->]|[_ Hp]]; [left; reflexivity|right]. destruct (kstr_inv _ _ _ _ _ _ _ _ _ _ _ Hp) as [s ->].
      cbv beta iota in Hacct. destruct (Comb.parse_str classify s) as [ct|e] eqn:Ep; [|discriminate Hacct]. exists s, ct. repeat split; assumption. }
    subst GOAL f ps x. exists f', ms, its, l, cb.
    repeat (split; [first [reflexivity|assumption]|]). assumption.
  Qed.

  Lemma param_space_object_equiv : forall d cb vd vcb, exports d vd -> exports cb vcb ->
    json_equiv (jobj G (MModel "StepParameterSpace" [("taskParameterDefinitions", d); ("combination", cb)]))
               (JObj ([($"taskParameterDefinitions", vd)] ++ opt "combination" vcb)).
  Proof. intros. by_keys; assumption. Qed.

  Theorem param_space_equiv : forall f raw x F y,
    raw <> JNull -> canon_space raw = true ->
    pk f (KModel "StepParameterSpaceDefinition") raw = Ok x -> mval_depth x < F -> inst G resolve sigma F x = Ok y ->
    exists s, param_space resolve sigma raw = Ok s /\ json_equiv (jobj G y) s /\ y <> MNone /\ s <> JNull.
  Proof.
    intros f raw x F y _ Hc H HF Hy.
    destruct (param_space_inv f raw x H) as [f' [ms [its [l [cb [_ [-> [-> [Er [HFl [Hnd [Hlc [Hcb _]]]]]]]]]]]]].
    destruct F as [|F]; [exact (False_ind _ (Nat.nlt_0_r _ HF))|]. pose proof (fields_below _ _ _ HF "taskParameterDefinitions" _ ltac:(in_tac)) as Dl.
    rewrite shape_ParamSpace in Hy; [|reflexivity|exact Hlc].
    destruct (keyed (inst G resolve sigma F) "name" (MList l)) as [d|e] eqn:Ek; cbn [bind] in Hy; [|discriminate Hy].
    injection Hy as <-.
    unfold canon_space in Hc. rewrite Er in Hc. cbn [items] in Hc. rewrite forallb_forall in Hc.
    destruct (keyed_dict_equiv (inst G resolve sigma F) "name"
                (fun it m => pk f' kdisc_task it = Ok m /\ mval_depth m < F /\ canon_tp it = true)
                (task_param resolve sigma)
                (fun it m k y0 Hq Hk => task_param_item f' F it m k y0 (proj1 Hq) Hk (proj1 (proj2 Hq)) (proj2 (proj2 Hq)))
                its l d) as [tps [Htps1 Htps2]]; [|exact Hnd|exact Ek|].
    - revert HFl. apply Forall2_impl_in2. intros it m Hit Hm Hp. split; [exact Hp|]. split; [|exact (Hc it Hit)].
      pose proof (item_depth l m Hm). lia.
    - cbn [param_space]. rewrite Er. change (items (JArr its)) with its. rewrite Htps1. cbn [bind].
      eexists. split; [reflexivity|]. split; [|split; discriminate].
      apply param_space_object_equiv; [apply onn_equiv; exact Htps2|exact (exports_leaf cb _ Hlc Hcb)].
  Qed.
End Space.
