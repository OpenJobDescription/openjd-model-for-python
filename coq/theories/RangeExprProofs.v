(* RangeExprProofs.v — proofs for C08 and C13: the model of _range_expr.py (flag-off instance,
   i.e. the repaired code) equals the declarative specification of RangeExprSpec.v, for all
   token lists, all ranges and all integer lists.
   Lengths: the values of a valid range are the start + i * step inside its span
   ([range_nth_span]), whatever the sign of the step.  Ordering: [sepd b l] says that the spans
   of [l] lie above [b] and each above the previous one; sorting, merging, printing and
   from_list are all stated with it.  Each function of the parser gets one statement that
   covers both its results and its errors ([parse_range_spec] ... [mk_expr_spec]);
   [parse_tokens_correct] puts them together, and the C08 theorems are read off it. *)
From Coq Require Import List NArith ZArith Bool Lia ZifyBool Permutation.
Import ListNotations.
Require Import OJD.Base OJD.ListLib OJD.Lexer OJD.LexerProofs OJD.RangeExpr OJD.RangeExprSpec.
Local Open Scope Z_scope.

(* an IntRange object that passed IntRange._validate *)
Definition valid (r : irange) : Prop :=
  rstep r <> 0 /\ (rstart r < rend r -> 0 < rstep r) /\ (rend r < rstart r -> rstep r < 0).

(* the only proof that opens the definition of range_len *)
Lemma valid_len_abs r :
  valid r -> range_len r = Z.abs (rend r - rstart r) / Z.abs (rstep r) + 1.
Proof.
  destruct r as [a b s]. unfold valid, range_len, py_range_len. cbn [rstart rend rstep]. intros Hv.
  destruct (0 <? s) eqn:E1; [|destruct (s <? 0) eqn:E2; [|lia]].
  - destruct (a <? b + 1) eqn:E; [|lia]. f_equal. f_equal; lia.
  - destruct (b + -1 <? a) eqn:E; [|lia]. f_equal. f_equal; lia.
Qed.

Lemma lt_div_succ d t i : 0 < t -> (i < d / t + 1 <-> i * t <= d).
Proof.
  intros Ht. pose proof (Z.mul_div_le d t Ht). pose proof (Z.mul_succ_div_gt d t Ht). split; nia.
Qed.

(* The values of a range are the start + i * step, i >= 0, that lie in the written span.
   Every other fact about lengths below follows from this one, whatever the sign of the step. *)
Lemma range_nth_span r i :
  valid r -> 0 <= i -> (i < range_len r <-> span_lo r <= range_nth r i <= span_hi r).
Proof.
  intros Hv Hi. rewrite (valid_len_abs r Hv), lt_div_succ by (destruct Hv; lia).
  destruct r as [a b s]. unfold valid, span_lo, span_hi, range_nth in *. cbn [rstart rend rstep] in *.
  destruct (Z.abs_spec s) as [[? ->]|[? ->]]; nia.
Qed.

Lemma valid_len_pos r : valid r -> 1 <= range_len r.
Proof.
  intros Hv. pose proof (proj2 (range_nth_span r 0 Hv (Z.le_refl 0))) as H.
  unfold range_nth, span_lo, span_hi in H. lia.
Qed.

Lemma range_len_up a b s : 0 < s -> a <= b -> range_len (mkR a b s) = (b - a) / s + 1.
Proof.
  intros Hs Hab. rewrite valid_len_abs by (unfold valid; cbn; lia).
  cbn [rstart rend rstep]. rewrite !Z.abs_eq by lia. reflexivity.
Qed.

Lemma range_len_single a s : s <> 0 -> range_len (mkR a a s) = 1.
Proof.
  intros Hs. rewrite valid_len_abs by (unfold valid; cbn; lia).
  cbn [rstart rend rstep]. rewrite Z.sub_diag, Z.div_0_l by lia. reflexivity.
Qed.

Lemma valid_single a : valid (mkR a a 1).
Proof. unfold valid; cbn [rstart rend rstep]. lia. Qed.

(* IntRange._validate accepts exactly the valid triples and raises nothing but ValueError *)
Lemma mk_range_spec a b s :
  (valid (mkR a b s) /\ mk_range a b s = Ok (mkR a b s)) \/
  (~ valid (mkR a b s) /\ mk_range a b s = Raise ValueError).
Proof.
  unfold mk_range, valid. cbn [rstart rend rstep].
  destruct (s =? 0) eqn:E0; [right; split; [lia|reflexivity]|].
  destruct ((a <? b) && (s <? 0)) eqn:E1; [right; split; [lia|reflexivity]|].
  destruct ((b <? a) && (0 <? s)) eqn:E2; [right; split; [lia|reflexivity]|].
  assert (Hv : valid (mkR a b s)) by (unfold valid; cbn [rstart rend rstep]; lia).
  pose proof (valid_len_pos _ Hv). destruct (range_len (mkR a b s) <=? 0) eqn:E3; [lia|].
  left. split; [exact Hv|reflexivity].
Qed.

Lemma mk_range_valid a b s : valid (mkR a b s) -> mk_range a b s = Ok (mkR a b s).
Proof. intros Hv. destruct (mk_range_spec a b s) as [[_ H]|[H _]]; [exact H|contradiction]. Qed.

Lemma mk_range_ok r : valid r -> mk_range (rstart r) (rend r) (rstep r) = Ok r.
Proof. destruct r. apply mk_range_valid. Qed.

Lemma mk_range_inv a b s r : mk_range a b s = Ok r -> r = mkR a b s /\ valid r.
Proof. destruct (mk_range_spec a b s) as [[Hv ->]|[_ ->]]; [intros [= <-]; auto|discriminate]. Qed.

Lemma mk_range_raise a b s e : mk_range a b s = Raise e -> e = ValueError.
Proof. destruct (mk_range_spec a b s) as [[_ ->]|[_ ->]]; [discriminate|intros [= <-]; reflexivity]. Qed.

Lemma prog_from_length n : forall a s, length (prog_from a s n) = n.
Proof. induction n as [|n IH]; intros a s; cbn [prog_from length]; [|rewrite IH]; reflexivity. Qed.

Lemma prog_from_app n m : forall a s,
  prog_from a s (n + m) = prog_from a s n ++ prog_from (a + Z.of_nat n * s) s m.
Proof.
  induction n as [|n IH]; intros a s; cbn [Nat.add prog_from app].
  - f_equal. lia.
  - rewrite IH. do 3 f_equal. lia.
Qed.

Lemma prog_from_nth n : forall a s i, (i < n)%nat -> nth i (prog_from a s n) 0 = a + Z.of_nat i * s.
Proof.
  induction n as [|n IH]; intros a s i Hi; [lia|].
  destruct i as [|i]; cbn [prog_from nth]; [lia|]. rewrite IH by lia. lia.
Qed.

(* the form in which RangeExprSpec.progression writes it *)
Lemma prog_from_seq n : forall a s, prog_from a s n = map (fun i => a + Z.of_nat i * s) (seq 0 n).
Proof.
  induction n as [|n IH]; intros a s; [reflexivity|].
  cbn [prog_from seq map]. rewrite IH, <- seq_shift, map_map. f_equal; [lia|].
  apply map_ext. intros i. lia.
Qed.

Lemma range_elems_length r : length (range_elems r) = Z.to_nat (range_len r).
Proof. apply prog_from_length. Qed.

Lemma range_elems_nth r i :
  0 <= i < range_len r -> nth (Z.to_nat i) (range_elems r) 0 = range_nth r i.
Proof.
  intros Hi. unfold range_elems, range_nth. rewrite prog_from_nth, Z2Nat.id by lia. reflexivity.
Qed.

Lemma range_elems_single a s : s <> 0 -> range_elems (mkR a a s) = [a].
Proof. intros Hs. unfold range_elems. rewrite range_len_single by exact Hs. reflexivity. Qed.

Lemma range_elems_span r x :
  valid r -> In x (range_elems r) -> span_lo r <= x <= span_hi r.
Proof.
  intros Hv Hx. apply (In_nth _ _ 0) in Hx. destruct Hx as (i & Hi & <-).
  rewrite range_elems_length in Hi. rewrite <- (Nat2Z.id i), range_elems_nth by lia.
  apply range_nth_span; [exact Hv|lia|lia].
Qed.

Lemma range_elems_NoDup r : valid r -> NoDup (range_elems r).
Proof.
  intros (Hs & _). unfold range_elems. rewrite prog_from_seq.
  apply FinFun.Injective_map_NoDup; [|apply seq_NoDup]. intros i j Hij. nia.
Qed.

Lemma span_lo_le_hi r : span_lo r <= span_hi r.
Proof. unfold span_lo, span_hi. lia. Qed.

Fixpoint chain {A} (R : A -> A -> Prop) (p : A) (l : list A) : Prop :=
  match l with
  | [] => True
  | r :: rs => R p r /\ chain R r rs
  end.

Definition sle (p n : irange) : Prop := rstart p <= rstart n.
Definition slt (p n : irange) : Prop := rstart p < rstart n.

Lemma slt_sle p n : slt p n -> sle p n.
Proof. unfold slt, sle. lia. Qed.

Lemma slt_range_leb p n : slt p n -> range_leb p n = true.
Proof. unfold slt, range_leb. intros H. destruct (rstart p <? rstart n) eqn:E; [reflexivity|lia]. Qed.

(* sorted() compares (start, end, step); the proofs need the order of the starts only *)
Lemma range_leb_sle x y : if range_leb x y then sle x y else sle y x.
Proof.
  unfold range_leb, sle.
  destruct (rstart x <? rstart y) eqn:E1; [lia|].
  destruct (rstart y <? rstart x) eqn:E2; [lia|].
  destruct (rend x <? rend y), (rend y <? rend x), (rstep x <=? rstep y); lia.
Qed.

Lemma insert_range_perm x l : Permutation (x :: l) (insert_range x l).
Proof.
  induction l as [|y ys IH]; [apply Permutation_refl|].
  cbn [insert_range]. destruct (range_leb x y); [apply Permutation_refl|].
  eapply Permutation_trans; [apply perm_swap|]. apply perm_skip. exact IH.
Qed.

Lemma sort_ranges_perm l : Permutation l (sort_ranges l).
Proof.
  induction l as [|x xs IH]; [apply Permutation_refl|].
  cbn [sort_ranges fold_right]. eapply Permutation_trans; [apply perm_skip; exact IH|].
  apply insert_range_perm.
Qed.

Lemma insert_range_chain x l : forall p, sle p x -> chain sle p l -> chain sle p (insert_range x l).
Proof.
  induction l as [|y ys IH]; intros p Hpx Hc; [exact (conj Hpx I)|].
  destruct Hc as [Hpy Hc]. cbn [insert_range]. pose proof (range_leb_sle x y) as Hxy.
  destruct (range_leb x y).
  - exact (conj Hpx (conj Hxy Hc)).
  - exact (conj Hpy (IH y Hxy Hc)).
Qed.

Lemma sort_ranges_sorted l p t : sort_ranges l = p :: t -> chain sle p t.
Proof.
  revert p t. induction l as [|x xs IH]; intros p t; [discriminate|].
  cbn [sort_ranges fold_right]. fold (sort_ranges xs).
  destruct (sort_ranges xs) as [|y ys]; cbn [insert_range]; [intros [= <- <-]; exact I|].
  specialize (IH y ys eq_refl). pose proof (range_leb_sle x y) as Hxy.
  destruct (range_leb x y); intros [= <- <-].
  - exact (conj Hxy IH).
  - apply insert_range_chain; assumption.
Qed.

Definition rspan (r : irange) : Z * Z := (span_lo r, span_hi r).

(* [b] lies below the span of the first range, and each span lies below the next:
   what no_overlap tests, with a bound in place of a first element *)
Fixpoint sepd (b : Z) (l : list irange) : Prop :=
  match l with
  | [] => True
  | r :: rs => b < span_lo r /\ sepd (span_hi r) rs
  end.

Lemma sepd_le b b' l : b' <= b -> sepd b l -> sepd b' l.
Proof. destruct l; [trivial|]. intros Hb [H1 H2]. split; [lia|exact H2]. Qed.

Lemma sepd_Forall l : forall b, sepd b l -> Forall (fun r => b < span_lo r) l.
Proof.
  induction l as [|r rs IH]; intros b H; [constructor|]. destruct H as [H1 H2].
  constructor; [exact H1|]. apply IH. pose proof (span_lo_le_hi r). eapply sepd_le; [|exact H2]. lia.
Qed.

Lemma no_overlap_sepd l : no_overlap l = true <-> exists b, sepd b l.
Proof.
  destruct l as [|p l]; [split; [exists 0; exact I|reflexivity]|].
  transitivity (sepd (span_hi p) l).
  - revert p. induction l as [|r rs IH]; intros p; [cbn; tauto|].
    change (no_overlap (p :: r :: rs)) with ((span_hi p <? span_lo r) && no_overlap (r :: rs)).
    cbn [sepd]. rewrite andb_true_iff, IH, Z.ltb_lt. tauto.
  - split; [intros H; exists (span_lo p - 1); split; [lia|exact H]|intros (b & _ & H); exact H].
Qed.

Lemma sort_ranges_sepd l : forall b, sepd b l -> sort_ranges l = l.
Proof.
  induction l as [|r rs IH]; intros b H; [reflexivity|]. destruct H as [_ H].
  cbn [sort_ranges fold_right]. fold (sort_ranges rs). rewrite (IH _ H).
  destruct rs as [|r' rs']; [reflexivity|]. destruct H as [H _]. cbn [insert_range].
  rewrite slt_range_leb; [reflexivity|]. unfold slt, span_hi, span_lo in *. lia.
Qed.

Lemma Pairwise_perm {A} (R : A -> A -> Prop) :
  (forall x y, R x y -> R y x) -> forall l l', Permutation l l' -> Pairwise R l -> Pairwise R l'.
Proof.
  intros Hsym l l' Hp. induction Hp as [|x l l' Hp IH|x y l|l l' l'' Hp1 IH1 Hp2 IH2]; intros H.
  - exact H.
  - inversion H as [|x0 l0 Hf Hpw]; subst. constructor; [|apply IH; exact Hpw].
    eapply Permutation_Forall; eassumption.
  - inversion H as [|y0 l0 Hf Hpw]; subst. inversion Hpw as [|x0 l1 Hf' Hpw']; subst.
    inversion Hf as [|x1 l2 Hyx Hfy]; subst.
    constructor; [constructor; [apply Hsym; exact Hyx|exact Hf']|].
    constructor; [exact Hfy|exact Hpw'].
  - apply IH2, IH1, H.
Qed.

Lemma disjoint_sym x y : disjoint x y -> disjoint y x.
Proof. unfold disjoint. tauto. Qed.

Lemma spans_perm l l' :
  Permutation l l' -> Pairwise disjoint (map rspan l) -> Pairwise disjoint (map rspan l').
Proof. intros Hp. apply (Pairwise_perm _ disjoint_sym), Permutation_map, Hp. Qed.

Lemma sepd_pairwise l : forall b, sepd b l -> Pairwise disjoint (map rspan l).
Proof.
  induction l as [|r rs IH]; intros b H; [constructor|]. destruct H as [_ H].
  cbn [map]. constructor; [|exact (IH _ H)]. rewrite Forall_map.
  eapply Forall_impl; [|exact (sepd_Forall _ _ H)]. intros x Hx. left. exact Hx.
Qed.

Lemma pairwise_sepd l : forall p,
  chain sle p l -> Pairwise disjoint (map rspan (p :: l)) -> sepd (span_hi p) l.
Proof.
  induction l as [|r rs IH]; intros p Hs H; [exact I|].
  destruct Hs as [Hpr Hs]. inversion H as [|x0 l0 Hf Hpw]; subst.
  split; [|apply IH; assumption].
  inversion Hf as [|x1 l1 Hd _]; subst. unfold disjoint, rspan in Hd. cbn [fst snd] in Hd.
  unfold sle, span_lo, span_hi in *. lia.
Qed.

(* on a start-sorted list the adjacent test decides pairwise disjointness *)
Lemma no_overlap_pairwise p l :
  chain sle p l -> (no_overlap (p :: l) = true <-> Pairwise disjoint (map rspan (p :: l))).
Proof.
  intros Hc. rewrite no_overlap_sepd. split.
  - intros (b & H). exact (sepd_pairwise _ _ H).
  - intros H. exists (span_lo p - 1). split; [lia|apply pairwise_sepd; assumption].
Qed.

(* a range that counts upwards: the value after the last one is beyond the written end *)
Lemma range_up r :
  valid r -> 0 < rstep r ->
  rstart r <= rend r /\ span_lo r = rstart r /\ span_hi r = rend r /\
  rend r < range_nth r (range_len r).
Proof.
  intros Hv Hs. pose proof (valid_len_pos r Hv) as Hn.
  pose proof (proj2 (range_nth_span r (range_len r) Hv ltac:(lia))) as Hout.
  destruct Hv as (_ & _ & Hv). unfold span_lo, span_hi, range_nth in *.
  assert (0 <= range_len r * rstep r) by nia. lia.
Qed.

(* on a start-sorted list only upward neighbours pass the test *)
Lemma merge_test_up p r :
  valid p -> sle p r -> merge_test false p r = true ->
  0 < rstep p /\ rstep r = rstep p /\ rstart r = range_nth p (range_len p).
Proof.
  intros Hv Hle Ht. pose proof (valid_len_pos p Hv) as Hn. destruct Hv as (H0 & _).
  apply andb_true_iff in Ht. destruct Ht as [E1 E2]. apply Z.eqb_eq in E1, E2.
  unfold range_last, range_nth, sle in *. rewrite <- E1 in E2.
  split; [nia|]. split; [congruence|lia].
Qed.

(* the merged range has the values of both, in order, and spans both *)
Lemma merge_ok p r :
  valid p -> valid r -> sle p r -> merge_test false p r = true ->
  let m := mkR (rstart p) (rend r) (rstep r) in
  valid m /\ range_elems m = range_elems p ++ range_elems r /\
  span_lo m = span_lo p /\ span_hi m = span_hi r /\ span_hi p < span_lo r.
Proof.
  intros Hvp Hvr Hle Ht. cbv zeta.
  destruct (merge_test_up p r Hvp Hle Ht) as (Hs & Es & Ec).
  destruct (range_up p Hvp Hs) as (Hab & Lp & Hp & Hout).
  destruct (range_up r Hvr ltac:(lia)) as (Hcd & Lr & Hr & _).
  pose proof (valid_len_pos p Hvp) as Hnp. pose proof (valid_len_pos r Hvr) as Hnr. clear Hvp Hvr Ht.
  rewrite Lp, Hp, Lr, Hr. destruct p as [a b s], r as [c d s'].
  unfold range_nth, sle in *. cbn [rstart rend rstep] in *. subst s'.
  set (n := range_len (mkR a b s)) in *.
  assert (Hlen : range_len (mkR a d s) = n + range_len (mkR c d s)).
  { rewrite !range_len_up by lia. replace (d - a) with (d - c + n * s) by lia.
    rewrite Z.div_add by lia. lia. }
  split; [unfold valid; cbn [rstart rend rstep]; lia|]. split.
  - unfold range_elems. fold n. rewrite Hlen. cbn [rstart rstep].
    rewrite Z2Nat.inj_add, prog_from_app, Z2Nat.id, <- Ec by lia. reflexivity.
  - unfold span_lo, span_hi. cbn [rstart rend]. lia.
Qed.

Lemma chain_sle_head p p' l : sle p' p -> chain sle p l -> chain sle p' l.
Proof. destruct l; [trivial|]. unfold sle. intros E [H1 H2]. split; [lia|exact H2]. Qed.

(* The loop over sorted_ranges[1:], entered with [p] as the last range built so far (flag-off:
   the test compares with the last VALUE of [p], not with its written end): the ranges it adds
   iterate over the same values, and are separated exactly when [p :: l] is. *)
Lemma merge_loop_spec l : forall p acc,
  valid p -> Forall valid l -> chain sle p l ->
  exists m, merge_loop false (p :: acc) l = Ok (rev acc ++ m) /\
    m <> [] /\ Forall valid m /\
    concat (map range_elems m) = concat (map range_elems (p :: l)) /\
    forall b, sepd b m <-> sepd b (p :: l).
Proof.
  induction l as [|r rs IH]; intros p acc Hvp Hvl Hch; cbn [merge_loop].
  - exists [p]. split; [reflexivity|]. split; [discriminate|].
    split; [constructor; [exact Hvp|constructor]|]. split; reflexivity.
  - destruct Hch as [Hpr Hch]. inversion Hvl as [|r0 l0 Hvr Hvrs]; subst.
    destruct (merge_test false p r) eqn:Et.
    + destruct (merge_ok p r Hvp Hvr Hpr Et) as (Hvm & Hel & Hlo & Hhi & Hsep).
      rewrite (mk_range_valid _ _ _ Hvm). cbn [bind].
      destruct (IH _ acc Hvm Hvrs) as (m & E & IH0 & IH1 & IH2 & IH3);
        [eapply chain_sle_head; [exact Hpr|exact Hch]|].
      exists m. split; [exact E|]. split; [exact IH0|]. split; [exact IH1|]. split.
      * rewrite IH2. cbn [map concat]. rewrite Hel, <- app_assoc. reflexivity.
      * intros b. rewrite IH3. cbn [sepd]. rewrite Hlo, Hhi. tauto.
    + destruct (IH r (p :: acc) Hvr Hvrs Hch) as (m & E & _ & IH1 & IH2 & IH3).
      exists (p :: m). split; [rewrite E; cbn [rev]; rewrite <- app_assoc; reflexivity|].
      split; [discriminate|]. split; [constructor; assumption|]. split.
      * cbn [map concat] in *. rewrite IH2. reflexivity.
      * intros b. cbn [sepd]. rewrite IH3. reflexivity.
Qed.

Definition total_len (l : list irange) : Z := fold_right (fun r a => range_len r + a) 0 l.

Lemma total_len_cons r rs : total_len (r :: rs) = range_len r + total_len rs.
Proof. reflexivity. Qed.

Lemma last_cum_lengths l : forall acc d, l <> [] -> last (cum_lengths acc l) d = acc + total_len l.
Proof.
  induction l as [|r rs IH]; intros acc d Hne; [contradiction|].
  destruct rs as [|r' rs']; [cbn; lia|].
  change (last (cum_lengths acc (r :: r' :: rs')) d)
    with (last (cum_lengths (acc + range_len r) (r' :: rs')) d).
  rewrite IH, (total_len_cons r) by discriminate. lia.
Qed.

Lemma elems_length l : Forall valid l ->
  Z.of_nat (length (concat (map range_elems l))) = total_len l.
Proof.
  induction 1 as [|r rs Hvr Hvrs IH]; [reflexivity|].
  cbn [map concat]. rewrite app_length, range_elems_length, Nat2Z.inj_add, IH, total_len_cons.
  pose proof (valid_len_pos _ Hvr). lia.
Qed.

Lemma total_len_pos l : Forall valid l -> l <> [] -> 1 <= total_len l.
Proof.
  intros Hv Hne. destruct Hv as [|r rs Hvr Hvrs]; [contradiction|].
  rewrite total_len_cons, <- (elems_length rs Hvrs). pose proof (valid_len_pos _ Hvr). lia.
Qed.

(* what IntRangeExpr.__init__ establishes *)
Definition WFexpr (e : iexpr) : Prop :=
  ranges e <> [] /\ Forall valid (ranges e) /\ no_overlap (ranges e) = true /\
  cum e = cum_lengths 0 (ranges e) /\ elen e = total_len (ranges e).

(* sorted() is the only step that reorders: on its result [f :: rest], the adjacent test alone
   decides, and the merged ranges iterate over the values of [f :: rest] in that order *)
Lemma mk_expr_eq rs f rest :
  Forall valid rs -> sort_ranges rs = f :: rest ->
  if no_overlap (f :: rest)
  then exists e, mk_expr false rs = Ok e /\ WFexpr e /\
                 elems e = concat (map range_elems (f :: rest))
  else mk_expr false rs = Raise ValueError.
Proof.
  intros Hv Hs.
  assert (Hvs : Forall valid (f :: rest)).
  { rewrite <- Hs. eapply Permutation_Forall; [apply sort_ranges_perm|exact Hv]. }
  pose proof (sort_ranges_sorted _ _ _ Hs) as Hch. inversion Hvs as [|f0 l0 Hvf Hvrest]; subst.
  destruct (merge_loop_spec rest f [] Hvf Hvrest Hch) as (m & Hm & Hne & Hvm & Hel & Hsep).
  unfold mk_expr. rewrite Hs, Hm. cbn [rev app bind].
  rewrite (last_cum_lengths m 0 0 Hne), Z.add_0_l.
  pose proof (total_len_pos m Hvm Hne). destruct (total_len m <=? 0) eqn:E; [lia|].
  assert (Hno : no_overlap (f :: rest) = no_overlap m).
  { apply eq_true_iff_eq. rewrite !no_overlap_sepd.
    split; intros (b & H'); exists b; apply Hsep; exact H'. }
  rewrite Hno. destruct (no_overlap m) eqn:Em; [|reflexivity].
  eexists. split; [reflexivity|]. split; [|exact Hel]. repeat split; assumption.
Qed.

Lemma concat_elems_perm (l l' : list irange) : Permutation l l' ->
  Permutation (concat (map range_elems l)) (concat (map range_elems l')).
Proof. intros Hp. rewrite <- !flat_map_concat_map. apply Permutation_flat_map, Hp. Qed.

(* IntRangeExpr.__init__ on valid ranges: accepted iff the spans are pairwise disjoint *)
Lemma mk_expr_spec rs :
  rs <> [] -> Forall valid rs ->
  match mk_expr false rs with
  | Ok e => WFexpr e /\ Permutation (elems e) (concat (map range_elems rs)) /\
            Pairwise disjoint (map rspan rs)
  | Raise x => x = ValueError /\ ~ Pairwise disjoint (map rspan rs)
  end.
Proof.
  intros Hne Hv. pose proof (sort_ranges_perm rs) as Hp.
  destruct (sort_ranges rs) as [|f rest] eqn:Hs.
  { apply Permutation_sym, Permutation_nil in Hp. contradiction. }
  pose proof (mk_expr_eq rs f rest Hv Hs) as H.
  pose proof (no_overlap_pairwise f rest (sort_ranges_sorted _ _ _ Hs)) as Hiff.
  destruct (no_overlap (f :: rest)).
  - destruct H as (e & -> & Hwf & Hel). split; [exact Hwf|]. split.
    + rewrite Hel. apply Permutation_sym, concat_elems_perm, Hp.
    + eapply spans_perm; [apply Permutation_sym, Hp|]. apply Hiff. reflexivity.
  - rewrite H. split; [reflexivity|]. intros Hpw. apply (spans_perm _ _ Hp), Hiff in Hpw. discriminate.
Qed.

Lemma mk_expr_ok rs e :
  Forall valid rs -> mk_expr false rs = Ok e ->
  WFexpr e /\ Permutation (elems e) (concat (map range_elems rs)) /\ Pairwise disjoint (map rspan rs).
Proof.
  intros Hv He. pose proof (mk_expr_spec rs) as H. rewrite He in H.
  apply H; [intros ->; discriminate|exact Hv].
Qed.

Lemma IsRange_valid r : IsRange r <-> valid r.
Proof.
  unfold IsRange. split; [|apply mk_range_ok]. intros H. apply mk_range_inv in H. apply H.
Qed.

Lemma Forall_IsRange_valid rs : Forall IsRange rs <-> Forall valid rs.
Proof. split; apply Forall_impl; intros r; apply IsRange_valid. Qed.

Lemma IsExpr_WF e : IsExpr e -> WFexpr e.
Proof.
  intros (rs & Hrs & He). eapply mk_expr_ok; [apply Forall_IsRange_valid; exact Hrs|exact He].
Qed.

(* already separated input (printing, from_list): same values in the same order *)
Lemma mk_expr_separated l :
  l <> [] -> Forall valid l -> no_overlap l = true ->
  exists e, mk_expr false l = Ok e /\ WFexpr e /\ elems e = concat (map range_elems l).
Proof.
  intros Hne Hv Hno. destruct l as [|p l]; [contradiction|].
  destruct (proj1 (no_overlap_sepd _) Hno) as (b & Hs). apply sort_ranges_sepd in Hs.
  pose proof (mk_expr_eq _ _ _ Hv Hs) as H. rewrite Hno in H. exact H.
Qed.

Lemma sepd_NoDup l : forall b, Forall valid l -> sepd b l ->
  NoDup (concat (map range_elems l)) /\ forall x, In x (concat (map range_elems l)) -> b < x.
Proof.
  induction l as [|r rs IH]; intros b Hv Hs; cbn [map concat].
  - split; [constructor|contradiction].
  - inversion Hv as [|r0 l0 Hvr Hvrs]; subst. destruct Hs as [Hb Hs].
    destruct (IH _ Hvrs Hs) as [IH1 IH2]. pose proof (range_elems_span r) as Hsp. split.
    + apply NoDup_app_intro; [apply range_elems_NoDup; exact Hvr|exact IH1|].
      intros x Hx1 Hx2. specialize (Hsp x Hvr Hx1). specialize (IH2 x Hx2). lia.
    + intros x Hx. apply in_app_or in Hx. destruct Hx as [Hx|Hx].
      * specialize (Hsp x Hvr Hx). lia.
      * specialize (IH2 x Hx). pose proof (span_lo_le_hi r). lia.
Qed.

Lemma WFexpr_NoDup e : WFexpr e -> NoDup (elems e).
Proof.
  intros (_ & Hv & Hno & _). apply no_overlap_sepd in Hno. destruct Hno as (b & Hs).
  exact (proj1 (sepd_NoDup _ b Hv Hs)).
Qed.

(* the IntRange that Parser._range builds for a written element *)
Definition to_range (e : elem) : irange :=
  match e with
  | One a => mkR a a 1
  | Span a b => mkR a b 1
  | Stepped a b s => mkR a b s
  end.

Lemma elem_ok_valid e : elem_ok e <-> valid (to_range e).
Proof. destruct e; unfold valid; cbn [to_range elem_ok rstart rend rstep]; lia. Qed.

Lemma Forall_valid_to_range es : Forall elem_ok es -> Forall valid (map to_range es).
Proof. intros H. rewrite Forall_map. eapply Forall_impl; [|exact H]. intros e. apply elem_ok_valid. Qed.

Lemma spans_to_range es : map span es = map rspan (map to_range es).
Proof.
  rewrite map_map. apply map_ext. intros e.
  destruct e; unfold rspan, span_lo, span_hi; cbn [span to_range rstart rend]; try reflexivity.
  rewrite Z.min_id, Z.max_id. reflexivity.
Qed.

Lemma parse_integer_app z tz r : IntToks z tz -> parse_integer (tz ++ r) = Ok (z, r).
Proof. intros H. destruct H; reflexivity. Qed.

Lemma parse_integer_spec ts :
  match parse_integer ts with
  | Ok (z, r) => exists tz, IntToks z tz /\ ts = tz ++ r
  | Raise x => x = ExpressionError
  end.
Proof.
  destruct ts as [|t ts']; [reflexivity|]. destruct t; try reflexivity.
  - exists [TPosInt v]. split; [constructor|reflexivity].
  - destruct ts' as [|t2 ts'']; [reflexivity|]. destruct t2; try reflexivity.
    exists [THyphen; TPosInt v]. split; [constructor|reflexivity].
Qed.

Lemma IntToks_nonempty z tz : IntToks z tz -> tz <> [].
Proof. intros H; destruct H; discriminate. Qed.

Lemma ElemToks_nonempty e ts : ElemToks e ts -> ts <> [].
Proof.
  intros H; destruct H as [a ta Ha|a b ta tb Ha Hb|a b s ta tb tc Ha Hb Hc];
    pose proof (IntToks_nonempty _ _ Ha); destruct ta; try contradiction; discriminate.
Qed.

(* Parser._range: what it accepts is a valid written element; it raises only ExpressionError *)
Lemma parse_range_spec ts :
  match parse_range false ts with
  | Ok (rg, rest) => exists e pre, ElemToks e pre /\ ts = pre ++ rest /\ elem_ok e /\ rg = to_range e
  | Raise x => x = ExpressionError
  end.
Proof.
  unfold parse_range.
  pose proof (parse_integer_spec ts) as H1.
  destruct (parse_integer ts) as [[a r1]|x]; cbn [bind]; [|exact H1]. destruct H1 as (ta & Hta & ->).
  destruct (at_end_or_comma r1) eqn:E1.
  { rewrite (mk_range_valid _ _ _ (valid_single a)). cbn [bind].
    exists (One a), ta. split; [constructor; exact Hta|]. split; [reflexivity|]. split; [exact I|reflexivity]. }
  destruct r1 as [|[] r2]; try discriminate E1; try reflexivity.
  pose proof (parse_integer_spec r2) as H2.
  destruct (parse_integer r2) as [[b r3]|x]; cbn [bind]; [|exact H2]. destruct H2 as (tb & Htb & ->).
  destruct (at_end_or_comma r3) eqn:E3.
  { destruct (mk_range_spec a b 1) as [[Hv ->]|[_ ->]]; [|reflexivity].
    exists (Span a b), (ta ++ THyphen :: tb). split; [constructor; assumption|].
    split; [rewrite <- app_assoc; reflexivity|].
    split; [apply (elem_ok_valid (Span a b)); exact Hv|reflexivity]. }
  destruct r3 as [|[] r4]; try discriminate E3; try reflexivity.
  pose proof (parse_integer_spec r4) as H3.
  destruct (parse_integer r4) as [[s r5]|x]; cbn [bind]; [|exact H3]. destruct H3 as (tc & Htc & ->).
  destruct (mk_range_spec a b s) as [[Hv ->]|[_ ->]]; [|reflexivity].
  exists (Stepped a b s), (ta ++ THyphen :: tb ++ TColon :: tc). split; [constructor; assumption|].
  split; [repeat (rewrite <- app_assoc; cbn [app]); reflexivity|].
  split; [apply (elem_ok_valid (Stepped a b s)); exact Hv|reflexivity].
Qed.

Lemma parse_range_complete e pre rest :
  ElemToks e pre -> elem_ok e -> at_end_or_comma rest = true ->
  parse_range false (pre ++ rest) = Ok (to_range e, rest).
Proof.
  intros He Hok Hend. apply elem_ok_valid in Hok. pose proof (mk_range_ok _ Hok) as Hm.
  (* the parser runs through, reading each integer by parse_integer_app *)
  destruct He as [a ta Ha|a b ta tb Ha Hb|a b s ta tb tc Ha Hb Hc]; cbn [to_range rstart rend rstep] in Hm;
    unfold parse_range; repeat (rewrite <- app_assoc; cbn [app]);
    repeat (erewrite parse_integer_app by eassumption; cbn [bind at_end_or_comma]);
    rewrite ?Hend, Hm; reflexivity.
Qed.

(* Parser._expression; the fuel (number of tokens + 1) always suffices, since every range
   takes its comma with it: RuntimeError never escapes *)
Lemma parse_ranges_spec fuel : forall ts, (length ts < fuel)%nat ->
  match parse_ranges false fuel ts with
  | Ok rs => exists es, Renders es ts /\ Forall elem_ok es /\ rs = map to_range es
  | Raise x => x = ExpressionError
  end.
Proof.
  induction fuel as [|f IH]; intros ts Hf; [lia|]. cbn [parse_ranges].
  pose proof (parse_range_spec ts) as H1.
  destruct (parse_range false ts) as [[rg rest]|x]; cbn [bind]; [|exact H1].
  destruct H1 as (e & pre & He & -> & Hok & ->).
  destruct rest as [|[] rest']; try reflexivity.
  - exists [e]. rewrite app_nil_r.
    split; [constructor; exact He|]. split; [constructor; [exact Hok|constructor]|reflexivity].
  - rewrite app_length in Hf. cbn [length] in Hf. specialize (IH rest' ltac:(lia)).
    destruct (parse_ranges false f rest') as [rgs|x]; cbn [bind]; [|exact IH].
    destruct IH as (es & Hr & Hoks & ->).
    exists (e :: es). split; [constructor; assumption|]. split; [constructor; assumption|reflexivity].
Qed.

Lemma parse_ranges_complete es ts :
  Renders es ts -> Forall elem_ok es ->
  forall fuel, (length ts < fuel)%nat -> parse_ranges false fuel ts = Ok (map to_range es).
Proof.
  intros Hr. induction Hr as [e ts He|e ts es ts' He Hr IH]; intros Hok fuel Hf.
  - destruct fuel as [|f]; [lia|]. cbn [parse_ranges]. inversion Hok as [|e0 l0 Hoke _]; subst.
    rewrite <- (app_nil_r ts).
    rewrite (parse_range_complete e ts [] He Hoke eq_refl). cbn [bind map]. reflexivity.
  - destruct fuel as [|f]; [lia|]. cbn [parse_ranges]. inversion Hok as [|e0 l0 Hoke Hoks]; subst.
    rewrite (parse_range_complete e ts (TComma :: ts') He Hoke eq_refl). cbn [bind].
    rewrite (IH Hoks f). { cbn [bind map]. reflexivity. }
    rewrite app_length in Hf. cbn [length] in Hf. lia.
Qed.

Lemma Renders_nonempty es ts : Renders es ts -> ts <> [] /\ map to_range es <> [].
Proof.
  intros H; destruct H as [e ts He|e ts es ts' He Hr]; (split; [|discriminate]).
  - eapply ElemToks_nonempty; exact He.
  - destruct ts; discriminate.
Qed.

Lemma parse_tokens_spec ts :
  match parse_tokens false false ts with
  | Ok e => exists es, Renders es ts /\ Forall elem_ok es /\ mk_expr false (map to_range es) = Ok e
  | Raise x => x = ExpressionError
  end.
Proof.
  unfold parse_tokens. destruct ts as [|t ts']; [reflexivity|].
  pose proof (parse_ranges_spec _ (t :: ts') (Nat.lt_succ_diag_r _)) as H1.
  destruct (parse_ranges false _ (t :: ts')) as [rs|x]; cbn [bind]; [|exact H1].
  destruct H1 as (es & Hr & Hok & ->).
  pose proof (mk_expr_spec _ (proj2 (Renders_nonempty _ _ Hr)) (Forall_valid_to_range _ Hok)) as H2.
  destruct (mk_expr false (map to_range es)) as [e|x] eqn:E; [exists es; auto|].
  destruct H2 as [-> _]. reflexivity.
Qed.

Lemma parse_tokens_raise ts e : parse_tokens false false ts = Raise e -> e = ExpressionError.
Proof. intros H. pose proof (parse_tokens_spec ts) as Hs. rewrite H in Hs. exact Hs. Qed.

Lemma parse_tokens_intro ts es e :
  Renders es ts -> Forall elem_ok es -> mk_expr false (map to_range es) = Ok e ->
  parse_tokens false false ts = Ok e.
Proof.
  intros Hr Hok He. unfold parse_tokens.
  destruct ts as [|t ts']; [exfalso; apply (proj1 (Renders_nonempty _ _ Hr)); reflexivity|].
  rewrite (parse_ranges_complete _ _ Hr Hok) by lia. cbn [bind]. rewrite He. reflexivity.
Qed.

Definition no_comma (l : list tok) : Prop := Forall (fun t => t <> TComma) l.

Lemma IntToks_no_comma z tz : IntToks z tz -> no_comma tz.
Proof. intros H; destruct H; repeat constructor; discriminate. Qed.

Lemma no_comma_app a b : no_comma a -> no_comma b -> no_comma (a ++ b).
Proof. unfold no_comma. intros; apply Forall_app; split; assumption. Qed.

Lemma ElemToks_no_comma e ts : ElemToks e ts -> no_comma ts.
Proof.
  intros H; destruct H as [a ta Ha|a b ta tb Ha Hb|a b s ta tb tc Ha Hb Hc].
  - eapply IntToks_no_comma; exact Ha.
  - apply no_comma_app; [eapply IntToks_no_comma; exact Ha|].
    constructor; [discriminate|eapply IntToks_no_comma; exact Hb].
  - apply no_comma_app; [eapply IntToks_no_comma; exact Ha|].
    constructor; [discriminate|]. apply no_comma_app; [eapply IntToks_no_comma; exact Hb|].
    constructor; [discriminate|eapply IntToks_no_comma; exact Hc].
Qed.

Lemma split_commas_no_comma pre : no_comma pre -> forall cur,
  split_commas cur pre = [rev cur ++ pre] /\
  forall r, split_commas cur (pre ++ TComma :: r) = (rev cur ++ pre) :: split_commas [] r.
Proof.
  induction pre as [|t pre IH]; intros Hn cur.
  - cbn [split_commas app]. rewrite app_nil_r. split; [reflexivity|intros r; reflexivity].
  - inversion Hn as [|t0 l0 Ht Hn']; subst. destruct (IH Hn' (t :: cur)) as [IH1 IH2].
    cbn [rev] in IH1, IH2. rewrite <- app_assoc in IH1, IH2. cbn [app] in IH1, IH2.
    destruct t; try contradiction; cbn [split_commas app]; (split; [exact IH1|exact IH2]).
Qed.

Lemma take_int_parse ts :
  take_int ts = match parse_integer ts with Ok x => Some x | Raise _ => None end.
Proof.
  destruct ts as [|t ts']; [reflexivity|]. destruct t; try reflexivity.
  destruct ts' as [|t2 ts'']; [reflexivity|]. destruct t2; reflexivity.
Qed.

Lemma take_int_app z tz r : IntToks z tz -> take_int (tz ++ r) = Some (z, r).
Proof. intros H. rewrite take_int_parse, (parse_integer_app _ _ _ H). reflexivity. Qed.

Lemma take_int_ok ts z r : take_int ts = Some (z, r) -> exists tz, IntToks z tz /\ ts = tz ++ r.
Proof.
  rewrite take_int_parse. pose proof (parse_integer_spec ts) as H.
  destruct (parse_integer ts) as [[z' r']|x]; [intros [= <- <-]; exact H|discriminate].
Qed.

Lemma seg_elem_complete e seg : ElemToks e seg -> seg_elem seg = Some e.
Proof.
  intros H; destruct H as [a ta Ha|a b ta tb Ha Hb|a b s ta tb tc Ha Hb Hc]; unfold seg_elem.
  - rewrite <- (app_nil_r ta), (take_int_app _ _ _ Ha). reflexivity.
  - rewrite (take_int_app _ _ _ Ha). rewrite <- (app_nil_r tb), (take_int_app _ _ _ Hb). reflexivity.
  - rewrite (take_int_app _ _ _ Ha), (take_int_app _ _ _ Hb).
    rewrite <- (app_nil_r tc), (take_int_app _ _ _ Hc). reflexivity.
Qed.

Lemma seg_elem_sound seg e : seg_elem seg = Some e -> ElemToks e seg.
Proof.
  unfold seg_elem. destruct (take_int seg) as [[a r]|] eqn:H1; [|discriminate].
  apply take_int_ok in H1. destruct H1 as (ta & Ha & ->).
  destruct r as [|[] r]; try discriminate.
  { intros [= <-]. rewrite app_nil_r. constructor; exact Ha. }
  destruct (take_int r) as [[b r']|] eqn:H2; [|discriminate].
  apply take_int_ok in H2. destruct H2 as (tb & Hb & ->).
  destruct r' as [|[] r']; try discriminate.
  { intros [= <-]. rewrite app_nil_r. constructor; assumption. }
  destruct (take_int r') as [[s r'']|] eqn:H3; [|discriminate].
  apply take_int_ok in H3. destruct H3 as (tc & Hc & ->).
  destruct r'' as [|t r'']; [|discriminate].
  intros [= <-]. rewrite app_nil_r. constructor; assumption.
Qed.

Lemma split_commas_sound ts : forall cur es,
  all_some (map seg_elem (split_commas cur ts)) = Some es -> Renders es (rev cur ++ ts).
Proof.
  induction ts as [|t r IH]; intros cur es H.
  - cbn [split_commas map all_some] in H. rewrite app_nil_r.
    destruct (seg_elem (rev cur)) as [e|] eqn:He; [|discriminate]. injection H as <-.
    constructor. apply seg_elem_sound, He.
  - assert (Hother : split_commas cur (t :: r) = split_commas (t :: cur) r ->
                     Renders es (rev cur ++ t :: r)).
    { intros E. rewrite E in H. apply IH in H. cbn [rev] in H. rewrite <- app_assoc in H. exact H. }
    destruct t; try (apply Hother; reflexivity).
    cbn [split_commas map all_some] in H.
    destruct (seg_elem (rev cur)) as [e|] eqn:He; [|discriminate].
    destruct (all_some (map seg_elem (split_commas [] r))) as [es'|] eqn:Hes; [|discriminate].
    injection H as <-. constructor; [apply seg_elem_sound, He|exact (IH [] es' Hes)].
Qed.

Lemma spec_elems_sound ts es : spec_elems ts = Some es -> Renders es ts.
Proof. apply (split_commas_sound ts []). Qed.

Lemma spec_elems_complete es ts : Renders es ts -> spec_elems ts = Some es.
Proof.
  unfold spec_elems. intros H; induction H as [e ts He|e ts es ts' He Hr IH].
  - destruct (split_commas_no_comma ts (ElemToks_no_comma _ _ He) []) as [H1 _].
    rewrite H1. cbn [rev app map all_some]. rewrite (seg_elem_complete _ _ He). reflexivity.
  - destruct (split_commas_no_comma ts (ElemToks_no_comma _ _ He) []) as [_ H2].
    rewrite H2. cbn [rev app map all_some]. rewrite (seg_elem_complete _ _ He), IH. reflexivity.
Qed.

Theorem Renders_functional ts es es' : Renders es ts -> Renders es' ts -> es = es'.
Proof.
  intros H1 H2. apply spec_elems_complete in H1, H2. congruence.
Qed.

Lemma elem_okb_iff e : elem_okb e = true <-> elem_ok e.
Proof. destruct e; cbn [elem_okb elem_ok]; lia. Qed.

Lemma forallb_Forall {A} (p : A -> bool) (P : A -> Prop) l :
  (forall x, p x = true <-> P x) -> (forallb p l = true <-> Forall P l).
Proof. intros H. rewrite forallb_forall, Forall_forall. split; intros G x Hx; apply H, G, Hx. Qed.

Lemma disjointb_iff x y : disjointb x y = true <-> disjoint x y.
Proof. unfold disjointb, disjoint. lia. Qed.

Lemma pairwiseb_iff l : pairwiseb disjointb l = true <-> Pairwise disjoint l.
Proof.
  induction l as [|x xs IH]; cbn [pairwiseb]; [split; [constructor|reflexivity]|].
  rewrite andb_true_iff, IH, (forallb_Forall _ _ _ (disjointb_iff x)). split.
  - intros [Hf Hp]. constructor; assumption.
  - intros H; inversion H; subst. split; assumption.
Qed.

Theorem spec_from_tokens_iff ts l :
  spec_from_tokens ts = Some l <->
  exists es, Accepts ts es /\ l = sortZ (concat (map denote es)).
Proof.
  unfold spec_from_tokens, Accepts. split.
  - destruct (spec_elems ts) as [es|] eqn:He; [|discriminate].
    destruct (forallb elem_okb es && pairwiseb disjointb (map span es)) eqn:Hc; [|discriminate].
    intros [= <-]. apply andb_true_iff in Hc. destruct Hc as [Hc1 Hc2].
    exists es. split; [|reflexivity].
    split; [apply spec_elems_sound; exact He|]. split; [apply (forallb_Forall _ _ _ elem_okb_iff); exact Hc1|apply pairwiseb_iff; exact Hc2].
  - intros (es & (Hr & Hok & Hpw) & ->). rewrite (spec_elems_complete _ _ Hr).
    apply (forallb_Forall _ _ _ elem_okb_iff) in Hok. apply pairwiseb_iff in Hpw. rewrite Hok, Hpw. reflexivity.
Qed.

Lemma denote_range_elems e : elem_ok e -> range_elems (to_range e) = denote e.
Proof.
  intros Hok. apply elem_ok_valid in Hok.
  destruct e as [a|a b|a b s]; cbn [to_range denote] in *; [apply range_elems_single; discriminate| |];
    unfold range_elems, progression; rewrite prog_from_seq, (valid_len_abs _ Hok); reflexivity.
Qed.

Lemma concat_denote es :
  Forall elem_ok es -> concat (map range_elems (map to_range es)) = concat (map denote es).
Proof.
  intros H. induction H as [|e es He Hes IH]; [reflexivity|].
  cbn [map concat]. rewrite IH, (denote_range_elems _ He). reflexivity.
Qed.

(* C08 in one statement: the parser decides [Accepts], and what it returns iterates once over
   each value the written elements denote *)
Theorem parse_tokens_correct ts :
  match parse_tokens false false ts with
  | Ok e => IsExpr e /\ NoDup (elems e) /\
            exists es, Accepts ts es /\ Permutation (elems e) (concat (map denote es))
  | Raise x => x = ExpressionError /\ ~ exists es, Accepts ts es
  end.
Proof.
  unfold Accepts. pose proof (parse_tokens_spec ts) as H.
  destruct (parse_tokens false false ts) as [e|x] eqn:E.
  - destruct H as (es & Hr & Hok & He). pose proof (Forall_valid_to_range _ Hok) as Hv.
    destruct (mk_expr_ok _ _ Hv He) as (Hwf & Hperm & Hpw).
    split; [exists (map to_range es); split; [apply Forall_IsRange_valid, Hv|exact He]|].
    split; [apply WFexpr_NoDup, Hwf|]. exists es. rewrite spans_to_range, <- (concat_denote _ Hok). auto.
  - split; [exact H|]. intros (es & Hr & Hok & Hpw). rewrite spans_to_range in Hpw.
    pose proof (mk_expr_spec _ (proj2 (Renders_nonempty _ _ Hr)) (Forall_valid_to_range _ Hok)) as H2.
    destruct (mk_expr false (map to_range es)) as [e|y] eqn:He; [|destruct H2 as [_ H2]; contradiction].
    rewrite (parse_tokens_intro _ _ _ Hr Hok He) in E. discriminate.
Qed.

Theorem accept_iff ts :
  (exists e, parse_tokens false false ts = Ok e) <-> (exists es, Accepts ts es).
Proof.
  pose proof (parse_tokens_correct ts) as H. destruct (parse_tokens false false ts) as [e|x].
  - destruct H as (_ & _ & es & Ha & _). split; [exists es; exact Ha|exists e; reflexivity].
  - destruct H as [_ H]. split; [intros (e & He); discriminate|contradiction].
Qed.

Theorem denotation ts e es :
  parse_tokens false false ts = Ok e -> Accepts ts es ->
  Permutation (elems e) (concat (map denote es)) /\ NoDup (elems e).
Proof.
  intros He (Hr & _). pose proof (parse_tokens_correct ts) as H. rewrite He in H.
  destruct H as (_ & Hn & es' & (Hr' & _) & Hp). rewrite (Renders_functional _ _ _ Hr Hr'). auto.
Qed.

Theorem errors cls s e : from_str false false cls s = Raise e -> is_expression_error e = true.
Proof.
  unfold from_str. destruct (lex_for cls range_kinds s) as [ts|x] eqn:H1; cbn [bind].
  - intros H. apply parse_tokens_raise in H. subst e. reflexivity.
  - intros H; inversion H; subst. apply lex_for_raise in H1. subst e. reflexivity.
Qed.

(* the fuel of parse_ranges is never exhausted *)
Theorem no_runtime_error ts : parse_tokens false false ts <> Raise RuntimeError.
Proof. intros H. apply parse_tokens_raise in H. discriminate. Qed.

Theorem parse_tokens_IsExpr ts e : parse_tokens false false ts = Ok e -> IsExpr e.
Proof. intros H. pose proof (parse_tokens_correct ts) as Hc. rewrite H in Hc. apply Hc. Qed.

(* C13: len(r) and r[i] agree with iteration *)
Theorem len_correct e : IsExpr e -> elen e = Z.of_nat (length (elems e)).
Proof.
  intros H. apply IsExpr_WF in H. destruct H as (_ & Hv & _ & _ & ->).
  symmetry. apply elems_length. exact Hv.
Qed.

(* bisect on the cumulative lengths finds the range holding position i, and the preceding
   cumulative length (acc for the first range) is the position at which that range begins *)
Lemma getitem_aux rest : forall acc i,
  Forall valid rest -> acc <= i < acc + total_len rest ->
  let k := bisect_right (cum_lengths acc rest) i in
  let j := i - nth k (acc :: cum_lengths acc rest) 0 in
  exists r, nth_error rest k = Some r /\ 0 <= j < range_len r /\
    range_nth r j = nth (Z.to_nat (i - acc)) (concat (map range_elems rest)) 0.
Proof.
  induction rest as [|r rs IH]; intros acc i Hv Hi; [cbn in Hi; lia|].
  inversion Hv as [|r0 l0 Hvr Hvrs]; subst. rewrite total_len_cons in Hi.
  pose proof (valid_len_pos _ Hvr) as Hl.
  cbn [cum_lengths bisect_right map concat]. destruct (i <? acc + range_len r) eqn:E.
  - exists r. cbn [nth_error nth]. split; [reflexivity|]. split; [lia|].
    rewrite app_nth1 by (rewrite range_elems_length; lia). symmetry. apply range_elems_nth. lia.
  - destruct (IH (acc + range_len r) i Hvrs ltac:(lia)) as (r' & Hn & Hb & Hx).
    exists r'. split; [exact Hn|]. split; [exact Hb|]. etransitivity; [exact Hx|].
    rewrite app_nth2 by (rewrite range_elems_length; lia). rewrite range_elems_length.
    f_equal. lia.
Qed.

Lemma getitem_nonneg e j :
  WFexpr e -> 0 <= j < elen e -> getitem e j = Ok (nth (Z.to_nat j) (elems e) 0).
Proof.
  intros (_ & Hv & _ & Hcum & Hlen) Hj.
  destruct (getitem_aux (ranges e) 0 j Hv ltac:(lia)) as (r & Hn & Hb & Hx).
  rewrite <- Hcum in Hn, Hb, Hx. rewrite Z.sub_0_r in Hx. fold (elems e) in Hx.
  unfold getitem. destruct (j <? 0) eqn:E0; [lia|].
  destruct ((0 <=? j) && (j <? elen e)) eqn:Ec; [|lia].
  destruct (bisect_right (cum e) j) as [|k']; rewrite Hn; cbn [nth] in Hb, Hx.
  - rewrite Z.sub_0_r in Hb, Hx. destruct (j <? range_len r) eqn:E; [|lia]. rewrite Hx. reflexivity.
  - destruct (j - nth k' (cum e) 0 <? range_len r) eqn:E; [|lia]. rewrite Hx. reflexivity.
Qed.

Theorem getitem_correct e i :
  IsExpr e ->
  (- elen e <= i < elen e -> getitem e i = Ok (nth (Z.to_nat (i mod elen e)) (elems e) 0)) /\
  (~ (- elen e <= i < elen e) -> getitem e i = Raise IndexError).
Proof.
  intros He. apply IsExpr_WF in He. split; intros Hi.
  - destruct (Z.ltb_spec i 0) as [Hneg|Hpos].
    + (* a negative index is looked up at len + i *)
      replace (i mod elen e) with (elen e + i)
        by (rewrite <- (Z_mod_plus_full i 1), Z.mod_small; lia).
      rewrite <- (getitem_nonneg e (elen e + i) He) by lia. unfold getitem.
      destruct (i <? 0) eqn:E1, (elen e + i <? 0) eqn:E2; try lia. reflexivity.
    + rewrite Z.mod_small by lia. apply getitem_nonneg; [exact He|lia].
  - unfold getitem. destruct (i <? 0) eqn:E.
    + destruct ((0 <=? elen e + i) && (elen e + i <? elen e)) eqn:Ec; [lia|reflexivity].
    + destruct ((0 <=? i) && (i <? elen e)) eqn:Ec; [lia|reflexivity].
Qed.

(* C13: str(r) parses back to the same values in the same order.  [elem_of r] is what
   IntRange.__str__ writes for r. *)
Definition elem_of (r : irange) : elem :=
  if range_len r =? 1 then One (rstart r)
  else if rstep r =? 1 then Span (rstart r) (rend r)
  else Stepped (rstart r) (rend r) (rstep r).

Lemma int_tokens_IntToks z : IntToks z (int_tokens z).
Proof.
  unfold int_tokens. destruct (z <? 0) eqn:E.
  - pose proof (IT_neg (Z.to_N (- z))) as H. rewrite Z2N.id in H by lia.
    rewrite Z.opp_involutive in H. exact H.
  - pose proof (IT_pos (Z.to_N z)) as H. rewrite Z2N.id in H by lia. exact H.
Qed.

Lemma range_tokens_ElemToks r : ElemToks (elem_of r) (range_tokens r).
Proof.
  unfold elem_of, range_tokens. destruct (range_len r =? 1).
  - constructor. apply int_tokens_IntToks.
  - destruct (rstep r =? 1).
    + apply (ET_span _ _ _ _ (int_tokens_IntToks _) (int_tokens_IntToks _)).
    + apply (ET_step _ _ _ _ _ _ (int_tokens_IntToks _) (int_tokens_IntToks _) (int_tokens_IntToks _)).
Qed.

Lemma expr_tokens_Renders rs : rs <> [] -> Renders (map elem_of rs) (expr_tokens_of rs).
Proof.
  induction rs as [|r rs IH]; intros Hne; [contradiction|].
  destruct rs as [|r' rs'].
  - cbn [map expr_tokens_of]. constructor. apply range_tokens_ElemToks.
  - change (expr_tokens_of (r :: r' :: rs')) with (range_tokens r ++ TComma :: expr_tokens_of (r' :: rs')).
    cbn [map]. constructor; [apply range_tokens_ElemToks|]. apply IH. discriminate.
Qed.

(* what str(r) reads back as: r itself, unless r has one value *)
Lemma to_range_elem_of r :
  to_range (elem_of r) = if range_len r =? 1 then mkR (rstart r) (rstart r) 1 else r.
Proof.
  unfold elem_of. destruct (range_len r =? 1); [reflexivity|]. destruct r as [a b s]. cbn [rstart rend rstep].
  destruct (s =? 1) eqn:E; [|reflexivity]. cbn [to_range]. f_equal. lia.
Qed.

Lemma elem_of_props r :
  valid r ->
  valid (to_range (elem_of r)) /\
  range_elems (to_range (elem_of r)) = range_elems r /\
  span_lo r <= span_lo (to_range (elem_of r)) /\ span_hi (to_range (elem_of r)) <= span_hi r.
Proof.
  intros Hv. rewrite to_range_elem_of. destruct (range_len r =? 1) eqn:E.
  - split; [apply valid_single|]. split.
    + rewrite range_elems_single by discriminate. unfold range_elems.
      replace (range_len r) with 1 by lia. reflexivity.
    + unfold span_lo, span_hi. cbn [rstart rend]. lia.
  - split; [exact Hv|]. split; [reflexivity|lia].
Qed.

Lemma sepd_shrink (f : irange -> irange) :
  (forall r, valid r -> span_lo r <= span_lo (f r) /\ span_hi (f r) <= span_hi r) ->
  forall l b, Forall valid l -> sepd b l -> sepd b (map f l).
Proof.
  intros Hf. induction l as [|r rs IH]; intros b Hv Hs; [exact I|].
  inversion Hv as [|r0 l0 Hvr Hvrs]; subst. destruct Hs as [Hb Hs]. pose proof (Hf r Hvr).
  cbn [map sepd]. split; [lia|]. apply IH; [exact Hvrs|]. eapply sepd_le; [|exact Hs]. lia.
Qed.

Theorem str_roundtrip e :
  IsExpr e -> exists e', parse_tokens false false (expr_tokens e) = Ok e' /\ elems e' = elems e.
Proof.
  intros He. apply IsExpr_WF in He. destruct He as (Hne & Hv & Hno & _).
  set (g := fun r => to_range (elem_of r)).
  assert (Hvg : Forall valid (map g (ranges e))).
  { rewrite Forall_map. eapply Forall_impl; [|exact Hv]. intros r Hvr. apply elem_of_props, Hvr. }
  destruct (mk_expr_separated (map g (ranges e))) as (e' & He' & _ & Hel).
  - intros E. apply map_eq_nil in E. contradiction.
  - exact Hvg.
  - apply no_overlap_sepd in Hno. destruct Hno as (b & Hs). apply no_overlap_sepd. exists b.
    apply sepd_shrink; [|exact Hv|exact Hs]. intros r Hvr. apply elem_of_props, Hvr.
  - exists e'. split.
    + unfold expr_tokens. eapply parse_tokens_intro.
      * apply expr_tokens_Renders, Hne.
      * rewrite Forall_map in Hvg |- *. eapply Forall_impl; [|exact Hvg]. intros r. apply elem_ok_valid.
      * rewrite map_map. exact He'.
    + rewrite Hel. unfold elems. clear - Hv. induction Hv as [|r rs Hvr Hvrs IH]; [reflexivity|].
      cbn [map concat]. rewrite IH. f_equal. apply elem_of_props, Hvr.
Qed.

(* C13: from_list yields the sorted distinct values *)
Definition zsorted (l : list Z) : Prop := match l with [] => True | a :: t => chain Z.lt a t end.

Lemma zsorted_tail a t : chain Z.lt a t -> zsorted t.
Proof. destruct t; [trivial|]. intros [_ H]; exact H. Qed.

Lemma chain_lt_In l : forall p x, chain Z.lt p l -> In x l -> p < x.
Proof.
  induction l as [|h t IH]; intros p x Hc Hx; [contradiction|].
  destruct Hc as [Hph Hc], Hx as [<-|Hx]; [exact Hph|]. specialize (IH _ _ Hc Hx). lia.
Qed.

Lemma insert_Z_In x l y : In y (insert_Z x l) <-> In y (x :: l).
Proof.
  induction l as [|h t IH]; cbn [insert_Z]; [reflexivity|].
  destruct (x <? h) eqn:E1; [reflexivity|]. destruct (x =? h) eqn:E2.
  - apply Z.eqb_eq in E2. subst h. cbn [In]. tauto.
  - cbn [In] in *. rewrite IH. tauto.
Qed.

Lemma insert_Z_chain x l : forall p, p < x -> chain Z.lt p l -> chain Z.lt p (insert_Z x l).
Proof.
  induction l as [|h t IH]; intros p Hpx Hc; [exact (conj Hpx I)|].
  destruct Hc as [Hph Hc]. cbn [insert_Z].
  destruct (x <? h) eqn:E1; [split; [exact Hpx|split; [lia|exact Hc]]|].
  destruct (x =? h) eqn:E2; [exact (conj Hph Hc)|].
  split; [exact Hph|apply IH; [lia|exact Hc]].
Qed.

Theorem sort_dedup_In vs x : In x (sort_dedup vs) <-> In x vs.
Proof.
  induction vs as [|v vs IH]; [reflexivity|].
  cbn [sort_dedup fold_right]. fold (sort_dedup vs). rewrite insert_Z_In. cbn [In]. rewrite IH. reflexivity.
Qed.

Theorem sort_dedup_sorted vs : zsorted (sort_dedup vs).
Proof.
  induction vs as [|v vs IH]; [exact I|]. cbn [sort_dedup fold_right]. fold (sort_dedup vs).
  destruct (sort_dedup vs) as [|h t]; [exact I|]. cbn [insert_Z zsorted] in *.
  destruct (v <? h) eqn:E1; [split; [lia|exact IH]|].
  destruct (v =? h) eqn:E2; [exact IH|]. apply insert_Z_chain; [lia|exact IH].
Qed.

(* between strictly increasing lists, inclusion orders the heads and, when they are equal,
   passes to the tails *)
Lemma zsorted_incl h t h' t' :
  chain Z.lt h t -> chain Z.lt h' t' -> incl (h :: t) (h' :: t') ->
  h' <= h /\ (h = h' -> incl t t').
Proof.
  intros Hs Hs' Hi. split.
  - destruct (Hi h (or_introl eq_refl)) as [<-|E]; [lia|]. pose proof (chain_lt_In _ _ _ Hs' E). lia.
  - intros <- x Hx. destruct (Hi x (or_intror Hx)) as [<-|E]; [|exact E].
    pose proof (chain_lt_In _ _ _ Hs Hx). lia.
Qed.

Theorem zsorted_unique l : forall l', zsorted l -> zsorted l' -> (forall x, In x l <-> In x l') -> l = l'.
Proof.
  induction l as [|h t IH]; intros [|h' t'] Hs Hs' Hin; [reflexivity| | |].
  - destruct (proj2 (Hin h') (or_introl eq_refl)).
  - destruct (proj1 (Hin h) (or_introl eq_refl)).
  - destruct (zsorted_incl _ _ _ _ Hs Hs' (fun x => proj1 (Hin x))) as [H1 H2].
    destruct (zsorted_incl _ _ _ _ Hs' Hs (fun x => proj2 (Hin x))) as [H3 H4].
    assert (h = h') by lia. subst h'. f_equal.
    apply IH; [exact (zsorted_tail _ _ Hs)|exact (zsorted_tail _ _ Hs')|].
    intros x. split; [apply H2|apply H4]; reflexivity.
Qed.

(* The loop of from_list.  Its state (start, end, step) stands for the run start, start+step, ...,
   end collected so far; with no step yet the run is the single value start. *)
Definition step_or_1 (step : option Z) : Z := match step with Some s => s | None => 1 end.
Definition cur_range (start e : Z) (step : option Z) : irange := mkR start e (step_or_1 step).
Definition run_ok (start e : Z) (step : option Z) : Prop :=
  match step with
  | None => e = start
  | Some s => 0 < s /\ exists k, 0 <= k /\ e = start + k * s
  end.

Lemma run_len a s k : 0 < s -> 0 <= k -> range_len (mkR a (a + k * s) s) = k + 1.
Proof.
  intros Hs Hk. rewrite range_len_up by nia.
  replace (a + k * s - a) with (k * s) by lia. rewrite Z.div_mul by lia. reflexivity.
Qed.

(* one more value, one step after the end *)
Lemma run_extend a s k :
  0 < s -> 0 <= k ->
  range_elems (mkR a (a + (k + 1) * s) s) = range_elems (mkR a (a + k * s) s) ++ [a + (k + 1) * s].
Proof.
  intros Hs Hk. unfold range_elems. rewrite !run_len by lia. cbn [rstart rstep].
  replace (Z.to_nat (k + 1 + 1)) with (Z.to_nat (k + 1) + 1)%nat by lia.
  rewrite prog_from_app. cbn [prog_from]. do 2 f_equal. lia.
Qed.

Lemma run_ok_facts start e step :
  run_ok start e step ->
  valid (cur_range start e step) /\ mk_range start e (step_or_1 step) = Ok (cur_range start e step) /\
  start <= e /\ 0 < step_or_1 step.
Proof.
  unfold cur_range. destruct step as [s|]; cbn [run_ok step_or_1].
  - intros (Hs & k & Hk & ->). assert (0 <= k * s) by nia.
    assert (Hv : valid (mkR start (start + k * s) s)) by (unfold valid; cbn [rstart rend rstep]; lia).
    split; [exact Hv|]. split; [apply mk_range_valid, Hv|lia].
  - intros ->. split; [apply valid_single|]. split; [apply mk_range_valid, valid_single|lia].
Qed.

(* a value that continues the run: the new state stands for the old values and v *)
Lemma run_snoc start e step v s' :
  run_ok start e step -> e < v ->
  match step with Some s => v - e = s /\ s' = s | None => s' = v - start end ->
  run_ok start v (Some s') /\
  range_elems (cur_range start v (Some s')) = range_elems (cur_range start e step) ++ [v].
Proof.
  unfold cur_range. destruct step as [s|]; cbn [run_ok step_or_1].
  - intros (Hs & k & Hk & ->) _ [Hv ->]. assert (Hv' : v = start + (k + 1) * s) by lia. subst v.
    split; [split; [exact Hs|exists (k + 1); split; [lia|reflexivity]]|apply run_extend; assumption].
  - intros -> Hlt ->. split; [split; [lia|exists 1; split; lia]|].
    pose proof (run_extend start (v - start) 0 ltac:(lia) (Z.le_refl 0)) as E.
    replace (start + (0 + 1) * (v - start)) with v in E by lia.
    replace (start + 0 * (v - start)) with start in E by lia.
    rewrite E, !range_elems_single by lia. reflexivity.
Qed.

(* what the loop, entered with [acc], returns: [acc] followed by valid, separated ranges above
   [b] that iterate over [vals] *)
Definition loop_yields (b : Z) (acc : list irange) (vals : list Z) (res : outcome (list irange)) : Prop :=
  exists rs, res = Ok (rev acc ++ rs) /\ Forall valid rs /\ sepd b rs /\
             concat (map range_elems rs) = vals.

(* ranges.append(r), then what follows lies above r *)
Lemma loop_yields_push b b' r acc vals res :
  valid r -> b < span_lo r -> span_hi r <= b' ->
  loop_yields b' (r :: acc) vals res -> loop_yields b acc (range_elems r ++ vals) res.
Proof.
  intros Hv Hlo Hhi (rs & -> & Hvs & Hs & <-). exists (r :: rs).
  split; [cbn [rev]; rewrite <- app_assoc; reflexivity|]. split; [constructor; assumption|].
  split; [|reflexivity]. split; [exact Hlo|]. eapply sepd_le; [|exact Hs]. exact Hhi.
Qed.

Lemma from_list_loop_ok vs : forall start e step acc,
  run_ok start e step -> chain Z.lt e vs ->
  loop_yields (start - 1) acc (range_elems (cur_range start e step) ++ vs)
              (from_list_loop false start (Some e) step acc vs).
Proof.
  induction vs as [|v vs' IH]; intros start e step acc Hrun Hch;
    destruct (run_ok_facts _ _ _ Hrun) as (Hv & Hm & Hle & Hs); cbn [from_list_loop].
  - replace (match step with Some s => if s =? 0 then 1 else s | None => 1 end) with (step_or_1 step)
      by (destruct step as [s|]; [cbn [step_or_1] in *; destruct (s =? 0) eqn:E; [lia|]|]; reflexivity).
    rewrite Hm. cbn [bind].
    apply (loop_yields_push _ e _ _ _ _ Hv); [unfold span_lo; cbn; lia|unfold span_hi; cbn; lia|].
    exists []. rewrite app_nil_r. split; [reflexivity|]. split; [constructor|]. split; [exact I|reflexivity].
  - destruct Hch as [Hev Hch].
    assert (Hcont : forall s',
      match step with Some s => v - e = s /\ s' = s | None => s' = v - start end ->
      loop_yields (start - 1) acc (range_elems (cur_range start e step) ++ v :: vs')
                  (from_list_loop false start (Some v) (Some s') acc vs')).
    { intros s' Hs'. destruct (run_snoc _ _ _ v s' Hrun Hev Hs') as [Hrun' E].
      replace (range_elems (cur_range start e step) ++ v :: vs')
        with (range_elems (cur_range start v (Some s')) ++ vs')
        by (rewrite E, <- app_assoc; reflexivity).
      exact (IH _ _ _ acc Hrun' Hch). }
    destruct step as [s|]; [|apply Hcont; reflexivity]. cbn [step_or_1] in *.
    destruct (v - e =? s) eqn:Ev; [apply Hcont; split; [lia|reflexivity]|].
    (* the run ends: IntRange(start, end, step) is appended and v starts the next one *)
    rewrite Hm. cbn [bind].
    apply (loop_yields_push _ (v - 1) _ _ _ _ Hv); [unfold span_lo; cbn; lia|unfold span_hi; cbn; lia|].
    change (v :: vs') with ([v] ++ vs'). rewrite <- (range_elems_single v 1) by discriminate.
    exact (IH v v None _ eq_refl Hch).
Qed.

Theorem from_list_correct vs :
  vs <> [] -> exists e, from_list false false vs = Ok e /\ elems e = sort_dedup vs /\ IsExpr e.
Proof.
  intros Hne.
  (* both branches end in mk_expr on valid ranges with separated spans *)
  assert (Hfin : forall rs b x l, Forall valid rs -> sepd b rs ->
            concat (map range_elems rs) = x :: l ->
            exists e, mk_expr false rs = Ok e /\ elems e = x :: l /\ IsExpr e).
  { intros rs b x l Hv Hs Hl.
    destruct (mk_expr_separated rs) as (e & He & _ & Hel);
      [intros ->; discriminate|exact Hv|apply no_overlap_sepd; exists b; exact Hs|].
    exists e. split; [exact He|]. split; [rewrite Hel; exact Hl|]. exists rs.
    split; [apply Forall_IsRange_valid, Hv|exact He]. }
  destruct vs as [|v1 [|v2 tl]]; [contradiction| |].
  - cbn [from_list]. rewrite (mk_range_valid _ _ _ (valid_single v1)). cbn [bind].
    apply (Hfin _ (v1 - 1)); [constructor; [apply valid_single|constructor]| |].
    + split; [unfold span_lo; cbn; lia|exact I].
    + cbn [map concat]. rewrite app_nil_r. apply range_elems_single. discriminate.
  - unfold from_list.
    pose proof (sort_dedup_sorted (v1 :: v2 :: tl)) as Hso.
    pose proof (sort_dedup_In (v1 :: v2 :: tl) v1) as Hin.
    destruct (sort_dedup (v1 :: v2 :: tl)) as [|s0 rest].
    { exfalso. apply (proj2 Hin). left; reflexivity. }
    destruct (from_list_loop_ok rest s0 s0 None [] eq_refl Hso) as (rs & H1 & H3 & H4 & H5).
    rewrite H1. cbn [rev app bind]. apply (Hfin _ _ _ _ H3 H4).
    rewrite H5. unfold cur_range, step_or_1. rewrite range_elems_single by lia. reflexivity.
Qed.

Lemma zsorted_strictly_increasing l : zsorted l <-> strictly_increasing l.
Proof.
  induction l as [|a t IH]; [cbn; tauto|].
  destruct t as [|b t']; [cbn; tauto|].
  change (strictly_increasing (a :: b :: t')) with (a < b /\ strictly_increasing (b :: t')).
  cbn [zsorted chain] in *. rewrite <- IH. tauto.
Qed.

(* sort_dedup vs is THE strictly increasing list with the members of vs *)
Theorem sort_dedup_spec vs :
  strictly_increasing (sort_dedup vs) /\
  (forall x, In x (sort_dedup vs) <-> In x vs) /\
  (forall l, strictly_increasing l -> (forall x, In x l <-> In x vs) -> l = sort_dedup vs).
Proof.
  split; [apply zsorted_strictly_increasing, sort_dedup_sorted|].
  split; [apply sort_dedup_In|].
  intros l Hl Hin. apply zsorted_unique.
  - apply zsorted_strictly_increasing; exact Hl.
  - apply sort_dedup_sorted.
  - intros x. rewrite Hin, sort_dedup_In. tauto.
Qed.
