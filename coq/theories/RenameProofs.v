(* RenameProofs.v — lemmas behind props/C19x.v (C19_rename): the reference check commutes with a
   consistent renaming of job parameters, task parameters and embedded files.

   Setting.  The theorem is about the document-level specification [spec_job_template refs j] of
   ScopeSpec.v; by C03_exact_job the real walker on Generated.schema equals it for EVERY document,
   so the statement transfers to [prevalidate Generated.schema refs "JobTemplate"].

   [rho : str -> str] renames identifiers.  Its action on symbols, [rename_sym rho], maps
   <prefix><x> to <prefix><rho x> for the six reference prefixes
       Param.  RawParam.  Task.Param.  Task.RawParam.  Task.File.  Env.File.
   and leaves every other name (in particular the Session names) alone.  The prefixes are pairwise
   incomparable, so [rename_sym rho] is injective as soon as [rho] is: no "reserved name"
   side condition is needed at this level (a renamed symbol stays inside its own namespace).

   Its action on a document, [rename_job] / [rename_env_template], maps the [name] of every job
   parameter definition, task parameter definition and embedded file through [rho], and every
   string at a format-string site through [rs] (the renaming of format-string TEXTS).  Format
   strings are abstract in the specification ([refs : str -> option (list str)]), so [rs] and the
   front end of the renamed side [refs'] are parameters, tied by ONE hypothesis: on every string
   [s] that occurs in the document,
         refs' (rs s) = option_map (map (rename_sym rho)) (refs s)
   ("the renamed text is malformed iff the original is, and its references are the renamed
   references, in order").  This is what FormatStr.v provides for [refs = refs' = fs_refs classify]
   and [rs] = "rewrite the name inside each {{ }}" when rho maps identifiers to identifiers; it is
   NOT derived from FormatStr.v here.  Nothing is assumed about lengths: the specification has no
   length limits (those belong to the structural layer). *)
From Coq Require Import List NArith ZArith Bool String Lia.
Import ListNotations.
Require Import OJD.Base OJD.Json OJD.Schema OJD.Generated OJD.ScopeWalk OJD.ScopeSpec OJD.ScopeProofs OJD.ListLib.
Local Open Scope string_scope.
Local Open Scope list_scope.

(* [strip p s] = Some x  iff  s = p ++ x *)
Fixpoint strip (p s : str) : option str :=
  match p, s with
  | [], _ => Some s
  | a :: p', b :: s' => if N.eqb a b then strip p' s' else None
  | _ :: _, [] => None
  end.

Definition ref_prefixes : list str :=
  [$"Param."; $"RawParam."; $"Task.Param."; $"Task.RawParam."; $"Task.File."; $"Env.File."].

Fixpoint split_in (ps : list str) (n : str) : option (str * str) :=
  match ps with
  | [] => None
  | p :: r => match strip p n with Some x => Some (p, x) | None => split_in r n end
  end.

Definition split_pfx (n : str) : option (str * str) := split_in ref_prefixes n.

Lemma strip_some : forall p s x, strip p s = Some x -> s = p ++ x.
Proof.
  induction p as [|a p IH]; intros s x H.
  - cbn [strip] in H. injection H as ->. reflexivity.
  - destruct s as [|b s]; [discriminate H|]. cbn [strip] in H.
    destruct (N.eqb a b) eqn:E; [|discriminate H]. apply N.eqb_eq in E. subst b.
    cbn [app]. f_equal. apply IH. exact H.
Qed.

Lemma split_in_some : forall ps n p x, split_in ps n = Some (p, x) -> In p ps /\ n = p ++ x.
Proof.
  induction ps as [|q r IH]; intros n p x H; [discriminate H|].
  cbn [split_in] in H. destruct (strip q n) as [y|] eqn:E.
  - injection H as <- <-. split; [left; reflexivity|apply strip_some; exact E].
  - destruct (IH n p x H) as [Hin Hn]. split; [right; exact Hin|exact Hn].
Qed.

(* a name built from one of the six prefixes splits back into that prefix and the rest *)
Lemma split_pfx_app : forall p x, In p ref_prefixes -> split_pfx (p ++ x) = Some (p, x).
Proof.
  intros p x H. unfold ref_prefixes in H. cbn [In] in H.
  repeat (destruct H as [<-|H]; [reflexivity|]). contradiction.
Qed.

Section Rename.
  Variable rho : str -> str.

  Definition rename_sym (n : str) : str :=
    match split_pfx n with
    | Some (p, x) => p ++ rho x
    | None => n
    end.

  Definition rename_err (e : werr) : werr :=
    match e with
    | ERef l n => ERef l (rename_sym n)
    | EFuel => EFuel
    end.

  Hypothesis rho_inj : forall a b, rho a = rho b -> a = b.

  Lemma rename_sym_app : forall p x, In p ref_prefixes -> rename_sym (p ++ x) = p ++ rho x.
  Proof. intros p x H. unfold rename_sym. rewrite (split_pfx_app p x H). reflexivity. Qed.

  Theorem rename_sym_inj : forall a b, rename_sym a = rename_sym b -> a = b.
  Proof.
    intros a b H. unfold rename_sym in H.
    destruct (split_pfx a) as [[p x]|] eqn:Ea; destruct (split_pfx b) as [[q y]|] eqn:Eb.
    - destruct (split_in_some _ _ _ _ Ea) as [Hp ->]. destruct (split_in_some _ _ _ _ Eb) as [Hq ->].
      pose proof (split_pfx_app p (rho x) Hp) as E1. rewrite H in E1.
      rewrite (split_pfx_app q (rho y) Hq) in E1. injection E1 as -> E2.
      rewrite (rho_inj y x E2). reflexivity.
    - destruct (split_in_some _ _ _ _ Ea) as [Hp _].
      pose proof (split_pfx_app p (rho x) Hp) as E1. rewrite H, Eb in E1. discriminate E1.
    - destruct (split_in_some _ _ _ _ Eb) as [Hq _].
      pose proof (split_pfx_app q (rho y) Hq) as E1. rewrite <- H, Ea in E1. discriminate E1.
    - exact H.
  Qed.

  Lemma str_eqb_rename : forall a b, str_eqb (rename_sym a) (rename_sym b) = str_eqb a b.
  Proof.
    intros a b. destruct (str_eqb a b) eqn:E.
    - apply str_eqb_eq in E. subst b. apply str_eqb_refl.
    - apply str_eqb_neq. apply str_eqb_neq in E. intros H. apply E. apply rename_sym_inj. exact H.
  Qed.

  Lemma named_ren : forall (pfx : string) names n, In (str_of_string pfx) ref_prefixes ->
    named pfx (map rho names) (rename_sym n) = named pfx names n.
  Proof.
    intros pfx names n Hp. unfold named. induction names as [|p r IH]; [reflexivity|].
    cbn [map existsb]. rewrite IH. f_equal.
    rewrite <- (rename_sym_app _ p Hp). apply str_eqb_rename.
  Qed.

  Lemma session_const_ren : forall n, session_const (rename_sym n) = session_const n.
  Proof.
    intros n. unfold session_const.
    change $"Session.WorkingDirectory" with (rename_sym $"Session.WorkingDirectory").
    change $"Session.HasPathMappingRules" with (rename_sym $"Session.HasPathMappingRules").
    change $"Session.PathMappingRulesFile" with (rename_sym $"Session.PathMappingRulesFile").
    rewrite !str_eqb_rename. reflexivity.
  Qed.

  Variable rs : str -> str.        (* the renaming of format-string texts *)

  Definition on_obj (h : str -> json -> json) (v : json) : json :=
    match v with
    | JObj ms => JObj (map (fun kv => (fst kv, h (fst kv) (snd kv))) ms)
    | _ => v
    end.

  Definition on_arr (g : json -> json) (v : json) : json :=
    match v with
    | JArr l => JArr (map g l)
    | _ => v
    end.

  (* by member name; members not listed are left alone *)
  Fixpoint dispatch (tbl : list (string * (json -> json))) (k : str) (v : json) : json :=
    match tbl with
    | [] => v
    | (n, g) :: r => if str_eqb k (str_of_string n) then g v else dispatch r k v
    end.

  Definition ren_fs (v : json) : json := match v with JStr s => JStr (rs s) | _ => v end.
  (* a declared name is a non-empty string (ScopeSpec.decl_name) *)
  Definition ren_name (v : json) : json := match v with JStr (c :: r) => JStr (rho (c :: r)) | _ => v end.
  Definition ren_fs_list : json -> json := on_arr ren_fs.
  Definition ren_range (v : json) : json :=
    match v with
    | JArr l => JArr (map ren_fs l)
    | JStr s => JStr (rs s)
    | _ => v
    end.

  Definition ren_def : json -> json := on_obj (dispatch [("name", ren_name)]).
  Definition ren_defs : json -> json := on_arr ren_def.
  Definition ren_action : json -> json := on_obj (dispatch [("command", ren_fs); ("args", ren_fs_list)]).
  Definition ren_file : json -> json := on_obj (dispatch [("name", ren_name); ("data", ren_fs)]).
  Definition ren_files : json -> json := on_arr ren_file.
  Definition ren_env_actions : json -> json := on_obj (dispatch [("onEnter", ren_action); ("onExit", ren_action)]).
  Definition ren_env_script : json -> json :=
    on_obj (dispatch [("actions", ren_env_actions); ("embeddedFiles", ren_files)]).
  Definition ren_vars : json -> json := on_obj (fun _ v => ren_fs v).
  Definition ren_env : json -> json := on_obj (dispatch [("script", ren_env_script); ("variables", ren_vars)]).
  Definition ren_envs : json -> json := on_arr ren_env.
  Definition ren_tparam : json -> json := on_obj (dispatch [("name", ren_name); ("range", ren_range)]).
  Definition ren_tparams : json -> json := on_arr ren_tparam.
  Definition ren_pspace : json -> json := on_obj (dispatch [("taskParameterDefinitions", ren_tparams)]).
  Definition ren_amount : json -> json := on_obj (dispatch [("name", ren_fs)]).
  Definition ren_amounts : json -> json := on_arr ren_amount.
  Definition ren_attr : json -> json :=
    on_obj (dispatch [("name", ren_fs); ("anyOf", ren_fs_list); ("allOf", ren_fs_list)]).
  Definition ren_attrs : json -> json := on_arr ren_attr.
  Definition ren_hostreq : json -> json := on_obj (dispatch [("amounts", ren_amounts); ("attributes", ren_attrs)]).
  Definition ren_step_actions : json -> json := on_obj (dispatch [("onRun", ren_action)]).
  Definition ren_step_script : json -> json :=
    on_obj (dispatch [("actions", ren_step_actions); ("embeddedFiles", ren_files)]).
  Definition ren_step : json -> json :=
    on_obj (dispatch [("script", ren_step_script); ("stepEnvironments", ren_envs);
                      ("parameterSpace", ren_pspace); ("hostRequirements", ren_hostreq)]).
  Definition ren_steps : json -> json := on_arr ren_step.

  (* the renamed job template / environment template *)
  Definition rename_job : json -> json :=
    on_obj (dispatch [("name", ren_fs); ("parameterDefinitions", ren_defs); ("steps", ren_steps);
                      ("jobEnvironments", ren_envs)]).
  Definition rename_env_template : json -> json :=
    on_obj (dispatch [("parameterDefinitions", ren_defs); ("environment", ren_env)]).

  Lemma assoc_on_obj : forall (h : str -> json -> json) k (ms : list (str * json)),
    assoc k (map (fun kv : str * json => (fst kv, h (fst kv) (snd kv))) ms) = option_map (h k) (assoc k ms).
  Proof.
    intros h k ms. induction ms as [|[k' v] r IH]; [reflexivity|].
    cbn [map assoc fst snd]. destruct (str_eqb k k') eqn:E; [|exact IH].
    apply str_eqb_eq in E. subst k'. reflexivity.
  Qed.

  Lemma jget_on_obj : forall h name v, h (str_of_string name) JNull = JNull ->
    jget name (on_obj h v) = h (str_of_string name) (jget name v).
  Proof.
    intros h name v Hn. destruct v as [| | | | | |ms]; try (cbn [on_obj jget]; symmetry; exact Hn).
    cbn [on_obj jget]. rewrite assoc_on_obj.
    destruct (assoc (str_of_string name) ms) as [x|]; [reflexivity|symmetry; exact Hn].
  Qed.

  Lemma is_obj_on_obj : forall h v, is_obj (on_obj h v) = is_obj v.
  Proof. intros h v. destruct v; reflexivity. Qed.

  (* the renamers are all of the form [on_obj (dispatch tbl)]; a lookup through one of them, say
     [erewrite (jget_ren ren_step _ "script" ren_step_script) by reflexivity] *)
  Lemma jget_ren : forall (f : json -> json) tbl name g v,
    f = on_obj (dispatch tbl) -> dispatch tbl (str_of_string name) = g -> g JNull = JNull ->
    jget name (f v) = g (jget name v).
  Proof. intros f tbl name g v -> <- Hn. apply jget_on_obj. exact Hn. Qed.

  Lemma is_obj_ren : forall (f : json -> json) h v, f = on_obj h -> is_obj (f v) = is_obj v.
  Proof. intros f h v ->. apply is_obj_on_obj. Qed.


  Lemma jget_ren_def_name : forall v, jget "name" (ren_def v) = ren_name (jget "name" v).
  Proof. intros v. unfold ren_def. rewrite jget_on_obj by reflexivity. reflexivity. Qed.
  Lemma is_obj_ren_def : forall v, is_obj (ren_def v) = is_obj v.
  Proof. intros v. apply is_obj_on_obj. Qed.
  Lemma jget_ren_file_name : forall v, jget "name" (ren_file v) = ren_name (jget "name" v).
  Proof. intros v. unfold ren_file. rewrite jget_on_obj by reflexivity. reflexivity. Qed.
  Lemma jget_ren_tparam_name : forall v, jget "name" (ren_tparam v) = ren_name (jget "name" v).
  Proof. intros v. unfold ren_tparam. rewrite jget_on_obj by reflexivity. reflexivity. Qed.
  Lemma is_obj_rename_job : forall v, is_obj (rename_job v) = is_obj v.
  Proof. intros v. apply is_obj_on_obj. Qed.
  Lemma is_obj_rename_env_template : forall v, is_obj (rename_env_template v) = is_obj v.
  Proof. intros v. apply is_obj_on_obj. Qed.

  Variables refs refs' : str -> option (list str).
  Hypothesis rho_nonempty : forall c r, rho (c :: r) <> [].

  (* every string value that occurs in a document (a superset of its format-string sites) *)
  Fixpoint jstrings (j : json) : list str :=
    match j with
    | JStr s => [s]
    | JArr l => flat_map jstrings l
    | JObj ms => flat_map (fun kv => jstrings (snd kv)) ms
    | _ => []
    end.

  (* the hypothesis on the renamed front end, for one string *)
  Definition fs_hyp (s : str) : Prop := refs' (rs s) = option_map (map rename_sym) (refs s).
  Definition good (v : json) : Prop := forall s, In s (jstrings v) -> fs_hyp s.

  Lemma good_member : forall ms kv, good (JObj ms) -> In kv ms -> good (snd kv).
  Proof.
    intros ms kv H Hin s Hs. apply H. cbn [jstrings]. apply in_flat_map. exists kv. split; assumption.
  Qed.

  Lemma good_item : forall l x, good (JArr l) -> In x l -> good x.
  Proof.
    intros l x H Hin s Hs. apply H. cbn [jstrings]. apply in_flat_map. exists x. split; assumption.
  Qed.

  Lemma good_jget : forall name v, good v -> good (jget name v).
  Proof.
    intros name v H. destruct v as [| | | | | |ms]; try (intros s0 []).
    cbn [jget]. destruct (assoc (str_of_string name) ms) as [x|] eqn:E; [|intros s0 []].
    apply assoc_In in E. exact (good_member ms _ H E).
  Qed.

  (* visibility on the renamed side agrees with visibility on the original side *)
  Definition HV (vis vis' : str -> bool) : Prop := forall n, vis' (rename_sym n) = vis n.

  Lemma map_rename_flat : forall vis vis' l names, HV vis vis' ->
    flat_map (fun n => if vis' n then [] else [ERef l n]) (map rename_sym names)
    = map rename_err (flat_map (fun n => if vis n then [] else [ERef l n]) names).
  Proof.
    intros vis vis' l names H. induction names as [|n r IH]; [reflexivity|].
    cbn [map flat_map]. rewrite map_app, IH, (H n). destruct (vis n); reflexivity.
  Qed.

  Lemma ren_chk : forall vis vis' l v, HV vis vis' -> good v ->
    chk refs' vis' l (ren_fs v) = map rename_err (chk refs vis l v).
  Proof.
    intros vis vis' l v H Hg. destruct v as [| | | |s| |]; try reflexivity.
    cbn [ren_fs chk]. rewrite (Hg s (or_introl eq_refl)).
    destruct (refs s) as [names|]; cbn [option_map]; [|reflexivity].
    apply map_rename_flat. exact H.
  Qed.

  Lemma concat_combine_ren : forall (F F' : nat * json -> list werr) g items,
    (forall i x, In x items -> F' (i, g x) = map rename_err (F (i, x))) ->
    forall s, List.concat (map F' (combine (seq s (List.length (map g items))) (map g items)))
              = map rename_err (List.concat (map F (combine (seq s (List.length items)) items))).
  Proof.
    intros F F' g items. induction items as [|x r IH]; intros H s; [reflexivity|].
    cbn [map List.length seq combine List.concat]. rewrite map_app.
    rewrite (H s x (or_introl eq_refl)). f_equal.
    apply IH. intros i y Hy. apply H. right. exact Hy.
  Qed.

  Lemma concat_indexed_ren : forall (F F' : nat * json -> list werr) g items,
    (forall i x, In x items -> F' (i, g x) = map rename_err (F (i, x))) ->
    List.concat (map F' (indexed (map g items))) = map rename_err (List.concat (map F (indexed items))).
  Proof. intros F F' g items H. unfold indexed. apply concat_combine_ren. exact H. Qed.

  (* a list renamed item by item *)
  Lemma ren_list : forall (F F' : nat * json -> list werr) g v,
    good v -> (forall i x, good x -> F' (i, g x) = map rename_err (F (i, x))) ->
    match on_arr g v with JArr items => List.concat (map F' (indexed items)) | _ => [] end
    = map rename_err (match v with JArr items => List.concat (map F (indexed items)) | _ => [] end).
  Proof.
    intros F F' g v Hg H. destruct v as [| | | | |items|]; try reflexivity.
    cbn [on_arr]. apply concat_indexed_ren. intros i x Hx. apply H. exact (good_item items x Hg Hx).
  Qed.

  Lemma ren_chk_list : forall vis vis' l v, HV vis vis' -> good v ->
    chk_list refs' vis' l (ren_fs_list v) = map rename_err (chk_list refs vis l v).
  Proof.
    intros vis vis' l v H Hg. apply (ren_list _ _ ren_fs); [exact Hg|].
    intros i x Hx. apply ren_chk; assumption.
  Qed.

  Lemma decl_name_alt : forall o,
    decl_name o = if is_obj o then match jget "name" o with JStr (c :: r) => Some (c :: r) | _ => None end else None.
  Proof. intros o. destruct o; reflexivity. Qed.

  Lemma decl_name_ren : forall h o, (forall v, h $"name" v = ren_name v) ->
    decl_name (on_obj h o) = option_map rho (decl_name o).
  Proof.
    intros h o Hh. rewrite !decl_name_alt. rewrite is_obj_on_obj.
    rewrite jget_on_obj by (rewrite Hh; reflexivity). rewrite Hh.
    destruct (is_obj o); [|reflexivity].
    destruct (jget "name" o) as [| | | |[|c r]| |]; try reflexivity.
    cbn [ren_name option_map]. destruct (rho (c :: r)) as [|c' r'] eqn:E; [|reflexivity].
    exfalso. exact (rho_nonempty c r E).
  Qed.

  Lemma declared_ren : forall ok ok' g v, (forall o, ok' (g o) = ok o) ->
    (forall o, decl_name (g o) = option_map rho (decl_name o)) ->
    declared ok' (on_arr g v) = map rho (declared ok v).
  Proof.
    intros ok ok' g v Hok Hdn. destruct v as [| | | | |items|]; try reflexivity.
    unfold declared. cbn [on_arr obj_list]. induction items as [|o r IH]; [reflexivity|].
    cbn [map flat_map]. rewrite map_app, IH, Hok, Hdn.
    destruct (ok o); [|reflexivity]. destruct (decl_name o); reflexivity.
  Qed.

  Lemma decl_name_ren_def : forall o, decl_name (ren_def o) = option_map rho (decl_name o).
  Proof. intros o. apply decl_name_ren. reflexivity. Qed.
  Lemma decl_name_ren_file : forall o, decl_name (ren_file o) = option_map rho (decl_name o).
  Proof. intros o. apply decl_name_ren. reflexivity. Qed.
  Lemma decl_name_ren_tparam : forall o, decl_name (ren_tparam o) = option_map rho (decl_name o).
  Proof. intros o. apply decl_name_ren. reflexivity. Qed.

  Lemma type_is_ren_def : forall o t, type_is (ren_def o) t = type_is o t.
  Proof. intros o t. unfold type_is. erewrite (jget_ren ren_def _ "type" (fun x => x)) by reflexivity.
  reflexivity. Qed.
  Lemma type_is_ren_tparam : forall o t, type_is (ren_tparam o) t = type_is o t.
  Proof. intros o t. unfold type_is. erewrite (jget_ren ren_tparam _ "type" (fun x => x)) by reflexivity.
  reflexivity. Qed.
  Lemma has_param_type_ren_def : forall o, has_param_type (ren_def o) = has_param_type o.
  Proof. intros o. unfold has_param_type. rewrite !type_is_ren_def. reflexivity. Qed.
  Lemma has_param_type_ren_tparam : forall o, has_param_type (ren_tparam o) = has_param_type o.
  Proof. intros o. unfold has_param_type. rewrite !type_is_ren_tparam. reflexivity. Qed.

  Lemma all_params_ren : forall v, all_params (ren_defs v) = map rho (all_params v).
  Proof. intros v. apply declared_ren; [apply has_param_type_ren_def|apply decl_name_ren_def]. Qed.
  Lemma nonpath_params_ren : forall v, nonpath_params (ren_defs v) = map rho (nonpath_params v).
  Proof.
    intros v. apply declared_ren; [|apply decl_name_ren_def].
    intros o. rewrite has_param_type_ren_def, type_is_ren_def. reflexivity.
  Qed.
  Lemma path_params_ren : forall v, path_params (ren_defs v) = map rho (path_params v).
  Proof. intros v. apply declared_ren; [intros o; apply type_is_ren_def|apply decl_name_ren_def]. Qed.
  Lemma file_names_ren : forall v, file_names (ren_files v) = map rho (file_names v).
  Proof. intros v. apply declared_ren; [reflexivity|apply decl_name_ren_file]. Qed.
  Lemma task_param_names_ren : forall p, task_param_names (ren_pspace p) = map rho (task_param_names p).
  Proof.
    intros p. unfold task_param_names. erewrite (is_obj_ren ren_pspace) by reflexivity.
    destruct (is_obj p); [|reflexivity].
    erewrite (jget_ren ren_pspace _ "taskParameterDefinitions" ren_tparams) by reflexivity.
    apply declared_ren; [apply has_param_type_ren_tparam|apply decl_name_ren_tparam].
  Qed.

  Ltac pfx := unfold ref_prefixes; cbn [In]; tauto.

  Lemma HV_template : forall pd, HV (vis_template pd) (vis_template (ren_defs pd)).
  Proof.
    intros pd n. unfold vis_template. rewrite all_params_ren, nonpath_params_ren.
    rewrite !named_ren by pfx. reflexivity.
  Qed.

  Lemma HV_session : forall pd, HV (vis_session pd) (vis_session (ren_defs pd)).
  Proof.
    intros pd n. unfold vis_session. rewrite (HV_template pd n), path_params_ren.
    rewrite !named_ren by pfx. reflexivity.
  Qed.

  Lemma ren_spec_action : forall vis vis' l a, HV vis vis' -> good a ->
    spec_action refs' vis' l (ren_action a) = map rename_err (spec_action refs vis l a).
  Proof.
    intros vis vis' l a H Hg. unfold spec_action. erewrite (is_obj_ren ren_action) by reflexivity.
    destruct (is_obj a); [|reflexivity].
    erewrite (jget_ren ren_action _ "command" ren_fs),
             (jget_ren ren_action _ "args" ren_fs_list), map_app by reflexivity.
    rewrite (ren_chk vis vis') by (try exact H; apply good_jget; exact Hg).
    rewrite (ren_chk_list vis vis') by (try exact H; apply good_jget; exact Hg). reflexivity.
  Qed.

  Lemma ren_spec_files : forall vis vis' l v, HV vis vis' -> good v ->
    spec_files refs' vis' l (ren_files v) = map rename_err (spec_files refs vis l v).
  Proof.
    intros vis vis' l v H Hg. apply (ren_list _ _ ren_file); [exact Hg|].
    intros i x Hx. cbn [fst snd]. erewrite (is_obj_ren ren_file) by reflexivity. destruct (is_obj x); [|reflexivity].
    erewrite (jget_ren ren_file _ "data" ren_fs) by reflexivity. apply ren_chk; [exact H|]. apply good_jget. exact Hx.
  Qed.

  Lemma ren_spec_env_script : forall base base' l s, HV base base' -> good s ->
    spec_env_script refs' base' l (ren_env_script s) = map rename_err (spec_env_script refs base l s).
  Proof.
    intros base base' l s H Hg. unfold spec_env_script. erewrite (is_obj_ren ren_env_script) by reflexivity.
    destruct (is_obj s); [|reflexivity]. cbv zeta.
    erewrite (jget_ren ren_env_script _ "actions" ren_env_actions),
             (jget_ren ren_env_script _ "embeddedFiles" ren_files),
             (is_obj_ren ren_env_actions) by reflexivity.
    erewrite (jget_ren ren_env_actions _ "onEnter" ren_action),
             (jget_ren ren_env_actions _ "onExit" ren_action), file_names_ren by reflexivity.
    set (vis := fun n => base n || session_const n || named "Env.File." (file_names (jget "embeddedFiles" s)) n).
    set (vis' := fun n => base' n || session_const n || named "Env.File." (map rho (file_names (jget "embeddedFiles" s))) n).
    assert (Hv : HV vis vis').
    { intros n. unfold vis, vis'. rewrite (H n), session_const_ren. rewrite named_ren by pfx. reflexivity. }
    rewrite map_app. f_equal.
    - destruct (is_obj (jget "actions" s)); [|reflexivity]. rewrite map_app.
      rewrite (ren_spec_action vis vis') by (try exact Hv; repeat apply good_jget; exact Hg).
      rewrite (ren_spec_action vis vis') by (try exact Hv; repeat apply good_jget; exact Hg). reflexivity.
    - apply ren_spec_files; [exact Hv|apply good_jget; exact Hg].
  Qed.

  Lemma ren_spec_env : forall base base' l e, HV base base' -> good e ->
    spec_env refs' base' l (ren_env e) = map rename_err (spec_env refs base l e).
  Proof.
    intros base base' l e H Hg. unfold spec_env. erewrite (is_obj_ren ren_env) by reflexivity.
    destruct (is_obj e); [|reflexivity].
    erewrite (jget_ren ren_env _ "script" ren_env_script),
             (jget_ren ren_env _ "variables" ren_vars), map_app by reflexivity.
    rewrite (ren_spec_env_script base base') by (try exact H; apply good_jget; exact Hg). f_equal.
    pose proof (good_jget "variables" e Hg) as Hgv.
    destruct (jget "variables" e) as [| | | | | |members]; try reflexivity.
    cbn [ren_vars on_obj]. induction members as [|[k v] r IH]; [reflexivity|].
    cbn [map List.concat fst snd]. rewrite map_app. f_equal.
    - apply ren_chk; [exact H|]. apply (good_member _ (k, v) Hgv). left. reflexivity.
    - apply IH. intros s Hs. apply Hgv. cbn [jstrings flat_map]. apply in_or_app. right. exact Hs.
  Qed.

  Lemma ren_spec_env_list : forall base base' l v, HV base base' -> good v ->
    spec_env_list refs' base' l (ren_envs v) = map rename_err (spec_env_list refs base l v).
  Proof.
    intros base base' l v H Hg. apply (ren_list _ _ ren_env); [exact Hg|].
    intros i x Hx. apply ren_spec_env; assumption.
  Qed.

  Lemma chk_list_range : forall vis l r, chk_list refs' vis l (ren_range r) = chk_list refs' vis l (ren_fs_list r).
  Proof. intros vis l r. destruct r; reflexivity. Qed.

  Lemma ren_spec_task_param : forall vis vis' l t, HV vis vis' -> good t ->
    spec_task_param refs' vis' l (ren_tparam t) = map rename_err (spec_task_param refs vis l t).
  Proof.
    intros vis vis' l t H Hg. unfold spec_task_param. erewrite (is_obj_ren ren_tparam) by reflexivity.
    destruct (is_obj t); [|reflexivity]. cbv zeta.
    erewrite !type_is_ren_tparam, (jget_ren ren_tparam _ "range" ren_range) by reflexivity.
    pose proof (good_jget "range" t Hg) as Hgr.
    destruct (type_is t "INT").
    - destruct (jget "range" t) as [| | | |s|items|] eqn:Er; try reflexivity.
      + apply (ren_chk vis vis' _ (JStr s) H Hgr).
      + cbn [ren_range]. clear Er. induction items as [|x r IH]; [reflexivity|].
        cbn [map flat_map]. rewrite map_app. f_equal.
        * apply ren_chk; [exact H|]. apply (good_item _ x Hgr). left. reflexivity.
        * apply IH. intros s Hs. apply Hgr. cbn [jstrings flat_map]. apply in_or_app. right. exact Hs.
    - destruct (type_is t "FLOAT" || type_is t "STRING" || type_is t "PATH"); [|reflexivity].
      rewrite chk_list_range. apply ren_chk_list; assumption.
  Qed.

  Lemma ren_spec_param_space : forall vis vis' l p, HV vis vis' -> good p ->
    spec_param_space refs' vis' l (ren_pspace p) = map rename_err (spec_param_space refs vis l p).
  Proof.
    intros vis vis' l p H Hg. unfold spec_param_space. erewrite (is_obj_ren ren_pspace) by reflexivity.
    destruct (is_obj p); [|reflexivity].
    erewrite (jget_ren ren_pspace _ "taskParameterDefinitions" ren_tparams) by reflexivity.
    apply (ren_list _ _ ren_tparam); [apply good_jget; exact Hg|].
    intros i x Hx. apply ren_spec_task_param; assumption.
  Qed.

  Lemma ren_spec_host_req : forall vis vis' l h, HV vis vis' -> good h ->
    spec_host_req refs' vis' l (ren_hostreq h) = map rename_err (spec_host_req refs vis l h).
  Proof.
    intros vis vis' l h H Hg. unfold spec_host_req. erewrite (is_obj_ren ren_hostreq) by reflexivity.
    destruct (is_obj h); [|reflexivity].
    erewrite (jget_ren ren_hostreq _ "amounts" ren_amounts),
             (jget_ren ren_hostreq _ "attributes" ren_attrs), map_app by reflexivity.
    f_equal.
    - apply (ren_list _ _ ren_amount); [apply good_jget; exact Hg|].
      intros i x Hx. cbn [fst snd]. erewrite (is_obj_ren ren_amount) by reflexivity.
      destruct (is_obj x); [|reflexivity].
      erewrite (jget_ren ren_amount _ "name" ren_fs) by reflexivity. apply ren_chk; [exact H|].
      apply good_jget. exact Hx.
    - apply (ren_list _ _ ren_attr); [apply good_jget; exact Hg|].
      intros i x Hgx. cbn [fst snd]. cbv zeta. erewrite (is_obj_ren ren_attr) by reflexivity.
      destruct (is_obj x); [|reflexivity].
      erewrite (jget_ren ren_attr _ "name" ren_fs), (jget_ren ren_attr _ "anyOf" ren_fs_list),
               (jget_ren ren_attr _ "allOf" ren_fs_list), !map_app by reflexivity.
      rewrite (ren_chk vis vis') by (try exact H; apply good_jget; exact Hgx).
      rewrite !(ren_chk_list vis vis') by (try exact H; apply good_jget; exact Hgx). reflexivity.
  Qed.

  Lemma ren_spec_step_script : forall base base' tps l s, HV base base' -> good s ->
    spec_step_script refs' base' (map rho tps) l (ren_step_script s)
    = map rename_err (spec_step_script refs base tps l s).
  Proof.
    intros base base' tps l s H Hg. unfold spec_step_script. erewrite (is_obj_ren ren_step_script) by reflexivity.
    destruct (is_obj s); [|reflexivity]. cbv zeta.
    erewrite (jget_ren ren_step_script _ "actions" ren_step_actions),
             (jget_ren ren_step_script _ "embeddedFiles" ren_files),
             (is_obj_ren ren_step_actions) by reflexivity.
    erewrite (jget_ren ren_step_actions _ "onRun" ren_action), file_names_ren by reflexivity.
    set (vis := fun n => base n || session_const n || named "Task.Param." tps n || named "Task.RawParam." tps n
                         || named "Task.File." (file_names (jget "embeddedFiles" s)) n).
    set (vis' := fun n => base' n || session_const n || named "Task.Param." (map rho tps) n
                          || named "Task.RawParam." (map rho tps) n
                          || named "Task.File." (map rho (file_names (jget "embeddedFiles" s))) n).
    assert (Hv : HV vis vis').
    { intros n. unfold vis, vis'. rewrite (H n), session_const_ren. rewrite !named_ren by pfx. reflexivity. }
    rewrite map_app. f_equal.
    - destruct (is_obj (jget "actions" s)); [|reflexivity].
      apply ren_spec_action; [exact Hv|repeat apply good_jget; exact Hg].
    - apply ren_spec_files; [exact Hv|apply good_jget; exact Hg].
  Qed.

  Lemma ren_spec_step : forall pd l s, good s ->
    spec_step refs' (ren_defs pd) l (ren_step s) = map rename_err (spec_step refs pd l s).
  Proof.
    intros pd l s Hg. unfold spec_step. erewrite (is_obj_ren ren_step) by reflexivity.
    destruct (is_obj s); [|reflexivity].
    erewrite (jget_ren ren_step _ "script" ren_step_script), (jget_ren ren_step _ "stepEnvironments" ren_envs),
             (jget_ren ren_step _ "parameterSpace" ren_pspace),
            (jget_ren ren_step _ "hostRequirements" ren_hostreq), task_param_names_ren, !map_app by reflexivity.
    rewrite (ren_spec_step_script (vis_session pd)) by (try apply HV_session; apply good_jget; exact Hg).
    rewrite (ren_spec_env_list (vis_session pd)) by (try apply HV_session; apply good_jget; exact Hg).
    rewrite (ren_spec_param_space (vis_template pd)) by (try apply HV_template; apply good_jget; exact Hg).
    rewrite (ren_spec_host_req (vis_template pd)) by (try apply HV_template; apply good_jget; exact Hg).
    reflexivity.
  Qed.

  Theorem rename_job_spec : forall j, good j ->
    spec_job_template refs' (rename_job j) = map rename_err (spec_job_template refs j).
  Proof.
    intros j Hg. unfold spec_job_template. cbv zeta.
    erewrite (jget_ren rename_job _ "name" ren_fs), (jget_ren rename_job _ "parameterDefinitions" ren_defs),
             (jget_ren rename_job _ "steps" ren_steps),
            (jget_ren rename_job _ "jobEnvironments" ren_envs), !map_app by reflexivity.
    set (pd := jget "parameterDefinitions" j).
    rewrite (ren_chk (vis_template pd)) by (try apply HV_template; apply good_jget; exact Hg).
    rewrite (ren_spec_env_list (vis_session pd)) by (try apply HV_session; apply good_jget; exact Hg).
    f_equal. f_equal.
    apply (ren_list _ _ ren_step); [apply good_jget; exact Hg|].
    intros i x Hx. apply ren_spec_step. exact Hx.
  Qed.

  Theorem rename_env_spec : forall j, good j ->
    spec_env_template refs' (rename_env_template j) = map rename_err (spec_env_template refs j).
  Proof.
    intros j Hg. unfold spec_env_template. cbv zeta.
    erewrite (jget_ren rename_env_template _ "parameterDefinitions" ren_defs),
             (jget_ren rename_env_template _ "environment" ren_env) by reflexivity.
    apply ren_spec_env; [apply HV_session|apply good_jget; exact Hg].
  Qed.

  Lemma good_Forall : forall j, Forall fs_hyp (jstrings j) -> good j.
  Proof. intros j H s Hs. rewrite Forall_forall in H. exact (H s Hs). Qed.
End Rename.

Section Summary.
  Variables rho rs : str -> str.
  Variables refs refs' : str -> option (list str).
  Variable j : json.
  Hypothesis rho_inj : forall a b, rho a = rho b -> a = b.
  Hypothesis rho_nonempty : forall c r, rho (c :: r) <> [].
  Hypothesis Hrefs : forall s, In s (jstrings j) -> refs' (rs s) = option_map (map (rename_sym rho)) (refs s).

  Theorem rename_spec :
    spec_job_template refs' (rename_job rho rs j) = map (rename_err rho) (spec_job_template refs j) /\
    spec_env_template refs' (rename_env_template rho rs j) = map (rename_err rho) (spec_env_template refs j).
  Proof. split; [apply rename_job_spec|apply rename_env_spec]; assumption. Qed.

  Theorem rename_walker :
    prevalidate Generated.schema refs' "JobTemplate" (rename_job rho rs j)
    = map (rename_err rho) (prevalidate Generated.schema refs "JobTemplate" j) /\
    prevalidate Generated.schema refs' "EnvironmentTemplate" (rename_env_template rho rs j)
    = map (rename_err rho) (prevalidate Generated.schema refs "EnvironmentTemplate" j).
  Proof. rewrite !exact_job, !exact_env. exact rename_spec. Qed.

  Lemma map_nil_iff : forall (A B : Type) (f : A -> B) l, map f l = [] <-> l = [].
  Proof. intros A B f l. destruct l; split; intros H; try reflexivity; discriminate H. Qed.

  Theorem rename_verdict :
    (prevalidate Generated.schema refs' "JobTemplate" (rename_job rho rs j) = []
     <-> prevalidate Generated.schema refs "JobTemplate" j = []) /\
    (prevalidate Generated.schema refs' "EnvironmentTemplate" (rename_env_template rho rs j) = []
     <-> prevalidate Generated.schema refs "EnvironmentTemplate" j = []).
  Proof. destruct rename_walker as [-> ->]. split; apply map_nil_iff. Qed.
End Summary.
