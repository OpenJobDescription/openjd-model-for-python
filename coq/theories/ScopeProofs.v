(* ScopeProofs.v — C03: the pre-validation walk of ScopeWalk.v, run on Generated.schema, equals the
   document-level specification ScopeSpec.v for ALL json documents (exact list equality).

   One characterisation lemma per model class on the path.  Shape of a class lemma: if the fuel is at
   least 2 * json_depth v + 2 and the inherited symbol table agrees, by membership, with a visibility
   predicate, then the walk of the class on v is the specification of that class.  Each starts from
   ScopeLib.wobj_fields on the class record looked up in Generated.schema (cls_X, lk_X), evaluates the
   record's live fields and rewrites them one by one with the field lemmas of ScopeLib.
   Classes without reference sites (cancelation methods, job parameter definitions and their
   user-interface classes, step dependencies) are discharged by ScopeLib.walk_silent.
   The lemmas mention Generated.schema, so they are re-checked whenever the metadata changes. *)
From Coq Require Import List NArith ZArith Bool String Lia Btauto.
Import ListNotations.
Require Import OJD.Base OJD.Json OJD.Schema OJD.Generated OJD.ScopeWalk OJD.ScopeSpec OJD.ScopeLib.
Local Open Scope string_scope.
Local Open Scope list_scope.

Notation SC := Generated.schema.
Definition dummy_cls : cls := mkCls false false None defs_none [] jcm_trivial [] [].
Definition getc (n : string) : cls := match lookup_cls SC n with Some c => c | None => dummy_cls end.

Definition cls_Action := Eval vm_compute in getc "Action".
Lemma lk_Action : lookup_cls SC "Action" = Some cls_Action. Proof. vm_compute. reflexivity. Qed.
Definition cls_StepActions := Eval vm_compute in getc "StepActions".
Lemma lk_StepActions : lookup_cls SC "StepActions" = Some cls_StepActions. Proof. vm_compute. reflexivity. Qed.
Definition cls_EnvironmentActions := Eval vm_compute in getc "EnvironmentActions".
Lemma lk_EnvironmentActions : lookup_cls SC "EnvironmentActions" = Some cls_EnvironmentActions. Proof. vm_compute. reflexivity. Qed.
Definition cls_EFT := Eval vm_compute in getc "EmbeddedFileText".
Lemma lk_EFT : lookup_cls SC "EmbeddedFileText" = Some cls_EFT. Proof. vm_compute. reflexivity. Qed.
Definition cls_StepScript := Eval vm_compute in getc "StepScript".
Lemma lk_StepScript : lookup_cls SC "StepScript" = Some cls_StepScript. Proof. vm_compute. reflexivity. Qed.
Definition cls_EnvironmentScript := Eval vm_compute in getc "EnvironmentScript".
Lemma lk_EnvironmentScript : lookup_cls SC "EnvironmentScript" = Some cls_EnvironmentScript. Proof. vm_compute. reflexivity. Qed.
Definition cls_Environment := Eval vm_compute in getc "Environment".
Lemma lk_Environment : lookup_cls SC "Environment" = Some cls_Environment. Proof. vm_compute. reflexivity. Qed.
Definition cls_IntTP := Eval vm_compute in getc "IntTaskParameterDefinition".
Lemma lk_IntTP : lookup_cls SC "IntTaskParameterDefinition" = Some cls_IntTP. Proof. vm_compute. reflexivity. Qed.
Definition cls_FloatTP := Eval vm_compute in getc "FloatTaskParameterDefinition".
Lemma lk_FloatTP : lookup_cls SC "FloatTaskParameterDefinition" = Some cls_FloatTP. Proof. vm_compute. reflexivity. Qed.
Definition cls_StringTP := Eval vm_compute in getc "StringTaskParameterDefinition".
Lemma lk_StringTP : lookup_cls SC "StringTaskParameterDefinition" = Some cls_StringTP. Proof. vm_compute. reflexivity. Qed.
Definition cls_PathTP := Eval vm_compute in getc "PathTaskParameterDefinition".
Lemma lk_PathTP : lookup_cls SC "PathTaskParameterDefinition" = Some cls_PathTP. Proof. vm_compute. reflexivity. Qed.
Definition cls_SPSD := Eval vm_compute in getc "StepParameterSpaceDefinition".
Lemma lk_SPSD : lookup_cls SC "StepParameterSpaceDefinition" = Some cls_SPSD. Proof. vm_compute. reflexivity. Qed.
Definition cls_AmountRT := Eval vm_compute in getc "AmountRequirementTemplate".
Lemma lk_AmountRT : lookup_cls SC "AmountRequirementTemplate" = Some cls_AmountRT. Proof. vm_compute. reflexivity. Qed.
Definition cls_AttrRT := Eval vm_compute in getc "AttributeRequirementTemplate".
Lemma lk_AttrRT : lookup_cls SC "AttributeRequirementTemplate" = Some cls_AttrRT. Proof. vm_compute. reflexivity. Qed.
Definition cls_HostRT := Eval vm_compute in getc "HostRequirementsTemplate".
Lemma lk_HostRT : lookup_cls SC "HostRequirementsTemplate" = Some cls_HostRT. Proof. vm_compute. reflexivity. Qed.
Definition cls_StepTemplate := Eval vm_compute in getc "StepTemplate".
Lemma lk_StepTemplate : lookup_cls SC "StepTemplate" = Some cls_StepTemplate. Proof. vm_compute. reflexivity. Qed.
Definition cls_JobIntPD := Eval vm_compute in getc "JobIntParameterDefinition".
Lemma lk_JobIntPD : lookup_cls SC "JobIntParameterDefinition" = Some cls_JobIntPD. Proof. vm_compute. reflexivity. Qed.
Definition cls_JobFloatPD := Eval vm_compute in getc "JobFloatParameterDefinition".
Lemma lk_JobFloatPD : lookup_cls SC "JobFloatParameterDefinition" = Some cls_JobFloatPD. Proof. vm_compute. reflexivity. Qed.
Definition cls_JobStringPD := Eval vm_compute in getc "JobStringParameterDefinition".
Lemma lk_JobStringPD : lookup_cls SC "JobStringParameterDefinition" = Some cls_JobStringPD. Proof. vm_compute. reflexivity. Qed.
Definition cls_JobPathPD := Eval vm_compute in getc "JobPathParameterDefinition".
Lemma lk_JobPathPD : lookup_cls SC "JobPathParameterDefinition" = Some cls_JobPathPD. Proof. vm_compute. reflexivity. Qed.
Definition cls_JobTemplate := Eval vm_compute in getc "JobTemplate".
Lemma lk_JobTemplate : lookup_cls SC "JobTemplate" = Some cls_JobTemplate. Proof. vm_compute. reflexivity. Qed.
Definition cls_EnvTemplate := Eval vm_compute in getc "EnvironmentTemplate".
Lemma lk_EnvTemplate : lookup_cls SC "EnvironmentTemplate" = Some cls_EnvTemplate. Proof. vm_compute. reflexivity. Qed.

(* evaluate a closed term of the goal in place: the live fields, the sources or the scope of a class record *)
Ltac evalg t := let r := eval vm_compute in t in change t with r.

(* a field without sources sees the inherited symbols *)
Ltac nosrc Hv := apply fsyms_vis; [reflexivity|exact Hv].

(* the fuel obligation of a child value *)
Ltac fuel :=
  intros;
  repeat match goal with
  | H : is_obj (jget ?n ?v) = true |- _ => apply obj_not_null in H; apply jget_depth in H
  | E : jget ?n ?v = JArr ?items, H : In ?x ?items |- _ => apply (item_depth _ _ _ _ E) in H
  end; lia.

Definition tp_mapping : list (string * string) :=
  [("INT", "IntTaskParameterDefinition"); ("FLOAT", "FloatTaskParameterDefinition");
   ("STRING", "StringTaskParameterDefinition"); ("PATH", "PathTaskParameterDefinition")].

Definition jp_mapping : list (string * string) :=
  [("INT", "JobIntParameterDefinition"); ("FLOAT", "JobFloatParameterDefinition");
   ("STRING", "JobStringParameterDefinition"); ("PATH", "JobPathParameterDefinition")].

Lemma silent_cancel : forall cn, In cn (map snd [("NOTIFY_THEN_TERMINATE", "CancelationMethodNotifyThenTerminate"); ("TERMINATE", "CancelationMethodTerminate")]) -> silent SC 1 cn = true.
Proof. intros cn [H|[H|[]]]; subst; vm_compute; reflexivity. Qed.

Lemma silent_jp : forall cn, In cn (map snd jp_mapping) -> silent SC 3 cn = true.
Proof. intros cn [H|[H|[H|[H|[]]]]]; subst; vm_compute; reflexivity. Qed.

Section LeafClasses.
Variable refs : str -> option (list str).

Lemma walk_Action : forall f v sc p syms l vis,
  (is_obj v = true -> 2 * json_depth v + 2 <= f) ->
  (forall n, mem_of syms sc n = vis n) ->
  wobj SC refs f "Action" v sc p syms l = spec_action refs vis l v.
Proof.
  intros f v sc p syms l vis Hf Hv. unfold spec_action.
  destruct (wobj_fields SC refs _ _ _ _ sc p syms l lk_Action Hf) as (es & _ & ->).
  destruct (is_obj v) eqn:Eo; [specialize (Hf eq_refl)|reflexivity].
  evalg (filter live (c_fields cls_Action)). cbn [flat_map].
  rewrite (wfield_fmt_single SC refs vis), (wfield_fmt_list SC refs vis) by nosrc Hv.
  rewrite wfield_disc_single, (wdisc_silent SC refs 1), !app_nil_r by (exact silent_cancel || fuel).
  reflexivity.
Qed.

Lemma walk_StepActions : forall f v sc p syms l vis,
  (is_obj v = true -> 2 * json_depth v + 2 <= f) ->
  (forall n, mem_of syms sc n = vis n) ->
  wobj SC refs f "StepActions" v sc p syms l
  = if is_obj v then spec_action refs vis (l ++ [key "onRun"]) (jget "onRun" v) else [].
Proof.
  intros f v sc p syms l vis Hf Hv.
  destruct (wobj_fields SC refs _ _ _ _ sc p syms l lk_StepActions Hf) as (es & _ & ->).
  destruct (is_obj v) eqn:Eo; [specialize (Hf eq_refl)|reflexivity].
  evalg (filter live (c_fields cls_StepActions)). cbn [flat_map].
  rewrite wfield_model_single, (walk_Action _ _ _ _ _ _ vis), app_nil_r
    by (fuel || nosrc Hv).
  reflexivity.
Qed.

Lemma walk_EnvironmentActions : forall f v sc p syms l vis,
  (is_obj v = true -> 2 * json_depth v + 2 <= f) ->
  (forall n, mem_of syms sc n = vis n) ->
  wobj SC refs f "EnvironmentActions" v sc p syms l
  = if is_obj v then spec_action refs vis (l ++ [key "onEnter"]) (jget "onEnter" v)
                     ++ spec_action refs vis (l ++ [key "onExit"]) (jget "onExit" v) else [].
Proof.
  intros f v sc p syms l vis Hf Hv.
  destruct (wobj_fields SC refs _ _ _ _ sc p syms l lk_EnvironmentActions Hf) as (es & _ & ->).
  destruct (is_obj v) eqn:Eo; [specialize (Hf eq_refl)|reflexivity].
  evalg (filter live (c_fields cls_EnvironmentActions)). cbn [flat_map].
  rewrite !wfield_model_single, !(walk_Action _ _ _ _ _ _ vis), app_nil_r
    by (fuel || nosrc Hv).
  reflexivity.
Qed.

(* an embedded file: its data may refer to everything the script sees (which includes the
   file's own name, hence the absorption premise) *)
Lemma walk_EFT : forall f v sc p syms l vis,
  (is_obj v = true -> 2 * json_depth v + 2 <= f) ->
  (forall n, mem_of syms sc n = vis n) ->
  (forall n, mem_of (cself cls_EFT v sc p) sc n = true -> vis n = true) ->
  wobj SC refs f "EmbeddedFileText" v sc p syms l
  = if is_obj v then chk refs vis (l ++ [key "data"]) (jget "data" v) else [].
Proof.
  intros f v sc p syms l vis Hf Hv Habs.
  destruct (wobj_fields SC refs _ _ _ _ sc p syms l lk_EFT Hf) as (es & _ & ->).
  destruct (is_obj v) eqn:Eo; [|reflexivity].
  rewrite (wprefix_nobar cls_EFT p eq_refl). evalg (wsc cls_EFT sc).
  evalg (filter live (c_fields cls_EFT)). cbn [flat_map].
  rewrite (wfield_fmt_single SC refs vis), app_nil_r; [reflexivity|].
  intros n. rewrite fsyms_mem. evalg (srcs_of cls_EFT "data"). cbn [existsb].
  rewrite lookup_cresult_self, orb_false_r, <- Hv. cbn [tmem].
  destruct (mem_of (cself cls_EFT v sc p) sc n) eqn:E; [|reflexivity].
  apply Habs in E. rewrite <- Hv in E. rewrite E. reflexivity.
Qed.

Lemma files_mem : forall (pre : string) sc files n,
  scope_le SESSION sc = true ->
  existsb (fun x => mem_of (cexport_self SC (KModel "EmbeddedFileText") x sc (str_of_string pre)) sc n) (obj_list files)
  = named (pre ++ "File.") (file_names files) n.
Proof.
  intros pre sc files n Hsc. unfold file_names. rewrite named_declared. apply existsb_ext_in. intros x _.
  rewrite (cexport_mem SC (KModel _) _ _ _ _ _ _ _ eq_refl lk_EFT eq_refl). unfold defines_mem, declares.
  destruct (decl_name x); [|reflexivity]. cbn [d_defines c_defs cls_EFT existsb fst snd].
  rewrite Hsc. cbn [andb orb]. rewrite orb_false_r.
  unfold sym_name. change (starts_with_bar "File.") with false. cbv iota.
  rewrite str_of_string_app, app_assoc. reflexivity.
Qed.

(* A script class (StepScript, EnvironmentScript): an [actions] object and embedded files, walked in
   the scope [S0] of the class under its absolute prefix [pre]; every site sees the inherited symbols,
   the session constants and the names of the script's embedded files. *)
Lemma walk_script : forall cn c, lookup_cls SC cn = Some c ->
  forall acn (aspec : (str -> bool) -> loc -> json -> list werr) sc S0 pre a1 r1 a2 r2 mn mx,
  wsc c sc = S0 -> scope_le SESSION S0 = true -> (forall p, wprefix c p = str_of_string pre) ->
  filter live (c_fields c)
  = [mkField "actions" a1 r1 Single (KModel acn);
     mkField "embeddedFiles" a2 r2 (ListOf mn mx) (KModel "EmbeddedFileText")] ->
  filter (fun fl => String.eqb (f_name fl) "embeddedFiles") (c_fields c)
  = [mkField "embeddedFiles" a2 r2 (ListOf mn mx) (KModel "EmbeddedFileText")] ->
  srcs_of c "actions" = ["__self__"; "embeddedFiles"] ->
  srcs_of c "embeddedFiles" = ["__self__"; "embeddedFiles"] ->
  (forall v n, mem_of (cself c v S0 (str_of_string pre)) S0 n = session_const n) ->
  (forall f v sc p syms l vis,
     (is_obj v = true -> 2 * json_depth v + 2 <= f) -> (forall n, mem_of syms sc n = vis n) ->
     wobj SC refs f acn v sc p syms l = if is_obj v then aspec vis l v else []) ->
  forall f v p syms l vis,
  (is_obj v = true -> 2 * json_depth v + 2 <= f) ->
  (forall n, vis n = mem_of syms S0 n || session_const n
                     || named (pre ++ "File.") (file_names (jget "embeddedFiles" v)) n) ->
  wobj SC refs f cn v sc p syms l
  = if is_obj v then
      (if is_obj (jget "actions" v) then aspec vis (l ++ [key "actions"]) (jget "actions" v) else [])
      ++ spec_files refs vis (l ++ [key "embeddedFiles"]) (jget "embeddedFiles" v)
    else [].
Proof.
  intros cn c Hc acn aspec sc S0 pre a1 r1 a2 r2 mn mx Hsc HS0 Hpre Hlive Hemb Hs1 Hs2 Hself Hact
         f v p syms l vis Hf Hv.
  destruct (wobj_fields SC refs _ _ _ _ sc p syms l Hc Hf) as (es & Hes & ->).
  destruct (is_obj v) eqn:Eo; [specialize (Hf eq_refl); specialize (Hes eq_refl)|reflexivity].
  rewrite Hsc, (Hpre p) in *.
  assert (Hsym : forall name n, srcs_of c name = ["__self__"; "embeddedFiles"] ->
            mem_of (fsyms c (cresult c v S0 (str_of_string pre) es) syms name) S0 n = vis n).
  { intros name n Hsrc. rewrite fsyms_mem, Hsrc. cbn [existsb].
    rewrite lookup_cresult_self, lookup_cresult_field by reflexivity. cbn [tmem].
    rewrite Hself, (lookup_list_self SC _ _ _ _ _ _ _ _ _ _ _ _ _ n Hes Hemb eq_refl eq_refl) by lia.
    rewrite (files_mem pre S0 _ n HS0), Hv. btauto. }
  rewrite Hlive. cbn [flat_map].
  rewrite wfield_model_single, wfield_model_list, app_nil_r,
          (Hact _ _ _ _ _ _ vis) by (fuel || (intros; apply Hsym; assumption)).
  f_equal. unfold spec_files. apply concat_indexed_items. intros items i x Ej Hx. cbn [fst snd].
  rewrite (walk_EFT _ _ _ _ _ _ vis); [rewrite <- !app_assoc; reflexivity|fuel|intros; apply Hsym; assumption|].
  intros n Hn. rewrite Hv, <- (files_mem pre S0 _ n HS0), Ej. cbn [obj_list].
  replace (existsb _ items) with true; [btauto|]. symmetry. apply existsb_exists. exists x. split; [exact Hx|].
  unfold cexport_self. cbn [ctarget]. rewrite lk_EFT.
  change (lookup_s "__export__" (c_sources cls_EFT)) with (Some ["__self__"]).
  destruct x; exact Hn.
Qed.

Lemma cself_session : forall c v sc p n,
  d_inject (c_defs c) = ["|Session.HasPathMappingRules"; "|Session.PathMappingRulesFile"; "|Session.WorkingDirectory"] ->
  d_field (c_defs c) = "" ->
  mem_of (cself c v sc p) sc n = session_const n.
Proof.
  intros c v sc p n Hi Hf. unfold cself, session_const. cbv zeta. rewrite Hi, Hf. cbn [String.eqb fold_left].
  rewrite !mem_of_add, mem_of_empty, scope_le_refl. cbn. btauto.
Qed.

Lemma walk_StepScript : forall f v sc p syms l vis,
  (is_obj v = true -> 2 * json_depth v + 2 <= f) ->
  (forall n, vis n = mem_of syms TASK n || session_const n
                     || named "Task.File." (file_names (jget "embeddedFiles" v)) n) ->
  wobj SC refs f "StepScript" v sc p syms l
  = if is_obj v then
      (if is_obj (jget "actions" v)
       then spec_action refs vis (l ++ [key "actions"; key "onRun"]) (jget "onRun" (jget "actions" v))
       else [])
      ++ spec_files refs vis (l ++ [key "embeddedFiles"]) (jget "embeddedFiles" v)
    else [].
Proof.
  intros f v sc p syms l vis Hf Hv.
  erewrite (walk_script _ _ lk_StepScript "StepActions"
             (fun vis l a => spec_action refs vis (l ++ [key "onRun"]) (jget "onRun" a)) sc TASK "Task.") with (vis := vis);
    try reflexivity; try eassumption.
  - rewrite <- app_assoc. reflexivity.
  - intros. apply cself_session; reflexivity.
  - apply walk_StepActions.
Qed.

Lemma walk_EnvironmentScript : forall f v p syms l vis,
  (is_obj v = true -> 2 * json_depth v + 2 <= f) ->
  (forall n, vis n = mem_of syms SESSION n || session_const n
                     || named "Env.File." (file_names (jget "embeddedFiles" v)) n) ->
  wobj SC refs f "EnvironmentScript" v SESSION p syms l
  = if is_obj v then
      (if is_obj (jget "actions" v)
       then spec_action refs vis (l ++ [key "actions"; key "onEnter"]) (jget "onEnter" (jget "actions" v))
            ++ spec_action refs vis (l ++ [key "actions"; key "onExit"]) (jget "onExit" (jget "actions" v))
       else [])
      ++ spec_files refs vis (l ++ [key "embeddedFiles"]) (jget "embeddedFiles" v)
    else [].
Proof.
  intros f v p syms l vis Hf Hv.
  erewrite (walk_script _ _ lk_EnvironmentScript "EnvironmentActions"
             (fun vis l a => spec_action refs vis (l ++ [key "onEnter"]) (jget "onEnter" a)
                             ++ spec_action refs vis (l ++ [key "onExit"]) (jget "onExit" a)) SESSION SESSION "Env.") with (vis := vis);
    try reflexivity; try eassumption.
  - rewrite <- !app_assoc. reflexivity.
  - intros. apply cself_session; reflexivity.
  - apply walk_EnvironmentActions.
Qed.

Lemma walk_Environment : forall f v sc p syms l base,
  (is_obj v = true -> 2 * json_depth v + 2 <= f) ->
  (forall n, mem_of syms SESSION n = base n) ->
  wobj SC refs f "Environment" v sc p syms l = spec_env refs base l v.
Proof.
  intros f v sc p syms l base Hf Hv. unfold spec_env, spec_env_script.
  destruct (wobj_fields SC refs _ _ _ _ sc p syms l lk_Environment Hf) as (es & _ & ->).
  destruct (is_obj v) eqn:Eo; [specialize (Hf eq_refl)|reflexivity].
  evalg (filter live (c_fields cls_Environment)). cbn [flat_map].
  rewrite (wfield_fmt_dict SC refs base), app_nil_r by nosrc Hv.
  rewrite wfield_model_single. erewrite walk_EnvironmentScript; [reflexivity|fuel|].
  intros n. cbv beta. rewrite fsyms_vis with (vis := base) by (reflexivity || exact Hv). reflexivity.
Qed.

Lemma walk_IntTP : forall f v sc p syms l vis,
  (is_obj v = true -> 2 * json_depth v + 2 <= f) ->
  (forall n, mem_of syms sc n = vis n) ->
  wobj SC refs f "IntTaskParameterDefinition" v sc p syms l
  = if is_obj v then
      match jget "range" v with
      | JArr items => flat_map (fun item => chk refs vis (l ++ [key "range"]) item) items
      | JStr _ => chk refs vis (l ++ [key "range"]) (jget "range" v)
      | _ => []
      end
    else [].
Proof.
  intros f v sc p syms l vis Hf Hv.
  destruct (wobj_fields SC refs _ _ _ _ sc p syms l lk_IntTP Hf) as (es & _ & ->).
  destruct (is_obj v) eqn:Eo; [specialize (Hf eq_refl)|reflexivity].
  pose proof (json_depth_pos v). destruct f as [|[|[|[|f]]]]; try lia. cbn [Nat.sub].
  evalg (filter live (c_fields cls_IntTP)). cbn [flat_map].
  rewrite wfield_single, app_nil_r. cbn [kind_is_literal]. rewrite orb_false_r.
  match goal with |- context [fsyms ?c ?m syms "range"] =>
    assert (Hs : forall n, mem_of (fsyms c m syms "range") (wsc cls_IntTP sc) n = vis n) by nosrc Hv end.
  destruct (jget "range" v) eqn:Er; cbn [is_null]; try reflexivity.
  - rewrite vsingle_union. cbn [flat_map]. rewrite (vsingle_format_chk SC refs vis), app_nil_r by exact Hs.
    reflexivity.
  - rewrite vsingle_union. cbn [flat_map]. rewrite (vsingle_format_chk SC refs vis), !app_nil_r by exact Hs.
    apply flat_map_ext. intros item.
    rewrite vsingle_union. cbn [flat_map]. rewrite vsingle_inert by reflexivity.
    rewrite (vsingle_format_chk SC refs vis), app_nil_r by exact Hs. reflexivity.
Qed.

Lemma walk_FloatTP : forall f v sc p syms l vis,
  (is_obj v = true -> 2 * json_depth v + 2 <= f) ->
  (forall n, mem_of syms sc n = vis n) ->
  wobj SC refs f "FloatTaskParameterDefinition" v sc p syms l
  = if is_obj v then chk_list refs vis (l ++ [key "range"]) (jget "range" v) else [].
Proof.
  intros f v sc p syms l vis Hf Hv.
  destruct (wobj_fields SC refs _ _ _ _ sc p syms l lk_FloatTP Hf) as (es & _ & ->).
  destruct (is_obj v) eqn:Eo; [specialize (Hf eq_refl)|reflexivity].
  pose proof (json_depth_pos v). destruct f as [|[|[|f]]]; try lia. cbn [Nat.sub].
  evalg (filter live (c_fields cls_FloatTP)). cbn [flat_map].
  rewrite wfield_list, app_nil_r by reflexivity. unfold chk_list.
  destruct (jget "range" v); try reflexivity.
  f_equal. apply map_ext. intros iv. rewrite vsingle_union. cbn [flat_map].
  rewrite vsingle_inert, (vsingle_format_chk SC refs vis), app_nil_r by (reflexivity || nosrc Hv). reflexivity.
Qed.

(* a class whose one reference site is a list of format strings called [range] *)
Lemma walk_range_list : forall cn c a r mn mx x1 x2 x3 x4,
  lookup_cls SC cn = Some c ->
  filter live (c_fields c) = [mkField "range" a r (ListOf mn mx) (KFormat x1 x2 x3 x4)] ->
  srcs_of c "range" = [] -> c_scope c = None ->
  forall f v sc p syms l vis,
  (is_obj v = true -> 2 * json_depth v + 2 <= f) ->
  (forall n, mem_of syms sc n = vis n) ->
  wobj SC refs f cn v sc p syms l
  = if is_obj v then chk_list refs vis (l ++ [key "range"]) (jget "range" v) else [].
Proof.
  intros cn c a r mn mx x1 x2 x3 x4 Hc Hl Hs Hsc f v sc p syms l vis Hf Hv.
  destruct (wobj_fields SC refs _ _ _ _ sc p syms l Hc Hf) as (es & _ & ->).
  destruct (is_obj v); [|reflexivity]. rewrite Hl. cbn [flat_map]. unfold wsc. rewrite Hsc.
  rewrite (wfield_fmt_list SC refs vis), app_nil_r by (apply fsyms_vis; assumption). reflexivity.
Qed.

Lemma wdisc_task_param : forall f x sc p syms l vis,
  (is_obj x = true -> 2 * json_depth x + 2 <= f) ->
  (forall n, mem_of syms sc n = vis n) ->
  wdisc SC refs f "type" tp_mapping x sc p syms l = spec_task_param refs vis l x.
Proof.
  intros f x sc p syms l vis Hf Hv. unfold spec_task_param.
  destruct (is_obj x) eqn:Eo; [|destruct x; try discriminate; reflexivity].
  specialize (Hf eq_refl). assert (Hf' : is_obj x = true -> 2 * json_depth x + 2 <= f) by (intros _; exact Hf).
  destruct (disc4_cases tp_mapping _ _ _ _ x eq_refl)
    as [H|[H|[H|[H|H]]]]; destruct H as [E Hr]; injection E as HI HF HS HP;
    rewrite ?HI, ?HF, ?HS, ?HP; cbn [orb]; cbv iota.
  - rewrite (wdisc_wobj _ _ _ _ _ _ _ _ _ _ _ Hr), (walk_IntTP _ _ _ _ _ _ vis Hf' Hv), Eo. reflexivity.
  - rewrite (wdisc_wobj _ _ _ _ _ _ _ _ _ _ _ Hr), (walk_FloatTP _ _ _ _ _ _ vis Hf' Hv), Eo. reflexivity.
  - rewrite (wdisc_wobj _ _ _ _ _ _ _ _ _ _ _ Hr),
            (walk_range_list _ _ _ _ _ _ _ _ _ _ lk_StringTP eq_refl eq_refl eq_refl _ _ _ _ _ _ vis Hf' Hv), Eo.
    reflexivity.
  - rewrite (wdisc_wobj _ _ _ _ _ _ _ _ _ _ _ Hr),
            (walk_range_list _ _ _ _ _ _ _ _ _ _ lk_PathTP eq_refl eq_refl eq_refl _ _ _ _ _ _ vis Hf' Hv), Eo.
    reflexivity.
  - unfold wdisc. rewrite Hr. destruct x; reflexivity.
Qed.

Lemma walk_SPSD : forall f v sc p syms l vis,
  (is_obj v = true -> 2 * json_depth v + 2 <= f) ->
  (forall n, mem_of syms sc n = vis n) ->
  wobj SC refs f "StepParameterSpaceDefinition" v sc p syms l = spec_param_space refs vis l v.
Proof.
  intros f v sc p syms l vis Hf Hv. unfold spec_param_space.
  destruct (wobj_fields SC refs _ _ _ _ sc p syms l lk_SPSD Hf) as (es & _ & ->).
  destruct (is_obj v) eqn:Eo; [specialize (Hf eq_refl)|reflexivity].
  evalg (filter live (c_fields cls_SPSD)). cbn [flat_map].
  rewrite wfield_disc_list, app_nil_r. apply concat_indexed_items. intros items i x Ej Hx. cbn [fst snd].
  fold tp_mapping. rewrite (wdisc_task_param _ _ _ _ _ _ vis) by (fuel || nosrc Hv).
  rewrite <- app_assoc. reflexivity.
Qed.
End LeafClasses.


Section StepClasses.
Variable refs : str -> option (list str).

(* what a step's parameter space exports to the step script *)
Lemma tparam_item_mem : forall x sc p n,
  mem_of (cexport_self SC (KDisc "type" tp_mapping) x sc p) TASK n
  = (has_param_type x && declares "Task.Param." n x) || (has_param_type x && declares "Task.RawParam." n x).
Proof.
  intros x sc p n. unfold has_param_type, declares.
  destruct (cexport_disc4 SC tp_mapping _ _ _ _ _ _ _ _ x sc p TASK n eq_refl
              lk_IntTP lk_FloatTP lk_StringTP lk_PathTP eq_refl) as [H|[H|[H|[H|H]]]];
    destruct H as (E & ->); injection E as -> -> -> ->; unfold defines_mem; destruct (decl_name x); cbn; btauto.
Qed.

Lemma csingle_SPSD : forall f sc p w,
  json_depth w <= f ->
  exists T, csingle SC f sc p (KModel "StepParameterSpaceDefinition") w = Some T /\
    forall n, mem_of T TASK n = named "Task.Param." (task_param_names w) n
                               || named "Task.RawParam." (task_param_names w) n.
Proof.
  intros f sc p w Hd. unfold task_param_names, csingle.
  destruct w; try (eexists; split; [reflexivity|]; intros; reflexivity).
  cbn [ctarget is_obj]. rewrite lk_SPSD.
  change (lookup_s "__export__" (c_sources cls_SPSD)) with (Some ["taskParameterDefinitions"]).
  pose proof (json_depth_pos (JObj members)) as Hpos.
  destruct f as [|f]; [lia|].
  destruct (collect_some SC (S f) "StepParameterSpaceDefinition" (JObj members) sc p Hd) as [m Hm]. rewrite Hm.
  destruct (collect_inv _ _ _ _ _ _ _ _ lk_SPSD Hm) as [es [Hes ->]].
  rewrite lookup_cresult_export
    by (rewrite (lookup_centries SC _ _ _ _ _ _ _ Hes), lk_entries_filter; reflexivity).
  eexists. split; [reflexivity|]. intros n.
  change (srcs_of cls_SPSD "__export__") with ["taskParameterDefinitions"].
  rewrite gather_mem. cbn [existsb lookup_s String.eqb Ascii.eqb Bool.eqb]. rewrite orb_false_r.
  erewrite lookup_list_self; [|exact Hes|reflexivity..|lia].
  rewrite !named_declared, existsb_orb. apply existsb_ext_in. intros x _. apply tparam_item_mem.
Qed.

Lemma walk_AmountRT : forall f v sc p syms l vis,
  (is_obj v = true -> 2 * json_depth v + 2 <= f) ->
  (forall n, mem_of syms sc n = vis n) ->
  wobj SC refs f "AmountRequirementTemplate" v sc p syms l
  = if is_obj v then chk refs vis (l ++ [key "name"]) (jget "name" v) else [].
Proof.
  intros f v sc p syms l vis Hf Hv.
  destruct (wobj_fields SC refs _ _ _ _ sc p syms l lk_AmountRT Hf) as (es & _ & ->).
  destruct (is_obj v); [|reflexivity].
  evalg (filter live (c_fields cls_AmountRT)). cbn [flat_map].
  rewrite (wfield_fmt_single SC refs vis), app_nil_r by nosrc Hv. reflexivity.
Qed.

Lemma walk_AttrRT : forall f v sc p syms l vis,
  (is_obj v = true -> 2 * json_depth v + 2 <= f) ->
  (forall n, mem_of syms sc n = vis n) ->
  wobj SC refs f "AttributeRequirementTemplate" v sc p syms l
  = if is_obj v then chk refs vis (l ++ [key "name"]) (jget "name" v)
                     ++ chk_list refs vis (l ++ [key "anyOf"]) (jget "anyOf" v)
                     ++ chk_list refs vis (l ++ [key "allOf"]) (jget "allOf" v) else [].
Proof.
  intros f v sc p syms l vis Hf Hv.
  destruct (wobj_fields SC refs _ _ _ _ sc p syms l lk_AttrRT Hf) as (es & _ & ->).
  destruct (is_obj v); [|reflexivity].
  evalg (filter live (c_fields cls_AttrRT)). cbn [flat_map].
  rewrite (wfield_fmt_single SC refs vis), !(wfield_fmt_list SC refs vis), app_nil_r by nosrc Hv. reflexivity.
Qed.

Lemma walk_HostRT : forall f v sc p syms l vis,
  (is_obj v = true -> 2 * json_depth v + 2 <= f) ->
  (forall n, mem_of syms sc n = vis n) ->
  wobj SC refs f "HostRequirementsTemplate" v sc p syms l = spec_host_req refs vis l v.
Proof.
  intros f v sc p syms l vis Hf Hv. unfold spec_host_req.
  destruct (wobj_fields SC refs _ _ _ _ sc p syms l lk_HostRT Hf) as (es & _ & ->).
  destruct (is_obj v) eqn:Eo; [specialize (Hf eq_refl)|reflexivity].
  evalg (filter live (c_fields cls_HostRT)). cbn [flat_map].
  rewrite !wfield_model_list, app_nil_r. f_equal; apply concat_indexed_items; intros items i x Ej Hx; cbn [fst snd].
  - rewrite (walk_AmountRT _ _ _ _ _ _ vis), <- !app_assoc by (fuel || nosrc Hv). reflexivity.
  - rewrite (walk_AttrRT _ _ _ _ _ _ vis), <- !app_assoc by (fuel || nosrc Hv). reflexivity.
Qed.

Lemma cself_none : forall c v sc p, d_field (c_defs c) = "" -> d_inject (c_defs c) = [] -> cself c v sc p = st_empty.
Proof. intros c v sc p H1 H2. unfold cself. cbv zeta. rewrite H1, H2. reflexivity. Qed.

Definition visfor (sc : scope) (pdefs : json) : str -> bool :=
  match sc with TEMPLATE => vis_template pdefs | _ => vis_session pdefs end.

Lemma walk_StepTemplate : forall f v p syms l pdefs,
  (is_obj v = true -> 2 * json_depth v + 2 <= f) ->
  (forall sc' n, mem_of syms sc' n = visfor sc' pdefs n) ->
  wobj SC refs f "StepTemplate" v TEMPLATE p syms l = spec_step refs pdefs l v.
Proof.
  intros f v p syms l pdefs Hf Hv. unfold spec_step.
  destruct (wobj_fields SC refs _ _ _ _ TEMPLATE p syms l lk_StepTemplate Hf) as (es & Hes & ->).
  destruct (is_obj v) eqn:Eo; [specialize (Hf eq_refl); specialize (Hes eq_refl)|reflexivity].
  evalg (wsc cls_StepTemplate TEMPLATE). evalg (filter live (c_fields cls_StepTemplate)). cbn [flat_map].
  rewrite !wfield_model_single, !wfield_model_list, app_nil_r.
  apply (f_equal2 (@app werr)); [|apply (f_equal2 (@app werr)); [|apply (f_equal2 (@app werr))]].
  - (* script: it also sees the task parameters that the parameter space exports *)
    unfold spec_step_script. erewrite walk_StepScript; [reflexivity|fuel|].
    intros n. cbv beta. rewrite fsyms_mem. evalg (srcs_of cls_StepTemplate "script"). cbn [existsb].
    rewrite lookup_cresult_self, lookup_cresult_field by reflexivity. cbn [tmem].
    rewrite (cself_none cls_StepTemplate _ _ _ eq_refl eq_refl), mem_of_empty, (Hv TASK n).
    rewrite (lookup_centries SC _ _ _ _ _ _ _ Hes), lk_entries_filter.
    evalg (filter (fun fl => String.eqb (f_name fl) "parameterSpace") (c_fields cls_StepTemplate)).
    cbn [lk_entries f_name]. rewrite String.eqb_refl.
    unfold centry. cbn [f_name f_kind f_shape kind_is_literal]. cbv zeta.
    destruct (is_null (jget "parameterSpace" v)) eqn:En.
    + destruct (jget "parameterSpace" v); try discriminate. cbn. btauto.
    + apply jget_depth in En.
      destruct (csingle_SPSD (f - 2) (wsc cls_StepTemplate TEMPLATE) (wprefix cls_StepTemplate p) (jget "parameterSpace" v)) as [T [-> HM]]; [lia|].
      cbn [tmem]. rewrite HM. cbn [visfor]. btauto.
  - (* stepEnvironments *)
    unfold spec_env_list. apply concat_indexed_items. intros items i x Ej Hx. cbn [fst snd].
    apply walk_Environment; [fuel|].
    intros n. rewrite fsyms_mem. evalg (srcs_of cls_StepTemplate "stepEnvironments"). cbn [existsb].
    rewrite lookup_cresult_self. cbn [tmem].
    rewrite (cself_none cls_StepTemplate _ _ _ eq_refl eq_refl), mem_of_empty. apply (Hv SESSION n).
  - (* parameterSpace *)
    apply walk_SPSD; [fuel|]. nosrc (Hv TEMPLATE).
  - (* hostRequirements; dependencies have no reference site *)
    rewrite (walk_HostRT _ _ _ _ _ _ (vis_template pdefs)) by (fuel || nosrc (Hv TEMPLATE)).
    rewrite <- (app_nil_r (spec_host_req _ _ _ _)) at 2. f_equal.
    destruct (jget "dependencies" v) eqn:Ej; try reflexivity.
    erewrite concat_map_indexed_ext; [apply concat_map_nil|].
    intros i x Hx. cbn [fst snd]. apply (walk_silent SC refs 1); [vm_compute; reflexivity|fuel].
Qed.
End StepClasses.

(* what the job parameter definition [x] makes visible at scope [sc'] *)
Definition jp_vis (sc' : scope) (n : str) (x : json) : bool :=
  (has_param_type x && declares "RawParam." n x)
  || ((has_param_type x && negb (type_is x "PATH")) && declares "Param." n x)
  || (scope_le SESSION sc' && (type_is x "PATH" && declares "Param." n x)).

Lemma jparam_item_mem : forall x sc p sc' n,
  mem_of (cexport_self SC (KDisc "type" jp_mapping) x sc p) sc' n = jp_vis sc' n x.
Proof.
  intros x sc p sc' n. unfold jp_vis, has_param_type, declares.
  destruct (cexport_disc4 SC jp_mapping _ _ _ _ _ _ _ _ x sc p sc' n eq_refl
              lk_JobIntPD lk_JobFloatPD lk_JobStringPD lk_JobPathPD eq_refl) as [H|[H|[H|[H|H]]]];
    destruct H as (E & ->); injection E as -> -> -> ->; unfold defines_mem; destruct (decl_name x); cbn; btauto.
Qed.

Lemma visfor_eq : forall sc' pdefs n, visfor sc' pdefs n = existsb (jp_vis sc' n) (obj_list pdefs).
Proof.
  intros sc' pdefs n. unfold jp_vis.
  destruct sc'; cbn [visfor scope_le andb];
    unfold vis_session, vis_template, all_params, nonpath_params, path_params;
    rewrite !named_declared, !existsb_orb; [|reflexivity..].
  apply existsb_ext_in. intros x _. rewrite orb_false_r. reflexivity.
Qed.


(* the parameterDefinitions of a template root: what they export to the other fields *)
Lemma root_syms : forall c f v p es name sc' n a r mn mx,
  centries SC f v TEMPLATE p (c_fields c) = Some es -> json_depth v <= S f ->
  filter (fun fl => String.eqb (f_name fl) "parameterDefinitions") (c_fields c)
  = [mkField "parameterDefinitions" a r (ListOf mn mx) (KDisc "type" jp_mapping)] ->
  srcs_of c name = ["parameterDefinitions"] ->
  mem_of (fsyms c (cresult c v TEMPLATE p es) st_empty name) sc' n = visfor sc' (jget "parameterDefinitions" v) n.
Proof.
  intros c f v p es name sc' n a r mn mx Hes Hd Hpd Hsrc.
  rewrite fsyms_mem, Hsrc, mem_of_empty. cbn [existsb]. rewrite !orb_false_r, lookup_cresult_field by reflexivity.
  rewrite (lookup_list_self SC _ _ _ _ _ _ _ _ _ _ _ _ _ n Hes Hpd eq_refl eq_refl Hd).
  rewrite visfor_eq. apply existsb_ext_in. intros x _. apply jparam_item_mem.
Qed.

Section Roots.
Variable refs : str -> option (list str).

(* and they have no reference site themselves *)
Lemma pd_silent : forall f j sc p syms (L : nat * json -> loc),
  2 * json_depth j <= f ->
  match jget "parameterDefinitions" j with
  | JArr items => List.concat (map (fun iv => wdisc SC refs f "type" jp_mapping (snd iv) sc p syms (L iv)) (indexed items))
  | _ => []
  end = [].
Proof.
  intros f j sc p syms L Hf. destruct (jget "parameterDefinitions" j) eqn:Ej; try reflexivity.
  erewrite concat_map_indexed_ext; [apply concat_map_nil|].
  intros i x Hx. cbn [fst snd]. apply (wdisc_silent SC refs 3); [exact silent_jp|fuel].
Qed.

Lemma walk_JobTemplate : forall f j,
  2 * json_depth j + 2 <= f ->
  walk SC refs f "JobTemplate" j TEMPLATE [] st_empty [] = spec_job_template refs j.
Proof.
  intros f j Hf. unfold spec_job_template. cbv zeta.
  destruct (walk_fields SC refs _ _ _ _ TEMPLATE [] st_empty [] lk_JobTemplate Hf) as (es & Hes & ->).
  evalg (wsc cls_JobTemplate TEMPLATE).
  assert (Hsym : forall name sc' n, srcs_of cls_JobTemplate name = ["parameterDefinitions"] ->
            mem_of (fsyms cls_JobTemplate (cresult cls_JobTemplate j TEMPLATE (wprefix cls_JobTemplate []) es) st_empty name) sc' n
            = visfor sc' (jget "parameterDefinitions" j) n).
  { intros name sc' n Hsrc. eapply root_syms; [exact Hes|lia|reflexivity|exact Hsrc]. }
  evalg (filter live (c_fields cls_JobTemplate)). cbn [flat_map].
  rewrite (wfield_fmt_single SC refs (vis_template (jget "parameterDefinitions" j)))
    by (intros n; apply (Hsym _ TEMPLATE n); reflexivity).
  rewrite wfield_disc_list, !wfield_model_list, app_nil_r. fold jp_mapping. rewrite pd_silent by lia.
  cbn [app]. f_equal. f_equal.
  - apply concat_indexed_items. intros items i x Ej Hx. cbn [fst snd].
    apply walk_StepTemplate; [fuel|]. intros sc' n. apply Hsym. reflexivity.
  - unfold spec_env_list. apply concat_indexed_items. intros items i x Ej Hx. cbn [fst snd].
    apply walk_Environment; [fuel|]. intros n. apply (Hsym _ SESSION n). reflexivity.
Qed.

Lemma walk_EnvTemplate : forall f j,
  2 * json_depth j + 2 <= f ->
  walk SC refs f "EnvironmentTemplate" j TEMPLATE [] st_empty [] = spec_env_template refs j.
Proof.
  intros f j Hf. unfold spec_env_template. cbv zeta.
  destruct (walk_fields SC refs _ _ _ _ TEMPLATE [] st_empty [] lk_EnvTemplate Hf) as (es & Hes & ->).
  evalg (wsc cls_EnvTemplate TEMPLATE).
  evalg (filter live (c_fields cls_EnvTemplate)). cbn [flat_map].
  rewrite wfield_disc_list, wfield_model_single, app_nil_r. fold jp_mapping. rewrite pd_silent by lia.
  apply walk_Environment; [fuel|].
  intros n. eapply root_syms; [exact Hes|lia|reflexivity|reflexivity].
Qed.

Theorem exact_job : forall j, prevalidate SC refs "JobTemplate" j = spec_job_template refs j.
Proof. intros j. unfold prevalidate, walk_fuel. apply walk_JobTemplate. lia. Qed.

Theorem exact_env : forall j, prevalidate SC refs "EnvironmentTemplate" j = spec_env_template refs j.
Proof. intros j. unfold prevalidate, walk_fuel. apply walk_EnvTemplate. lia. Qed.
End Roots.

Definition is_ref (e : werr) : Prop := match e with ERef _ _ => True | EFuel => False end.

(* [nf_] for "no fuel": the specification only ever reports references, never the out-of-fuel marker *)
Lemma nf_concat_map : forall {A} (f : A -> list werr) l,
  (forall x, Forall is_ref (f x)) -> Forall is_ref (List.concat (map f l)).
Proof.
  intros A f l H. induction l as [|x l IH]; cbn; [constructor|].
  apply Forall_app. split; [apply H | exact IH].
Qed.

Lemma nf_flat_map : forall {A} (f : A -> list werr) l,
  (forall x, Forall is_ref (f x)) -> Forall is_ref (flat_map f l).
Proof.
  intros A f l H. induction l as [|x l IH]; cbn; [constructor|].
  apply Forall_app. split; [apply H | exact IH].
Qed.

Section NF.
Variable refs : str -> option (list str).

Lemma nf_chk : forall vis l v, Forall is_ref (chk refs vis l v).
Proof.
  intros vis l v. destruct v; try constructor. cbn [chk].
  destruct (refs s) as [names|]; [|constructor].
  apply nf_flat_map. intros n. destruct (vis n); repeat constructor.
Qed.

Lemma nf_chk_list : forall vis l v, Forall is_ref (chk_list refs vis l v).
Proof.
  intros vis l v. destruct v; try constructor. cbn [chk_list].
  apply nf_concat_map. intros. apply nf_chk.
Qed.

Ltac nf :=
  repeat first
    [ apply Forall_nil
    | apply nf_chk
    | apply nf_chk_list
    | apply Forall_app; split
    | apply nf_concat_map; intros
    | apply nf_flat_map; intros
    | match goal with
      | |- Forall _ (if ?b then _ else _) => destruct b
      | |- Forall _ (match ?v with _ => _ end) => destruct v
      end ].

Lemma nf_action : forall vis l a, Forall is_ref (spec_action refs vis l a).
Proof. intros. unfold spec_action. nf. Qed.

Lemma nf_files : forall vis l a, Forall is_ref (spec_files refs vis l a).
Proof. intros. unfold spec_files. nf. Qed.

Lemma nf_env : forall base l e, Forall is_ref (spec_env refs base l e).
Proof.
  intros. unfold spec_env, spec_env_script. cbv zeta.
  repeat first [apply nf_action | apply nf_files | progress nf].
Qed.

Lemma nf_env_list : forall base l e, Forall is_ref (spec_env_list refs base l e).
Proof. intros. unfold spec_env_list. destruct e; try constructor. apply nf_concat_map. intros. apply nf_env. Qed.

Lemma nf_task_param : forall vis l e, Forall is_ref (spec_task_param refs vis l e).
Proof. intros. unfold spec_task_param. cbv zeta. nf. Qed.

Lemma nf_param_space : forall vis l e, Forall is_ref (spec_param_space refs vis l e).
Proof.
  intros. unfold spec_param_space. destruct (is_obj e); [|constructor].
  destruct (jget "taskParameterDefinitions" e); try constructor.
  apply nf_concat_map. intros. apply nf_task_param.
Qed.

Lemma nf_host_req : forall vis l e, Forall is_ref (spec_host_req refs vis l e).
Proof. intros. unfold spec_host_req. cbv zeta. nf. Qed.

Lemma nf_step : forall pdefs l e, Forall is_ref (spec_step refs pdefs l e).
Proof.
  intros. unfold spec_step, spec_step_script. cbv zeta.
  repeat first [apply nf_action | apply nf_files | apply nf_env_list | apply nf_param_space
               | apply nf_host_req | progress nf].
Qed.

Lemma nf_job : forall j, Forall is_ref (spec_job_template refs j).
Proof.
  intros. unfold spec_job_template. cbv zeta.
  repeat first [apply nf_step | apply nf_env_list | progress nf].
Qed.

Lemma nf_envt : forall j, Forall is_ref (spec_env_template refs j).
Proof. intros. unfold spec_env_template. cbv zeta. apply nf_env. Qed.

Theorem no_fuel : forall j,
  ~ In EFuel (prevalidate SC refs "JobTemplate" j) /\ ~ In EFuel (prevalidate SC refs "EnvironmentTemplate" j).
Proof.
  intros j. rewrite exact_job, exact_env. split; intros H.
  - pose proof (nf_job j) as F. rewrite Forall_forall in F. exact (F _ H).
  - pose proof (nf_envt j) as F. rewrite Forall_forall in F. exact (F _ H).
Qed.

Theorem spec_visible : forall vis l s names,
  refs s = Some names ->
  chk refs vis l (JStr s) = map (ERef l) (filter (fun n => negb (vis n)) names).
Proof.
  intros vis l s names H. cbn [chk]. rewrite H. clear H.
  induction names as [|n names IH]; cbn; [reflexivity|].
  destruct (vis n); cbn; rewrite IH; reflexivity.
Qed.
End NF.
