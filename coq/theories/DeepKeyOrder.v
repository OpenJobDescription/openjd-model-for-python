(* DeepKeyOrder.v — lemmas behind props/C19x.v (C19_deep_key_order): invariance under permuting the
   members of the objects of a document at EVERY nesting level at once.

   [jperm j j'] : same scalars, arrays pointwise, objects: distinct keys, and the members of the
   second are a permutation of the first's with jperm-related values.

   Part A (reference walk): [Permutation (spec_job_template refs j) (spec_job_template refs j')].
     Every piece of the specification is EQUAL on jperm-related inputs except the walk over the
     members of an Environment's [variables] object, which reports its errors in member order:
     errors carry their location, so the two error lists are permutations of one another.
   Part B (acceptance model): the structural parser returns outcomes that are equal up to the
     member order of dictionaries ([mperm]); every validator of Validators.v is invariant under
     [mperm] of its parsed fields and [jperm] of its raw object. *)
From Coq Require Import List NArith ZArith Bool String Lia Permutation.
Import ListNotations.
Require Import OJD.Base OJD.Lexer OJD.Json OJD.Schema OJD.Generated OJD.Charsets OJD.FormatStr OJD.FsRefs
               OJD.CreateJob OJD.Parse OJD.Validators OJD.Accept OJD.AcceptMono OJD.ScopeWalk OJD.ScopeSpec
               OJD.ScopeProofs OJD.KeyOrder OJD.ListLib OJD.JsonEquiv.
Require OJD.RangeExpr OJD.Comb OJD.CombProofs.
Local Open Scope string_scope.
Local Open Scope list_scope.

Definition mrel {K A : Type} (R : A -> A -> Prop) (a b : K * A) : Prop :=
  fst a = fst b /\ R (snd a) (snd b).

Inductive jperm : json -> json -> Prop :=
| JP_null : jperm JNull JNull
| JP_bool : forall b, jperm (JBool b) (JBool b)
| JP_int : forall z, jperm (JInt z) (JInt z)
| JP_dec : forall m e, jperm (JDec m e) (JDec m e)
| JP_str : forall s, jperm (JStr s) (JStr s)
| JP_arr : forall l l', Forall2 jperm l l' -> jperm (JArr l) (JArr l')
| JP_obj : forall ms mid ms',
    NoDup (map fst ms) -> Forall2 (mrel jperm) ms mid -> Permutation mid ms' ->
    jperm (JObj ms) (JObj ms').

(* case analysis on a [jperm a b] whose sides are arbitrary terms *)
Ltac jcase H :=
  match type of H with
  | jperm ?a ?b =>
    let x := fresh "x" in let y := fresh "y" in
    set (x := a) in *; set (y := b) in *; clearbody x y; destruct H
  end.

Lemma F2_keys : forall (K A : Type) (R : A -> A -> Prop) (a b : list (K * A)),
  Forall2 (mrel R) a b -> map fst a = map fst b.
Proof.
  intros K A R a b H. induction H as [|x y l l' [Hk _] _ IH]; [reflexivity|].
  cbn [map]. rewrite Hk, IH. reflexivity.
Qed.

Lemma assoc_F2 : forall (A : Type) (R : A -> A -> Prop) (a b : list (str * A)),
  Forall2 (mrel R) a b -> forall k,
  match assoc k a, assoc k b with
  | Some x, Some y => R x y
  | None, None => True
  | _, _ => False
  end.
Proof.
  intros A R a b H k. induction H as [|[kx x] [ky y] l l' [Hk Hv] _ IH]; [exact I|].
  cbn [fst snd] in Hk, Hv. subst ky. cbn [assoc]. destruct (str_eqb k kx); [exact Hv|exact IH].
Qed.

Lemma F2_eq : forall (A : Type) (l l' : list A), Forall2 eq l l' -> l = l'.
Proof. intros A l l' H. induction H as [|x y l l' E _ IH]; [reflexivity|]. rewrite E, IH. reflexivity. Qed.

Lemma concat_F2_perm : forall (A : Type) (ls ls' : list (list A)),
  Forall2 (@Permutation A) ls ls' -> Permutation (List.concat ls) (List.concat ls').
Proof.
  intros A ls ls' H. induction H as [|x y l l' E _ IH]; [apply perm_nil|].
  cbn [List.concat]. apply Permutation_app; assumption.
Qed.

Lemma perm_concat_map : forall (A B : Type) (f : A -> list B) l l',
  Permutation l l' -> Permutation (List.concat (map f l)) (List.concat (map f l')).
Proof.
  intros A B f l l' H. induction H as [|x l l' _ IH|x y l|l l' l'' _ IH1 _ IH2].
  - apply perm_nil.
  - cbn [map List.concat]. apply Permutation_app_head. exact IH.
  - cbn [map List.concat]. rewrite !app_assoc. apply Permutation_app_tail. apply Permutation_app_comm.
  - eapply perm_trans; eassumption.
Qed.

Lemma map_F2_eq : forall (A B : Type) (R : A -> A -> Prop) (f g : A -> B) l l',
  Forall2 R l l' -> (forall x y, R x y -> f x = g y) -> map f l = map g l'.
Proof.
  intros A B R f g l l' H Hfg. induction H as [|x y l l' Hxy _ IH]; [reflexivity|].
  cbn [map]. rewrite (Hfg x y Hxy), IH. reflexivity.
Qed.

Lemma combine_F2 : forall (I A B : Type) (R : A -> A -> Prop) (Q : B -> B -> Prop) (F G : I * A -> B) l l',
  Forall2 R l l' -> (forall i x y, R x y -> Q (F (i, x)) (G (i, y))) ->
  forall idx, Forall2 Q (map F (combine idx l)) (map G (combine idx l')).
Proof.
  intros I A B R Q F G l l' H HQ. induction H as [|x y l l' E _ IH]; intros [|i idx]; try constructor.
  - apply HQ. exact E.
  - apply IH.
Qed.

Lemma indexed_F2 : forall (A B : Type) (R : A -> A -> Prop) (Q : B -> B -> Prop) (F G : nat * A -> B) l l',
  Forall2 R l l' -> (forall i x y, R x y -> Q (F (i, x)) (G (i, y))) ->
  Forall2 Q (map F (indexed l)) (map G (indexed l')).
Proof.
  intros A B R Q F G l l' H HQ. unfold indexed. rewrite <- (Forall2_length _ _ _ _ _ H).
  apply (combine_F2 _ _ _ R); assumption.
Qed.

(* equal / permuted concatenations over the items of related arrays *)
Lemma concat_indexed_eq : forall (A B : Type) (R : A -> A -> Prop) (F G : nat * A -> list B) l l',
  Forall2 R l l' -> (forall i x y, R x y -> F (i, x) = G (i, y)) ->
  List.concat (map F (indexed l)) = List.concat (map G (indexed l')).
Proof. intros A B R F G l l' H HQ. f_equal. apply F2_eq. eapply indexed_F2; eassumption. Qed.

Lemma flat_map_F2_eq : forall (A B : Type) (R : A -> A -> Prop) (F G : A -> list B) l l',
  Forall2 R l l' -> (forall x y, R x y -> F x = G y) -> flat_map F l = flat_map G l'.
Proof.
  intros A B R F G l l' H HQ. induction H as [|x y l l' E _ IH]; [reflexivity|].
  cbn [flat_map]. rewrite (HQ x y E), IH. reflexivity.
Qed.

(* Part A: the reference walk *)

Lemma jperm_jget : forall j j', jperm j j' -> forall name, jperm (jget name j) (jget name j').
Proof.
  intros j j' H name. destruct H as [|b|z|m e|s|l l' Hl|ms mid ms' Hnd Hm Hp]; try (cbn [jget]; constructor).
  cbn [jget].
  assert (Hnd' : NoDup (map fst mid)) by (rewrite <- (F2_keys _ _ _ _ _ Hm); exact Hnd).
  rewrite <- (assoc_perm _ mid ms' Hnd' Hp (str_of_string name)).
  pose proof (assoc_F2 _ _ _ _ Hm (str_of_string name)) as Ha.
  destruct (assoc (str_of_string name) ms) as [x|], (assoc (str_of_string name) mid) as [y|];
    try contradiction; [exact Ha|constructor].
Qed.

Lemma jperm_is_obj : forall j j', jperm j j' -> is_obj j = is_obj j'.
Proof. intros j j' H. destruct H; reflexivity. Qed.

Lemma jperm_is_null : forall j j', jperm j j' -> is_null j = is_null j'.
Proof. intros j j' H. destruct H; reflexivity. Qed.

(* a walk over the items of two related values: equal, or permuted, when it is so item by item *)
Lemma jperm_items_eq : forall (B : Type) (F G : nat * json -> list B) v v',
  jperm v v' -> (forall i x y, jperm x y -> F (i, x) = G (i, y)) ->
  match v with JArr items => List.concat (map F (indexed items)) | _ => [] end
  = match v' with JArr items => List.concat (map G (indexed items)) | _ => [] end.
Proof.
  intros B F G v v' H HF. destruct H as [| | | | |a a' Ha|]; try reflexivity.
  apply (concat_indexed_eq _ _ jperm); assumption.
Qed.

Lemma jperm_items_perm : forall (B : Type) (F G : nat * json -> list B) v v',
  jperm v v' -> (forall i x y, jperm x y -> Permutation (F (i, x)) (G (i, y))) ->
  Permutation (match v with JArr items => List.concat (map F (indexed items)) | _ => [] end)
              (match v' with JArr items => List.concat (map G (indexed items)) | _ => [] end).
Proof.
  intros B F G v v' H HF. destruct H as [| | | | |a a' Ha|]; try apply Permutation_refl.
  apply concat_F2_perm. eapply indexed_F2; eassumption.
Qed.

Section SpecA.
  Variable refs : str -> option (list str).

  Lemma chk_jperm : forall vis l v v', jperm v v' -> chk refs vis l v = chk refs vis l v'.
  Proof. intros vis l v v' H. destruct H; reflexivity. Qed.

  Lemma chk_list_jperm : forall vis l v v', jperm v v' -> chk_list refs vis l v = chk_list refs vis l v'.
  Proof.
    intros vis l v v' H. apply jperm_items_eq; [exact H|].
    intros i x y Hxy. apply chk_jperm. exact Hxy.
  Qed.

  Lemma decl_name_jperm : forall o o', jperm o o' -> decl_name o = decl_name o'.
  Proof.
    intros o o' H. pose proof (jperm_jget _ _ H "name") as Hn. unfold decl_name.
    destruct H; try reflexivity. jcase Hn; try reflexivity.
  Qed.

  Lemma type_is_jperm : forall o o' t, jperm o o' -> type_is o t = type_is o' t.
  Proof.
    intros o o' t H. pose proof (jperm_jget _ _ H "type") as Hn. unfold type_is.
    jcase Hn; reflexivity.
  Qed.

  Lemma has_param_type_jperm : forall o o', jperm o o' -> has_param_type o = has_param_type o'.
  Proof. intros o o' H. unfold has_param_type. rewrite !(type_is_jperm o o' _ H). reflexivity. Qed.

  Lemma declared_jperm : forall ok v v', (forall o o', jperm o o' -> ok o = ok o') ->
    jperm v v' -> declared ok v = declared ok v'.
  Proof.
    intros ok v v' Hok H. unfold declared.
    destruct H as [|b|z|m e|s|a a' Ha|ms mid ms' Hnd Hm Hp]; try reflexivity.
    cbn [obj_list]. apply (flat_map_F2_eq _ _ jperm); [exact Ha|].
    intros x y Hxy. rewrite (Hok x y Hxy), (decl_name_jperm x y Hxy). reflexivity.
  Qed.

  Lemma all_params_jperm : forall v v', jperm v v' -> all_params v = all_params v'.
  Proof. intros v v' H. apply declared_jperm; [apply has_param_type_jperm|exact H]. Qed.

  Lemma nonpath_params_jperm : forall v v', jperm v v' -> nonpath_params v = nonpath_params v'.
  Proof.
    intros v v' H. apply declared_jperm; [|exact H]. intros o o' Ho.
    rewrite (has_param_type_jperm o o' Ho), (type_is_jperm o o' _ Ho). reflexivity.
  Qed.

  Lemma path_params_jperm : forall v v', jperm v v' -> path_params v = path_params v'.
  Proof. intros v v' H. apply declared_jperm; [|exact H]. intros o o' Ho. apply type_is_jperm. exact Ho. Qed.

  Lemma file_names_jperm : forall v v', jperm v v' -> file_names v = file_names v'.
  Proof. intros v v' H. apply declared_jperm; [reflexivity|exact H]. Qed.

  Lemma vis_template_jperm : forall v v', jperm v v' -> vis_template v = vis_template v'.
  Proof.
    intros v v' H. unfold vis_template.
    rewrite (all_params_jperm v v' H), (nonpath_params_jperm v v' H). reflexivity.
  Qed.

  Lemma vis_session_jperm : forall v v', jperm v v' -> vis_session v = vis_session v'.
  Proof.
    intros v v' H. unfold vis_session.
    rewrite (vis_template_jperm v v' H), (path_params_jperm v v' H). reflexivity.
  Qed.

  Lemma task_param_names_jperm : forall v v', jperm v v' -> task_param_names v = task_param_names v'.
  Proof.
    intros v v' H. unfold task_param_names. rewrite (jperm_is_obj v v' H).
    destruct (is_obj v'); [|reflexivity].
    apply declared_jperm; [apply has_param_type_jperm|apply jperm_jget; exact H].
  Qed.

  Lemma spec_action_jperm : forall vis l a a', jperm a a' -> spec_action refs vis l a = spec_action refs vis l a'.
  Proof.
    intros vis l a a' H. unfold spec_action. rewrite (jperm_is_obj a a' H).
    rewrite (chk_jperm vis _ _ _ (jperm_jget a a' H "command")).
    rewrite (chk_list_jperm vis _ _ _ (jperm_jget a a' H "args")). reflexivity.
  Qed.

  Lemma spec_files_jperm : forall vis l v v', jperm v v' -> spec_files refs vis l v = spec_files refs vis l v'.
  Proof.
    intros vis l v v' H. apply jperm_items_eq; [exact H|].
    intros i x y Hxy. cbn [fst snd]. rewrite (jperm_is_obj x y Hxy).
    rewrite (chk_jperm vis _ _ _ (jperm_jget x y Hxy "data")). reflexivity.
  Qed.

  Lemma spec_env_script_jperm : forall base l s s', jperm s s' ->
    spec_env_script refs base l s = spec_env_script refs base l s'.
  Proof.
    intros base l s s' H. unfold spec_env_script. rewrite (jperm_is_obj s s' H).
    destruct (is_obj s'); [|reflexivity].
    rewrite (file_names_jperm _ _ (jperm_jget s s' H "embeddedFiles")).
    pose proof (jperm_jget s s' H "actions") as Ha.
    rewrite (jperm_is_obj _ _ Ha).
    rewrite (spec_action_jperm _ _ _ _ (jperm_jget _ _ Ha "onEnter")).
    rewrite (spec_action_jperm _ _ _ _ (jperm_jget _ _ Ha "onExit")).
    rewrite (spec_files_jperm _ _ _ _ (jperm_jget s s' H "embeddedFiles")). reflexivity.
  Qed.

  (* the one place where member order shows: the errors of [variables] come in member order *)
  Lemma spec_env_jperm : forall base l e e', jperm e e' ->
    Permutation (spec_env refs base l e) (spec_env refs base l e').
  Proof.
    intros base l e e' H. unfold spec_env. rewrite (jperm_is_obj e e' H).
    destruct (is_obj e'); [|apply perm_nil].
    rewrite (spec_env_script_jperm _ _ _ _ (jperm_jget e e' H "script")).
    apply Permutation_app_head.
    pose proof (jperm_jget e e' H "variables") as Hv.
    jcase Hv; try apply Permutation_refl.
    rename H0 into Hnd, H1 into Hm, H2 into Hp.
    set (G := fun kv : str * json => chk refs base (l ++ [key "variables"; LKey (fst kv)]) (snd kv)).
    assert (E : map G ms = map G mid).
    { apply (map_F2_eq _ _ (mrel jperm)); [exact Hm|].
      intros [k1 v1] [k2 v2] [Hk Hvv]. cbn [fst snd] in Hk, Hvv. subst k2. unfold G. cbn [fst snd].
      apply chk_jperm. exact Hvv. }
    rewrite E. apply perm_concat_map. exact Hp.
  Qed.

  Lemma spec_env_list_jperm : forall base l v v', jperm v v' ->
    Permutation (spec_env_list refs base l v) (spec_env_list refs base l v').
  Proof.
    intros base l v v' H. apply jperm_items_perm; [exact H|].
    intros i x y Hxy. apply spec_env_jperm. exact Hxy.
  Qed.

  Lemma spec_task_param_jperm : forall vis l t t', jperm t t' ->
    spec_task_param refs vis l t = spec_task_param refs vis l t'.
  Proof.
    intros vis l t t' H. unfold spec_task_param. rewrite (jperm_is_obj t t' H).
    rewrite !(type_is_jperm t t' _ H).
    rewrite (chk_list_jperm vis _ _ _ (jperm_jget t t' H "range")).
    pose proof (jperm_jget t t' H "range") as Hr.
    destruct (is_obj t'); [|reflexivity]. destruct (type_is t' "INT"); [|reflexivity].
    jcase Hr; try reflexivity.
    apply (flat_map_F2_eq _ _ jperm); [assumption|]. intros a b Hab. apply chk_jperm. exact Hab.
  Qed.

  Lemma spec_param_space_jperm : forall vis l p p', jperm p p' ->
    spec_param_space refs vis l p = spec_param_space refs vis l p'.
  Proof.
    intros vis l p p' H. unfold spec_param_space. rewrite (jperm_is_obj p p' H).
    destruct (is_obj p'); [|reflexivity].
    apply jperm_items_eq; [apply jperm_jget; exact H|].
    intros i a b Hab. apply spec_task_param_jperm. exact Hab.
  Qed.

  Lemma spec_host_req_jperm : forall vis l h h', jperm h h' ->
    spec_host_req refs vis l h = spec_host_req refs vis l h'.
  Proof.
    intros vis l h h' H. unfold spec_host_req. rewrite (jperm_is_obj h h' H).
    destruct (is_obj h'); [|reflexivity].
    f_equal; (apply jperm_items_eq; [apply jperm_jget; exact H|]).
    - intros i a b Hab. cbn [fst snd]. rewrite (jperm_is_obj a b Hab).
      rewrite (chk_jperm vis _ _ _ (jperm_jget a b Hab "name")). reflexivity.
    - intros i a b Hab. cbn [fst snd]. rewrite (jperm_is_obj a b Hab).
      rewrite (chk_jperm vis _ _ _ (jperm_jget a b Hab "name")).
      rewrite (chk_list_jperm vis _ _ _ (jperm_jget a b Hab "anyOf")).
      rewrite (chk_list_jperm vis _ _ _ (jperm_jget a b Hab "allOf")). reflexivity.
  Qed.

  Lemma spec_step_script_jperm : forall base tps l s s', jperm s s' ->
    spec_step_script refs base tps l s = spec_step_script refs base tps l s'.
  Proof.
    intros base tps l s s' H. unfold spec_step_script. rewrite (jperm_is_obj s s' H).
    destruct (is_obj s'); [|reflexivity].
    rewrite (file_names_jperm _ _ (jperm_jget s s' H "embeddedFiles")).
    pose proof (jperm_jget s s' H "actions") as Ha.
    rewrite (jperm_is_obj _ _ Ha).
    rewrite (spec_action_jperm _ _ _ _ (jperm_jget _ _ Ha "onRun")).
    rewrite (spec_files_jperm _ _ _ _ (jperm_jget s s' H "embeddedFiles")). reflexivity.
  Qed.

  Lemma spec_step_jperm : forall pd pd' l s s', jperm pd pd' -> jperm s s' ->
    Permutation (spec_step refs pd l s) (spec_step refs pd' l s').
  Proof.
    intros pd pd' l s s' Hpd H. unfold spec_step.
    rewrite (vis_template_jperm _ _ Hpd), (vis_session_jperm _ _ Hpd), (jperm_is_obj s s' H).
    destruct (is_obj s'); [|apply perm_nil].
    rewrite (task_param_names_jperm _ _ (jperm_jget s s' H "parameterSpace")).
    rewrite (spec_step_script_jperm _ _ _ _ _ (jperm_jget s s' H "script")).
    rewrite (spec_param_space_jperm _ _ _ _ (jperm_jget s s' H "parameterSpace")).
    rewrite (spec_host_req_jperm _ _ _ _ (jperm_jget s s' H "hostRequirements")).
    apply Permutation_app_head. apply Permutation_app_tail.
    apply spec_env_list_jperm. apply jperm_jget. exact H.
  Qed.

  Theorem spec_job_jperm : forall j j', jperm j j' ->
    Permutation (spec_job_template refs j) (spec_job_template refs j').
  Proof.
    intros j j' H. unfold spec_job_template.
    pose proof (jperm_jget j j' H "parameterDefinitions") as Hpd.
    rewrite (vis_template_jperm _ _ Hpd), (vis_session_jperm _ _ Hpd).
    rewrite (chk_jperm _ _ _ _ (jperm_jget j j' H "name")).
    apply Permutation_app_head. apply Permutation_app.
    - apply jperm_items_perm; [apply jperm_jget; exact H|].
      intros i a b Hab. apply spec_step_jperm; assumption.
    - apply spec_env_list_jperm. apply jperm_jget. exact H.
  Qed.

  Theorem spec_env_template_jperm : forall j j', jperm j j' ->
    Permutation (spec_env_template refs j) (spec_env_template refs j').
  Proof.
    intros j j' H. unfold spec_env_template.
    rewrite (vis_session_jperm _ _ (jperm_jget j j' H "parameterDefinitions")).
    apply spec_env_jperm. apply jperm_jget. exact H.
  Qed.
End SpecA.

Definition no_errors (l : list werr) : bool := match l with [] => true | _ => false end.

Lemma no_errors_perm : forall l l', Permutation l l' -> no_errors l = no_errors l'.
Proof.
  intros l l' H. destruct l as [|x l], l' as [|y l']; try reflexivity.
  - apply Permutation_nil in H. discriminate H.
  - apply Permutation_sym, Permutation_nil in H. discriminate H.
Qed.

Theorem prevalidate_jperm : forall refs j j', jperm j j' ->
  Permutation (prevalidate Generated.schema refs "JobTemplate" j) (prevalidate Generated.schema refs "JobTemplate" j') /\
  Permutation (prevalidate Generated.schema refs "EnvironmentTemplate" j)
              (prevalidate Generated.schema refs "EnvironmentTemplate" j').
Proof.
  intros refs j j' H. rewrite !exact_job, !exact_env. split.
  - apply spec_job_jperm. exact H.
  - apply spec_env_template_jperm. exact H.
Qed.

(* Part B: the acceptance model *)

Definition json_ind2 := JsonEquiv.json_ind2.

Lemma json_depth_jperm : forall j j', jperm j j' -> json_depth j = json_depth j'.
Proof.
  intros j. induction j as [|b|z|m e|s|l IH|ms IH] using json_ind2; intros j' H;
    inversion H as [|b'|z'|m' e'|s'|a a' Ha|a mid a' Hnd Hm Hp]; subst; try reflexivity.
  - cbn [json_depth]. f_equal. clear H. induction Ha as [|x y r r' Hxy Hr IHr]; [reflexivity|].
    cbn [fold_right]. inversion IH as [|? ? Px Pr]; subst. rewrite (Px y Hxy), (IHr Pr). reflexivity.
  - cbn [json_depth]. f_equal. rewrite <- (depth_perm mid a' Hp). clear H Hp Hnd.
    induction Hm as [|x y r r' [_ Hxy] Hr IHr]; [reflexivity|].
    cbn [fold_right]. inversion IH as [|? ? Px Pr]; subst. rewrite (Px _ Hxy), (IHr Pr). reflexivity.
Qed.

Inductive mperm : mval -> mval -> Prop :=
| MP_none : mperm MNone MNone
| MP_bool : forall b, mperm (MBool b) (MBool b)
| MP_int : forall z, mperm (MInt z) (MInt z)
| MP_dec : forall m e, mperm (MDec m e) (MDec m e)
| MP_float : forall m e, mperm (MFloat m e) (MFloat m e)
| MP_str : forall s, mperm (MStr s) (MStr s)
| MP_fmt : forall s, mperm (MFmt s) (MFmt s)
| MP_list : forall l l', Forall2 mperm l l' -> mperm (MList l) (MList l')
| MP_dict : forall l mid l', Forall2 (mrel mperm) l mid -> Permutation mid l' -> mperm (MDict l) (MDict l')
| MP_model : forall c fs fs', Forall2 (mrel mperm) fs fs' -> mperm (MModel c fs) (MModel c fs').

Notation frel := (Forall2 (@mrel string mval mperm)).

Fixpoint mperm_refl (v : mval) : mperm v v :=
  match v with
  | MNone => MP_none
  | MBool b => MP_bool b
  | MInt z => MP_int z
  | MDec m e => MP_dec m e
  | MFloat m e => MP_float m e
  | MStr s => MP_str s
  | MFmt s => MP_fmt s
  | MList l =>
    MP_list l l ((fix go (l : list mval) : Forall2 mperm l l :=
                    match l with
                    | [] => Forall2_nil _
                    | x :: r => Forall2_cons x x (mperm_refl x) (go r)
                    end) l)
  | MDict l =>
    MP_dict l l l ((fix go (l : list (str * mval)) : Forall2 (mrel mperm) l l :=
                      match l with
                      | [] => Forall2_nil _
                      | x :: r => Forall2_cons x x (conj eq_refl (mperm_refl (snd x))) (go r)
                      end) l) (Permutation_refl l)
  | MModel c fs =>
    MP_model c fs fs ((fix go (l : list (string * mval)) : Forall2 (mrel mperm) l l :=
                         match l with
                         | [] => Forall2_nil _
                         | x :: r => Forall2_cons x x (conj eq_refl (mperm_refl (snd x))) (go r)
                         end) fs)
  end.

Lemma mrel_refl_list : forall (K : Type) (l : list (K * mval)), Forall2 (mrel mperm) l l.
Proof. intros K l. induction l as [|x r IH]; constructor; [split; [reflexivity|apply mperm_refl]|exact IH]. Qed.

(* outcomes related: same exception, or accepted values related *)
Inductive olrel {A : Type} (Q : A -> A -> Prop) : outcome A -> outcome A -> Prop :=
| OL_ok : forall a b, Q a b -> olrel Q (Ok a) (Ok b)
| OL_raise : forall e, olrel Q (Raise e) (Raise e).

Notation orel := (olrel mperm).

Lemma orel_eq : forall x y : outcome mval, x = y -> orel x y.
Proof. intros x y <-. destruct x; constructor. apply mperm_refl. Qed.

Lemma olrel_is_ok : forall (A : Type) (Q : A -> A -> Prop) x y, olrel Q x y -> is_ok x = is_ok y.
Proof. intros A Q x y H. destruct H; reflexivity. Qed.

Lemma mapM_F2 : forall (A B : Type) (R : A -> A -> Prop) (Q : B -> B -> Prop) (f g : A -> outcome B) l l',
  Forall2 R l l' -> (forall x y, R x y -> olrel Q (f x) (g y)) ->
  olrel (Forall2 Q) (mapM f l) (mapM g l').
Proof.
  intros A B R Q f g l l' H Hfg. induction H as [|x y l l' Hxy _ IH]; [constructor; constructor|].
  cbn [mapM]. destruct (Hfg x y Hxy) as [a b Hab|e]; cbn [bind]; [|constructor].
  destruct IH as [u w Huw|e]; cbn [bind]; constructor. constructor; assumption.
Qed.

(* mapping a function that can fail in one way only over a permuted list *)
Lemma mapM_perm : forall (A B : Type) (f : A -> outcome B) e0,
  (forall x e, f x = Raise e -> e = e0) ->
  forall l l', Permutation l l' -> olrel (@Permutation B) (mapM f l) (mapM f l').
Proof.
  intros A B f e0 Hf l l' H.
  assert (Hm : forall l e, mapM f l = Raise e -> e = e0).
  { intros l0 e He. destruct (mapM_raise_in _ _ _ _ _ He) as [x [_ Hx]]. exact (Hf x e Hx). }
  induction H as [|x l l' Hp IH|x y l|l l' l'' Hp1 IH1 Hp2 IH2].
  - constructor. apply perm_nil.
  - cbn [mapM]. destruct (f x) as [b|e]; cbn [bind]; [|constructor].
    destruct IH as [u w Huw|e]; cbn [bind]; constructor. apply perm_skip. exact Huw.
  - cbn [mapM]. destruct (f x) as [b|e] eqn:Ex; destruct (f y) as [c|e'] eqn:Ey; cbn [bind].
    + destruct (mapM f l) as [u|e]; cbn [bind]; constructor. apply perm_swap.
    + constructor.
    + constructor.
    + rewrite (Hf x e Ex), (Hf y e' Ey). constructor.
  - destruct IH1 as [u w Huw|e]; inversion IH2; subst; constructor.
    eapply perm_trans; eassumption.
Qed.

(* the classes below a kind, as in DecodeInv.v *)
Fixpoint dk_kind_classes (k : kind) : list string :=
  match k with
  | KModel c => [c]
  | KDisc _ mapping => map snd mapping
  | KUnion alts =>
    (fix go (l : list ualt) : list string :=
       match l with
       | [] => []
       | a :: r => dk_ualt_classes a ++ go r
       end) alts
  | _ => []
  end
with dk_ualt_classes (a : ualt) : list string :=
  match a with
  | UScalar k => dk_kind_classes k
  | UList _ _ k => dk_kind_classes k
  end.

Lemma dk_union_cons : forall a r, dk_kind_classes (KUnion (a :: r)) = dk_ualt_classes a ++ dk_kind_classes (KUnion r).
Proof. reflexivity. Qed.

(* a dictionary-valued field whose keys are strings and whose values are format strings: at
   positive fuel neither the key check nor the value check can leave the modelled domain, so the
   only failure of an entry is the validation error *)
Definition dict_simple (fl : field) : bool :=
  match f_shape fl with
  | DictOf (KStr _ _ _ _) => match f_kind fl with KFormat _ _ _ _ => true | _ => false end
  | DictOf _ => false
  | _ => true
  end.

Definition dk_closedb (SC : schema_t) (R : list string) : bool :=
  forallb (fun c => match lookup_cls SC c with
                    | Some c0 => forallb (fun fl => forallb (fun x => mem_s x R) (dk_kind_classes (f_kind fl))
                                                    && dict_simple fl) (c_fields c0)
                    | None => true
                    end) R.

Lemma dk_closedb_sound : forall SC R, dk_closedb SC R = true ->
  forall c c0, In c R -> lookup_cls SC c = Some c0 ->
  forall fl, In fl (c_fields c0) -> incl (dk_kind_classes (f_kind fl)) R /\ dict_simple fl = true.
Proof.
  intros SC R H c c0 Hc El fl Hfl. unfold dk_closedb in H. rewrite forallb_forall in H.
  specialize (H c Hc). rewrite El in H. rewrite forallb_forall in H. specialize (H fl Hfl).
  apply andb_true_iff in H. destruct H as [H1 H2]. split; [|exact H2].
  intros x Hx. rewrite forallb_forall in H1. apply mem_s_In. apply H1. exact Hx.
Qed.

Lemma parse_scalar_jperm : forall classify k v v', jperm v v' ->
  parse_scalar classify k v = parse_scalar classify k v'.
Proof. intros classify k v v' H. destruct H; try reflexivity; destruct k; reflexivity. Qed.

Lemma forallb_map_fst : forall (A : Type) (p : str -> bool) (a b : list (str * A)),
  map fst a = map fst b -> forallb (fun kv => p (fst kv)) a = forallb (fun kv => p (fst kv)) b.
Proof.
  intros A p a. induction a as [|x r IH]; intros [|y s] E; try discriminate E; [reflexivity|].
  cbn [map] in E. injection E as E1 E2. cbn [forallb]. rewrite E1, (IH s E2). reflexivity.
Qed.

Section Congruence.
  Variable SC : schema_t.
  Variable classify : N -> cclass.
  Variable pre : string -> json -> bool.
  Variable post : string -> json -> list (string * mval) -> bool.
  Notation pk := (parse_kind SC classify pre post).
  Notation pc := (parse_cls SC classify pre post).

  Variable R : list string.
  Hypothesis closed : forall c c0, In c R -> lookup_cls SC c = Some c0 ->
    forall fl, In fl (c_fields c0) -> incl (dk_kind_classes (f_kind fl)) R /\ dict_simple fl = true.
  Hypothesis Hpre : forall c v v', jperm v v' -> pre c v = pre c v'.
  Hypothesis Hpost : forall c v v' fs fs', In c R -> jperm v v' -> frel fs fs' -> post c v fs = post c v' fs'.

  Definition Pk (f : nat) : Prop :=
    forall k v v', incl (dk_kind_classes k) R -> jperm v v' -> orel (pk f k v) (pk f k v').
  Definition Pc (f : nat) : Prop :=
    forall c v v', In c R -> jperm v v' -> orel (pc f c v) (pc f c v').

  Lemma list_items_jperm : forall f lo hi k v v', Pk f -> incl (dk_kind_classes k) R -> jperm v v' ->
    orel (list_items (pk f) lo hi k v) (list_items (pk f) lo hi k v').
  Proof.
    intros f lo hi k v v' IHk Hk H. destruct H as [|b|z|m e|s|a a' Ha|ms mid ms' Hnd Hm Hp];
      try (apply orel_eq; reflexivity).
    cbn [list_items]. rewrite <- (Forall2_length _ _ _ _ _ Ha).
    destruct (len_ok_n lo hi (List.length a)); [|constructor].
    destruct (mapM_F2 _ _ jperm mperm (pk f k) (pk f k) a a' Ha (fun x y Hxy => IHk k x y Hk Hxy)) as [u w Huw|e];
      cbn [bind]; constructor. constructor. exact Huw.
  Qed.

  Lemma dict_jperm : forall f kk k ms mid ms' a b c d a2 b2 c2 d2,
    kk = KStr a b c d -> k = KFormat a2 b2 c2 d2 ->
    Forall2 (mrel jperm) ms mid -> Permutation mid ms' ->
    olrel (@Permutation (str * mval)) (mapM (dict_entry (pk f) kk k) ms) (mapM (dict_entry (pk f) kk k) ms').
  Proof.
    intros f kk k ms mid ms' a b c d a2 b2 c2 d2 -> -> Hm Hp.
    set (g := dict_entry (pk f) (KStr a b c d) (KFormat a2 b2 c2 d2)).
    assert (E : mapM g ms = mapM g mid).
    { clear Hp. induction Hm as [|[k1 v1] [k2 v2] r r' [Hk Hv] _ IH]; [reflexivity|].
      cbn [fst snd] in Hk, Hv. subst k2. cbn [mapM]. rewrite IH.
      assert (Eg : g (k1, v1) = g (k1, v2)).
      { unfold g, dict_entry. cbn [fst snd]. destruct f as [|f']; [reflexivity|].
        rewrite !parse_kind_S. rewrite (parse_scalar_jperm classify _ v1 v2 Hv). reflexivity. }
      rewrite Eg. reflexivity. }
    rewrite E. destruct f as [|f'].
    - (* no fuel: every entry is out of the domain *)
      apply (mapM_perm _ _ g RuntimeError); [|exact Hp]. intros kv e He. injection He as <-. reflexivity.
    - apply (mapM_perm _ _ g ValueError); [|exact Hp].
      intros [k1 v1] e He. unfold g, dict_entry in He. cbn [fst snd] in He. rewrite !parse_kind_S in He.
      cbn [parse_scalar] in He.
      unfold check_str in He.
      destruct (len_ok b c k1 && cs_ok d k1); cbn [bind] in He; [|injection He as <-; reflexivity].
      destruct v1 as [|bb|z|m e1|s|l|members]; try (injection He as <-; reflexivity).
      destruct (len_ok b2 c2 s && cs_ok d2 s && fs_ok classify s); cbn [bind] in He;
        [discriminate He|injection He as <-; reflexivity].
  Qed.

  Lemma parse_value_jperm : forall f fl raw raw', Pk f ->
    incl (dk_kind_classes (f_kind fl)) R -> dict_simple fl = true -> jperm raw raw' ->
    orel (parse_value (pk f) fl raw) (parse_value (pk f) fl raw').
  Proof.
    intros f fl raw raw' IHk Hk Hd H.
    assert (Hnn : forall r, is_null r = false ->
              parse_value (pk f) fl r =
              match f_shape fl with
              | Single => pk f (f_kind fl) r
              | ListOf minl maxl => list_items (pk f) minl maxl (f_kind fl) r
              | DictOf kk =>
                match r with
                | JObj members => do l' <- mapM (dict_entry (pk f) kk (f_kind fl)) members; Ok (MDict l')
                | _ => reject
                end
              end).
    { intros r Hr. destruct r; try reflexivity. discriminate Hr. }
    destruct (is_null raw) eqn:En.
    - destruct H; try discriminate En. apply orel_eq. reflexivity.
    - rewrite (Hnn raw En). rewrite (Hnn raw') by (rewrite <- (jperm_is_null _ _ H); exact En).
      unfold dict_simple in Hd. destruct (f_shape fl) as [|lo hi|kk].
      + apply IHk; assumption.
      + apply list_items_jperm; assumption.
      + destruct kk as [| |a b c d| | | | | | | |]; try discriminate Hd.
        destruct (f_kind fl) as [| | |a2 b2 c2 d2| | | | | | |] eqn:Ek; try discriminate Hd.
        destruct H as [|bb|z|m e|s|l l' Hl|ms mid ms' Hnd Hm Hp]; try (apply orel_eq; reflexivity).
        * destruct (dict_jperm f _ _ ms mid ms' a b c d a2 b2 c2 d2 eq_refl eq_refl Hm Hp) as [u w Huw|e];
            cbn [bind]; constructor.
          apply (MP_dict u u w); [apply mrel_refl_list|exact Huw].
  Qed.

  Lemma disc_res_jget : forall pcf key mp v,
    disc_res pcf key mp v =
    match v with
    | JObj _ =>
      match jget key v with
      | JStr s => match List.find (fun kc => str_eqb (str_of_string (fst kc)) s) mp with
                  | Some (_, c) => pcf c v
                  | None => reject
                  end
      | _ => reject
      end
    | _ => reject
    end.
  Proof.
    intros pcf key mp v. destruct v as [| | | | | |ms]; try reflexivity.
    cbn [disc_res jget]. destruct (assoc (str_of_string key) ms) as [[| | | | | |]|]; reflexivity.
  Qed.

  Lemma extra_bad_jperm : forall c0 ms mid ms', Forall2 (mrel jperm) ms mid -> Permutation mid ms' ->
    extra_bad c0 ms = extra_bad c0 ms'.
  Proof.
    intros c0 ms mid ms' Hm Hp. unfold extra_bad. f_equal. f_equal.
    rewrite <- (forallb_perm _ _ mid ms' Hp).
    apply (forallb_map_fst _ (alias_known (c_fields c0))). apply (F2_keys _ _ _ _ _ Hm).
  Qed.

  Lemma step_kind : forall f, Pk f -> Pc f -> Pk (S f).
  Proof.
    intros f IHk IHc k v v' Hk H. rewrite !parse_kind_S.
    destruct k as [lit|members|strict lo hi cs|c lo hi cs|strict|strict ge le gt|gt| |c|key mp|alts];
      try (apply orel_eq; apply parse_scalar_jperm; exact H).
    - apply IHc; [apply Hk; left; reflexivity|exact H].
    - rewrite !disc_res_jget. pose proof (jperm_jget _ _ H key) as Hj.
      pose proof (jperm_is_obj _ _ H) as Ho.
      destruct v as [| | | | | |ms]; destruct v' as [| | | | | |ms']; try discriminate Ho; try constructor.
      jcase Hj; try constructor.
      destruct (List.find (fun kc => str_eqb (str_of_string (fst kc)) s) mp) as [[k' c']|] eqn:Ef; [|constructor].
      apply IHc; [|exact H]. apply Hk. cbn [dk_kind_classes].
      apply find_some in Ef. destruct Ef as [Hin _]. apply (in_map snd) in Hin. exact Hin.
    - induction alts as [|a r IHa]; [rewrite !try_alts_nil; constructor|].
      rewrite !try_alts_cons. rewrite dk_union_cons in Hk.
      assert (Ha : orel (alt_res (pk f) a v) (alt_res (pk f) a v')).
      { destruct a as [k'|lo hi k']; cbn [alt_res].
        + apply IHk; [|exact H]. intros x Hx. apply Hk. apply in_or_app. left. exact Hx.
        + apply list_items_jperm; [exact IHk| |exact H]. intros x Hx. apply Hk. apply in_or_app. left. exact Hx. }
      destruct Ha as [x y Hxy|e]; [constructor; exact Hxy|].
      assert (Hr : orel (try_alts (pk f) v r) (try_alts (pk f) v' r)).
      { apply IHa. intros x Hx. apply Hk. apply in_or_app. right. exact Hx. }
      destruct e; try exact Hr. constructor.
  Qed.

  Lemma step_cls : forall f, Pk f -> Pc (S f).
  Proof.
    intros f IHk c v v' Hc H. rewrite !parse_cls_S.
    destruct (lookup_cls SC c) as [c0|] eqn:El;
      [|destruct H; constructor].
    destruct H as [|b|z|m e|s|l l' Hl|ms mid ms' Hnd Hm Hp]; try constructor.
    assert (HJ : jperm (JObj ms) (JObj ms')) by (econstructor; eassumption).
    rewrite (Hpre c _ _ HJ). destruct (negb (pre c (JObj ms'))); [constructor|].
    rewrite (extra_bad_jperm c0 ms mid ms' Hm Hp). destruct (extra_bad c0 ms'); [constructor|].
    assert (Hf : olrel (Forall2 (mrel mperm))
                       (mapM (parse_field (pk f) ms) (c_fields c0)) (mapM (parse_field (pk f) ms') (c_fields c0))).
    { apply (mapM_F2 _ _ (fun a b => a = b /\ In a (c_fields c0))).
      { apply Forall2_refl_in, Forall_forall. intros fl Hfl. split; [reflexivity|exact Hfl]. }
      intros fl ? [<- Hfl]. unfold parse_field. destruct (closed c c0 Hc El fl Hfl) as [Hk Hd].
      assert (Hv : orel (parse_value (pk f) fl (field_raw ms fl)) (parse_value (pk f) fl (field_raw ms' fl))).
      { apply parse_value_jperm; try assumption.
        change (jperm (jget (f_alias fl) (JObj ms)) (jget (f_alias fl) (JObj ms'))). apply jperm_jget. exact HJ. }
      destruct Hv as [x y Hxy|e]; cbn [bind]; constructor. split; [reflexivity|exact Hxy]. }
    destruct Hf as [u w Huw|e]; cbn [bind]; [|constructor].
    rewrite (Hpost c _ _ u w Hc HJ Huw). destruct (post c (JObj ms') w); constructor.
    constructor. exact Huw.
  Qed.

  Lemma step : forall f, Pk f -> Pc f -> Pk (S f) /\ Pc (S f).
  Proof. intros f IHk IHc. split; [apply step_kind; assumption|apply step_cls; exact IHk]. Qed.

  Theorem parse_jperm : forall f, Pk f /\ Pc f.
  Proof.
    induction f as [|f [IHk IHc]].
    - split; intros ? ? ? _ _; constructor.
    - apply step; assumption.
  Qed.
End Congruence.

Lemma forallb_F2 : forall (A : Type) (R : A -> A -> Prop) (p q : A -> bool) l l',
  Forall2 R l l' -> (forall x y, R x y -> p x = q y) -> forallb p l = forallb q l'.
Proof.
  intros A R p q l l' H Hpq. induction H as [|x y l l' Hxy _ IH]; [reflexivity|].
  cbn [forallb]. rewrite (Hpq x y Hxy), IH. reflexivity.
Qed.

Lemma existsb_F2 : forall (A : Type) (R : A -> A -> Prop) (p q : A -> bool) l l',
  Forall2 R l l' -> (forall x y, R x y -> p x = q y) -> existsb p l = existsb q l'.
Proof.
  intros A R p q l l' H Hpq. induction H as [|x y l l' Hxy _ IH]; [reflexivity|].
  cbn [existsb]. rewrite (Hpq x y Hxy), IH. reflexivity.
Qed.

Lemma fget_rel : forall name fs fs', frel fs fs' -> mperm (fget name fs) (fget name fs').
Proof.
  intros name fs fs' H. unfold fget, mfield.
  induction H as [|[k1 v1] [k2 v2] l l' [Hk Hv] _ IH]; [constructor|].
  cbn [fst snd] in Hk, Hv. subst k2. cbn [lookup_s]. destruct (String.eqb k1 name); [exact Hv|exact IH].
Qed.

Lemma mstr_rel : forall a b, mperm a b -> mstr a = mstr b.
Proof. intros a b H. destruct H; reflexivity. Qed.

Lemma num_of_rel : forall a b, mperm a b -> num_of a = num_of b.
Proof. intros a b H. destruct H; reflexivity. Qed.

Lemma is_none_rel : forall a b, mperm a b -> is_none a = is_none b.
Proof. intros a b H. destruct H; reflexivity. Qed.

Lemma mitems_rel : forall a b, mperm a b -> Forall2 mperm (mitems a) (mitems b).
Proof. intros a b H. destruct H; try constructor. assumption. Qed.

Lemma model_fields_rel : forall a b, mperm a b -> frel (model_fields a) (model_fields b).
Proof. intros a b H. destruct H; try constructor. assumption. Qed.

Lemma mitems_length_rel : forall a b, mperm a b -> List.length (mitems a) = List.length (mitems b).
Proof. intros a b H. apply (Forall2_length _ _ _ _ _ (mitems_rel a b H)). Qed.

(* [match v with MNone => true | _ => X end] *)
Lemma none_or_rel : forall (a b : mval) (X Y : bool), mperm a b -> X = Y ->
  (match a with MNone => true | _ => X end) = (match b with MNone => true | _ => Y end).
Proof. intros a b X Y H E. destruct H; try reflexivity; exact E. Qed.

(* [match v with MList (_ :: _) => true | _ => false end], [match v with MList [] => false | _ => true end] *)
Lemma nonempty_list_rel : forall a b, mperm a b ->
  (match a with MList (_ :: _) => true | _ => false end) = (match b with MList (_ :: _) => true | _ => false end).
Proof. intros a b H. destruct H as [| | | | | | |l l' Hl| |]; try reflexivity. destruct Hl; reflexivity. Qed.

Lemma empty_list_rel : forall a b, mperm a b ->
  (match a with MList [] => false | _ => true end) = (match b with MList [] => false | _ => true end).
Proof. intros a b H. destruct H as [| | | | | | |l l' Hl| |]; try reflexivity. destruct Hl; reflexivity. Qed.

(* the one validator that looks at a dictionary: Environment, "variables must not be empty" *)
Lemma empty_dict_rel : forall a b, mperm a b ->
  (match a with MDict [] => false | _ => true end) = (match b with MDict [] => false | _ => true end).
Proof.
  intros a b H. destruct H as [| | | | | | | |l mid l' Hm Hp|]; try reflexivity.
  destruct Hm as [|x y r r' _ _].
  - apply Permutation_nil in Hp. subst l'. reflexivity.
  - destruct l' as [|z l']; [|reflexivity]. apply Permutation_sym, Permutation_nil in Hp. discriminate Hp.
Qed.

Lemma names_of_rel : forall a b, mperm a b -> names_of a = names_of b.
Proof.
  intros a b H. unfold names_of. apply (map_F2_eq _ _ mperm); [apply mitems_rel; exact H|].
  intros x y Hxy. apply mstr_rel. apply fget_rel. apply model_fields_rel. exact Hxy.
Qed.

Lemma unique_names_rel : forall a b, mperm a b -> unique_names a = unique_names b.
Proof.
  intros a b H. unfold unique_names. apply none_or_rel; [exact H|]. rewrite (names_of_rel a b H). reflexivity.
Qed.

Lemma dep_names_rel : forall a b, mperm a b -> dep_names a = dep_names b.
Proof.
  intros a b H. unfold dep_names. apply (map_F2_eq _ _ mperm).
  - apply mitems_rel. apply fget_rel. apply model_fields_rel. exact H.
  - intros x y Hxy. apply mstr_rel. apply fget_rel. apply model_fields_rel. exact Hxy.
Qed.

Lemma dep_job_rel : forall a b, mperm a b -> dep_job a = dep_job b.
Proof.
  intros a b H. unfold dep_job. rewrite (names_of_rel a b H).
  apply F2_eq. apply (combine_F2 _ _ _ mperm); [apply mitems_rel; exact H|].
  intros i x y Hxy. cbn [fst snd]. rewrite (dep_names_rel x y Hxy). reflexivity.
Qed.

Ltac frel_field Hfs n :=
  match type of Hfs with
  | Forall2 _ ?fs ?fs' =>
    let H := fresh "Hf" in let a := fresh "a" in let b := fresh "b" in
    pose proof (fget_rel n fs fs' Hfs) as H;
    set (a := fget n fs) in *; set (b := fget n fs') in *; clearbody a b
  end.

Section Validators.
  Variable classify : N -> cclass.

  Lemma fmt_items_rel : forall l l', Forall2 mperm l l' ->
    forallb (fun it => match it with MFmt s => has_refs classify s | _ => true end) l
    = forallb (fun it => match it with MFmt s => has_refs classify s | _ => true end) l'.
  Proof. intros l l' H. apply (forallb_F2 _ mperm); [exact H|]. intros x y Hxy. destruct Hxy; reflexivity. Qed.

  Lemma len_within_rel : forall a a' b b' s, mperm a a' -> mperm b b' -> len_within a b s = len_within a' b' s.
  Proof. intros a a' b b' s Ha Hb. unfold len_within. destruct Ha, Hb; reflexivity. Qed.

  Lemma opt_le_rel : forall a a' b b', mperm a a' -> mperm b b' -> opt_le a b = opt_le a' b'.
  Proof. intros a a' b b' Ha Hb. unfold opt_le. rewrite (num_of_rel a a' Ha), (num_of_rel b b' Hb). reflexivity. Qed.

  Lemma num_within_rel : forall a a' b b' v v', mperm a a' -> mperm b b' -> mperm v v' ->
    num_within a b v = num_within a' b' v'.
  Proof.
    intros a a' b b' v v' Ha Hb Hv. unfold num_within.
    rewrite (opt_le_rel a a' v v' Ha Hv), (opt_le_rel v v' b b' Hv Hb). reflexivity.
  Qed.

  Lemma has_allowed_rel : forall fs fs', frel fs fs' -> has_allowed fs = has_allowed fs'.
  Proof. intros fs fs' H. unfold has_allowed. apply nonempty_list_rel. apply fget_rel. exact H. Qed.

  Lemma control_of_rel : forall fs fs', frel fs fs' -> control_of fs = control_of fs'.
  Proof.
    intros fs fs' H. unfold control_of. frel_field H "userInterface".
    destruct Hf as [| | | | | | | | |c u u' Hu]; try reflexivity.
    rewrite (mstr_rel _ _ (fget_rel "control" u u' Hu)). reflexivity.
  Qed.

  Lemma string_param_ok_rel : forall fs fs', frel fs fs' -> string_param_ok fs = string_param_ok fs'.
  Proof.
    intros fs fs' H. unfold string_param_ok. cbv zeta.
    frel_field H "minLength". frel_field H "maxLength". frel_field H "allowedValues". frel_field H "default".
    assert (E1 : (match a with MInt x => (0 <? x)%Z | _ => true end) = (match b with MInt x => (0 <? x)%Z | _ => true end))
      by (destruct Hf; reflexivity).
    assert (E2 : (match a0 with MInt x => (0 <? x)%Z | _ => true end) = (match b0 with MInt x => (0 <? x)%Z | _ => true end))
      by (destruct Hf0; reflexivity).
    rewrite E1, E2, (opt_le_rel a b a0 b0 Hf Hf0).
    assert (E4 : forallb (fun it => len_within a a0 (mstr it)) (mitems a1)
                 = forallb (fun it => len_within b b0 (mstr it)) (mitems b1)).
    { apply (forallb_F2 _ mperm); [apply mitems_rel; exact Hf1|].
      intros x y Hxy. rewrite (mstr_rel x y Hxy). apply len_within_rel; assumption. }
    rewrite E4. f_equal.
    destruct Hf2; try reflexivity.
    rewrite (len_within_rel a b a0 b0 s Hf Hf0). f_equal.
    apply none_or_rel; [exact Hf1|].
    apply (existsb_F2 _ mperm); [apply mitems_rel; exact Hf1|].
    intros x y Hxy. rewrite (mstr_rel x y Hxy). reflexivity.
  Qed.

  Lemma string_ui_ok_rel : forall fs fs', frel fs fs' -> string_ui_ok fs = string_ui_ok fs'.
  Proof.
    intros fs fs' H. unfold string_ui_ok.
    rewrite (control_of_rel fs fs' H), (has_allowed_rel fs fs' H).
    destruct (control_of fs') as [ctl|]; [|reflexivity].
    f_equal. destruct (str_eqb ctl $"CHECK_BOX"); [|reflexivity].
    frel_field H "allowedValues".
    assert (E : map (fun it => upper_s (mstr it)) (mitems a) = map (fun it => upper_s (mstr it)) (mitems b)).
    { apply (map_F2_eq _ _ mperm); [apply mitems_rel; exact Hf|].
      intros x y Hxy. rewrite (mstr_rel x y Hxy). reflexivity. }
    destruct Hf; try reflexivity; cbv zeta; rewrite E; reflexivity.
  Qed.

  Lemma path_ui_ok_rel : forall fs fs', frel fs fs' -> path_ui_ok fs = path_ui_ok fs'.
  Proof.
    intros fs fs' H. unfold path_ui_ok. rewrite (has_allowed_rel fs fs' H).
    rewrite (mstr_rel _ _ (fget_rel "objectType" fs fs' H)).
    frel_field H "userInterface".
    destruct Hf as [| | | | | | | | |c u u' Hu]; try reflexivity.
    cbv zeta.
    rewrite (mstr_rel _ _ (fget_rel "control" u u' Hu)).
    rewrite (nonempty_list_rel _ _ (fget_rel "fileFilters" u u' Hu)).
    rewrite (is_none_rel _ _ (fget_rel "fileFilterDefault" u u' Hu)). reflexivity.
  Qed.

  Lemma num_param_ok_rel : forall fs fs', frel fs fs' -> num_param_ok fs = num_param_ok fs'.
  Proof.
    intros fs fs' H. unfold num_param_ok. cbv zeta.
    frel_field H "minValue". frel_field H "maxValue". frel_field H "allowedValues". frel_field H "default".
    rewrite (opt_le_rel a b a0 b0 Hf Hf0).
    assert (E2 : forallb (num_within a a0) (mitems a1) = forallb (num_within b b0) (mitems b1)).
    { apply (forallb_F2 _ mperm); [apply mitems_rel; exact Hf1|].
      intros x y Hxy. apply num_within_rel; assumption. }
    rewrite E2. f_equal.
    rewrite (num_of_rel a2 b2 Hf2). destruct (num_of b2) as [d|]; [|reflexivity].
    rewrite (num_within_rel a b a0 b0 a2 b2 Hf Hf0 Hf2). f_equal.
    apply none_or_rel; [exact Hf1|].
    apply (existsb_F2 _ mperm); [apply mitems_rel; exact Hf1|].
    intros x y Hxy. rewrite (num_of_rel x y Hxy). reflexivity.
  Qed.

  Lemma num_ui_ok_rel : forall fs fs', frel fs fs' -> num_ui_ok fs = num_ui_ok fs'.
  Proof.
    intros fs fs' H. unfold num_ui_ok. rewrite (has_allowed_rel fs fs' H).
    frel_field H "userInterface".
    destruct Hf as [| | | | | | | | |c u u' Hu]; try reflexivity.
    cbv zeta.
    rewrite (mstr_rel _ _ (fget_rel "control" u u' Hu)).
    rewrite (num_of_rel _ _ (fget_rel "singleStepDelta" u u' Hu)). reflexivity.
  Qed.

  Lemma attribute_list_ok_rel : forall n n' v v' f, mperm n n' -> mperm v v' ->
    attribute_list_ok classify n v f = attribute_list_ok classify n' v' f.
  Proof.
    intros n n' v v' f Hn Hv. unfold attribute_list_ok. apply none_or_rel; [exact Hv|].
    destruct Hn; try reflexivity. cbv zeta.
    destruct (List.find (fun e => str_eqb (lower_s s) (str_of_string (fst e))) std_attr_caps) as [[k [values multivalued]]|].
    - rewrite (mitems_length_rel v v' Hv). f_equal.
      apply (forallb_F2 _ mperm); [apply mitems_rel; exact Hv|].
      intros x y Hxy. rewrite (mstr_rel x y Hxy). reflexivity.
    - apply (forallb_F2 _ mperm); [apply mitems_rel; exact Hv|].
      intros x y Hxy. rewrite (mstr_rel x y Hxy). reflexivity.
  Qed.

  Lemma job_template_ok_rel : forall raw raw' fs fs', jperm raw raw' -> frel fs fs' ->
    job_template_ok classify raw fs = job_template_ok classify raw' fs'.
  Proof.
    intros raw raw' fs fs' Hr H. unfold job_template_ok. cbv zeta.
    pose proof (fget_rel "steps" fs fs' H) as Hs.
    pose proof (fget_rel "jobEnvironments" fs fs' H) as He.
    rewrite (names_of_rel _ _ Hs), (dep_job_rel _ _ Hs).
    rewrite (unique_names_rel _ _ (fget_rel "parameterDefinitions" fs fs' H)).
    rewrite (unique_names_rel _ _ He).
    unfold env_names. rewrite (names_of_rel _ _ He).
    change (match prevalidate schema (fs_refs classify) "JobTemplate" raw with [] => true | _ => false end)
      with (no_errors (prevalidate schema (fs_refs classify) "JobTemplate" raw)).
    change (match prevalidate schema (fs_refs classify) "JobTemplate" raw' with [] => true | _ => false end)
      with (no_errors (prevalidate schema (fs_refs classify) "JobTemplate" raw')).
    rewrite (no_errors_perm _ _ (proj1 (prevalidate_jperm (fs_refs classify) raw raw' Hr))).
    f_equal; [f_equal|].
    - apply (forallb_F2 _ mperm); [apply mitems_rel; exact Hs|].
      intros x y Hxy. rewrite (dep_names_rel x y Hxy). reflexivity.
    - apply (forallb_F2 _ mperm); [apply mitems_rel; exact Hs|].
      intros x y Hxy.
      rewrite (names_of_rel _ _ (fget_rel "stepEnvironments" _ _ (model_fields_rel x y Hxy))). reflexivity.
  Qed.

  Lemma pre_hook_jperm : forall c v v', jperm v v' -> pre_hook c v = pre_hook c v'.
  Proof.
    intros c v v' H. unfold pre_hook.
    assert (Hnull : forall n, is_null (jget n v) = is_null (jget n v')).
    { intros n. apply jperm_is_null. apply jperm_jget. exact H. }
    assert (Harr : forall p n, (forall x y, jperm x y -> p x = p y) ->
              (match jget n v with JArr items => forallb p items | _ => true end)
              = (match jget n v' with JArr items => forallb p items | _ => true end)).
    { intros p n Hp. pose proof (jperm_jget v v' H n) as Hn. jcase Hn; try reflexivity.
      apply (forallb_F2 _ jperm); assumption. }
    assert (Hnor : forall p n, (forall x y, jperm x y -> p x = p y) ->
              raw_null_or p (jget n v) = raw_null_or p (jget n v')).
    { intros p n Hp. pose proof (jperm_jget v v' H n) as Hn. unfold raw_null_or.
      rewrite (Hp _ _ Hn). jcase Hn; reflexivity. }
    assert (Hi : forall x y, jperm x y -> raw_int_or_str x = raw_int_or_str y) by (intros x y Hxy; destruct Hxy; reflexivity).
    assert (Hn : forall x y, jperm x y -> raw_num_or_str x = raw_num_or_str y) by (intros x y Hxy; destruct Hxy; reflexivity).
    repeat (apply if_cong; intros _;
            [rewrite ?Hnull, ?(Harr _ _ Hi), ?(Harr _ _ Hn), ?(Hnor _ _ Hi); reflexivity|]).
    reflexivity.
  Qed.

  (* every post validator of Validators.v, on jperm-related raw objects and mperm-related parsed
     fields.  The one class left out, StepParameterSpace, is a job-side target class (it is not
     below the template roots): its validator looks dictionary members up BY KEY, which is
     order-insensitive only for distinct keys, and [mperm] does not record distinctness. *)
  Theorem post_hook_mperm : forall c raw raw' fs fs', c <> "StepParameterSpace" ->
    jperm raw raw' -> frel fs fs' -> post_hook classify c raw fs = post_hook classify c raw' fs'.
  Proof.
    intros c raw raw' fs fs' Hc Hr H. unfold post_hook.
    (* one [if_cong] per class test of [post_hook], in its order *)
    apply if_cong; intros _.
    { apply unique_names_rel. apply fget_rel. exact H. }
    apply if_cong; intros _.
    { frel_field H "range". destruct Hf; try reflexivity. apply fmt_items_rel. assumption. }
    apply if_cong; intros _.
    { apply fmt_items_rel. apply mitems_rel. apply fget_rel. exact H. }
    apply if_cong; intros _.
    { cbv zeta. rewrite (names_of_rel _ _ (fget_rel "taskParameterDefinitions" fs fs' H)). f_equal.
      frel_field H "combination". destruct Hf; reflexivity. }
    apply if_cong; intros _.
    { apply empty_dict_rel. apply fget_rel. exact H. }
    apply if_cong; intros _.
    { rewrite (string_param_ok_rel fs fs' H), (string_ui_ok_rel fs fs' H). reflexivity. }
    apply if_cong; intros _.
    { rewrite (string_param_ok_rel fs fs' H), (path_ui_ok_rel fs fs' H). reflexivity. }
    apply if_cong; intros _.
    { rewrite (num_param_ok_rel fs fs' H), (num_ui_ok_rel fs fs' H). reflexivity. }
    apply if_cong; intros _.
    { rewrite (mstr_rel _ _ (fget_rel "name" fs fs' H)).
      rewrite (num_of_rel _ _ (fget_rel "min" fs fs' H)), (num_of_rel _ _ (fget_rel "max" fs fs' H)).
      rewrite (opt_le_rel _ _ _ _ (fget_rel "min" fs fs' H) (fget_rel "max" fs fs' H)). reflexivity. }
    apply if_cong; intros _.
    { rewrite (mstr_rel _ _ (fget_rel "name" fs fs' H)).
      rewrite (attribute_list_ok_rel _ _ _ _ false (fget_rel "name" fs fs' H) (fget_rel "anyOf" fs fs' H)).
      rewrite (attribute_list_ok_rel _ _ _ _ true (fget_rel "name" fs fs' H) (fget_rel "allOf" fs fs' H)).
      reflexivity. }
    apply if_cong; intros _.
    { cbv zeta.
      pose proof (fget_rel "amounts" fs fs' H) as Ha. pose proof (fget_rel "attributes" fs fs' H) as Hb.
      rewrite (empty_list_rel _ _ Ha), (empty_list_rel _ _ Hb), (is_none_rel _ _ Ha), (is_none_rel _ _ Hb).
      rewrite (mitems_length_rel _ _ Ha), (mitems_length_rel _ _ Hb). reflexivity. }
    apply if_cong; intros _.
    { cbv zeta.
      assert (Hm : mperm (MModel c fs) (MModel c fs')) by (constructor; exact H).
      rewrite (dep_names_rel _ _ Hm).
      rewrite (unique_names_rel _ _ (fget_rel "stepEnvironments" fs fs' H)).
      rewrite (mstr_rel _ _ (fget_rel "name" fs fs' H)). reflexivity. }
    apply if_cong; intros _.
    { rewrite (mstr_rel _ _ (fget_rel "range" fs fs' H)). reflexivity. }
    apply if_cong; intros _.
    { apply (forallb_F2 _ mperm); [apply mitems_rel; apply fget_rel; exact H|].
      intros x y Hxy. rewrite (mstr_rel x y Hxy). reflexivity. }
    apply if_cong; intros _.
    { apply (forallb_F2 _ mperm); [apply mitems_rel; apply fget_rel; exact H|].
      intros x y Hxy. rewrite (mstr_rel x y Hxy). reflexivity. }
    apply if_cong; intros E.
    { apply String.eqb_eq in E. contradiction. }
    apply if_cong; intros _.
    { apply job_template_ok_rel; assumption. }
    apply if_cong; intros _.
    { rewrite (unique_names_rel _ _ (fget_rel "parameterDefinitions" fs fs' H)). f_equal.
      change (no_errors (prevalidate schema (fs_refs classify) "EnvironmentTemplate" raw)
              = no_errors (prevalidate schema (fs_refs classify) "EnvironmentTemplate" raw')).
      apply no_errors_perm. apply (prevalidate_jperm (fs_refs classify) raw raw' Hr). }
    reflexivity.
  Qed.
End Validators.

(* the classes below the two template roots: least set containing the roots and closed under
   "class of a field", computed from Generated.schema *)
Definition field_classes (SC : schema_t) (c : string) : list string :=
  match lookup_cls SC c with
  | Some c0 => flat_map (fun fl => dk_kind_classes (f_kind fl)) (c_fields c0)
  | None => []
  end.

Fixpoint add_new (acc l : list string) : list string :=
  match l with
  | [] => acc
  | x :: r => if mem_s x acc then add_new acc r else add_new (acc ++ [x]) r
  end.

Fixpoint reach (SC : schema_t) (fuel : nat) (acc : list string) : list string :=
  match fuel with
  | O => acc
  | S f => reach SC f (add_new acc (flat_map (field_classes SC) acc))
  end.

(* evaluated here, once: the three facts below then only read the list *)
Definition RT : list string := Eval vm_compute in
  reach Generated.schema (List.length Generated.schema) ["JobTemplate"; "EnvironmentTemplate"].

Lemma RT_closed : dk_closedb Generated.schema RT = true.
Proof. vm_compute. reflexivity. Qed.

Lemma RT_roots : In "JobTemplate" RT /\ In "EnvironmentTemplate" RT.
Proof. split; apply (proj1 (mem_s_In _ _)); vm_compute; reflexivity. Qed.

Lemma RT_no_sps : mem_s "StepParameterSpace" RT = false.
Proof. vm_compute. reflexivity. Qed.

Section Live.
  Variable classify : N -> cclass.
  Notation pk := (parse_kind Generated.schema classify pre_hook (post_hook classify)).
  Notation pc := (parse_cls Generated.schema classify pre_hook (post_hook classify)).

  Lemma live_parse_jperm : forall f,
    Pk Generated.schema classify pre_hook (post_hook classify) RT f /\
    Pc Generated.schema classify pre_hook (post_hook classify) RT f.
  Proof.
    apply parse_jperm.
    - apply dk_closedb_sound. exact RT_closed.
    - apply pre_hook_jperm.
    - intros c v v' fs fs' Hc Hv Hfs. apply post_hook_mperm; [|exact Hv|exact Hfs].
      intros ->. apply (proj2 (mem_s_In _ _)) in Hc. rewrite RT_no_sps in Hc. discriminate Hc.
  Qed.

  Lemma version_ok_jperm : forall vs j j', jperm j j' -> version_ok vs j = version_ok vs j'.
  Proof.
    intros vs j j' H. unfold version_ok. pose proof (jperm_jget j j' H "specificationVersion") as Hn.
    jcase Hn; reflexivity.
  Qed.

  Lemma parse_template_jperm : forall root j j', In root RT -> jperm j j' ->
    orel (parse_template classify root j) (parse_template classify root j').
  Proof.
    intros root j j' Hroot H. unfold parse_template, parse_root, parse_fuel.
    rewrite (json_depth_jperm j j' H). apply (proj2 (live_parse_jperm _)); assumption.
  Qed.

  Theorem decode_job_jperm : forall j j', jperm j j' -> orel (decode_job classify j) (decode_job classify j').
  Proof.
    intros j j' H. unfold decode_job. rewrite (version_ok_jperm _ j j' H).
    pose proof (parse_template_jperm "JobTemplate" j j' (proj1 RT_roots) H) as Hp.
    destruct H; try constructor.
    match goal with |- context [version_ok ?a ?b] => destruct (version_ok a b) end; [exact Hp|constructor].
  Qed.

  Theorem decode_env_jperm : forall j j', jperm j j' -> orel (decode_env classify j) (decode_env classify j').
  Proof.
    intros j j' H. unfold decode_env. rewrite (version_ok_jperm _ j j' H).
    pose proof (parse_template_jperm "EnvironmentTemplate" j j' (proj2 RT_roots) H) as Hp.
    destruct H; try constructor.
    match goal with |- context [version_ok ?a ?b] => destruct (version_ok a b) end; [exact Hp|constructor].
  Qed.
End Live.

Theorem deep_key_order_walk : forall refs j j', jperm j j' ->
  Permutation (spec_job_template refs j) (spec_job_template refs j') /\
  Permutation (spec_env_template refs j) (spec_env_template refs j') /\
  Permutation (prevalidate Generated.schema refs "JobTemplate" j) (prevalidate Generated.schema refs "JobTemplate" j') /\
  Permutation (prevalidate Generated.schema refs "EnvironmentTemplate" j)
              (prevalidate Generated.schema refs "EnvironmentTemplate" j').
Proof.
  intros refs j j' H. split; [apply spec_job_jperm; exact H|].
  split; [apply spec_env_template_jperm; exact H|]. apply prevalidate_jperm. exact H.
Qed.

Lemma perm_nil_iff : forall (A : Type) (l l' : list A), Permutation l l' -> (l = [] <-> l' = []).
Proof.
  intros A l l' H. split; intros ->.
  - apply Permutation_nil. exact H.
  - apply Permutation_nil. apply Permutation_sym. exact H.
Qed.

Theorem deep_key_order_walk_verdict : forall refs j j', jperm j j' ->
  (prevalidate Generated.schema refs "JobTemplate" j = [] <-> prevalidate Generated.schema refs "JobTemplate" j' = []) /\
  (prevalidate Generated.schema refs "EnvironmentTemplate" j = []
   <-> prevalidate Generated.schema refs "EnvironmentTemplate" j' = []).
Proof.
  intros refs j j' H. destruct (prevalidate_jperm refs j j' H) as [H1 H2].
  split; apply perm_nil_iff; assumption.
Qed.

Theorem deep_key_order_decode : forall classify j j', jperm j j' ->
  orel (decode_job classify j) (decode_job classify j') /\
  orel (decode_env classify j) (decode_env classify j').
Proof. intros classify j j' H. split; [apply decode_job_jperm|apply decode_env_jperm]; exact H. Qed.

Theorem deep_key_order_verdict : forall classify j j', jperm j j' ->
  is_ok (decode_job classify j) = is_ok (decode_job classify j') /\
  is_ok (decode_env classify j) = is_ok (decode_env classify j').
Proof.
  intros classify j j' H. destruct (deep_key_order_decode classify j j' H) as [H1 H2].
  split; eapply olrel_is_ok; eassumption.
Qed.

Fixpoint jrev (j : json) : json :=
  match j with
  | JArr l => JArr (map jrev l)
  | JObj ms => JObj (rev (map (fun kv => (fst kv, jrev (snd kv))) ms))
  | _ => j
  end.

(* every object of the document has distinct keys *)
Fixpoint keys_ok (j : json) : bool :=
  match j with
  | JArr l => forallb keys_ok l
  | JObj ms => nodupb (map fst ms) && forallb (fun kv => keys_ok (snd kv)) ms
  | _ => true
  end.

Lemma nodupb_NoDup : forall l, nodupb l = true -> NoDup l.
Proof. exact str_nodupb_NoDup. Qed.

Theorem jperm_jrev : forall j, keys_ok j = true -> jperm j (jrev j).
Proof.
  intros j. induction j as [|b|z|m e|s|l IH|ms IH] using json_ind2; intros H; try constructor.
  - cbn [keys_ok] in H. induction IH as [|x r Px _ IHr]; [constructor|].
    cbn [forallb] in H. apply andb_true_iff in H. destruct H as [H1 H2].
    cbn [map]. constructor; [exact (Px H1)|exact (IHr H2)].
  - cbn [keys_ok] in H. apply andb_true_iff in H. destruct H as [Hnd Hall].
    cbn [jrev]. apply (JP_obj ms (map (fun kv => (fst kv, jrev (snd kv))) ms)).
    + apply nodupb_NoDup. exact Hnd.
    + clear Hnd. induction IH as [|x r Px _ IHr]; [constructor|].
      cbn [forallb] in Hall. apply andb_true_iff in Hall. destruct Hall as [H1 H2].
      cbn [map]. constructor; [split; [reflexivity|exact (Px H1)]|exact (IHr H2)].
    + apply Permutation_rev.
Qed.

(* StepParameterSpace (job side; not run by decoding): the range lengths are looked up BY KEY in
   the dictionary of task parameters, so the result does not depend on member order as long as the
   keys are distinct — which [mperm] does not record, hence the explicit premise. *)
Section SPS.
  Variable classify : N -> cclass.

  Definition sps_entry (kv : str * mval) : list (str * N) :=
    match fget "range" (model_fields (snd kv)) with
    | MList items => [(fst kv, N.of_nat (List.length items))]
    | MFmt r | MStr r =>
      match RangeExpr.from_str false false classify r with
      | Ok e => if Z.ltb (RangeExpr.elen e) (2 ^ 63) then [(fst kv, Z.to_N (RangeExpr.elen e))] else []
      | Raise _ => []
      end
    | _ => []
    end.

  Definition sps_ok (fs : list (string * mval)) : bool :=
    match fget "combination" fs with
    | MStr s =>
      match Comb.dims_str classify
              (Comb.lookup_len (flat_map sps_entry (match fget "taskParameterDefinitions" fs with MDict l => l | _ => [] end))) s with
      | Ok _ => true
      | Raise _ => false
      end
    | _ => true
    end.

  Lemma post_hook_sps_eq : forall raw fs, post_hook classify "StepParameterSpace" raw fs = sps_ok fs.
  Proof. reflexivity. Qed.

  Lemma sps_entry_rel : forall kv kv', mrel mperm kv kv' -> sps_entry kv = sps_entry kv'.
  Proof.
    intros [k v] [k' v'] [Hk Hv]. cbn [fst snd] in Hk, Hv. subst k'. unfold sps_entry. cbn [fst snd].
    pose proof (fget_rel "range" _ _ (model_fields_rel v v' Hv)) as Hr.
    set (a := fget "range" (model_fields v)) in *. set (b := fget "range" (model_fields v')) in *. clearbody a b.
    destruct Hr as [| | | | | | |l l' Hl| |]; try reflexivity. rewrite (Forall2_length _ _ _ _ _ Hl). reflexivity.
  Qed.

  Lemma sps_entry_small : forall kv, sps_entry kv = [] \/ exists n, sps_entry kv = [(fst kv, n)].
  Proof.
    intros kv. unfold sps_entry.
    destruct (fget "range" (model_fields (snd kv))) as [| | | | |r|r|items| |]; try (left; reflexivity).
    - destruct (RangeExpr.from_str false false classify r) as [e|e]; [|left; reflexivity].
      destruct (Z.ltb (RangeExpr.elen e) (2 ^ 63)); [right; eexists; reflexivity|left; reflexivity].
    - destruct (RangeExpr.from_str false false classify r) as [e|e]; [|left; reflexivity].
      destruct (Z.ltb (RangeExpr.elen e) (2 ^ 63)); [right; eexists; reflexivity|left; reflexivity].
    - right. eexists. reflexivity.
  Qed.

  Lemma sps_entry_keys : forall kv k, In k (map fst (sps_entry kv)) -> k = fst kv.
  Proof.
    intros kv k H. destruct (sps_entry_small kv) as [E|[n E]]; rewrite E in H; [contradiction|].
    destruct H as [<-|[]]. reflexivity.
  Qed.

  Lemma sps_keys_in : forall l k, In k (map fst (flat_map sps_entry l)) -> In k (map fst l).
  Proof.
    induction l as [|kv r IH]; intros k H; [exact H|].
    cbn [flat_map] in H. rewrite map_app in H. apply in_app_or in H. destruct H as [H|H].
    - left. symmetry. apply sps_entry_keys. exact H.
    - right. apply IH. exact H.
  Qed.

  Lemma sps_keys_nodup : forall l, NoDup (map fst l) -> NoDup (map fst (flat_map sps_entry l)).
  Proof.
    induction l as [|kv r IH]; intros H; [constructor|].
    cbn [map] in H. inversion H as [|? ? Hnot Hr]; subst. cbn [flat_map].
    destruct (sps_entry_small kv) as [->|[n ->]]; cbn [app map fst]; [exact (IH Hr)|].
    constructor; [|exact (IH Hr)]. intros Hin. apply Hnot. apply sps_keys_in. exact Hin.
  Qed.

  Lemma lookup_len_assoc : forall al s, Comb.lookup_len al s = assoc s al.
  Proof. induction al as [|[k v] r IH]; intros s; [reflexivity|]. cbn [Comb.lookup_len assoc]. rewrite IH. reflexivity. Qed.

  Lemma map_o_ext : forall (f g : Comb.ctree -> outcome N) cs,
    Forall (fun c => f c = g c) cs -> Comb.map_o f cs = Comb.map_o g cs.
  Proof.
    intros f g cs H. induction H as [|c r Hc _ IH]; [reflexivity|].
    cbn [Comb.map_o]. rewrite Hc, IH. reflexivity.
  Qed.

  Lemma dims_ext : forall lens lens', (forall s, lens s = lens' s) ->
    forall t, Comb.dims lens t = Comb.dims lens' t.
  Proof.
    intros lens lens' H t. induction t as [s|cs IH|cs IH] using CombProofs.ctree_ind'.
    - cbn [Comb.dims]. rewrite H. reflexivity.
    - cbn [Comb.dims]. rewrite (map_o_ext _ _ cs IH). reflexivity.
    - cbn [Comb.dims]. rewrite (map_o_ext _ _ cs IH). reflexivity.
  Qed.

  Theorem post_hook_sps : forall raw raw' fs fs' l,
    frel fs fs' -> fget "taskParameterDefinitions" fs = MDict l -> NoDup (map fst l) ->
    post_hook classify "StepParameterSpace" raw fs = post_hook classify "StepParameterSpace" raw' fs'.
  Proof.
    intros raw raw' fs fs' l H El Hnd. rewrite !post_hook_sps_eq. unfold sps_ok.
    pose proof (fget_rel "combination" fs fs' H) as Hc.
    pose proof (fget_rel "taskParameterDefinitions" fs fs' H) as Ht. rewrite El in *.
    set (a := fget "combination" fs) in *. set (b := fget "combination" fs') in *. clearbody a b.
    destruct Hc; try reflexivity.
    set (t' := fget "taskParameterDefinitions" fs') in *. clearbody t'.
    inversion Ht as [| | | | | | | |l0 mid l' Hm Hp|]; subst.
    unfold Comb.dims_str. destruct (Comb.parse_str classify s) as [t|e]; [|reflexivity]. cbn [bind].
    assert (E : forall x, Comb.lookup_len (flat_map sps_entry l) x = Comb.lookup_len (flat_map sps_entry l') x).
    { intros x. rewrite !lookup_len_assoc.
      assert (E1 : flat_map sps_entry l = flat_map sps_entry mid).
      { apply (flat_map_F2_eq _ _ (mrel mperm)); [exact Hm|]. intros u w Huw. apply sps_entry_rel. exact Huw. }
      apply assoc_perm.
      - apply sps_keys_nodup. exact Hnd.
      - rewrite E1. rewrite !flat_map_concat_map. apply perm_concat_map. exact Hp. }
    rewrite (dims_ext _ _ E t). reflexivity.
  Qed.
End SPS.
