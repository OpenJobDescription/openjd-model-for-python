(* JobParamsProofs.v — the model of JobParams.v meets the specification of JobParamsSpec.v. *)
From Coq Require Import List NArith ZArith Bool Lia.
Import ListNotations.
Require Import OJD.Base OJD.ListLib OJD.Numerals OJD.NumeralsSpec OJD.NumeralsProofs OJD.JobParams OJD.JobParamsSpec.
Local Open Scope Z_scope.

Lemma lookup_notin : forall {A} k (l : list (str * A)), ~ In k (map fst l) -> lookup k l = None.
Proof.
  intros A k l. induction l as [|[k' v] r IH]; cbn; intro H; [reflexivity|].
  destruct (str_eqb k k') eqn:E.
  - apply str_eqb_eq in E. subst. exfalso. apply H. left. reflexivity.
  - apply IH. intro Hin. apply H. right. exact Hin.
Qed.

Lemma lookup_some_in : forall {A} k (l : list (str * A)) v, lookup k l = Some v -> In k (map fst l).
Proof.
  intros A k l. induction l as [|[k' v'] r IH]; cbn; intros v H; [discriminate|].
  destruct (str_eqb k k') eqn:E.
  - apply str_eqb_eq in E. left. symmetry. exact E.
  - right. eapply IH. exact H.
Qed.

Lemma lookup_in_some : forall {A} k (l : list (str * A)), In k (map fst l) -> exists v, lookup k l = Some v.
Proof.
  intros A k l H. destruct (lookup k l) eqn:E; [eauto|].
  exfalso. revert H E. induction l as [|[k' v'] r IH]; cbn; [tauto|].
  intros [H|H]; destruct (str_eqb k k') eqn:E; try discriminate.
  - subst. rewrite str_eqb_refl in E. discriminate.
  - intro. apply IH; assumption.
Qed.

Definition ve_only {A} (o : outcome A) : Prop := forall e, o = Raise e -> e = ValueError.

Lemma vfail_ok : forall b, vfail b = Ok tt <-> b = false.
Proof. intros []; cbn; split; intro H; try reflexivity; discriminate. Qed.

Lemma vfail_ve : forall b, ve_only (vfail b).
Proof. intros [] e; cbn; intro H; [injection H as <-; reflexivity|discriminate]. Qed.

Lemma ok_ve : forall {A} (a : A), ve_only (Ok a).
Proof. intros A a e H. discriminate. Qed.

Lemma andthen_ok : forall a b, (a ;;; b) = Ok tt <-> a = Ok tt /\ b = Ok tt.
Proof.
  intros [[]|e] b; cbn; split.
  - intro H. split; [reflexivity|exact H].
  - intros [_ H]. exact H.
  - discriminate.
  - intros [H _]. discriminate.
Qed.

Lemma andthen_ve : forall a b, ve_only a -> ve_only b -> ve_only (a ;;; b).
Proof.
  intros [[]|e] b Ha Hb e' H; cbn in H.
  - apply Hb. exact H.
  - apply Ha. exact H.
Qed.

Lemma opt_check_ve : forall {A} (o : option A) (f : A -> bool),
  ve_only (match o with Some x => vfail (f x) | None => Ok tt end).
Proof. intros A [x|] f; [apply vfail_ve|apply ok_ve]. Qed.

Lemma opt_check_ok : forall {A} (o : option A) (f : A -> bool),
  match o with Some x => vfail (f x) | None => Ok tt end = Ok tt <-> opt_all o (fun x => f x = false).
Proof. intros A [x|] f; cbn [opt_all]; [apply vfail_ok|split; trivial]. Qed.

(* the checks are truthiness tests: on a well-formed definition an empty list is not there to be skipped *)
Lemma truthy_list_all : forall {A} (o : option (list A)) (P : list A -> Prop),
  o <> Some [] -> (opt_all (truthy_list o) P <-> opt_all o P).
Proof. intros A [[|x l]|] P H; [contradiction H; reflexivity| |]; reflexivity. Qed.

(* ... and a zero length is skipped only where the test it stands for holds anyway *)
Lemma truthy_int_all : forall (o : option Z) (P : Z -> Prop),
  (o = Some 0 -> P 0) -> (opt_all (truthy_int o) P <-> opt_all o P).
Proof.
  intros [n|] P H; cbn [truthy_int opt_all]; [|tauto]. destruct (n =? 0) eqn:E; cbn [opt_all]; [|tauto].
  apply Z.eqb_eq in E. subst n. split; [intros _; exact (H eq_refl)|trivial].
Qed.

Lemma opt_all_iff : forall {A} (o : option A) (P Q : A -> Prop),
  (forall a, P a <-> Q a) -> (opt_all o P <-> opt_all o Q).
Proof. intros A [a|] P Q H; [apply H|reflexivity]. Qed.

Lemma checks3_iff : forall (a b c : outcome unit) (A B C : Prop),
  (a = Ok tt <-> A) -> (b = Ok tt <-> B) -> (c = Ok tt <-> C) -> ((a ;;; b ;;; c) = Ok tt <-> A /\ B /\ C).
Proof. intros a b c A B C Ha Hb Hc. rewrite !andthen_ok. tauto. Qed.

Lemma check_string_iff : forall d v, wf_def d -> (check_string d v = Ok tt <-> string_ok d v).
Proof.
  intros d v [_ [Wa Wm]]. apply checks3_iff; rewrite opt_check_ok.
  - rewrite (truthy_list_all _ _ Wa). apply opt_all_iff. intro l. rewrite negb_false_iff. apply mem_str_In.
  - rewrite truthy_int_all by (intros _; unfold slen; apply Z.ltb_ge; lia). apply opt_all_iff. intro n. apply Z.ltb_ge.
  - rewrite truthy_int_all by (intro E; contradiction (Wm E)). apply opt_all_iff. intro n. apply Z.ltb_ge.
Qed.

Lemma check_string_ve : forall d v, ve_only (check_string d v).
Proof. intros d v. unfold check_string. repeat apply andthen_ve; apply opt_check_ve. Qed.

Lemma check_number_iff : forall d x, wf_def d -> (check_number false d x = Ok tt <-> number_ok d x).
Proof.
  intros d x [Wa _]. unfold number_ok. rewrite <- and_assoc, and_comm.   (* the code tests allowedValues first *)
  apply checks3_iff; rewrite opt_check_ok.
  - rewrite (truthy_list_all _ _ Wa). apply opt_all_iff. intro l. rewrite negb_false_iff. apply mem_num_spec.
  - destruct (pminv d); apply opt_all_iff; intro b; apply num_ltb_false.
  - destruct (pmaxv d); apply opt_all_iff; intro b; apply num_ltb_false.
Qed.

Lemma check_number_ve : forall p d x, ve_only (check_number p d x).
Proof. intros p d x. unfold check_number. repeat apply andthen_ve; apply opt_check_ve. Qed.

Lemma raise_ve : forall {A}, ve_only (@Raise A ValueError).
Proof. intros A e H. injection H as <-. reflexivity. Qed.

Lemma check_constraints_ve : forall p d v, ve_only (check_constraints p d v).
Proof.
  intros p d v. unfold check_constraints, check_int, check_float.
  destruct (ptyp d); try apply check_string_ve.
  - destruct (parse_int v); [apply check_number_ve|apply raise_ve].
  - destruct (parse_dec v) as [[m e|neg|]|]; try apply raise_ve. apply check_number_ve.
Qed.

(* the per-value half of C10: a check passes exactly when the value satisfies the definition *)
Lemma check_constraints_iff : forall d v, wf_def d -> (check_constraints false d v = Ok tt <-> sat d v).
Proof.
  intros d v W. unfold check_constraints, sat, check_int, check_float.
  destruct (ptyp d); try (apply check_string_iff; exact W).
  - destruct (parse_int v) as [z|]; [|split; [discriminate|intros [z [E _]]; discriminate E]].
    rewrite check_number_iff by exact W. split.
    + intro H. exists z. auto.
    + intros [z' [E H]]. injection E as <-. exact H.
  - destruct (parse_dec v) as [[m e|neg|]|]; try (split; [discriminate|intros [m [e [E _]]]; discriminate E]).
    rewrite check_number_iff by exact W. split.
    + intro H. exists m, e. auto.
    + intros [m' [e' [E H]]]. injection E as <- <-. exact H.
Qed.

Lemma check_constraints_cases : forall p d v,
  check_constraints p d v = Ok tt \/ check_constraints p d v = Raise ValueError.
Proof.
  intros p d v. pose proof (check_constraints_ve p d v) as H.
  destruct (check_constraints p d v) as [[]|e]; [left; reflexivity|right].
  rewrite (H e eq_refl). reflexivity.
Qed.

Lemma filter_nil_iff : forall {A} (f : A -> bool) l, filter f l = [] <-> forall x, In x l -> f x = false.
Proof.
  intros A f l. induction l as [|a l IH]; cbn.
  - split; [intros _ x []|reflexivity].
  - destruct (f a) eqn:E.
    + split; [discriminate|]. intro H. specialize (H a (or_introl eq_refl)). congruence.
    + rewrite IH. split.
      * intros H x [<-|Hx]; auto.
      * intros H x Hx. apply H. right. exact Hx.
Qed.

Lemma count_if_zero : forall {A} (l : list A), count_if l = O <-> l = [].
Proof. intros A [|a l]; cbn; split; intro H; try reflexivity; discriminate. Qed.

Lemma finish_ok : forall n rv r, finish n rv = Ok r <-> n = O /\ r = rv.
Proof.
  intros [|n] rv r; cbn; split.
  - intro H. injection H as <-. auto.
  - intros [_ ->]. reflexivity.
  - discriminate.
  - intros [H _]. discriminate.
Qed.

Lemma finish_ve : forall n rv, ve_only (finish n rv).
Proof. intros [|n] rv e H; cbn in H; [discriminate|]. injection H as <-. reflexivity. Qed.

Lemma lookup_app : forall {A} k (l1 l2 : list (str * A)),
  lookup k (l1 ++ l2) = match lookup k l1 with Some v => Some v | None => lookup k l2 end.
Proof.
  intros A k l1 l2. induction l1 as [|[k' v] r IH]; cbn; [reflexivity|].
  destruct (str_eqb k k'); [reflexivity|exact IH].
Qed.

Section Pre.
  Variable path_in : str -> str.
  Variable path_default : str -> outcome str.

  (* functional form of the final value of a parameter: None = no value at all *)
  Definition fv (vals : list (str * str)) (d : pdef) : option (outcome str) :=
    match lookup (pname d) vals with
    | Some v => Some (Ok (supplied_value path_in d v))
    | None =>
      match pdefault d with
      | None => None
      | Some t => Some (default_value path_default d t)
      end
    end.

  Lemma final_fv : forall vals d v, final path_in path_default vals d v <-> fv vals d = Some (Ok v).
  Proof.
    intros vals d v. unfold fv, supplied_value, default_value. split.
    - intro H. destruct H as [v0 H0|t H0 H1 H2|t v0 H0 H1 H2 H3].
      + rewrite H0. reflexivity.
      + rewrite H0, H1, H2. reflexivity.
      + rewrite H0, H1, H2, H3. reflexivity.
    - destruct (lookup (pname d) vals) as [v0|] eqn:L.
      + intro H. injection H as <-. apply final_supplied. exact L.
      + destruct (pdefault d) as [t|] eqn:D; [|discriminate].
        destruct (is_path d && negb (is_nil t)) eqn:C; intro H.
        * injection H as H. eapply final_default_path; eauto.
        * injection H as <-. apply final_default_plain; assumption.
  Qed.

  Definition entry_of (vals : list (str * str)) (d : pdef) : list entry :=
    match fv vals d with
    | Some (Ok v) => [(pname d, (ptyp d, v))]
    | _ => []
    end.

  Definition entries (vals : list (str * str)) (defs : list pdef) : list entry :=
    flat_map (entry_of vals) defs.

  Lemma collect_loop_cons : forall d ds vals,
    collect_loop path_in path_default (d :: ds) vals =
    match fv vals d with
    | None => collect_loop path_in path_default ds vals
    | Some o => do v <- o; do r <- collect_loop path_in path_default ds vals; Ok ((pname d, (ptyp d, v)) :: r)
    end.
  Proof.
    intros d ds vals. cbn [collect_loop]. unfold fv.
    destruct (lookup (pname d) vals); [reflexivity|]. destruct (pdefault d); reflexivity.
  Qed.

  Lemma collect_loop_spec : forall defs vals,
    match collect_loop path_in path_default defs vals with
    | Ok rv => rv = entries vals defs /\ (forall d e, In d defs -> fv vals d <> Some (Raise e))
    | Raise e => exists d, In d defs /\ fv vals d = Some (Raise e)
    end.
  Proof.
    intros defs vals. induction defs as [|d ds IH].
    - split; [reflexivity|]. intros d e [].
    - rewrite collect_loop_cons. unfold entries. cbn [flat_map]. unfold entry_of at 1.
      destruct (fv vals d) as [[v|e]|] eqn:F; cbn [bind].
      + (* [d] has a value: the outcome is that of the remaining definitions *)
        destruct (collect_loop path_in path_default ds vals) as [r|e]; cbn [bind].
        * destruct IH as [-> IH]. split; [reflexivity|]. intros d' e [<-|Hd]; [congruence | apply IH; exact Hd].
        * destruct IH as [d' [Hd Hf]]. exists d'. split; [right; exact Hd | exact Hf].
      + (* the value of [d] raises *)
        exists d. split; [left; reflexivity | exact F].
      + (* [d] has no value at all: as in the first case, with no entry for [d] *)
        destruct (collect_loop path_in path_default ds vals) as [r|e]; cbn [bind].
        * destruct IH as [-> IH]. split; [reflexivity|]. intros d' e [<-|Hd]; [congruence | apply IH; exact Hd].
        * destruct IH as [d' [Hd Hf]]. exists d'. split; [right; exact Hd | exact Hf].
  Qed.

  Lemma entry_of_names : forall vals d e, In e (entry_of vals d) -> fst e = pname d.
  Proof.
    intros vals d e. unfold entry_of. destruct (fv vals d) as [[v|x]|]; cbn; try tauto.
    intros [<-|[]]. reflexivity.
  Qed.

  Lemma entries_names : forall vals defs n, In n (map fst (entries vals defs)) -> In n (map pname defs).
  Proof.
    intros vals defs n H. apply in_map_iff in H. destruct H as [e [<- He]].
    unfold entries in He. apply in_flat_map in He. destruct He as [d [Hd He]].
    apply entry_of_names in He. rewrite He. apply in_map. exact Hd.
  Qed.

  Lemma lookup_entry_of_other : forall vals d n, n <> pname d -> lookup n (entry_of vals d) = None.
  Proof.
    intros vals d n H. unfold entry_of. destruct (fv vals d) as [[v|x]|]; cbn; try reflexivity.
    apply str_eqb_neq in H. rewrite H. reflexivity.
  Qed.

  Lemma lookup_entry_of_self : forall vals d,
    lookup (pname d) (entry_of vals d) = match fv vals d with Some (Ok v) => Some (ptyp d, v) | _ => None end.
  Proof.
    intros vals d. unfold entry_of. destruct (fv vals d) as [[v|x]|]; cbn; try reflexivity.
    rewrite str_eqb_refl. reflexivity.
  Qed.

  Lemma lookup_entries : forall vals defs d, NoDup (map pname defs) -> In d defs ->
    lookup (pname d) (entries vals defs) = match fv vals d with Some (Ok v) => Some (ptyp d, v) | _ => None end.
  Proof.
    intros vals defs d. induction defs as [|d0 ds IH]; cbn [map]; intros ND Hd; [destruct Hd|].
    inversion ND as [|x l Hnot ND' E]; subst.
    unfold entries. cbn [flat_map]. rewrite lookup_app. fold (entries vals ds).
    destruct Hd as [->|Hd].
    - rewrite lookup_entry_of_self.
      destruct (fv vals d) as [[v|x]|]; try reflexivity.
      all: apply lookup_notin; intro H; apply entries_names in H; contradiction.
    - rewrite lookup_entry_of_other.
      + apply IH; assumption.
      + intro E. apply Hnot. rewrite <- E. apply in_map. exact Hd.
  Qed.

  Lemma check_loop_total : forall p defs rv, exists n, check_loop p defs rv = Ok n.
  Proof.
    intros p defs rv. induction defs as [|d ds [n IH]]; cbn [check_loop]; [eauto|].
    destruct (lookup (pname d) rv) as [[t v]|]; [|eauto].
    destruct (check_constraints_cases p d v) as [-> | ->]; [eauto|].
    rewrite IH. cbn. eauto.
  Qed.

  Lemma check_loop_zero : forall p defs rv,
    check_loop p defs rv = Ok O <->
    (forall d t v, In d defs -> lookup (pname d) rv = Some (t, v) -> check_constraints p d v = Ok tt).
  Proof.
    intros p defs rv. induction defs as [|d ds IH]; cbn [check_loop].
    - split; [intros _ d t v []|reflexivity].
    - destruct (lookup (pname d) rv) as [[t v]|] eqn:L.
      + destruct (check_constraints_cases p d v) as [E|E]; rewrite E.
        * rewrite IH. split.
          -- intros H d' t' v' [<-|Hd] L'; [|eapply H; eauto]. rewrite L in L'. injection L' as <- <-. exact E.
          -- intros H d' t' v' Hd L'. eapply H; [right; exact Hd|exact L'].
        * split.
          -- destruct (check_loop p ds rv); cbn; discriminate.
          -- intro H. specialize (H d t v (or_introl eq_refl) L). congruence.
      + rewrite IH. split.
        * intros H d' t' v' [<-|Hd] L'; [congruence|eapply H; eauto].
        * intros H d' t' v' Hd L'. eapply H; [right; exact Hd|exact L'].
  Qed.

  Lemma check_all_cases : forall p defs rv,
    (check_all p defs rv = Ok tt /\ check_loop p defs rv = Ok O) \/
    (check_all p defs rv = Raise ValueError /\ exists n, check_loop p defs rv = Ok (S n)).
  Proof.
    intros p defs rv. unfold check_all. destruct (check_loop_total p defs rv) as [[|n] E]; rewrite E; cbn; [left|right]; eauto.
  Qed.

  Lemma fv_raise : forall vals d e, fv vals d = Some (Raise e) <->
    exists t, lookup (pname d) vals = None /\ pdefault d = Some t /\
              is_path d && negb (is_nil t) = true /\ path_default t = Raise e.
  Proof.
    intros vals d e. unfold fv, default_value. split.
    - destruct (lookup (pname d) vals); [discriminate|].
      destruct (pdefault d) as [t|]; [|discriminate].
      destruct (is_path d && negb (is_nil t)) eqn:C; [|discriminate].
      intro H. injection H as H. exists t. auto.
    - intros [t [-> [-> [-> ->]]]]. reflexivity.
  Qed.

  Lemma fv_none : forall vals d, fv vals d = None <-> lookup (pname d) vals = None /\ pdefault d = None.
  Proof.
    intros vals d. unfold fv. destruct (lookup (pname d) vals); [split; [discriminate|intros [H _]; discriminate]|].
    destruct (pdefault d); split; try discriminate; auto. intros [_ H]. discriminate.
  Qed.

  Lemma spec_fv : forall defs vals,
    (no_missing defs vals /\ path_defaults_ok path_default defs vals) <->
    (forall d, In d defs -> exists v, fv vals d = Some (Ok v)).
  Proof.
    intros defs vals. split.
    - intros [NM PD] d Hd. destruct (fv vals d) as [[v|e]|] eqn:F; [eauto| |].
      + exfalso. apply fv_raise in F. destruct F as [t [L [D [C P]]]].
        destruct (PD d t Hd L D C) as [v P']. congruence.
      + exfalso. apply fv_none in F. destruct F as [L D].
        destruct (NM d Hd D) as [v L']. congruence.
    - intro H. split.
      + intros d Hd D. destruct (H d Hd) as [v F]. unfold fv in F.
        destruct (lookup (pname d) vals) as [v'|]; [eauto|]. rewrite D in F. discriminate.
      + intros d t Hd L D C. destruct (H d Hd) as [v F]. unfold fv, default_value in F.
        rewrite L, D, C in F. injection F as F. eauto.
  Qed.

  Lemma extra_nil : forall defs vals, collect_extra defs vals = [] <-> no_extra defs vals.
  Proof.
    intros defs vals. unfold collect_extra, no_extra. rewrite filter_nil_iff. split.
    - intros H k Hk. specialize (H k Hk). apply negb_false_iff in H. apply mem_str_In. exact H.
    - intros H k Hk. apply negb_false_iff. apply mem_str_In. auto.
  Qed.

  Lemma missing_nil : forall defs vals, NoDup (map pname defs) ->
    (collect_missing defs (entries vals defs) = [] <-> forall d, In d defs -> exists v, fv vals d = Some (Ok v)).
  Proof.
    intros defs vals ND. unfold collect_missing. rewrite filter_nil_iff. split.
    - intros H d Hd. specialize (H (pname d) (in_map pname _ _ Hd)).
      apply negb_false_iff in H. apply mem_str_In in H.
      apply lookup_in_some in H. destruct H as [[t v] L].
      rewrite (lookup_entries vals defs d ND Hd) in L.
      destruct (fv vals d) as [[v'|e]|]; try discriminate. eauto.
    - intros H n Hn. apply in_map_iff in Hn. destruct Hn as [d [<- Hd]].
      apply negb_false_iff. apply mem_str_In.
      destruct (H d Hd) as [v F].
      apply lookup_some_in with (v := (ptyp d, v)).
      rewrite (lookup_entries vals defs d ND Hd), F. reflexivity.
  Qed.

  Lemma checks_sat : forall defs vals, Forall wf_def defs -> NoDup (map pname defs) ->
    (check_loop false defs (entries vals defs) = Ok O <-> all_sat path_in path_default defs vals).
  Proof.
    intros defs vals W ND. rewrite check_loop_zero. unfold all_sat. rewrite Forall_forall in W. split.
    - intros H d v Hd F. apply check_constraints_iff; [apply W; exact Hd|].
      apply final_fv in F. apply (H d (ptyp d) v Hd).
      rewrite (lookup_entries vals defs d ND Hd), F. reflexivity.
    - intros H d t v Hd L. rewrite (lookup_entries vals defs d ND Hd) in L.
      destruct (fv vals d) as [[v'|e]|] eqn:F; try discriminate. injection L as <- <-.
      apply check_constraints_iff; [apply W; exact Hd|]. apply H; [exact Hd|]. apply final_fv. exact F.
  Qed.

  (* C10: success exactly under the three conditions, and then the result is [entries] *)
  Theorem preprocess_ok_iff : forall defs vals r,
    Forall wf_def defs -> NoDup (map pname defs) ->
    (preprocess false true path_in path_default defs vals = Ok r <->
     r = entries vals defs /\
     no_extra defs vals /\ no_missing defs vals /\ path_defaults_ok path_default defs vals /\
     all_sat path_in path_default defs vals).
  Proof.
    intros defs vals r W ND. unfold preprocess.
    destruct defs as [|d0 ds] eqn:Edefs.
    - rewrite finish_ok, count_if_zero, extra_nil. cbn [entries flat_map]. split.
      + intros [H ->]. repeat split; try exact H.
        * intros d [].
        * intros d t [].
        * intros d v [].
      + intros [-> [H _]]. auto.
    - rewrite <- Edefs in *. unfold collect_defaults.
      pose proof (collect_loop_spec defs vals) as CL.
      destruct (collect_loop path_in path_default defs vals) as [rv|e].
      + destruct CL as [-> NR].
        destruct (check_all_cases false defs (entries vals defs)) as [[-> CZ]|[-> [n CS]]].
        * rewrite finish_ok. rewrite Nat.eq_add_0, !count_if_zero, extra_nil.
          rewrite (missing_nil defs vals ND). rewrite <- (checks_sat defs vals W ND).
          rewrite <- (spec_fv defs vals). split.
          -- intros [[H1 [H2 H3]] ->]. auto 10.
          -- intros [-> [H1 [H2 [H3 _]]]]. auto.
        * split.
          -- intro H. apply finish_ok in H. destruct H as [H _]. lia.
          -- intros [_ [_ [_ [_ H]]]]. apply (checks_sat defs vals W ND) in H. congruence.
      + destruct CL as [d [Hd F]]. split.
        * intro H. exfalso. destruct e; try discriminate H. apply finish_ok in H. destruct H as [H _]. lia.
        * intros [_ [_ [NM [PD _]]]]. exfalso.
          assert (S : forall d, In d defs -> exists v, fv vals d = Some (Ok v)) by (apply spec_fv; auto).
          destruct (S d Hd) as [v F']. congruence.
  Qed.

  Lemma entries_forall2 : forall vals defs,
    (forall d, In d defs -> exists v, fv vals d = Some (Ok v)) ->
    Forall2 (fun d (e : entry) => fst e = pname d /\ fst (snd e) = ptyp d /\
                                  final path_in path_default vals d (snd (snd e)))
            defs (entries vals defs).
  Proof.
    intros vals defs. induction defs as [|d ds IH]; intro H; [constructor|].
    unfold entries. cbn [flat_map]. fold (entries vals ds).
    destruct (H d (or_introl eq_refl)) as [v F]. unfold entry_of. rewrite F. cbn [app].
    constructor.
    - cbn. repeat split. apply final_fv. exact F.
    - apply IH. intros d' Hd'. apply H. right. exact Hd'.
  Qed.

  Theorem preprocess_result : forall defs vals r,
    Forall wf_def defs -> NoDup (map pname defs) ->
    preprocess false true path_in path_default defs vals = Ok r ->
    Forall2 (fun d (e : entry) => fst e = pname d /\ fst (snd e) = ptyp d /\
                                  final path_in path_default vals d (snd (snd e)))
            defs r.
  Proof.
    intros defs vals r W ND H. apply preprocess_ok_iff in H; try assumption.
    destruct H as [-> [_ [NM [PD _]]]]. apply entries_forall2. apply spec_fv. auto.
  Qed.

  (* every failure is a ValueError, whatever the definitions and for either setting of
     [dir_ok], provided the PATH join itself only fails with ValueError (C11) *)
  Theorem preprocess_error : forall dir_ok defs vals e,
    (forall t e', path_default t = Raise e' -> e' = ValueError) ->
    preprocess false dir_ok path_in path_default defs vals = Raise e -> e = ValueError.
  Proof.
    intros dir_ok defs vals e PV. unfold preprocess.
    destruct defs as [|d0 ds] eqn:Edefs.
    - apply finish_ve.
    - rewrite <- Edefs. clear Edefs.
      assert (CD : forall x, collect_defaults dir_ok path_in path_default defs vals = Raise x -> x = ValueError).
      { unfold collect_defaults. destruct dir_ok.
        - intros x Hx. pose proof (collect_loop_spec defs vals) as CL. rewrite Hx in CL.
          destruct CL as [d [_ F]]. apply fv_raise in F. destruct F as [t [_ [_ [_ P]]]]. eapply PV. exact P.
        - intros x Hx. injection Hx as <-. reflexivity. }
      destruct (collect_defaults dir_ok path_in path_default defs vals) as [rv|x].
      + destruct (check_all_cases false defs rv) as [[-> _]|[-> _]]; apply finish_ve.
      + rewrite (CD x eq_refl). apply finish_ve.
  Qed.
  Theorem preprocess_iff : forall defs vals,
    Forall wf_def defs -> NoDup (map pname defs) ->
    ((exists r, preprocess false true path_in path_default defs vals = Ok r) <->
     no_extra defs vals /\ no_missing defs vals /\ path_defaults_ok path_default defs vals /\
     all_sat path_in path_default defs vals).
  Proof.
    intros defs vals W ND. split.
    - intros [r H]. apply preprocess_ok_iff in H; try assumption. tauto.
    - intro H. exists (entries vals defs). apply preprocess_ok_iff; try assumption. tauto.
  Qed.

  Theorem preprocess_names : forall defs vals r,
    Forall wf_def defs -> NoDup (map pname defs) ->
    preprocess false true path_in path_default defs vals = Ok r ->
    map fst r = map pname defs.
  Proof.
    intros defs vals r W ND H. pose proof (preprocess_result defs vals r W ND H) as F.
    clear W ND H. induction F as [|d e ds es [E _] _ IH]; [reflexivity|]. cbn [map]. rewrite E, IH. reflexivity.
  Qed.

  Theorem preprocess_lookup : forall defs vals r d,
    Forall wf_def defs -> NoDup (map pname defs) ->
    preprocess false true path_in path_default defs vals = Ok r -> In d defs ->
    exists v, lookup (pname d) r = Some (ptyp d, v) /\ final path_in path_default vals d v.
  Proof.
    intros defs vals r d W ND H Hd. apply preprocess_ok_iff in H; try assumption.
    destruct H as [-> [_ [NM [PD _]]]].
    assert (S : forall d, In d defs -> exists v, fv vals d = Some (Ok v)) by (apply spec_fv; auto).
    destruct (S d Hd) as [v F]. exists v. split.
    - rewrite (lookup_entries vals defs d ND Hd), F. reflexivity.
    - apply final_fv. exact F.
  Qed.

  (* supplied values win and are returned as given; defaults otherwise (PATH joining aside) *)
  Theorem preprocess_supplied : forall defs vals r d v,
    Forall wf_def defs -> NoDup (map pname defs) ->
    preprocess false true path_in path_default defs vals = Ok r -> In d defs ->
    is_path d = false -> lookup (pname d) vals = Some v ->
    lookup (pname d) r = Some (ptyp d, v).
  Proof.
    intros defs vals r d v W ND H Hd NP L.
    destruct (preprocess_lookup defs vals r d W ND H Hd) as [v' [L' F]].
    rewrite L'. apply final_fv in F. unfold fv, supplied_value in F. rewrite L, NP in F. cbn in F.
    injection F as <-. reflexivity.
  Qed.

  Theorem preprocess_defaulted : forall defs vals r d t,
    Forall wf_def defs -> NoDup (map pname defs) ->
    preprocess false true path_in path_default defs vals = Ok r -> In d defs ->
    is_path d = false -> lookup (pname d) vals = None -> pdefault d = Some t ->
    lookup (pname d) r = Some (ptyp d, t).
  Proof.
    intros defs vals r d t W ND H Hd NP L D.
    destruct (preprocess_lookup defs vals r d W ND H Hd) as [v' [L' F]].
    rewrite L'. apply final_fv in F. unfold fv, default_value in F. rewrite L, D, NP in F. cbn in F.
    injection F as <-. reflexivity.
  Qed.
End Pre.
