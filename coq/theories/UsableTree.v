(* UsableTree.v — from "the dimension check of the Job passed" to "the iterator's expression tree is
   well formed and can be iterated".  Pure: combination trees (Comb.v / CombSpec.v), the iterator
   (ParamSpace.v / ParamSpaceSpec.v); no schema, no templates.

     build_tree      a canonical combination tree whose dimension check [Comb.dims] returns, over lengths
                     that are the lengths of declared parameters with non-empty ranges, is copied by
                     _create_expr_tree into a well-formed node tree with the same leaves, and the
                     dimension the check computed is the number of task parameter sets;
     space_built     the constructor of StepParameterSpaceIterator returns, and the tree is C07-valid;
     ok_iterates     C07's theorems, packaged: a well-formed top iterates. *)
From Coq Require Import List NArith ZArith Bool Lia Permutation.
Import ListNotations.
Require Import OJD.Base OJD.Lexer OJD.ListLib OJD.Comb OJD.CombSpec OJD.CombProofs
               OJD.ParamSpace OJD.ParamSpaceSpec OJD.ParamSpaceProofs OJD.UsableGlue OJD.UsableSpec.

Lemma length_prodL : forall ds : list (list env),
  N.of_nat (length (prodL ds)) = fold_right N.mul 1%N (map (fun d => N.of_nat (length d)) ds).
Proof.
  induction ds as [|d ds IH]; [reflexivity|].
  rewrite prodL_cons, length_cross. cbn [map fold_right]. rewrite <- IH. lia.
Qed.

Lemma dlen_Prod : forall ts,
  N.of_nat (dlen (ParamSpace.Prod ts)) = fold_right N.mul 1%N (map (fun t => N.of_nat (dlen t)) ts).
Proof.
  intros ts. unfold dlen at 1. cbn [denote]. rewrite length_prodL, map_map. reflexivity.
Qed.

Lemma dlen_Assoc : forall t ts, dlen (ParamSpace.Assoc (t :: ts)) = dlen t.
Proof. intros t ts. unfold dlen. cbn [denote map]. apply length_zipL. Qed.

Lemma dlen_Leaf : forall n ty vs, dlen (Leaf n ty vs) = length vs.
Proof. intros. unfold dlen. cbn [denote]. apply map_length. Qed.

Lemma mk_children_conv : forall ps (cs : list Comb.ctree) ts,
  Forall2 (fun c t => create_expr_tree ps (conv c) = Ok t) cs ts ->
  mk_children (create_expr_tree ps) (map conv cs) = Ok ts.
Proof.
  intros ps cs ts H. induction H as [|c t cs ts Hc _ IH]; [reflexivity|].
  cbn [map mk_children]. rewrite Hc. cbn [bind]. rewrite IH. reflexivity.
Qed.

Section Build.
  Variable ps : list param.
  Variable lens : str -> option N.
  (* every length the dimension check can look up is the length of a declared, non-empty parameter *)
  Hypothesis Hlens : forall s k, lens s = Some k ->
    exists p, find_param ps s = Ok p /\ pname p = s /\ snd p <> [] /\ k = N.of_nat (length (snd p)).

  Definition built (c : Comb.ctree) (t : node) : Prop :=
    create_expr_tree ps (conv c) = Ok t /\ wfnode t /\ names t = collect_ids c /\
    dims lens c = Ok (N.of_nat (dlen t)).

  Lemma children_built : forall cs,
    Forall (fun c => Canonical c -> forall n, dims lens c = Ok n -> exists t, built c t) cs ->
    Forall Canonical cs ->
    forall ls, map_o (dims lens) cs = Ok ls ->
    exists ts, Forall2 built cs ts /\ ls = map (fun t => N.of_nat (dlen t)) ts.
  Proof.
    induction cs as [|c cs IH]; intros HF HC ls Hm.
    - cbn [map_o] in Hm. injection Hm as <-. exists []. split; [constructor|reflexivity].
    - inversion HF as [|? ? Hc HFr]; subst. inversion HC as [|? ? Cc HCr]; subst.
      cbn [map_o] in Hm. destruct (dims lens c) as [y|e] eqn:Ey; cbn [bind] in Hm; [|discriminate Hm].
      destruct (map_o (dims lens) cs) as [ys|e] eqn:Eys; cbn [bind] in Hm; [|discriminate Hm].
      injection Hm as <-.
      destruct (Hc Cc y eq_refl) as [t Ht]. destruct (IH HFr HCr ys eq_refl) as [ts [Hts Els]].
      exists (t :: ts). split; [constructor; assumption|].
      cbn [map]. f_equal; [|exact Els].
      destruct Ht as [_ [_ [_ Hd]]]. rewrite Ey in Hd. injection Hd as ->. reflexivity.
  Qed.

  Lemma built_create : forall cs ts, Forall2 built cs ts ->
    Forall2 (fun c t => create_expr_tree ps (conv c) = Ok t) cs ts.
  Proof. intros cs ts H. induction H as [|c t cs ts [Hc _] _ IH]; constructor; assumption. Qed.

  Lemma built_wf : forall cs ts, Forall2 built cs ts -> Forall wfnode ts.
  Proof. intros cs ts H. induction H as [|c t cs ts [_ [Hw _]] _ IH]; constructor; assumption. Qed.

  Lemma built_names : forall cs ts, Forall2 built cs ts -> flat_map names ts = flat_map collect_ids cs.
  Proof.
    intros cs ts H. induction H as [|c t cs ts [_ [_ [Hn _]]] _ IH]; [reflexivity|].
    cbn [flat_map]. rewrite Hn, IH. reflexivity.
  Qed.

  Theorem build_tree : forall c, Canonical c -> forall n, dims lens c = Ok n -> exists t, built c t.
  Proof.
    induction c as [s|cs IH|cs IH] using ctree_ind'; intros HC n Hd.
    - (* an identifier *)
      cbn [dims] in Hd. destruct (lens s) as [k|] eqn:El; [|discriminate Hd].
      destruct (Hlens s k El) as [p [Hf [Hp [Hne Hk]]]].
      exists (Leaf (fst (fst p)) (snd (fst p)) (snd p)). unfold built.
      cbn [conv create_expr_tree]. rewrite Hf. cbn [bind]. split; [reflexivity|].
      split; [apply WfLeaf; exact Hne|]. split; [cbn [names collect_ids]; f_equal; exact Hp|].
      cbn [dims]. rewrite El, dlen_Leaf, Hk. reflexivity.
    - (* a product *)
      inversion HC as [|cs0 Hlen HCs _|]; subst cs0.
      cbn [dims] in Hd. destruct (map_o (dims lens) cs) as [ls|e] eqn:Em; cbn [bind] in Hd; [|discriminate Hd].
      destruct (children_built cs IH HCs ls Em) as [ts [Hts Els]].
      exists (ParamSpace.Prod ts). unfold built. cbn [conv create_expr_tree].
      rewrite (mk_children_conv ps cs ts (built_create cs ts Hts)). cbn [bind]. split; [reflexivity|].
      split.
      { apply WfProd; [|exact (built_wf cs ts Hts)].
        apply Forall2_length in Hts. intros ->. cbn [length] in Hts. lia. }
      split; [cbn [names collect_ids]; exact (built_names cs ts Hts)|].
      cbn [dims]. rewrite Em. cbn [bind]. rewrite fold_mul_sym, Els, dlen_Prod. reflexivity.
    - (* an association *)
      inversion HC as [| |cs0 Hlen HCs]; subst cs0.
      cbn [dims] in Hd. destruct (map_o (dims lens) cs) as [ls|e] eqn:Em; cbn [bind] in Hd; [|discriminate Hd].
      destruct (children_built cs IH HCs ls Em) as [ts [Hts Els]].
      destruct (all_equal ls) eqn:Eq; [|discriminate Hd].
      destruct ts as [|t0 ts'].
      { apply Forall2_length in Hts. cbn [length] in Hts. lia. }
      exists (ParamSpace.Assoc (t0 :: ts')). unfold built. cbn [conv create_expr_tree].
      rewrite (mk_children_conv ps cs (t0 :: ts') (built_create cs _ Hts)). cbn [bind]. split; [reflexivity|].
      split.
      { apply WfAssoc; [exact (built_wf cs _ Hts)|].
        subst ls. cbn [map all_equal] in Eq. rewrite forallb_forall in Eq.
        apply Forall_forall. intros t' Ht'.
        assert (Hin : In (N.of_nat (dlen t')) (map (fun t => N.of_nat (dlen t)) ts')) by (apply (in_map (fun t => N.of_nat (dlen t))); exact Ht').
        specialize (Eq _ Hin). apply N.eqb_eq in Eq. apply Nat2N.inj in Eq. unfold dlen in Eq. symmetry. exact Eq. }
      split; [cbn [names collect_ids]; exact (built_names cs _ Hts)|].
      cbn [dims]. rewrite Em. cbn [bind]. rewrite Eq. subst ls. cbn [map]. rewrite dlen_Assoc. reflexivity.
  Qed.
End Build.

Lemma lookup_len_params : forall (al : list (str * N)) (ps : list param),
  Forall2 (fun a p => fst a = pname p /\ snd a = N.of_nat (length (snd p))) al ps ->
  forall s k, lookup_len al s = Some k ->
  exists p, In p ps /\ pname p = s /\ k = N.of_nat (length (snd p)).
Proof.
  intros al ps H. induction H as [|[k0 v0] p al ps [Hk Hv] _ IH]; intros s k Hl; [discriminate Hl|].
  cbn [lookup_len] in Hl. cbn [fst snd] in Hk, Hv. destruct (str_eqb s k0) eqn:E.
  - injection Hl as <-. apply ListLib.str_eqb_eq in E. subst s.
    exists p. split; [left; reflexivity|]. split; [symmetry; exact Hk|exact Hv].
  - destruct (IH s k Hl) as [q [Hq [Hn Hkq]]]. exists q. split; [right; exact Hq|]. split; assumption.
Qed.

Theorem space_built : forall (ps : list param) (comb : option Comb.ctree) (al : list (str * N)),
  ps <> [] -> NoDup (map pname ps) -> (forall p, In p ps -> snd p <> []) ->
  Forall2 (fun a p => fst a = pname p /\ snd a = N.of_nat (length (snd p))) al ps ->
  (forall c, comb = Some c ->
     Canonical c /\ Permutation (collect_ids c) (map pname ps) /\ exists n, dims (lookup_len al) c = Ok n) ->
  exists t, sps_init (Some (ps, option_map conv comb)) = Ok (TopNode t) /\ valid t.
Proof.
  intros ps comb al Hne ND Hvs Hal Hc. destruct comb as [c|].
  - destruct (Hc c eq_refl) as [HC [HP [n Hd]]].
    assert (Hlens : forall s k, lookup_len al s = Some k ->
              exists p, find_param ps s = Ok p /\ pname p = s /\ snd p <> [] /\ k = N.of_nat (length (snd p))).
    { intros s k Hl. destruct (lookup_len_params al ps Hal s k Hl) as [p [Hp [Hn Hk]]].
      exists p. split; [rewrite <- Hn; apply find_param_in; assumption|]. split; [exact Hn|]. split; [apply Hvs; exact Hp|exact Hk]. }
    destruct (build_tree ps (lookup_len al) Hlens c HC n Hd) as [t [Hcr [Hw [Hn _]]]].
    exists t. cbn [sps_init option_map bind]. rewrite Hcr. cbn [bind]. split; [reflexivity|].
    split; [|exact Hw]. rewrite Hn. apply (Permutation_NoDup (Permutation_sym HP)). exact ND.
  - destruct (default_comb_correct ps Hne ND Hvs) as [t [Hi [Hv _]]]. exists t. split; [exact Hi|exact Hv].
Qed.

Theorem ok_iterates : forall tp, space_ok tp -> iterates tp.
Proof.
  intros [l|t] H; cbn [space_ok] in H.
  - subst l. unfold iterates, none_denote. cbn [top_denote length]. split; [lia|]. split; [reflexivity|]. split.
    + intros i Hi. assert (E : i = 0%Z \/ i = (-1)%Z) by lia.
      destruct E as [-> | ->]; (exists []; split; [reflexivity|intros n; reflexivity]).
    + intros bound Hb. destruct bound as [|[|b]]; try lia.
      exists [[]]. split; [reflexivity|]. split; [reflexivity|]. constructor; [intros n; reflexivity|constructor].
  - unfold iterates. cbn [top_denote top_len top_getitem]. split; [exact (dlen_pos t (proj2 H))|].
    split; [exact (len_correct t H)|]. split.
    + intros i Hi. exact (proj1 (getitem_correct t i H) Hi).
    + intros bound Hb. destruct (list_correct t bound H Hb) as [l [Hd HF]].
      exists l. split; [exact Hd|]. split; [exact (Forall2_length _ _ _ _ _ HF)|exact HF].
Qed.
