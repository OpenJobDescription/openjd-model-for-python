(* MergeProofs.v — the merge model of Merge.v meets the C12 specification. *)
From Coq Require Import List NArith ZArith Bool Lia Permutation.
Import ListNotations.
Require Import OJD.Base OJD.ListLib OJD.Numerals OJD.NumeralsSpec OJD.NumeralsProofs OJD.JobParams OJD.JobParamsSpec
        OJD.JobParamsProofs OJD.Merge OJD.MergeSpec.
Require OJD.NumPrint OJD.NumRoundtrip.
Local Open Scope Z_scope.

Lemma ptype_eqb_eq : forall a b, ptype_eqb a b = true <-> a = b.
Proof. intros [] []; cbn; split; intro H; try reflexivity; discriminate. Qed.

Lemma objtype_eqb_eq : forall a b, objtype_eqb a b = true <-> a = b.
Proof. intros [] []; cbn; split; intro H; try reflexivity; discriminate. Qed.

Lemma dataflow_eqb_eq : forall a b, dataflow_eqb a b = true <-> a = b.
Proof. intros [] []; cbn; split; intro H; try reflexivity; discriminate. Qed.

Lemma last_opt_some : forall {A} (l : list A) y, exists z, last_opt (y :: l) = Some z.
Proof.
  intros A l. induction l as [|a l IH]; intro y; [exists y; reflexivity|].
  change (last_opt (y :: a :: l)) with (last_opt (a :: l)). apply IH.
Qed.

Lemma last_opt_cons : forall {A} (x : A) l,
  last_opt (x :: l) = match last_opt l with Some y => Some y | None => Some x end.
Proof.
  intros A x [|y l]; [reflexivity|].
  change (last_opt (x :: y :: l)) with (last_opt (y :: l)).
  destruct (last_opt_some l y) as [z ->]. reflexivity.
Qed.

Lemma last_opt_in : forall {A} (l : list A) x, last_opt l = Some x -> In x l.
Proof.
  intros A l. induction l as [|y l IH]; intros x H; [discriminate|].
  rewrite last_opt_cons in H. destruct (last_opt l) as [z|] eqn:E.
  - injection H as <-. right. apply IH. reflexivity.
  - injection H as <-. left. reflexivity.
Qed.

Lemma last_opt_none : forall {A} (l : list A), last_opt l = None <-> l = [].
Proof.
  intros A [|x l]; [tauto|]. rewrite last_opt_cons. split; [|discriminate]. destruct (last_opt l); discriminate.
Qed.

Lemma last_opt_app : forall {A} (l1 l2 : list A),
  last_opt (l1 ++ l2) = match last_opt l2 with Some y => Some y | None => last_opt l1 end.
Proof.
  intros A l1 l2. induction l1 as [|x l1 IH].
  - cbn. destruct (last_opt l2); reflexivity.
  - cbn [app]. rewrite !last_opt_cons, IH. destruct (last_opt l2); [reflexivity|]. reflexivity.
Qed.

Lemma in_somes : forall {A} (l : list (option A)) x, In x (somes l) <-> In (Some x) l.
Proof.
  intros A l x. unfold somes. rewrite in_flat_map. split.
  - intros [[y|] [Ho Hx]]; cbn in Hx; [|tauto]. destruct Hx as [<-|[]]. exact Ho.
  - intro H. exists (Some x). split; [exact H|left; reflexivity].
Qed.

Lemma all_equal_spec : forall {A} (eqb : A -> A -> bool) (l : list A),
  (forall a b, eqb a b = true <-> a = b) ->
  (all_equal eqb l = true <-> forall x y, In x l -> In y l -> x = y).
Proof.
  intros A eqb [|a l] E; cbn [all_equal].
  - split; [intros _ x y []|reflexivity].
  - rewrite forallb_forall. split.
    + intros H x y Hx Hy.
      assert (K : forall z, In z (a :: l) -> z = a).
      { intros z [<-|Hz]; [reflexivity|]. symmetry. apply E. apply H. exact Hz. }
      rewrite (K x Hx), (K y Hy). reflexivity.
    + intros H x Hx. apply E. apply H; [left; reflexivity|right; exact Hx].
Qed.

Lemma forall_cons : forall {A} (a : A) l (Q : A -> Prop),
  (forall x, In x (a :: l) -> Q x) <-> Q a /\ (forall x, In x l -> Q x).
Proof.
  intros A a l Q. split.
  - intro H. split; [apply H; left; reflexivity|]. intros x Hx. apply H. right. exact Hx.
  - intros [Ha Hl] x [<-|Hx]; [exact Ha|exact (Hl x Hx)].
Qed.

Lemma forall_nil : forall {A} (Q : A -> Prop), (forall x, In x [] -> Q x) <-> True.
Proof. intros A Q. split; [trivial|intros _ x []]. Qed.

Lemma forall_map : forall {A B} (g : A -> B) (l : list A) (Q : B -> Prop),
  (forall o, In o (map g l) -> Q o) <-> (forall d, In d l -> Q (g d)).
Proof.
  intros A B g l Q. split.
  - intros H d Hd. apply H. apply in_map. exact Hd.
  - intros H o Ho. apply in_map_iff in Ho. destruct Ho as [d [<- Hd]]. apply H. exact Hd.
Qed.

Section FoldOpt.
  Context {A : Type} (le : A -> A -> Prop) (f : A -> A -> A).
  Hypothesis f_lub : forall a b c, le (f a b) c <-> le a c /\ le b c.

  Lemma fold_opt_bound : forall l acc c,
    opt_all (fold_opt f acc l) (fun b => le b c) <->
    opt_all acc (fun b => le b c) /\ (forall o, In o l -> opt_all o (fun b => le b c)).
  Proof.
    induction l as [|[x|] r IH]; intros acc c; cbn [fold_opt].
    - rewrite forall_nil. tauto.
    - rewrite IH, forall_cons. destruct acc as [a|]; cbn [opt_all]; [rewrite f_lub|]; tauto.
    - rewrite IH, forall_cons. cbn [opt_all]. tauto.
  Qed.
End FoldOpt.

Lemma fold_opt_none : forall {A} (f : A -> A -> A) l acc,
  fold_opt f acc l = None <-> acc = None /\ forall o, In o l -> o = None.
Proof.
  intros A f l. induction l as [|[x|] r IH]; intro acc; cbn [fold_opt].
  - rewrite forall_nil. tauto.
  - rewrite IH, forall_cons. split; [intros [H _]|intros [_ [H _]]]; discriminate H.
  - rewrite IH, forall_cons. tauto.
Qed.

Lemma fold_opt_pres : forall {A} (f : A -> A -> A) (P : A -> Prop),
  (forall a b, P a -> P b -> P (f a b)) ->
  forall l acc, opt_all acc P -> (forall o, In o l -> opt_all o P) -> opt_all (fold_opt f acc l) P.
Proof.
  intros A f P Hf l. induction l as [|[x|] r IH]; intros acc Ha Hl; cbn [fold_opt]; [exact Ha| |];
    apply forall_cons in Hl; destruct Hl as [Hx Hr]; apply IH; try assumption.
  cbn [opt_all] in *. destruct acc as [a|]; [apply Hf; assumption|exact Hx].
Qed.

Section Allowed.
  Context {A : Type} (mem : A -> list A -> bool) (eqv : A -> A -> Prop).
  Hypothesis mem_spec : forall x l, mem x l = true <-> exists y, In y l /\ eqv x y.
  Hypothesis eqv_sym : forall a b, eqv a b -> eqv b a.
  Hypothesis eqv_trans : forall a b c, eqv a b -> eqv b c -> eqv a c.

  Definition memP (x : A) (l : list A) : Prop := exists y, In y l /\ eqv x y.

  Lemma inter_spec : forall a l x, memP x (inter mem a l) <-> memP x a /\ memP x l.
  Proof.
    intros a l x. unfold memP, inter. split.
    - intros [y [Hy E]]. apply filter_In in Hy. destruct Hy as [Hy M].
      apply mem_spec in M. destruct M as [z [Hz E']]. split; [exists y; auto|].
      exists z. split; [exact Hz|]. eapply eqv_trans; eauto.
    - intros [[y [Hy E]] [z [Hz E']]]. exists y. split; [|exact E].
      apply filter_In. split; [exact Hy|]. apply mem_spec. exists z. split; [exact Hz|].
      eapply eqv_trans; [apply eqv_sym; exact E|exact E'].
  Qed.

  (* one turn of the loop of _merge_allowed_values *)
  Definition allowed_step (acc o : option (list A)) : option (list A) :=
    match truthy_list o with
    | None => acc
    | Some l => Some (match acc with None => l | Some a => inter mem a l end)
    end.

  Lemma loop_cons : forall o r acc,
    merge_allowed_loop false mem acc (o :: r) = merge_allowed_loop false mem (allowed_step acc o) r.
  Proof.
    intros o r acc. cbn [merge_allowed_loop]. unfold allowed_step.
    destruct (truthy_list o); [destruct acc|]; reflexivity.
  Qed.

  Lemma step_none : forall acc o, allowed_step acc o = None <-> acc = None /\ truthy_list o = None.
  Proof.
    intros acc o. unfold allowed_step. destruct (truthy_list o); [|tauto].
    split; [discriminate|intros [_ H]; discriminate H].
  Qed.

  Lemma step_memP : forall acc o x,
    opt_all (allowed_step acc o) (memP x) <-> opt_all acc (memP x) /\ opt_all (truthy_list o) (memP x).
  Proof.
    intros acc o x. unfold allowed_step. destruct (truthy_list o) as [l|]; [|cbn [opt_all]; tauto].
    destruct acc as [a|]; cbn [opt_all]; [apply inter_spec|tauto].
  Qed.

  Lemma loop_none : forall ls acc,
    merge_allowed_loop false mem acc ls = None <->
    acc = None /\ forall o, In o ls -> truthy_list o = None.
  Proof.
    induction ls as [|o r IH]; intro acc.
    - rewrite forall_nil. cbn [merge_allowed_loop]. tauto.
    - rewrite loop_cons, IH, step_none, forall_cons. tauto.
  Qed.

  (* what the accumulated list accepts: what every list seen so far accepts *)
  Lemma loop_memP : forall ls acc x,
    opt_all (merge_allowed_loop false mem acc ls) (memP x) <->
    opt_all acc (memP x) /\ (forall o, In o ls -> opt_all (truthy_list o) (memP x)).
  Proof.
    induction ls as [|o r IH]; intros acc x.
    - rewrite forall_nil. cbn [merge_allowed_loop]. tauto.
    - rewrite loop_cons, IH, step_memP, forall_cons. tauto.
  Qed.

  (* the merged list, when no "empty intersection" error is raised, accepts exactly the
     values every given list accepts *)
  Lemma merge_allowed_spec : forall ls al,
    merge_allowed false mem ls = (al, false) ->
    (forall o, In o ls -> o <> Some []) ->
    al <> Some [] /\
    forall x, opt_all al (memP x) <-> (forall o, In o ls -> opt_all o (memP x)).
  Proof.
    intros ls al H W. unfold merge_allowed in H.
    assert (T : forall o x, In o ls -> (opt_all (truthy_list o) (memP x) <-> opt_all o (memP x))).
    { intros [[|z l]|] x Ho; [contradiction (W _ Ho); reflexivity| |]; reflexivity. }
    assert (K : forall x, opt_all (merge_allowed_loop false mem None ls) (memP x) <->
                          (forall o, In o ls -> opt_all o (memP x))).
    { intro x. rewrite loop_memP. cbn [opt_all]. split.
      - intros [_ Hr] o Ho. apply (T o x Ho), Hr, Ho.
      - intro Hr. split; [exact I|]. intros o Ho. apply (T o x Ho), Hr, Ho. }
    destruct (merge_allowed_loop false mem None ls) as [[|y L]|]; [discriminate H| |]; injection H as <-;
      (split; [discriminate|exact K]).
  Qed.

  Lemma loop_pres : forall (P : A -> Prop) ls acc,
    opt_all acc (Forall P) -> (forall o, In o ls -> opt_all o (Forall P)) ->
    opt_all (merge_allowed_loop false mem acc ls) (Forall P).
  Proof.
    intros P. induction ls as [|o r IH]; intros acc Ha Hl; [exact Ha|].
    apply forall_cons in Hl. destruct Hl as [Ho Hr]. rewrite loop_cons. apply IH; [|exact Hr].
    unfold allowed_step. destruct o as [[|z l]|]; cbn [truthy_list]; try exact Ha.
    destruct acc as [a|]; cbn [opt_all] in *; [|exact Ho].
    unfold inter. rewrite Forall_forall in *. intros y Hy. apply filter_In in Hy. apply Ha, Hy.
  Qed.
End Allowed.

Lemma merge_ok_inv : forall ds m, merge false ds = Ok m ->
  exists dl, last_opt ds = Some dl /\
    (forall d, In d ds -> pname d = pname dl) /\
    (forall d, In d ds -> ptyp d = ptyp dl) /\
    merge_errors false ds dl = false /\ m = candidate false ds dl /\ revalidate m = Ok tt.
Proof.
  intros ds m H. unfold merge in H.
  destruct (last_opt ds) as [dl|] eqn:L; [|discriminate]. exists dl.
  destruct (forallb (fun d => str_eqb (pname d) (pname dl)) ds) eqn:N; cbn [negb] in H; [|discriminate].
  destruct (forallb (fun d => ptype_eqb (ptyp d) (ptyp dl)) ds) eqn:T; cbn [negb] in H; [|discriminate].
  destruct (merge_errors false ds dl) eqn:E; [discriminate|].
  destruct (revalidate (candidate false ds dl)) as [[]|e] eqn:R; [|discriminate].
  injection H as <-. rewrite forallb_forall in N, T.
  split; [reflexivity|]. split; [|split; [|auto]].
  - intros d Hd. apply str_eqb_eq. apply N. exact Hd.
  - intros d Hd. apply ptype_eqb_eq. apply T. exact Hd.
Qed.

Lemma merge_errors_false : forall ds dl, merge_errors false ds dl = false ->
  snd (merged_allowed_n false ds (ptyp dl)) = false /\
  snd (merged_allowed_s false ds (ptyp dl)) = false /\
  (ptype_eqb (ptyp dl) PATH && negb (all_equal objtype_eqb (map eff_objtype ds))) = false /\
  (ptype_eqb (ptyp dl) PATH && negb (all_equal dataflow_eqb (somes (map pdataflow ds)))) = false /\
  match merged_minlen ds (ptyp dl), merged_maxlen ds (ptyp dl) with Some a, Some b => b <? a | _, _ => false end = false /\
  match merged_minv ds (ptyp dl), merged_maxv ds (ptyp dl) with Some a, Some b => num_ltb b a | _, _ => false end = false.
Proof.
  intros ds dl H. unfold merge_errors in H.
  apply orb_false_iff in H. destruct H as [H H6].
  apply orb_false_iff in H. destruct H as [H H5].
  apply orb_false_iff in H. destruct H as [H H4].
  apply orb_false_iff in H. destruct H as [H H3].
  apply orb_false_iff in H. destruct H as [H1 H2].
  auto 10.
Qed.

Lemma memP_eq : forall (x : str) l, memP eq x l <-> In x l.
Proof.
  intros x l. unfold memP. split.
  - intros [y [Hy ->]]. exact Hy.
  - intro H. exists x. auto.
Qed.

Lemma mem_str_spec : forall x l, mem_str x l = true <-> exists y, In y l /\ x = y.
Proof. intros x l. rewrite mem_str_In. symmetry. apply (memP_eq x l). Qed.

(* One kind of constraints: bounds on a measure [msr] of the value (the number itself; the length of a
   string) and a list of allowed values.  The merged constraints hold exactly when those of every
   definition do. *)
Section Kind.
  Context {V B D : Type} (le : B -> B -> Prop) (bmax bmin : B -> B -> B) (msr : V -> B)
          (mem : V -> list V -> bool) (eqv : V -> V -> Prop).
  Hypothesis max_lub : forall a b c, le (bmax a b) c <-> le a c /\ le b c.
  Hypothesis min_glb : forall a b c, le c (bmin a b) <-> le c a /\ le c b.
  Hypothesis mem_spec : forall x l, mem x l = true <-> exists y, In y l /\ eqv x y.
  Hypothesis eqv_sym : forall a b, eqv a b -> eqv b a.
  Hypothesis eqv_trans : forall a b c, eqv a b -> eqv b c -> eqv a c.
  Variables (lo hi : D -> option B) (al : D -> option (list V)).

  Definition kind_ok (lo hi : option B) (al : option (list V)) (x : V) : Prop :=
    opt_all lo (fun b => le b (msr x)) /\ opt_all hi (fun b => le (msr x) b) /\ opt_all al (memP eqv x).

  Lemma merged_kind_ok : forall ds x,
    snd (merge_allowed false mem (map al ds)) = false -> (forall d, In d ds -> al d <> Some []) ->
    (kind_ok (fold_opt bmax None (map lo ds)) (fold_opt bmin None (map hi ds))
             (fst (merge_allowed false mem (map al ds))) x <->
     forall d, In d ds -> kind_ok (lo d) (hi d) (al d) x).
  Proof.
    intros ds x He W. unfold kind_ok.
    rewrite (fold_opt_bound le bmax max_lub), (fold_opt_bound (fun b c => le c b) bmin (fun a b c => min_glb a b c)).
    destruct (merge_allowed false mem (map al ds)) as [L e] eqn:MA. cbn [fst snd] in *. subst e.
    destruct (merge_allowed_spec mem eqv mem_spec eqv_sym eqv_trans _ _ MA) as [_ Ball].
    { intros o Ho. apply in_map_iff in Ho. destruct Ho as [d [<- Hd]]. exact (W d Hd). }
    rewrite (Ball x), !forall_map. cbn [opt_all]. split.
    - intros [[_ H1] [[_ H2] H3]] d Hd. auto.
    - intro H. repeat split; try exact I; intros d Hd; apply (H d Hd).
  Qed.
End Kind.

Lemma candidate_number_ok : forall ds dl x,
  is_numeric (ptyp dl) = true ->
  snd (merged_allowed_n false ds (ptyp dl)) = false ->
  (forall d, In d ds -> wf_def d) ->
  (number_ok (candidate false ds dl) x <-> forall d, In d ds -> number_ok d x).
Proof.
  intros ds dl x Hn He W. unfold number_ok, candidate. cbn [pminv pmaxv pallowed_n].
  unfold merged_minv, merged_maxv, merged_allowed_n in *. rewrite Hn in *.
  exact (merged_kind_ok num_le num_max num_min (fun x => x) mem_num num_eq num_max_spec num_min_spec mem_num_spec
           num_eq_sym num_eq_trans pminv pmaxv pallowed_n ds x He (fun d Hd => proj1 (W d Hd))).
Qed.

Lemma string_ok_kind : forall d v,
  string_ok d v <-> kind_ok Z.le slen eq (pminlen d) (pmaxlen d) (pallowed_s d) v.
Proof.
  intros d v. unfold string_ok, kind_ok. destruct (pallowed_s d); cbn [opt_all]; rewrite ?memP_eq; tauto.
Qed.

Lemma candidate_string_ok : forall ds dl v,
  is_numeric (ptyp dl) = false ->
  snd (merged_allowed_s false ds (ptyp dl)) = false ->
  (forall d, In d ds -> wf_def d) ->
  (string_ok (candidate false ds dl) v <-> forall d, In d ds -> string_ok d v).
Proof.
  intros ds dl v Hn He W. rewrite string_ok_kind. unfold candidate. cbn [pminlen pmaxlen pallowed_s].
  unfold merged_minlen, merged_maxlen, merged_allowed_s in *. rewrite Hn in *.
  assert (ET : forall a b c : str, a = b -> b = c -> a = c) by (intros; congruence).
  rewrite (merged_kind_ok Z.le Z.max Z.min slen mem_str eq Z.max_lub_iff Z.min_glb_iff mem_str_spec (@eq_sym str) ET
             pminlen pmaxlen pallowed_s ds v He (fun d Hd => proj1 (proj2 (W d Hd)))).
  split; intros K d Hd; apply string_ok_kind, K, Hd.
Qed.

Lemma sat_numeric : forall d v, is_numeric (ptyp d) = true ->
  (sat d v <-> exists x, default_num (ptyp d) v = Some x /\ number_ok d x).
Proof.
  intros d v N. unfold sat, default_num. destruct (ptyp d); try discriminate N.
  - destruct (parse_int v) as [z|]; cbn [option_map]; split.
    + intros [z' [E K]]. injection E as <-. eauto.
    + intros [x [E K]]. injection E as <-. eauto.
    + intros [z [E _]]. discriminate E.
    + intros [x [E _]]. discriminate E.
  - destruct (parse_dec v) as [[m e|neg|]|]; split; try (intros [x [E _]]; discriminate E);
      try (intros [m' [e' [E _]]]; discriminate E).
    + intros [m' [e' [E K]]]. injection E as <- <-. eauto.
    + intros [x [E K]]. injection E as <-. eauto.
Qed.

Lemma sat_string : forall d v, is_numeric (ptyp d) = false -> (sat d v <-> string_ok d v).
Proof. intros d v N. unfold sat. destruct (ptyp d); try discriminate N; reflexivity. Qed.

(* the heart of C12: a merged definition accepts exactly what every source accepts *)
Theorem sat_merged_iff : forall ds m v,
  merge false ds = Ok m -> (forall d, In d ds -> wf_def d) ->
  (sat m v <-> forall d, In d ds -> sat d v).
Proof.
  intros ds m v H W. destruct (merge_ok_inv ds m H) as [dl [L [_ [T [E [-> _]]]]]].
  destruct (merge_errors_false ds dl E) as [En [Es _]].
  pose proof (last_opt_in _ _ L) as Hdl.
  assert (Tn : forall d, In d ds -> is_numeric (ptyp d) = is_numeric (ptyp dl)) by (intros d Hd; rewrite (T d Hd); reflexivity).
  destruct (is_numeric (ptyp dl)) eqn:N.
  - rewrite sat_numeric by exact N. change (ptyp (candidate false ds dl)) with (ptyp dl). split.
    + intros [x [P K]] d Hd. apply sat_numeric; [exact (Tn d Hd)|]. exists x. rewrite (T d Hd). split; [exact P|].
      exact (proj1 (candidate_number_ok ds dl x N En W) K d Hd).
    + intro K. destruct (proj1 (sat_numeric dl v N) (K dl Hdl)) as [x [P _]]. exists x. split; [exact P|].
      apply (candidate_number_ok ds dl x N En W). intros d Hd.
      destruct (proj1 (sat_numeric d v (Tn d Hd)) (K d Hd)) as [x' [P' K']].
      rewrite (T d Hd), P in P'. injection P' as <-. exact K'.
  - rewrite sat_string, candidate_string_ok by assumption.
    split; intros K d Hd; apply (sat_string d v (Tn d Hd)), K, Hd.
Qed.

Theorem merge_sound : forall ds m v,
  Forall wf_def ds -> merge false ds = Ok m -> sat m v -> all_accept ds v.
Proof.
  intros ds m v W H S. unfold all_accept. rewrite Forall_forall in *.
  apply (sat_merged_iff ds m v H W). exact S.
Qed.

Theorem merge_complete : forall ds m v,
  Forall wf_def ds -> merge false ds = Ok m -> all_accept ds v -> sat m v.
Proof.
  intros ds m v W H S. unfold all_accept in S. rewrite Forall_forall in *.
  apply (sat_merged_iff ds m v H W). exact S.
Qed.

Theorem merge_order : forall ds ds' m m' v,
  Forall wf_def ds -> Permutation ds ds' ->
  merge false ds = Ok m -> merge false ds' = Ok m' -> (sat m v <-> sat m' v).
Proof.
  intros ds ds' m m' v W P H H'.
  assert (W' : Forall wf_def ds') by (eapply Permutation_Forall; eauto).
  rewrite Forall_forall in W, W'.
  rewrite (sat_merged_iff ds m v H W), (sat_merged_iff ds' m' v H' W').
  split; intros K d Hd; apply K.
  - eapply Permutation_in; [apply Permutation_sym; exact P|exact Hd].
  - eapply Permutation_in; [exact P|exact Hd].
Qed.

Lemma somes_cons : forall {A} (o : option A) l,
  somes (o :: l) = match o with Some x => [x] | None => [] end ++ somes l.
Proof. reflexivity. Qed.

Lemma last_given_default_spec : forall ds, last_given_default ds = last_opt (somes (map pdefault ds)).
Proof.
  unfold last_given_default.
  assert (G : forall ds acc,
    fold_left (fun acc d => match pdefault d with Some t => Some t | None => acc end) ds acc =
    match last_opt (somes (map pdefault ds)) with Some t => Some t | None => acc end).
  { induction ds as [|d ds IH]; intro acc; [reflexivity|].
    cbn [fold_left map]. rewrite IH, somes_cons, last_opt_app.
    destruct (last_opt (somes (map pdefault ds))); [reflexivity|].
    destruct (pdefault d); reflexivity. }
  intro ds. rewrite G. destruct (last_opt (somes (map pdefault ds))); reflexivity.
Qed.

Theorem merge_default : forall ds m, merge false ds = Ok m -> pdefault m = last_given_default ds.
Proof.
  intros ds m H. destruct (merge_ok_inv ds m H) as [dl [_ [_ [_ [_ [-> _]]]]]].
  rewrite last_given_default_spec. reflexivity.
Qed.

Theorem merge_refuse_types : forall p ds d d',
  In d ds -> In d' ds -> ptyp d <> ptyp d' -> merge p ds = Raise CompatibilityError.
Proof.
  intros p ds d d' Hd Hd' Ne. unfold merge.
  destruct (last_opt ds) as [dl|] eqn:L; [|apply last_opt_none in L; subst; destruct Hd].
  destruct (forallb (fun x => str_eqb (pname x) (pname dl)) ds); cbn [negb]; [|reflexivity].
  destruct (forallb (fun x => ptype_eqb (ptyp x) (ptyp dl)) ds) eqn:T; cbn [negb]; [|reflexivity].
  exfalso. rewrite forallb_forall in T. apply Ne.
  rewrite (proj1 (ptype_eqb_eq _ _) (T d Hd)), (proj1 (ptype_eqb_eq _ _) (T d' Hd')). reflexivity.
Qed.

Lemma merge_errors_raise : forall p ds dl,
  last_opt ds = Some dl -> merge_errors p ds dl = true -> merge p ds = Raise CompatibilityError.
Proof.
  intros p ds dl L E. unfold merge. rewrite L.
  destruct (forallb (fun x => str_eqb (pname x) (pname dl)) ds); cbn [negb]; [|reflexivity].
  destruct (forallb (fun x => ptype_eqb (ptyp x) (ptyp dl)) ds); cbn [negb]; [|reflexivity].
  rewrite E. reflexivity.
Qed.

Theorem merge_refuse_objtype : forall p ds d d',
  (forall x, In x ds -> ptyp x = PATH) ->
  In d ds -> In d' ds -> eff_objtype d <> eff_objtype d' -> merge p ds = Raise CompatibilityError.
Proof.
  intros p ds d d' TP Hd Hd' Ne.
  destruct (last_opt ds) as [dl|] eqn:L; [|apply last_opt_none in L; subst; destruct Hd].
  apply (merge_errors_raise p ds dl L).
  assert (AE : all_equal objtype_eqb (map eff_objtype ds) = false).
  { destruct (all_equal objtype_eqb (map eff_objtype ds)) eqn:AE; [|reflexivity]. exfalso. apply Ne.
    apply (proj1 (all_equal_spec objtype_eqb _ objtype_eqb_eq) AE); apply in_map; assumption. }
  unfold merge_errors. rewrite (TP dl (last_opt_in _ _ L)), AE. cbn [ptype_eqb andb negb].
  destruct (snd (merged_allowed_n p ds PATH)), (snd (merged_allowed_s p ds PATH)); reflexivity.
Qed.

Theorem merge_refuse_dataflow : forall p ds d d' a b,
  (forall x, In x ds -> ptyp x = PATH) ->
  In d ds -> In d' ds -> pdataflow d = Some a -> pdataflow d' = Some b -> a <> b ->
  merge p ds = Raise CompatibilityError.
Proof.
  intros p ds d d' a b TP Hd Hd' Da Db Ne.
  destruct (last_opt ds) as [dl|] eqn:L; [|apply last_opt_none in L; subst; destruct Hd].
  apply (merge_errors_raise p ds dl L).
  assert (AE : all_equal dataflow_eqb (somes (map pdataflow ds)) = false).
  { destruct (all_equal dataflow_eqb (somes (map pdataflow ds))) eqn:AE; [|reflexivity]. exfalso. apply Ne.
    apply (proj1 (all_equal_spec dataflow_eqb _ dataflow_eqb_eq) AE); apply in_somes.
    - rewrite <- Da. apply in_map. exact Hd.
    - rewrite <- Db. apply in_map. exact Hd'. }
  unfold merge_errors. rewrite (TP dl (last_opt_in _ _ L)), AE. cbn [ptype_eqb andb negb].
  destruct (snd (merged_allowed_n p ds PATH)), (snd (merged_allowed_s p ds PATH)),
           (all_equal objtype_eqb (map eff_objtype ds)); reflexivity.
Qed.

Lemma cfail_raise : forall b e, cfail b = Raise e -> e = CompatibilityError.
Proof. intros [] e H; cbn in H; [injection H as <-; reflexivity|discriminate]. Qed.

Lemma cfail_ok : forall b, cfail b = Ok tt <-> b = false.
Proof. intros []; cbn; split; intro H; try reflexivity; discriminate. Qed.

Lemma andthen_raise : forall a b e, (a ;;; b) = Raise e -> a = Raise e \/ (a = Ok tt /\ b = Raise e).
Proof. intros [[]|x] b e H; cbn in H; [right; auto|left; exact H]. Qed.

Definition ce_or (Q : exn -> Prop) (o : outcome unit) : Prop :=
  forall e, o = Raise e -> e = CompatibilityError \/ Q e.

Lemma cfail_ce : forall Q b, ce_or Q (cfail b).
Proof. intros Q b e H. left. eapply cfail_raise. exact H. Qed.

Lemma ok_ce : forall Q, ce_or Q (Ok tt).
Proof. intros Q e H. discriminate. Qed.

Lemma andthen_ce : forall Q a b, ce_or Q a -> ce_or Q b -> ce_or Q (a ;;; b).
Proof.
  intros Q a b Ha Hb e H. apply andthen_raise in H. destruct H as [H|[_ H]]; [apply Ha|apply Hb]; exact H.
Qed.

Lemma revalidate_raise : forall m e, revalidate m = Raise e ->
  e = CompatibilityError \/
  (e = RuntimeError /\ is_numeric (ptyp m) = true /\
   exists txt, pdefault m = Some txt /\ default_num (ptyp m) txt = None).
Proof.
  intros m e H. unfold revalidate in H. destruct (is_numeric (ptyp m)) eqn:N.
  - revert e H.
    change (ce_or (fun e => e = RuntimeError /\ true = true /\
                    exists txt, pdefault m = Some txt /\ default_num (ptyp m) txt = None) (revalidate_number m)).
    unfold revalidate_number. repeat apply andthen_ce; try apply cfail_ce.
    destruct (pdefault m) as [txt|] eqn:D; [|apply ok_ce].
    destruct (default_num (ptyp m) txt) as [x|] eqn:DN.
    + repeat apply andthen_ce; apply cfail_ce.
    + intros e H. injection H as <-. right. split; [reflexivity|]. split; [reflexivity|]. exists txt. auto.
  - assert (C : ce_or (fun _ => False) (revalidate_string m)).
    { unfold revalidate_string. repeat apply andthen_ce; try apply cfail_ce.
      destruct (pdefault m) as [txt|] eqn:D; [|apply ok_ce].
      repeat apply andthen_ce; apply cfail_ce. }
    destruct (C e H) as [K|[]]. left. exact K.
Qed.

Theorem merge_raise : forall ds e,
  ds <> [] -> Forall wf_default ds -> merge false ds = Raise e -> e = CompatibilityError.
Proof.
  intros ds e NE W H. unfold merge in H.
  destruct (last_opt ds) as [dl|] eqn:L; [|apply last_opt_none in L; contradiction].
  destruct (forallb (fun x => str_eqb (pname x) (pname dl)) ds); cbn [negb] in H; [|injection H as <-; reflexivity].
  destruct (forallb (fun x => ptype_eqb (ptyp x) (ptyp dl)) ds) eqn:T; cbn [negb] in H; [|injection H as <-; reflexivity].
  destruct (merge_errors false ds dl); [injection H as <-; reflexivity|].
  destruct (revalidate (candidate false ds dl)) as [[]|x] eqn:R; [discriminate|]. injection H as <-.
  destruct (revalidate_raise _ _ R) as [->|[-> [N [txt [D DN]]]]]; [reflexivity|exfalso].
  change (ptyp (candidate false ds dl)) with (ptyp dl) in *.
  change (pdefault (candidate false ds dl)) with (last_opt (somes (map pdefault ds))) in D.
  apply last_opt_in in D. apply in_somes in D. apply in_map_iff in D. destruct D as [d [D Hd]].
  rewrite Forall_forall in W. rewrite forallb_forall in T.
  pose proof (proj1 (ptype_eqb_eq _ _) (T d Hd)) as Td.
  destruct (W d Hd ltac:(rewrite Td; exact N) txt D) as [x K]. rewrite Td in K. congruence.
Qed.

(* An unsatisfiable set of definitions is refused: contrapositively, a merge that succeeds has a witness value. *)

Lemma within_num_spec : forall lo hi x,
  within_num lo hi x = true <-> opt_all lo (fun b => num_le b x) /\ opt_all hi (fun b => num_le x b).
Proof.
  intros lo hi x. unfold within_num. rewrite andb_true_iff.
  destruct lo as [a|], hi as [b|]; cbn [opt_all]; rewrite ?negb_true_iff, ?num_ltb_false; tauto.
Qed.

Lemma within_len_spec : forall lo hi v,
  within_len lo hi v = true <-> opt_all lo (fun n => n <= slen v) /\ opt_all hi (fun n => slen v <= n).
Proof.
  intros lo hi v. unfold within_len. rewrite andb_true_iff.
  destruct lo as [a|], hi as [b|]; cbn [opt_all]; rewrite ?negb_true_iff, ?Z.ltb_ge; tauto.
Qed.

Lemma revalidate_number_ok : forall m, revalidate_number m = Ok tt ->
  match pminv m, pmaxv m with Some a, Some b => num_ltb b a | _, _ => false end = false /\
  match pallowed_n m with
  | Some [] => true
  | Some l => negb (forallb (within_num (pminv m) (pmaxv m)) l)
  | None => false
  end = false.
Proof.
  intros m H. unfold revalidate_number in H.
  apply andthen_ok in H. destruct H as [H _]. apply andthen_ok in H. destruct H as [H1 H2].
  split; apply cfail_ok; assumption.
Qed.

Lemma revalidate_string_ok : forall m, revalidate_string m = Ok tt ->
  match pminlen m with Some n => n <=? 0 | None => false end = false /\
  match pmaxlen m with
  | Some n => (n <=? 0) || match pminlen m with Some k => n <? k | None => false end
  | None => false
  end = false /\
  match pallowed_s m with
  | Some [] => true
  | Some l => negb (forallb (within_len (pminlen m) (pmaxlen m)) l)
  | None => false
  end = false.
Proof.
  intros m H. unfold revalidate_string in H.
  apply andthen_ok in H. destruct H as [H _]. apply andthen_ok in H. destruct H as [H H3].
  apply andthen_ok in H. destruct H as [H1 H2]. repeat split; apply cfail_ok; assumption.
Qed.

(* a number that the re-validated numeric definition accepts *)
Definition witness_num (m : pdef) : num :=
  match pallowed_n m with
  | Some (a :: _) => a
  | _ => match pminv m with
         | Some b => b
         | None => match pmaxv m with Some b => b | None => mkNum 0 0 end
         end
  end.

Lemma witness_num_ok : forall m, revalidate_number m = Ok tt -> number_ok m (witness_num m).
Proof.
  intros m H. destruct (revalidate_number_ok m H) as [H1 H2]. unfold number_ok, witness_num.
  destruct (pallowed_n m) as [[|a l]|]; [discriminate| |].
  - apply negb_false_iff in H2. rewrite forallb_forall in H2.
    pose proof (H2 a (or_introl eq_refl)) as Wa. apply within_num_spec in Wa. destruct Wa as [Wl Wh].
    split; [exact Wl|]. split; [exact Wh|]. cbn [opt_all]. exists a. split; [left; reflexivity|].
    unfold num_eq. reflexivity.
  - destruct (pminv m) as [a|], (pmaxv m) as [b|]; cbn [opt_all]; repeat split; try apply num_le_refl.
    apply num_ltb_false. exact H1.
Qed.

Lemma witness_num_int : forall m, ptyp m = INT -> wf_int m -> is_int (witness_num m).
Proof.
  intros m T W. destruct (W T) as [W1 [W2 W3]]. unfold witness_num.
  destruct (pallowed_n m) as [[|a l]|]; cbn [opt_all] in *.
  - destruct (pminv m); [exact W1|]. destruct (pmaxv m); [exact W2|reflexivity].
  - inversion W3; assumption.
  - destruct (pminv m); [exact W1|]. destruct (pmaxv m); [exact W2|reflexivity].
Qed.

(* a string that the re-validated string-kind definition accepts *)
Definition witness_str (m : pdef) : str :=
  match pallowed_s m with
  | Some (a :: _) => a
  | _ => repeat 120%N (Z.to_nat (match pminlen m with Some n => n | None => 0 end))
  end.

Lemma witness_str_ok : forall m, revalidate_string m = Ok tt -> string_ok m (witness_str m).
Proof.
  intros m H. destruct (revalidate_string_ok m H) as [H1 [H2 H3]]. unfold string_ok, witness_str.
  destruct (pallowed_s m) as [[|a l]|]; [discriminate| |].
  - apply negb_false_iff in H3. rewrite forallb_forall in H3.
    pose proof (H3 a (or_introl eq_refl)) as Wa. apply within_len_spec in Wa. destruct Wa as [Wl Wh].
    split; [cbn [opt_all]; left; reflexivity|]. split; assumption.
  - split; [exact I|]. unfold slen. rewrite repeat_length.
    destruct (pminlen m) as [n|], (pmaxlen m) as [k|]; cbn [opt_all]; split; try exact I; lia.
Qed.

Lemma num_eta : forall x, mkNum (mant x) (expo x) = x.
Proof. intros []. reflexivity. Qed.

Lemma revalidate_witness : forall m, revalidate m = Ok tt -> wf_int m -> exists v, sat m v.
Proof.
  intros m H W. unfold revalidate in H. unfold sat.
  destruct (ptyp m) eqn:T; cbn [is_numeric] in H.
  - exists (witness_str m). apply witness_str_ok. exact H.
  - exists (witness_str m). apply witness_str_ok. exact H.
  - pose proof (witness_num_ok m H) as K. pose proof (witness_num_int m T W) as Hi.
    exists (NumPrint.print_Z (mant (witness_num m))), (mant (witness_num m)). split; [apply NumRoundtrip.parse_int_print_Z|].
    unfold num_of_Z. unfold is_int in Hi. rewrite <- Hi, num_eta. exact K.
  - pose proof (witness_num_ok m H) as K.
    exists (NumPrint.print_dec (mant (witness_num m)) (expo (witness_num m))), (mant (witness_num m)), (expo (witness_num m)).
    split; [apply NumRoundtrip.parse_dec_print_dec|]. rewrite num_eta. exact K.
Qed.

Lemma num_max_pres : forall (P : num -> Prop) a b, P a -> P b -> P (num_max a b).
Proof. intros P a b Ha Hb. unfold num_max. destruct (num_ltb a b); assumption. Qed.
Lemma num_min_pres : forall (P : num -> Prop) a b, P a -> P b -> P (num_min a b).
Proof. intros P a b Ha Hb. unfold num_min. destruct (num_ltb b a); assumption. Qed.

Lemma candidate_wf_int : forall ds dl,
  (forall d, In d ds -> ptyp d = ptyp dl) -> (forall d, In d ds -> wf_int d) ->
  wf_int (candidate false ds dl).
Proof.
  intros ds dl T W Ty. change (ptyp (candidate false ds dl)) with (ptyp dl) in Ty.
  assert (Wd : forall d, In d ds -> opt_all (pminv d) is_int /\ opt_all (pmaxv d) is_int /\ opt_all (pallowed_n d) (Forall is_int)).
  { intros d Hd. apply (W d Hd). rewrite (T d Hd). exact Ty. }
  unfold candidate. cbn [pminv pmaxv pallowed_n]. unfold merged_minv, merged_maxv, merged_allowed_n.
  rewrite Ty. cbn [is_numeric]. split; [|split].
  - apply fold_opt_pres; [apply num_max_pres|exact I|]. apply forall_map. intros d Hd. apply (Wd d Hd).
  - apply fold_opt_pres; [apply num_min_pres|exact I|]. apply forall_map. intros d Hd. apply (Wd d Hd).
  - assert (LP : opt_all (merge_allowed_loop false mem_num None (map pallowed_n ds)) (Forall is_int)).
    { apply loop_pres; [exact I|]. apply forall_map. intros d Hd. apply (Wd d Hd). }
    unfold merge_allowed. destruct (merge_allowed_loop false mem_num None (map pallowed_n ds)) as [[|x l]|]; cbn [fst opt_all]; try exact I.
    exact LP.
Qed.

Theorem merge_ok_satisfiable : forall ds m,
  Forall wf_merge ds -> merge false ds = Ok m -> exists v, all_accept ds v.
Proof.
  intros ds m W H. rewrite Forall_forall in W.
  destruct (merge_ok_inv ds m H) as [dl [_ [_ [T [_ [Em R]]]]]].
  assert (Wi : wf_int m) by (rewrite Em; apply candidate_wf_int; [exact T|intros d Hd; apply (W d Hd)]).
  destruct (revalidate_witness m R Wi) as [v S]. exists v.
  apply (merge_sound ds m v); [|exact H|exact S].
  apply Forall_forall. intros d Hd. apply (W d Hd).
Qed.

Theorem merge_refuse_unsat : forall ds,
  Forall wf_merge ds -> unsatisfiable ds -> merge false ds = Raise CompatibilityError.
Proof.
  intros ds W U. destruct (merge false ds) as [m|e] eqn:H.
  - exfalso. destruct (merge_ok_satisfiable ds m W H) as [v S]. apply (U v S).
  - f_equal. apply (merge_raise ds e); [| |exact H].
    + intro E. subst ds. apply (U []). constructor.
    + eapply Forall_impl; [|exact W]. intros d [_ [Wd _]]. exact Wd.
Qed.

Lemma merged_wf_def : forall ds m, merge false ds = Ok m -> wf_def m.
Proof.
  intros ds m H. destruct (merge_ok_inv ds m H) as [dl [_ [_ [_ [_ [Em R]]]]]].
  unfold revalidate in R. unfold wf_def.
  assert (Ty : ptyp m = ptyp dl) by (rewrite Em; reflexivity).
  destruct (is_numeric (ptyp m)) eqn:N.
  - assert (S1 : pallowed_s m = None).
    { rewrite Em. unfold candidate. cbn [pallowed_s]. unfold merged_allowed_s. rewrite <- Ty, N. reflexivity. }
    assert (S2 : pmaxlen m = None).
    { rewrite Em. unfold candidate. cbn [pmaxlen]. unfold merged_maxlen. rewrite <- Ty, N. reflexivity. }
    rewrite S1, S2. split; [|split; discriminate].
    destruct (revalidate_number_ok m R) as [_ R2]. intro E. rewrite E in R2. discriminate.
  - assert (S1 : pallowed_n m = None).
    { rewrite Em. unfold candidate. cbn [pallowed_n]. unfold merged_allowed_n. rewrite <- Ty, N. reflexivity. }
    rewrite S1. split; [discriminate|].
    destruct (revalidate_string_ok m R) as [_ [R2 R3]]. split.
    + intro E. rewrite E in R3. discriminate.
    + intro E. rewrite E in R2. cbn in R2. discriminate.
Qed.

Section PreMerged.
  Variable path_in : str -> str.
  Variable path_default : str -> outcome str.

  (* preprocessing with environment templates: a value map is accepted exactly when the
     usual conditions hold for the merged definition and EVERY source accepts the final value *)
  Theorem preprocess_merged_iff : forall ds m vals,
    Forall wf_def ds -> merge false ds = Ok m ->
    ((exists r, preprocess_merged true path_in path_default ds vals = Ok r) <->
     no_extra [m] vals /\ no_missing [m] vals /\ path_defaults_ok path_default [m] vals /\
     (forall v, final path_in path_default vals m v -> all_accept ds v)).
  Proof.
    intros ds m vals W H. unfold preprocess_merged. rewrite H.
    assert (Wm : Forall wf_def [m]) by (constructor; [eapply merged_wf_def; eauto|constructor]).
    assert (ND : NoDup (map pname [m])) by (cbn; constructor; [intros []|constructor]).
    rewrite (preprocess_iff path_in path_default [m] vals Wm ND).
    assert (K : all_sat path_in path_default [m] vals <->
                (forall v, final path_in path_default vals m v -> all_accept ds v)).
    { unfold all_sat. split.
      - intros A v F. apply (merge_sound ds m v W H). apply (A m v); [left; reflexivity|exact F].
      - intros A d v [<-|[]] F. apply (merge_complete ds m v W H). apply A. exact F. }
    rewrite K. tauto.
  Qed.

  (* a refused merge is the ValueError of preprocess_job_parameters (create_job turns every
     ValueError of preprocess_job_parameters into DecodeValidationError: C06) *)
  Theorem preprocess_merged_refused : forall dir_ok ds vals,
    merge false ds = Raise CompatibilityError ->
    preprocess_merged dir_ok path_in path_default ds vals = Raise ValueError.
  Proof. intros dir_ok ds vals H. unfold preprocess_merged. rewrite H. reflexivity. Qed.
End PreMerged.
