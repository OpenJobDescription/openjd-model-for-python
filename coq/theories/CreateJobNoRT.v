(* CreateJobNoRT.v — the job-side re-validation [Export.nodes_ok] of an instantiated ACCEPTED job template
   never answers RuntimeError ("outside the modelled pydantic domain"), for props/C06x.v.

   The structural model (Parse.v) says "unsupported" in three places only: a non-strict str field given a
   float, a non-strict bool field given a non-bool, a float field given a string; besides that RuntimeError
   means an unknown class or exhausted fuel.  Plan:
     A. decoded trees are [live]: outside the fields instantiate_model drops (j_exclude) there is no
        float value, every class is in RT, and members of lists / dicts are not collections themselves
        (schema check [live_closed], by computation on Generated.schema);
     B. instantiate_model maps live trees to [good] trees: no float anywhere, every class in RJ
        (schema check [targets_ok]); coerce_job keeps them good;
     C. the export of a good tree contains no JDec;
     D. parsing a JDec-free document against a class of RJ never answers RuntimeError once the fuel
        covers the document (schema check [safe_closed]: no float field, no lax bool field, classes closed);
     E. depth: the instantiated tree is not deeper than the template, so the fuel of nodes_ok suffices. *)
From Coq Require Import List NArith ZArith Bool String Lia.
Import ListNotations.
Require Import OJD.Base OJD.Lexer OJD.Json OJD.Schema OJD.Generated OJD.Charsets OJD.Numerals OJD.NumPrint
               OJD.FormatStr OJD.CreateJob OJD.CreateJobProofs OJD.Parse OJD.Validators OJD.Accept OJD.AcceptMono
               OJD.Export OJD.ParseOutcomes OJD.CreateExn OJD.DecodeInv OJD.WellKeyed OJD.ListLib.
Require OJD.ExportProofs.   (* kh, json_depth lemmas, the union-nesting bound of the live schema *)
Local Open Scope string_scope.
Local Open Scope list_scope.

(* ------------------------------------------------------------------ predicates on instance trees *)

Definition member_ok (x : mval) : bool := match x with MList _ | MDict _ => false | _ => true end.

Section Preds.
  Variable SC : schema_t.
  Variable R : list string.

  (* the part of a template tree instantiate_model looks at *)
  Fixpoint live (v : mval) : bool :=
    match v with
    | MFloat _ _ => false
    | MList l => forallb (fun x => member_ok x && live x) l
    | MDict l => forallb (fun kv => member_ok (snd kv) && live (snd kv)) l
    | MModel c fs =>
      mem_s c R && forallb (fun fv => mem_s (fst fv) (j_exclude (jcm_of SC c)) || live (snd fv)) fs
    | _ => true
    end.

  (* a tree without floats whose classes are all in R *)
  Fixpoint good (v : mval) : bool :=
    match v with
    | MFloat _ _ => false
    | MList l => forallb good l
    | MDict l => forallb (fun kv => good (snd kv)) l
    | MModel c fs => mem_s c R && forallb (fun fv => good (snd fv)) fs
    | _ => true
    end.
End Preds.

(* ------------------------------------------------------------------ predicates on kinds *)

Definition alt_single (ks : kind -> bool) (a : ualt) : bool :=
  match a with UScalar k' => ks k' | UList _ _ _ => false end.

Fixpoint kind_single (k : kind) : bool :=
  match k with
  | KUnion alts =>
    (fix go (l : list ualt) : bool :=
       match l with
       | [] => true
       | a :: r => (match a with UScalar k' => kind_single k' | UList _ _ _ => false end) && go r
       end) alts
  | _ => true
  end.

Lemma kind_single_union : forall alts, kind_single (KUnion alts) = forallb (alt_single kind_single) alts.
Proof. induction alts as [|a r IH]; [reflexivity|]. cbn [forallb]. rewrite <- IH. destruct a; reflexivity. Qed.

Definition alt_live (kl : kind -> bool) (a : ualt) : bool :=
  match a with UScalar k' => kl k' | UList _ _ k' => kl k' && kind_single k' end.

Fixpoint kind_live (R : list string) (k : kind) : bool :=
  match k with
  | KFloat _ => false
  | KModel c => mem_s c R
  | KDisc _ mp => forallb (fun kc => mem_s (snd kc) R) mp
  | KUnion alts =>
    (fix go (l : list ualt) : bool :=
       match l with
       | [] => true
       | a :: r => (match a with UScalar k' => kind_live R k' | UList _ _ k' => kind_live R k' && kind_single k' end) && go r
       end) alts
  | _ => true
  end.

Lemma kind_live_union : forall R alts, kind_live R (KUnion alts) = forallb (alt_live (kind_live R)) alts.
Proof. intros R. induction alts as [|a r IH]; [reflexivity|]. cbn [forallb]. rewrite <- IH. destruct a; reflexivity. Qed.

Definition field_live (R : list string) (fl : field) : bool :=
  kind_live R (f_kind fl) && match f_shape fl with Single => true | _ => kind_single (f_kind fl) end.

Definition live_closed (SC : schema_t) (R : list string) : bool :=
  forallb (fun c => match lookup_cls SC c with
                    | Some c0 => forallb (fun fl => mem_s (f_name fl) (j_exclude (c_jcm c0)) || field_live R fl) (c_fields c0)
                    | None => false
                    end) R.

(* ------------------------------------------------------------------ A. decoded trees are live *)

Section Live.
  Variable SC : schema_t.
  Variable classify : N -> cclass.
  Variable pre : string -> json -> bool.
  Variable post : string -> json -> list (string * mval) -> bool.
  Notation pk := (parse_kind SC classify pre post).
  Notation pc := (parse_cls SC classify pre post).
  Variable R : list string.
  Hypothesis closed : live_closed SC R = true.

  (* an accepted value of a kind: no collection if the kind has no list alternative, live if the kind is *)
  Definition live_val (k : kind) (m : mval) : Prop :=
    (kind_single k = true -> member_ok m = true) /\ (kind_live R k = true -> live SC R m = true).

  Lemma value_live : forall fl x, value_is live_val fl x -> field_live R fl = true -> live SC R x = true.
  Proof.
    intros fl x [(_ & ->)|H] Hfl; [reflexivity|]. unfold field_live in Hfl. apply andb_true_iff in Hfl. destruct Hfl as [Hk Hs].
    destruct (f_shape fl); [exact (proj2 H Hk)| |]; destruct H as (l & -> & Hl); cbn [live]; apply forallb_forall;
      intros y Hy; rewrite Forall_forall in Hl; destruct (Hl y Hy) as [Hm Hlv]; rewrite (Hm Hs), (Hlv Hk); reflexivity.
  Qed.

  Theorem parse_live : forall fuel,
    (forall k v m, pk fuel k v = Ok m -> kind_live R k = true -> live SC R m = true) /\
    (forall c v m, pc fuel c v = Ok m -> In c R -> live SC R m = true).
  Proof.
    intros fuel.
    enough (A : (forall k v m, pk fuel k v = Ok m -> live_val k m) /\
                (forall c v m, pc fuel c v = Ok m -> (exists fs, m = MModel c fs) /\ (In c R -> live SC R m = true)))
      by (split; intros x v m H; [exact (proj2 (proj1 A _ _ _ H))|exact (proj2 (proj2 A _ _ _ H))]).
    apply accepted_ind.
    - intros k m Hk Hv. split; intros Hs; destruct k; try discriminate Hk; try discriminate Hs; destruct m; try discriminate Hv; reflexivity.
    - intros c m ((fs & ->) & Hl). split; [reflexivity|]. intros Hk. apply Hl. apply mem_s_In. exact Hk.
    - intros key mp kc m Hin ((fs & ->) & Hl). split; [reflexivity|]. intros Hk. apply Hl. apply mem_s_In.
      cbn [kind_live] in Hk. rewrite forallb_forall in Hk. exact (Hk kc Hin).
    - intros alts k m Hin [Hm Hl]. split; intros Hk; [rewrite kind_single_union in Hk|rewrite kind_live_union in Hk];
        rewrite forallb_forall in Hk; specialize (Hk _ Hin); [exact (Hm Hk)|exact (Hl Hk)].
    - intros alts lo hi k l Hin H. split; intros Hk; [rewrite kind_single_union in Hk|rewrite kind_live_union in Hk];
        rewrite forallb_forall in Hk; specialize (Hk _ Hin); [discriminate Hk|].
      cbn [alt_live] in Hk. apply andb_true_iff in Hk. destruct Hk as [Hk Hs]. cbn [live]. apply forallb_forall. intros y Hy.
      rewrite Forall_forall in H. destruct (H y Hy) as [Hm Hl]. rewrite (Hm Hs), (Hl Hk). reflexivity.
    - intros c c0 fs El H. split; [exists fs; reflexivity|]. intros Hc. cbn [live]. unfold jcm_of. rewrite El.
      apply andb_true_iff. split; [apply mem_s_In; exact Hc|]. apply forallb_forall. intros fv Hfv.
      destruct (Forall2_in_r _ _ _ _ _ fv H Hfv) as (fl & Hfl & Hn & Hv). rewrite Hn.
      unfold live_closed in closed. rewrite forallb_forall in closed. specialize (closed c Hc). rewrite El in closed.
      rewrite forallb_forall in closed. specialize (closed fl Hfl).
      destruct (mem_s (f_name fl) (j_exclude (c_jcm c0))); [reflexivity|]. exact (value_live fl _ Hv closed).
  Qed.
End Live.

(* ------------------------------------------------------------------ B. instantiate_model: live -> good *)

Definition targets (j : jcm) (c : string) : list string :=
  match j_create_as j with CreateSelf => [c] | CreateModel t => [t] | CreateIntRange a b => [a; b] end.

Definition targets_ok (SC : schema_t) (R R' : list string) : bool :=
  forallb (fun c => forallb (fun t => mem_s t R') (targets (jcm_of SC c) c)) R.

Lemma target_class_in : forall j c fields, In (target_class j c fields) (targets j c).
Proof.
  intros j c fields. unfold target_class, targets. destruct (j_create_as j) as [|t|a b]; [left; reflexivity|left; reflexivity|].
  destruct (mfield "range" fields); cbn; tauto.
Qed.

Lemma leaf_live_good : forall SC R R' x, member_ok x = true -> (forall c fs, x <> MModel c fs) ->
  live SC R x = true -> good R' x = true.
Proof.
  intros SC R R' x Hm Hn H. destruct x as [ | | | | | | |l|l|c fs]; try reflexivity; try discriminate Hm; try discriminate H.
  exfalso. exact (Hn c fs eq_refl).
Qed.

Section InstGood.
  Variable SC : schema_t.
  Variable resolve : symtab -> str -> outcome str.
  Variable sigma : symtab.
  Variable RT RJ : list string.
  Hypothesis Htargets : targets_ok SC RT RJ = true.

  Section Node.
    Variable rec : mval -> outcome mval.
    Variable j : jcm.
    Hypothesis Hrec : forall c fs y, live SC RT (MModel c fs) = true -> rec (MModel c fs) = Ok y -> good RJ y = true.

    Lemma inst_item_good : forall fn x y, member_ok x = true -> live SC RT x = true ->
      inst_item resolve sigma rec j fn x = Ok y -> good RJ y = true.
    Proof.
      intros fn x y Hm Hl H. unfold inst_item in H.
      destruct x as [ | | | | | |s|l|l|c fs]; try discriminate Hm; try discriminate Hl;
        try (injection H as <-; reflexivity).
      - destruct (mem_s fn (j_resolve j)).
        + destruct (resolve sigma s) as [r|e]; cbn [bind] in H; [|discriminate H]. injection H as <-. reflexivity.
        + injection H as <-. reflexivity.
      - eapply Hrec; eassumption.
    Qed.

    Lemma inst_member_good : forall kv kv', member_ok (snd kv) = true -> live SC RT (snd kv) = true ->
      inst_member resolve sigma rec j kv = Ok kv' -> good RJ (snd kv') = true.
    Proof.
      intros [k x] kv' Hm Hl H. unfold inst_member in H. cbn [fst snd] in *.
      destruct x as [ | | | | | |s|l|l|c fs]; try discriminate Hm; try discriminate Hl; cbn [bind] in H;
        try (injection H as <-; reflexivity).
      - destruct (existsb _ (j_resolve j)); cbn [bind] in H.
        + destruct (resolve sigma s) as [r|e]; cbn [bind] in H; [|discriminate H]. injection H as <-. reflexivity.
        + injection H as <-. reflexivity.
      - destruct (rec (MModel c fs)) as [y|e] eqn:Er; cbn [bind] in H; [|discriminate H]. injection H as <-.
        cbn [snd]. eapply Hrec; eassumption.
    Qed.

    Lemma inst_val_good : forall fn x y, live SC RT x = true ->
      inst_val resolve sigma rec j fn x = Ok y -> good RJ y = true.
    Proof.
      intros fn x y Hl H. unfold inst_val in H.
      destruct x as [ | | | | | |s|l|l|c fs];
        try (match type of Hl with live _ _ ?x = true => exact (inst_item_good fn x y eq_refl Hl H) end).
      - cbn [live] in Hl. destruct (lookup_s fn (j_reshape j)) as [kf|].
        + destruct (fold_left _ l (Ok [])) as [d|e] eqn:Ef; cbn [bind] in H; [|discriminate H]. injection H as <-.
          cbn [good]. apply forallb_forall. intros kv Hkv.
          destruct (reshape_fold_items _ _ _ _ _ _ _ _ _ Ef kv Hkv) as [(a & Ea & Ha)|(x & Hx & Hi)]; [injection Ea as <-; destruct Ha|].
          rewrite forallb_forall in Hl. specialize (Hl x Hx). apply andb_true_iff in Hl. destruct Hl as [Hm Hl].
          eapply inst_item_good; eassumption.
        + destruct (mapM _ l) as [l'|e] eqn:Em; cbn [bind] in H; [|discriminate H]. injection H as <-.
          cbn [good]. apply forallb_forall. intros y Hy.
          destruct (mapM_ok_in _ _ _ _ _ Em y Hy) as [x [Hx Hi]].
          rewrite forallb_forall in Hl. specialize (Hl x Hx). apply andb_true_iff in Hl. destruct Hl as [Hm Hl].
          eapply inst_item_good; eassumption.
      - cbn [live] in Hl. destruct (mapM _ l) as [l'|e] eqn:Em; cbn [bind] in H; [|discriminate H]. injection H as <-.
        cbn [good]. apply forallb_forall. intros kv' Hy.
        destruct (mapM_ok_in _ _ _ _ _ Em kv' Hy) as [kv [Hx Hi]].
        rewrite forallb_forall in Hl. specialize (Hl kv Hx). apply andb_true_iff in Hl. destruct Hl as [Hm Hl].
        eapply inst_member_good; eassumption.
    Qed.

    Lemma inst_model_good : forall c fields y, jcm_of SC c = j -> live SC RT (MModel c fields) = true ->
      inst_model resolve sigma rec j c fields = Ok y -> good RJ y = true.
    Proof.
      intros c fields y Ej Hl H. cbn [live] in Hl. rewrite Ej in Hl. apply andb_true_iff in Hl. destruct Hl as [Hc Hf].
      destruct (inst_model_fields _ _ _ _ _ _ _ H) as (fs' & -> & Hfs). cbn [good]. apply andb_true_iff. split.
      - unfold targets_ok in Htargets. rewrite forallb_forall in Htargets. apply mem_s_In in Hc.
        specialize (Htargets c Hc). rewrite forallb_forall in Htargets. rewrite Ej in Htargets.
        apply Htargets. apply target_class_in.
      - apply forallb_forall. intros kv Hkv. destruct (Hfs kv Hkv) as [(fv & Hfv & Hx & Hv)|(n & v & _ & ->)]; [|reflexivity].
        rewrite forallb_forall in Hf. specialize (Hf fv Hfv). rewrite Hx in Hf. exact (inst_val_good _ _ _ Hf Hv).
    Qed.
  End Node.

  Theorem inst_good : forall fuel c fs y, live SC RT (MModel c fs) = true ->
    inst SC resolve sigma fuel (MModel c fs) = Ok y -> good RJ y = true.
  Proof.
    induction fuel as [|f IH]; intros c fs y Hl H; [rewrite inst_O in H; discriminate H|].
    rewrite inst_S in H. eapply inst_model_good; [|reflexivity|exact Hl|exact H].
    intros c' fs' y' Hl' H'. eapply IH; eassumption.
  Qed.
End InstGood.

(* ------------------------------------------------------------------ C. coerce_job, export *)

Lemma coerce_item_good : forall R x, good R x = true -> good R (coerce_range_item x) = true.
Proof. intros R x H. destruct x; try exact H; reflexivity. Qed.

Lemma coerce_good : forall R f v, good R v = true -> good R (coerce_job f v) = true.
Proof.
  intros R. induction f as [|f IH]; intros v H; [exact H|].
  destruct v as [ | | | | | | |l|l|c fs]; cbn [coerce_job]; try exact H.
  - cbn [good] in *. rewrite forallb_forall in *. intros y Hy. apply in_map_iff in Hy. destruct Hy as [x [<- Hx]].
    apply IH. apply H. exact Hx.
  - cbn [good] in *. rewrite forallb_forall in *. intros y Hy. apply in_map_iff in Hy. destruct Hy as [x [<- Hx]].
    cbn [snd]. apply IH. apply H. exact Hx.
  - cbn [good] in *. apply andb_true_iff in H. destruct H as [Hc Hf]. rewrite Hc. cbn [andb].
    rewrite forallb_forall in *. intros y Hy. apply in_map_iff in Hy. destruct Hy as [[fn x] [<- Hx]].
    specialize (Hf (fn, x) Hx). cbn [fst snd] in *.
    destruct (String.eqb fn "range").
    + destruct x as [ | | | | | | |items| | ]; cbn [snd]; try exact Hf.
      cbn [good] in *. rewrite forallb_forall in *. intros y Hy. apply in_map_iff in Hy. destruct Hy as [x' [<- Hx']].
      apply coerce_item_good. apply Hf. exact Hx'.
    + cbn [snd]. apply IH. exact Hf.
Qed.

Fixpoint nodec (j : json) : bool :=
  match j with
  | JDec _ _ => false
  | JArr l => forallb nodec l
  | JObj ms => forallb (fun kv => nodec (snd kv)) ms
  | _ => true
  end.

Lemma to_object_nodec : forall SC R F v, good R v = true -> nodec (to_object SC F v) = true.
Proof.
  intros SC R. induction F as [|F IH]; intros v H; [reflexivity|].
  destruct v as [ | | | | | | |l|l|c fs]; cbn [to_object nodec]; try reflexivity; try discriminate H.
  - cbn [good] in H. rewrite forallb_forall in *. intros y Hy. apply in_map_iff in Hy. destruct Hy as [x [<- Hx]].
    apply IH. apply H. exact Hx.
  - cbn [good] in H. rewrite forallb_flat_map. apply forallb_forall. intros kv Hkv. rewrite forallb_forall in H. specialize (H kv Hkv).
    destruct (snd kv) eqn:Es; try reflexivity; cbn [forallb snd]; rewrite (IH _ H); reflexivity.
  - cbn [good] in H. apply andb_true_iff in H. destruct H as [_ H].
    rewrite forallb_flat_map. apply forallb_forall. intros kv Hkv. rewrite forallb_forall in H. specialize (H kv Hkv).
    destruct (snd kv) eqn:Es; try reflexivity; cbn [forallb snd]; rewrite (IH _ H); reflexivity.
Qed.

(* ------------------------------------------------------------------ D. parsing a JDec-free document *)

Fixpoint kind_safe (R : list string) (k : kind) : bool :=
  match k with
  | KFloat _ => false
  | KBool strict => strict
  | KModel c => mem_s c R
  | KDisc _ mp => forallb (fun kc => mem_s (snd kc) R) mp
  | KUnion alts =>
    (fix go (l : list ualt) : bool :=
       match l with
       | [] => true
       | a :: r => (match a with UScalar k' => kind_safe R k' | UList _ _ k' => kind_safe R k' end) && go r
       end) alts
  | _ => true
  end.

Definition alt_safe (ks : kind -> bool) (a : ualt) : bool :=
  match a with UScalar k' => ks k' | UList _ _ k' => ks k' end.

Lemma kind_safe_union : forall R alts, kind_safe R (KUnion alts) = forallb (alt_safe (kind_safe R)) alts.
Proof. intros R. induction alts as [|a r IH]; [reflexivity|]. cbn [forallb]. rewrite <- IH. destruct a; reflexivity. Qed.

(* every class of R is in the table; its field kinds are safe; dictionary keys are safe scalars *)
Definition safe_closed (SC : schema_t) (R : list string) : bool :=
  forallb (fun c => match lookup_cls SC c with
                    | Some c0 =>
                      forallb (fun fl => kind_safe R (f_kind fl)
                                         && match f_shape fl with DictOf kk => is_scalar kk && kind_safe R kk | _ => true end)
                              (c_fields c0)
                    | None => false
                    end) R.

(* [unsupported] is answered in three places only: a lax string kind given a float, a lax bool kind
   given a non-bool, a float kind given a string; none of them is reached here *)
Lemma parse_scalar_safe : forall classify R k v e, nodec v = true -> kind_safe R k = true -> is_scalar k = true ->
  parse_scalar classify k v = Raise e -> e = ValueError.
Proof.
  intros classify R k v e Hn Hs Hsc H. destruct (parse_scalar_outcomes _ _ _ _ H) as [E|E]; [exact E|]. subst e. exfalso.
  revert H. destruct k; try discriminate Hsc; try discriminate Hs; destruct v; try discriminate Hn;
    cbn [kind_safe] in Hs; subst; cbn [parse_scalar]; unfold check_str, reject;
    repeat match goal with |- context [match ?x with _ => _ end] => destruct x; cbv beta iota end; discriminate.
Qed.

Section NoRT.
  Variable SC : schema_t.
  Variable classify : N -> cclass.
  Variable pre : string -> json -> bool.
  Variable post : string -> json -> list (string * mval) -> bool.
  Notation pk := (parse_kind SC classify pre post).
  Notation pc := (parse_cls SC classify pre post).
  Variable R : list string.
  Hypothesis closed : safe_closed SC R = true.
  Hypothesis Hkh : forall c k fl, lookup_cls SC c = Some k -> In fl (c_fields k) -> ExportProofs.kh (f_kind fl) <= 3.

  (* fuel that suffices: one level of the document costs one class step and at most [kh] <= 3 kind
     steps (nested unions; 3 is what ExportProofs.generated_kh_bound checks on the live schema), hence 4 *)
  Definition bk (k : kind) (v : json) : nat := ExportProofs.kh k + 4 * json_depth v.
  Definition bc (v : json) : nat := 4 * json_depth v.

  Lemma nodec_item : forall l x, nodec (JArr l) = true -> In x l -> nodec x = true.
  Proof. intros l x H Hx. cbn [nodec] in H. rewrite forallb_forall in H. apply H. exact Hx. Qed.
  Lemma nodec_member : forall (ms : list (str * json)) kv, nodec (JObj ms) = true -> In kv ms -> nodec (snd kv) = true.
  Proof. intros ms kv H Hx. cbn [nodec] in H. rewrite forallb_forall in H. apply (H kv). exact Hx. Qed.

  Theorem parse_no_rt : forall f,
    (forall k v, nodec v = true -> kind_safe R k = true -> bk k v <= f -> pk f k v <> Raise RuntimeError) /\
    (forall c v, nodec v = true -> In c R -> bc v <= f -> pc f c v <> Raise RuntimeError).
  Proof.
    induction f as [|f [IHk IHc]].
    - split.
      + intros k v _ _ Hb. unfold bk in Hb. pose proof (ExportProofs.kh_pos k). lia.
      + intros c v _ _ Hb. unfold bc in Hb. pose proof (ExportProofs.json_depth_pos v). lia.
    - assert (LI : forall k items x, nodec (JArr items) = true -> kind_safe R k = true -> bk k (JArr items) <= S f ->
                                     In x items -> pk f k x <> Raise RuntimeError).
      { intros k items x Hn Hs Hb Hx. apply IHk; [eapply nodec_item; eassumption|exact Hs|].
        apply ExportProofs.json_depth_item in Hx. unfold bk in *. lia. }
      split.
      + intros k v Hn Hs Hb H. rewrite parse_kind_S in H.
        destruct k as [lit|enum|strict lo hi cs|c lo hi cs|strict|strict ge le gt|gt| |c|key mp|alts];
          try (apply (parse_scalar_safe classify R _ v RuntimeError Hn Hs eq_refl) in H; discriminate H).
        * apply (IHc c v Hn); [apply mem_s_In; exact Hs| |exact H]. unfold bk, bc in *. cbn [ExportProofs.kh] in Hb. lia.
        * apply disc_res_raise in H. destruct H as [H|(kc & Hin & H)]; [discriminate H|].
          cbn [kind_safe] in Hs. rewrite forallb_forall in Hs.
          apply (IHc (snd kc) v Hn); [apply mem_s_In; exact (Hs kc Hin)| |exact H].
          unfold bk, bc in *. cbn [ExportProofs.kh] in Hb. lia.
        * apply try_alts_raise in H. destruct H as [H|[a [Ha Hr]]]; [discriminate H|].
          rewrite kind_safe_union in Hs. rewrite forallb_forall in Hs. specialize (Hs a Ha).
          pose proof (ExportProofs.kh_union_in alts a Ha) as Hlt.
          destruct a as [k'|lo hi k']; cbn [alt_res alt_safe ExportProofs.kh_alt] in *.
          -- apply (IHk k' v Hn Hs); [|exact Hr]. unfold bk in *. lia.
          -- apply list_items_raise in Hr. destruct Hr as [Hr|(items & x & -> & Hx & Hr)]; [discriminate Hr|].
             apply (LI k' items x Hn Hs); [unfold bk in *; lia|exact Hx|exact Hr].
      + intros c v Hn Hc Hb H. apply parse_cls_raise in H.
        unfold safe_closed in closed. rewrite forallb_forall in closed. specialize (closed c Hc).
        destruct H as [H|[(_ & [H|H])|(f' & c0 & ms & fl & E & El & -> & Hfl & H)]];
          [discriminate H|discriminate H|rewrite H in closed; discriminate closed|].
        injection E as <-. rewrite El in closed. rewrite forallb_forall in closed. specialize (closed fl Hfl).
        apply andb_true_iff in closed. destruct closed as [Hs Hd]. pose proof (Hkh c c0 fl El Hfl) as Hh.
        apply parse_value_raise in H. destruct H as [H|[Hnull H]]; [discriminate H|].
        (* the field's raw value is a member of the object: JDec-free, and shallower *)
        unfold field_raw in *. destruct (assoc (str_of_string (f_alias fl)) ms) as [raw|] eqn:Ea; [|contradiction].
        destruct (ExportProofs.assoc_in _ _ _ _ Ea) as [key Hin].
        pose proof (nodec_member ms (key, raw) Hn Hin) as Hnr. apply ExportProofs.json_depth_member in Hin. cbn [snd] in Hnr, Hin.
        pose proof (ExportProofs.json_depth_pos raw) as Hpos.
        assert (Hraw : bk (f_kind fl) raw <= f) by (unfold bk, bc in *; lia).
        destruct (f_shape fl) as [|lo hi|kk].
        * exact (IHk _ _ Hnr Hs Hraw H).
        * destruct H as (items & x & -> & Hx & H). exact (LI _ items x Hnr Hs (le_S _ _ Hraw) Hx H).
        * destruct H as (members & kv & -> & Hkv & H). apply andb_true_iff in Hd. destruct Hd as [Hsk Hkk].
          pose proof (ExportProofs.json_depth_member members kv Hkv) as Hdv.
          destruct H as [H|H].
          -- destruct f as [|f']; [unfold bk in Hraw; lia|]. rewrite parse_kind_S in H.
             assert (H' : parse_scalar classify kk (JStr (fst kv)) = Raise RuntimeError) by (destruct kk; try discriminate Hsk; exact H).
             apply (parse_scalar_safe classify R kk (JStr (fst kv)) RuntimeError eq_refl Hkk Hsk) in H'. discriminate H'.
          -- revert H. apply IHk; [exact (nodec_member members kv Hnr Hkv)|exact Hs|]. unfold bk in *. lia.
  Qed.
End NoRT.

(* ------------------------------------------------------------------ E. depth: the fuel of nodes_ok suffices *)

Lemma depth_pos : forall v, 1 <= mval_depth v.
Proof. intros v. destruct v; cbn [mval_depth]; lia. Qed.

Lemma max_le_all : forall (A : Type) (g : A -> nat) l n,
  (forall x, In x l -> g x <= n) -> fold_right (fun y acc => Nat.max (g y) acc) O l <= n.
Proof.
  intros A g. induction l as [|a r IH]; intros n H; [cbn; lia|].
  cbn [fold_right]. pose proof (H a (or_introl eq_refl)). specialize (IH n (fun x Hx => H x (or_intror Hx))). lia.
Qed.

Lemma mfield_str_in : forall name fs n, mfield name fs = MStr n -> exists fv, In fv fs /\ mval_depth (snd fv) = 1.
Proof.
  intros name fs n H. unfold mfield in H. induction fs as [|[k v] r IH]; cbn [lookup_s] in H; [discriminate H|].
  destruct (String.eqb k name).
  - exists (k, v). split; [left; reflexivity|]. cbn [snd]. rewrite H. reflexivity.
  - destruct (IH H) as [fv [Hin Hd]]. exists fv. split; [right; exact Hin|exact Hd].
Qed.

Section InstDepth.
  Variable SC : schema_t.
  Variable resolve : symtab -> str -> outcome str.
  Variable sigma : symtab.

  Section Node.
    Variable rec : mval -> outcome mval.
    Variable j : jcm.
    Hypothesis Hrec : forall x y, rec x = Ok y -> mval_depth y <= mval_depth x.

    Lemma inst_item_depth : forall fn x y, inst_item resolve sigma rec j fn x = Ok y -> mval_depth y <= mval_depth x.
    Proof.
      intros fn x y H. unfold inst_item in H.
      destruct x as [ | | | | | |s|l|l|c fs]; try (injection H as <-; lia).
      - destruct (mem_s fn (j_resolve j)).
        + destruct (resolve sigma s) as [r|e]; cbn [bind] in H; [|discriminate H]. injection H as <-. cbn [mval_depth]. lia.
        + injection H as <-. lia.
      - apply Hrec. exact H.
    Qed.

    Lemma inst_member_depth : forall kv kv', inst_member resolve sigma rec j kv = Ok kv' ->
      mval_depth (snd kv') <= mval_depth (snd kv).
    Proof.
      intros [k x] kv' H. unfold inst_member in H. cbn [fst snd] in *.
      destruct x as [ | | | | | |s|l|l|c fs]; cbn [bind] in H; try (injection H as <-; cbn [snd]; lia).
      - destruct (existsb _ (j_resolve j)); cbn [bind] in H.
        + destruct (resolve sigma s) as [r|e]; cbn [bind] in H; [|discriminate H]. injection H as <-. cbn [snd mval_depth]. lia.
        + injection H as <-. cbn [snd]. lia.
      - destruct (rec (MModel c fs)) as [y|e] eqn:Er; cbn [bind] in H; [|discriminate H]. injection H as <-.
        cbn [snd]. apply Hrec. exact Er.
    Qed.

    Lemma inst_val_depth : forall fn x y, inst_val resolve sigma rec j fn x = Ok y -> mval_depth y <= mval_depth x.
    Proof.
      intros fn x y H. unfold inst_val in H.
      destruct x as [ | | | | | |s|l|l|c fs]; try (eapply inst_item_depth; exact H).
      - destruct (lookup_s fn (j_reshape j)) as [kf|].
        + destruct (fold_left _ l (Ok [])) as [d|e] eqn:Ef; cbn [bind] in H; [|discriminate H]. injection H as <-.
          cbn [mval_depth]. apply le_n_S. apply max_le_all. intros kv Hkv.
          destruct (reshape_fold_items _ _ _ _ _ _ _ _ _ Ef kv Hkv) as [(a & Ea & Ha)|(x & Hx & Hi)]; [injection Ea as <-; destruct Ha|].
          apply inst_item_depth in Hi. pose proof (depth_le_max _ mval_depth l x Hx). lia.
        + destruct (mapM _ l) as [l'|e] eqn:Em; cbn [bind] in H; [|discriminate H]. injection H as <-.
          cbn [mval_depth]. apply le_n_S. apply max_le_all. intros y Hy.
          destruct (mapM_ok_in _ _ _ _ _ Em y Hy) as [x [Hx Hi]]. apply inst_item_depth in Hi.
          pose proof (depth_le_max _ mval_depth l x Hx). lia.
      - destruct (mapM _ l) as [l'|e] eqn:Em; cbn [bind] in H; [|discriminate H]. injection H as <-.
        cbn [mval_depth]. apply le_n_S. apply max_le_all. intros kv' Hy.
        destruct (mapM_ok_in _ _ _ _ _ Em kv' Hy) as [kv [Hx Hi]]. apply inst_member_depth in Hi.
        pose proof (depth_le_max _ (fun kv : str * mval => mval_depth (snd kv)) l kv Hx). cbv beta in *. lia.
    Qed.

    Lemma inst_model_depth : forall c fields y, inst_model resolve sigma rec j c fields = Ok y ->
      mval_depth y <= mval_depth (MModel c fields).
    Proof.
      intros c fields y H. destruct (inst_model_fields _ _ _ _ _ _ _ H) as (fs' & -> & Hfs).
      cbn [mval_depth]. apply le_n_S. apply max_le_all. intros kv Hkv.
      destruct (Hfs kv Hkv) as [(fv & Hfv & _ & Hv)|(n & v & En & ->)].
      - apply inst_val_depth in Hv.
        pose proof (depth_le_max _ (fun kv : string * mval => mval_depth (snd kv)) fields fv Hfv) as Hm. cbv beta in Hm. lia.
      - destruct (mfield_str_in _ _ _ En) as [fv [Hfv Hd]].
        pose proof (depth_le_max _ (fun kv : string * mval => mval_depth (snd kv)) fields fv Hfv) as Hm.
        cbv beta in Hm. cbn [mval_depth]. lia.
    Qed.
  End Node.

  Theorem inst_depth : forall fuel v y, inst SC resolve sigma fuel v = Ok y -> mval_depth y <= mval_depth v.
  Proof.
    induction fuel as [|f IH]; intros v y H; [rewrite inst_O in H; discriminate H|].
    rewrite inst_S in H. destruct v as [ | | | | | | | | |c fs]; try (injection H as <-; lia).
    eapply inst_model_depth; [|exact H]. exact IH.
  Qed.
End InstDepth.

Lemma coerce_depth : forall f v, mval_depth (coerce_job f v) <= mval_depth v.
Proof.
  induction f as [|f IH]; intros v; [cbn [coerce_job]; lia|].
  destruct v as [ | | | | | | |l|l|c fs]; cbn [coerce_job]; try lia.
  - cbn [mval_depth]. apply le_n_S. apply max_le_all. intros y Hy. apply in_map_iff in Hy. destruct Hy as [x [<- Hx]].
    pose proof (IH x). pose proof (depth_le_max _ mval_depth l x Hx). lia.
  - cbn [mval_depth]. apply le_n_S. apply max_le_all. intros y Hy. apply in_map_iff in Hy. destruct Hy as [x [<- Hx]].
    cbn [snd]. pose proof (IH (snd x)).
    pose proof (depth_le_max _ (fun kv : str * mval => mval_depth (snd kv)) l x Hx). cbv beta in *. lia.
  - cbn [mval_depth]. apply le_n_S. apply max_le_all. intros y Hy. apply in_map_iff in Hy. destruct Hy as [[fn x] [<- Hx]].
    pose proof (depth_le_max _ (fun kv : string * mval => mval_depth (snd kv)) fs (fn, x) Hx) as Hm. cbv beta in Hm. cbn [fst snd] in *.
    destruct (String.eqb fn "range").
    + destruct x as [ | | | | | | |items| | ]; cbn [snd]; try lia.
      cbn [mval_depth] in *. assert (fold_right (fun x acc => Nat.max (mval_depth x) acc) 0 (map coerce_range_item items)
                                     <= fold_right (fun x acc => Nat.max (mval_depth x) acc) 0 items); [|lia].
      apply max_le_all. intros y Hy. apply in_map_iff in Hy. destruct Hy as [x' [<- Hx']].
      pose proof (depth_le_max _ mval_depth items x' Hx'). destruct x'; cbn [coerce_range_item mval_depth] in *; lia.
    + cbn [snd]. pose proof (IH x). lia.
Qed.

(* ------------------------------------------------------------------ F. the live schema; nodes_ok *)

Definition RTpl : list string :=
  filter (fun c => negb (mem_s c ["JobFloatParameterDefinitionUserInterface"; "EnvironmentTemplate"])) (map fst Generated.schema).
Definition RJ : list string :=
  filter (fun c => negb (mem_s c ["JobFloatParameterDefinitionUserInterface"; "JobFloatParameterDefinition"; "JobTemplate"; "EnvironmentTemplate"]))
         (map fst Generated.schema).

Lemma RTpl_live_closed : live_closed Generated.schema RTpl = true.
Proof. vm_compute. reflexivity. Qed.
Lemma RJ_safe_closed : safe_closed Generated.schema RJ = true.
Proof. vm_compute. reflexivity. Qed.
Lemma RTpl_RJ_targets : targets_ok Generated.schema RTpl RJ = true.
Proof. vm_compute. reflexivity. Qed.
Lemma JobTemplate_in_RTpl : In "JobTemplate" RTpl.
Proof. apply mem_s_In. vm_compute. reflexivity. Qed.

Theorem accepted_live : forall classify j t, decode_job classify j = Ok t -> live Generated.schema RTpl t = true.
Proof.
  intros classify j t H. apply decode_job_ok in H. destruct H as (ms & f & _ & H).
  exact (proj2 (parse_live Generated.schema classify pre_hook (post_hook classify) RTpl RTpl_live_closed f) _ _ _ H JobTemplate_in_RTpl).
Qed.

(* Stated for any closed set of classes: with the concrete list RJ in the goal, unification
   evaluates its filter over the schema. *)
Section NodesGeneric.
Variable R : list string.
Hypothesis R_closed : safe_closed Generated.schema R = true.

Lemma parse_any_no_rt : forall classify c j, nodec j = true -> In c R -> parse_any classify c j <> Raise RuntimeError.
Proof.
  intros classify c j Hn Hc. unfold parse_any.
  destruct (ExportProofs.kh_bound_sound _ _ ExportProofs.generated_kh_bound) as [Hkh _].
  apply (proj2 (parse_no_rt Generated.schema classify _ _ R R_closed Hkh (parse_fuel j))); [exact Hn|exact Hc|].
  unfold bc, parse_fuel. lia.
Qed.

Theorem nodes_no_rt : forall classify F v, good R v = true -> mval_depth v <= F ->
  nodes_ok classify F v <> Raise RuntimeError.
Proof.
  intros classify. induction F as [|f IH]; intros v Hg Hd H; [pose proof (depth_pos v); lia|].
  cbn [nodes_ok] in H.
  assert (A : forall l, (forall x, In x l -> good R x = true /\ mval_depth x <= f) ->
                        fold_left (fun (acc : outcome bool) x => do a <- acc; if a then nodes_ok classify f x else Ok false)
                                  l (Ok true) <> Raise RuntimeError).
  { intros l Hl Hf. apply all_fold_raise in Hf. destruct Hf as [Hf|[x [Hx Hf]]]; [discriminate Hf|].
    destruct (Hl x Hx) as [G D]. exact (IH x G D Hf). }
  destruct v as [ | | | | | | |l|l|cls fields]; try discriminate H.
  - apply (A l); [|exact H]. intros x Hx. cbn [good mval_depth] in *. rewrite forallb_forall in Hg. split; [apply Hg; exact Hx|].
    pose proof (depth_le_max _ mval_depth l x Hx). lia.
  - apply (A (map snd l)); [|exact H]. intros x Hx. apply in_map_iff in Hx. destruct Hx as [kv [<- Hkv]].
    cbn [good mval_depth] in *. rewrite forallb_forall in Hg. split; [apply (Hg kv); exact Hkv|].
    pose proof (depth_le_max _ (fun kv : str * mval => mval_depth (snd kv)) l kv Hkv). cbv beta in *. lia.
  - assert (B : fold_left (fun (acc : outcome bool) x => do a <- acc; if a then nodes_ok classify f x else Ok false)
                          (map snd fields) (Ok true) <> Raise RuntimeError).
    { apply A. intros x Hx. apply in_map_iff in Hx. destruct Hx as [kv [<- Hkv]].
      pose proof Hg as Hg'. cbn [good] in Hg'. apply andb_true_iff in Hg'. destruct Hg' as [_ Hg'].
      rewrite forallb_forall in Hg'. split; [apply (Hg' kv); exact Hkv|]. cbn [mval_depth] in Hd.
      pose proof (depth_le_max _ (fun kv : string * mval => mval_depth (snd kv)) fields kv Hkv). cbv beta in *. lia. }
    destruct (fold_left _ (map snd fields) (Ok true)) as [below|e'] eqn:Eb; cbn [bind] in H.
    + destruct below; [|discriminate H].
      destruct (parse_any classify cls (export (MModel cls fields))) as [m|e1] eqn:Ep; [discriminate H|].
      assert (e1 = RuntimeError) by (destruct e1; try discriminate H; reflexivity). subst e1.
      revert Ep. apply parse_any_no_rt.
      * unfold export. eapply to_object_nodec. exact Hg.
      * cbn [good] in Hg. apply andb_true_iff in Hg. destruct Hg as [Hc _]. apply mem_s_In. exact Hc.
    + apply B. rewrite H. reflexivity.
Qed.
End NodesGeneric.


(* the job-side re-validation of an instantiated accepted template never leaves the modelled domain *)
Theorem accepted_nodes_no_rt : forall classify j t resolve sigma job,
  decode_job classify j = Ok t ->
  inst Generated.schema resolve sigma (S (mval_depth t)) t = Ok job ->
  nodes_ok classify (S (S (S (mval_depth t)))) (coerce_job (S (mval_depth t)) job) <> Raise RuntimeError.
Proof.
  intros classify j t resolve sigma job Hd Hi.
  pose proof (accepted_live classify j t Hd) as Hl.
  assert (Hm : exists c fs, t = MModel c fs).
  { destruct (decode_job_inv classify j t Hd) as [ms [fields [s [_ [Ht _]]]]]. eexists. eexists. exact Ht. }
  destruct Hm as [c [fs ->]].
  apply (nodes_no_rt RJ RJ_safe_closed).
  - apply coerce_good. eapply inst_good; [exact RTpl_RJ_targets|exact Hl|exact Hi].
  - pose proof (coerce_depth (S (mval_depth (MModel c fs))) job). apply inst_depth in Hi. lia.
Qed.
