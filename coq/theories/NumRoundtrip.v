(* NumRoundtrip.v — numeral round trips:
     parse_int (print_Z z) = Some z            (int(str(z)) == z)
     parse_dec (print_dec m e) = Some (Fin m e) (Decimal(str(d)) == d, same coefficient and exponent)
   for ALL z, m, e.  Lemmas only; models are Numerals.v / NumPrint.v. *)
From Coq Require Import List NArith ZArith Bool Lia ZifyBool.
Import ListNotations.
Require Import OJD.Base OJD.Numerals OJD.NumPrint.
Require OJD.NumeralsProofs.

Definition dval (acc : Z) (ds : str) : Z := fold_left (fun a c => (a * 10 + digit_val c)%Z) ds acc.

Definition all_digits (ds : str) : bool := forallb is_digit ds.

Lemma dval_app : forall x y a, dval a (x ++ y) = dval (dval a x) y.
Proof. intros. unfold dval. apply fold_left_app. Qed.

Lemma dval_cons : forall c r a, dval a (c :: r) = dval (a * 10 + digit_val c)%Z r.
Proof. reflexivity. Qed.

Lemma is_digit_char : forall d, (d < 10)%N -> is_digit (48 + d) = true.
Proof. intros d H. apply NumeralsProofs.is_digit_ascii_digit. unfold is_digit_ascii. lia. Qed.

Lemma digit_val_char : forall d, (d < 10)%N -> digit_val (48 + d) = Z.of_N d.
Proof.
  intros d H. rewrite NumeralsProofs.digit_val_ascii_eq by (unfold is_digit_ascii; lia).
  unfold digit_val_ascii. lia.
Qed.

Lemma digits_fuel_S : forall f n acc,
  digits_fuel (S f) n acc =
  if N.eqb (n / 10) 0 then (48 + n mod 10)%N :: acc
  else digits_fuel f (n / 10) ((48 + n mod 10)%N :: acc).
Proof. reflexivity. Qed.

Lemma digits_fuel_spec : forall f n acc,
  (n < 2 ^ N.of_nat (S f))%N ->
  exists ds, digits_fuel (S f) n acc = ds ++ acc /\ all_digits ds = true /\ ds <> []
             /\ dval 0 ds = Z.of_N n.
Proof.
  induction f as [|f IH]; intros n acc Hn; rewrite digits_fuel_S;
    pose proof (N.div_mod' n 10) as Hdm; pose proof (N.le_0_l (n / 10)) as Hq0; pose proof (N.le_0_l (n mod 10)) as Hr0;
    assert (Hr : (n mod 10 < 10)%N) by (apply N.mod_lt; discriminate);
    destruct (N.eqb_spec (n / 10) 0) as [Eq|Eq].
  1,3: exists [(48 + n mod 10)%N]; unfold all_digits, dval; cbn [app forallb fold_left];
       rewrite is_digit_char, digit_val_char by lia; repeat split; [discriminate|lia].
  - change (2 ^ N.of_nat 1)%N with 2%N in Hn. lia.
  - assert (Hq : (n / 10 < 2 ^ N.of_nat (S f))%N).
    { rewrite Nat2N.inj_succ, N.pow_succ_r' in Hn. remember (2 ^ N.of_nat (S f))%N as P. lia. }
    destruct (IH (n / 10)%N ((48 + n mod 10)%N :: acc) Hq) as [ds [E [Hd [Hne Hv]]]].
    exists (ds ++ [(48 + n mod 10)%N]). split; [rewrite E, <- app_assoc; reflexivity|].
    split; [unfold all_digits in *; rewrite forallb_app, Hd; cbn [forallb]; rewrite is_digit_char by lia; reflexivity|].
    split; [destruct ds; discriminate|].
    rewrite dval_app, Hv. unfold dval; cbn [fold_left]. rewrite digit_val_char by lia. lia.
Qed.

Lemma digits_of_N_spec : forall n,
  all_digits (digits_of_N n) = true /\ digits_of_N n <> [] /\ dval 0 (digits_of_N n) = Z.of_N n.
Proof.
  intros n. unfold digits_of_N.
  destruct (digits_fuel_spec (N.to_nat (N.size n)) n []) as [ds [E [Hd [Hne Hv]]]].
  - rewrite Nat2N.inj_succ, N2Nat.id, N.pow_succ_r'. pose proof (N.size_gt n). lia.
  - rewrite E, app_nil_r. auto.
Qed.

Definition stops (rest : str) : bool := match rest with [] => true | c :: _ => negb (is_digit c) end.

Lemma take_digits_app : forall ds acc k rest,
  all_digits ds = true -> stops rest = true ->
  take_digits acc k (ds ++ rest) = (dval acc ds, (k + Z.of_nat (length ds))%Z, rest).
Proof.
  induction ds as [|c ds IH]; intros acc k rest Hd Hs.
  - cbn [app length dval fold_left]. replace (k + Z.of_nat 0)%Z with k by lia.
    destruct rest as [|c r]; [reflexivity|]. cbn in Hs. cbn [take_digits].
    destruct (is_digit c); [discriminate|reflexivity].
  - cbn in Hd. apply andb_true_iff in Hd. destruct Hd as [Hc Hd].
    cbn [app take_digits]. rewrite Hc. rewrite IH by assumption. rewrite dval_cons.
    f_equal. f_equal. cbn [length]. lia.
Qed.

Lemma take_digits_all : forall ds acc k,
  all_digits ds = true -> take_digits acc k ds = (dval acc ds, (k + Z.of_nat (length ds))%Z, []).
Proof.
  intros ds acc k Hd. rewrite <- (app_nil_r ds) at 1. apply take_digits_app; [exact Hd|reflexivity].
Qed.

Lemma int_digits_all : forall ds acc prev,
  all_digits ds = true -> ds <> [] -> int_digits acc prev ds = Some (dval acc ds).
Proof.
  induction ds as [|c ds IH]; intros acc prev Hd Hne; [contradiction|].
  cbn in Hd. apply andb_true_iff in Hd. destruct Hd as [Hc Hd].
  cbn [int_digits]. rewrite Hc. rewrite dval_cons. destruct ds as [|c' ds'].
  - reflexivity.
  - apply IH; [exact Hd|discriminate].
Qed.

Definition okc (c : N) : bool :=
  is_digit c || (c =? 45)%N || (c =? 46)%N || (c =? 69)%N || (c =? 43)%N.

Lemma okc_not_dec_space : forall c, okc c = true -> dec_space c = false.
Proof.
  intros c H. unfold okc in H. destruct (is_digit c) eqn:D; [apply NumeralsProofs.digit_not_space, D|].
  unfold dec_space, int_space, uni_space. lia.
Qed.

Lemma okc_not_int_space : forall c, okc c = true -> int_space c = false.
Proof. intros c H. apply okc_not_dec_space in H. apply orb_false_elim in H. apply H. Qed.

Lemma okc_not_underscore : forall c, okc c = true -> negb (c =? 95)%N = true.
Proof.
  intros c H. unfold okc in H. destruct (is_digit c) eqn:D; [|lia].
  rewrite (NumeralsProofs.digit_neqb c 95 D eq_refl). reflexivity.
Qed.

Lemma digit_okc : forall c, is_digit c = true -> okc c = true.
Proof. intros c H. unfold okc. rewrite H. reflexivity. Qed.

Lemma all_digits_okc : forall ds, all_digits ds = true -> forallb okc ds = true.
Proof.
  intros ds H. unfold all_digits in H. rewrite forallb_forall in *. intros c Hc. apply digit_okc. apply H. exact Hc.
Qed.

Lemma drop_while_head : forall p s, match s with [] => True | c :: _ => p c = false end -> drop_while p s = s.
Proof. intros p [|c r] H; [reflexivity|]. cbn. rewrite H. reflexivity. Qed.

Lemma strip_id : forall p s, (forall c, In c s -> p c = false) -> strip p s = s.
Proof.
  intros p s H. unfold strip.
  rewrite (drop_while_head p s).
  - rewrite (drop_while_head p (rev s)); [apply rev_involutive|].
    destruct (rev s) as [|c r] eqn:E; [exact I|]. apply H. apply in_rev. rewrite E. left. reflexivity.
  - destruct s as [|c r]; [exact I|]. apply H. left. reflexivity.
Qed.

Lemma filter_id : forall (p : N -> bool) s, (forall c, In c s -> p c = true) -> filter p s = s.
Proof.
  induction s as [|c r IH]; intros H; [reflexivity|]. cbn. rewrite (H c (or_introl eq_refl)).
  rewrite IH; [reflexivity|]. intros c' Hc'. apply H. right. exact Hc'.
Qed.

Lemma strip_okc : forall s, forallb okc s = true -> strip int_space s = s.
Proof. intros s H. rewrite forallb_forall in H. apply strip_id. intros c Hc. apply okc_not_int_space, H, Hc. Qed.

Lemma strip_filter_okc : forall s, forallb okc s = true ->
  filter (fun c => negb (c =? 95)%N) (strip dec_space s) = s.
Proof.
  intros s H. rewrite forallb_forall in H.
  rewrite strip_id by (intros c Hc; apply okc_not_dec_space, H, Hc).
  apply filter_id. intros c Hc. apply okc_not_underscore, H, Hc.
Qed.

Lemma split_sign_digit : forall c r, is_digit c = true -> split_sign (c :: r) = (false, c :: r).
Proof.
  intros c r H. unfold split_sign.
  rewrite (NumeralsProofs.digit_neqb c 43 H eq_refl), (NumeralsProofs.digit_neqb c 45 H eq_refl). reflexivity.
Qed.

Lemma split_sign_minus : forall r, split_sign (45%N :: r) = (true, r).
Proof. reflexivity. Qed.

Lemma split_sign_plus : forall r, split_sign (43%N :: r) = (false, r).
Proof. reflexivity. Qed.

Lemma split_sign_digits : forall (neg : bool) ip r, all_digits ip = true -> ip <> [] ->
  split_sign ((if neg then [minus_c] else []) ++ ip ++ r) = (neg, ip ++ r).
Proof.
  intros neg [|c ip] r Hd Hne; [contradiction|]. destruct neg; [reflexivity|].
  cbn in Hd. apply andb_true_iff in Hd. apply split_sign_digit, Hd.
Qed.

Lemma print_Z_okc : forall z, forallb okc (print_Z z) = true.
Proof.
  intros [|p|p]; [reflexivity| |]; cbn [print_Z forallb]; rewrite all_digits_okc by apply digits_of_N_spec; reflexivity.
Qed.

Lemma print_Z_eq : forall z,
  print_Z z = (if (z <? 0)%Z then [minus_c] else []) ++ digits_of_N (Z.abs_N z) ++ [].
Proof. intros z. rewrite app_nil_r. destruct z; reflexivity. Qed.

Theorem parse_int_print_Z : forall z, parse_int (print_Z z) = Some z.
Proof.
  intros z. unfold parse_int. rewrite (strip_okc _ (print_Z_okc z)), print_Z_eq.
  destruct (digits_of_N_spec (Z.abs_N z)) as [Hd [Hne Hv]].
  rewrite (split_sign_digits _ _ [] Hd Hne), app_nil_r, (int_digits_all _ 0%Z false Hd Hne), Hv.
  f_equal. destruct (z <? 0)%Z eqn:E; lia.
Qed.

Lemma length_pos : forall ds : str, ds <> [] -> (0 < Z.of_nat (length ds))%Z.
Proof. intros [|c r] H; [contradiction|]. cbn [length]. lia. Qed.

Lemma dval_zeros : forall k a, dval a (zeros k) = (a * 10 ^ Z.of_nat k)%Z.
Proof.
  induction k as [|k IH]; intros a.
  - cbn. lia.
  - unfold zeros. cbn [repeat]. rewrite dval_cons. fold (zeros k). rewrite IH.
    change (digit_val zero_c) with 0%Z. rewrite Nat2Z.inj_succ, Z.pow_succ_r by lia. ring.
Qed.

Lemma all_digits_zeros : forall k, all_digits (zeros k) = true.
Proof. induction k as [|k IH]; [reflexivity|]. unfold zeros. cbn [repeat]. unfold all_digits. cbn [forallb]. exact IH. Qed.

Lemma all_digits_firstn : forall k ds, all_digits ds = true -> all_digits (firstn k ds) = true.
Proof.
  intros k ds H. unfold all_digits in *. rewrite forallb_forall in *. intros c Hc. apply H.
  rewrite <- (firstn_skipn k ds). apply in_or_app. left. exact Hc.
Qed.

Lemma all_digits_skipn : forall k ds, all_digits ds = true -> all_digits (skipn k ds) = true.
Proof.
  intros k ds H. unfold all_digits in *. rewrite forallb_forall in *. intros c Hc. apply H.
  rewrite <- (firstn_skipn k ds). apply in_or_app. right. exact Hc.
Qed.

(* a string that starts with digits [ip] is no "inf" / "nan" / "snan" but a number *)
Lemma parse_unsigned_num : forall neg ip r1 m nf r2 x,
  all_digits ip = true -> ip <> [] -> stops r1 = true ->
  take_fraction (dval 0 ip) r1 = (m, nf, r2) -> (0 <= nf)%Z ->
  take_exponent r2 = Some x ->
  parse_unsigned neg (ip ++ r1) = Some (Fin (if neg then Z.opp m else m) (x - nf)).
Proof.
  intros neg ip r1 m nf r2 x Hd Hne Hs Hf Hn Hx.
  pose proof (take_digits_app ip 0 0 r1 Hd Hs) as Ht. pose proof (length_pos ip Hne) as Hl.
  destruct ip as [|c t]; [contradiction|]. cbn in Hd. apply andb_true_iff in Hd. destruct Hd as [Hc _].
  unfold parse_unsigned. cbn [app map] in *. rewrite (NumeralsProofs.lower_digit c Hc).
  unfold s_inf, s_infinity, s_nan, s_snan. cbn [str_eqb is_prefix].
  rewrite (N.eqb_sym 110 c), (N.eqb_sym 115 c), (NumeralsProofs.digit_neqb c 105 Hc eq_refl),
    (NumeralsProofs.digit_neqb c 110 Hc eq_refl), (NumeralsProofs.digit_neqb c 115 Hc eq_refl).
  cbn [andb orb]. rewrite Ht, Hf.
  destruct (0 + Z.of_nat (length (c :: t)) + nf =? 0)%Z eqn:E; [lia|]. rewrite Hx. reflexivity.
Qed.

(* the exponent suffix "E[+-]ddd" *)
Definition exp_part (ex : Z) : str :=
  if (ex =? 0)%Z then []
  else [69%N] ++ (if (ex <? 0)%Z then [minus_c] else [43%N]) ++ digits_of_N (Z.abs_N ex).

Lemma take_exponent_exp_part : forall ex, take_exponent (exp_part ex) = Some ex.
Proof.
  intros ex. unfold exp_part. destruct (ex =? 0)%Z eqn:E0; [cbn; f_equal; lia|].
  destruct (digits_of_N_spec (Z.abs_N ex)) as [Hd [Hne Hv]]. apply length_pos in Hne.
  cbn [app take_exponent]. cbn [N.eqb Pos.eqb orb].
  assert (Es : split_sign ((if (ex <? 0)%Z then [minus_c] else [43%N]) ++ digits_of_N (Z.abs_N ex))
               = ((ex <? 0)%Z, digits_of_N (Z.abs_N ex))) by (destruct (ex <? 0)%Z; reflexivity).
  rewrite Es, take_digits_all, Hv by exact Hd.
  destruct (0 + Z.of_nat (length (digits_of_N (Z.abs_N ex))) =? 0)%Z eqn:El; [lia|].
  cbn [is_nil negb orb]. f_equal. destruct (ex <? 0)%Z eqn:En; lia.
Qed.

Lemma exp_part_stops : forall ex, stops (exp_part ex) = true.
Proof. intros ex. unfold exp_part. destruct (ex =? 0)%Z; reflexivity. Qed.

Lemma exp_part_no_dot : forall ex ip, take_fraction ip (exp_part ex) = (ip, 0%Z, exp_part ex).
Proof. intros ex ip. unfold exp_part. destruct (ex =? 0)%Z; reflexivity. Qed.

Lemma exp_part_okc : forall ex, forallb okc (exp_part ex) = true.
Proof.
  intros ex. unfold exp_part. destruct (ex =? 0)%Z; [reflexivity|].
  rewrite !forallb_app. rewrite (all_digits_okc _ (proj1 (digits_of_N_spec _))).
  destruct (ex <? 0)%Z; reflexivity.
Qed.

(* the digits part of str(Decimal): [ds] = coefficient digits, [dp] = position of the point *)
Definition dec_body (ds : str) (dp : Z) : str :=
  let nd := Z.of_nat (length ds) in
  if (dp <=? 0)%Z then [zero_c; dot_c] ++ zeros (Z.to_nat (- dp)) ++ ds
  else if (nd <=? dp)%Z then ds ++ zeros (Z.to_nat (dp - nd))
  else firstn (Z.to_nat dp) ds ++ [dot_c] ++ skipn (Z.to_nat dp) ds.

Lemma print_dec_eq : forall m e,
  print_dec m e =
  let ds := digits_of_N (Z.abs_N m) in
  let nd := Z.of_nat (length ds) in
  let lead := (e + nd)%Z in
  let dp := if ((e <=? 0) && (-6 <? lead))%Z then lead else 1%Z in
  (if (m <? 0)%Z then [minus_c] else []) ++ dec_body ds dp ++ exp_part (lead - dp).
Proof. reflexivity. Qed.

Lemma dec_body_okc : forall ds dp, all_digits ds = true -> forallb okc (dec_body ds dp) = true.
Proof.
  intros ds dp Hd. unfold dec_body. destruct (dp <=? 0)%Z; [|destruct (Z.of_nat (length ds) <=? dp)%Z];
    rewrite !forallb_app, ?(all_digits_okc _ Hd), ?(all_digits_okc _ (all_digits_zeros _)),
      ?(all_digits_okc _ (all_digits_firstn _ _ Hd)), ?(all_digits_okc _ (all_digits_skipn _ _ Hd)); reflexivity.
Qed.

Lemma print_dec_okc : forall m e, forallb okc (print_dec m e) = true.
Proof.
  intros m e. rewrite print_dec_eq. cbv zeta.
  rewrite !forallb_app, exp_part_okc, dec_body_okc by apply digits_of_N_spec. destruct (m <? 0)%Z; reflexivity.
Qed.

Lemma dot_not_digit : is_digit dot_c = false.
Proof. reflexivity. Qed.

(* reading the body back: the integer digits [ip], then [r1], whose fraction part gives the
   coefficient and the number of fraction digits.  The three cases are 0.000ddd, ddd and dd.ddd *)
Lemma dec_body_read : forall ds dp rest,
  all_digits ds = true -> ds <> [] -> stops rest = true ->
  (forall ip, take_fraction ip rest = (ip, 0%Z, rest)) ->
  (dp <= Z.of_nat (length ds) \/ dp = 1)%Z ->
  exists ip r1,
    dec_body ds dp ++ rest = ip ++ r1 /\ all_digits ip = true /\ ip <> [] /\ stops r1 = true /\
    take_fraction (dval 0 ip) r1 = (dval 0 ds, Z.max 0 (Z.of_nat (length ds) - dp), rest).
Proof.
  intros ds dp rest Hd Hne Hs Hf Hdp. pose proof (length_pos ds Hne) as Hn. unfold dec_body.
  destruct (Z.leb_spec dp 0) as [E1|E1]; [|destruct (Z.leb_spec (Z.of_nat (length ds)) dp) as [E2|E2]].
  - exists [zero_c], (dot_c :: (zeros (Z.to_nat (- dp)) ++ ds) ++ rest).
    split; [cbn [app]; rewrite <- app_assoc; reflexivity|]. split; [reflexivity|]. split; [discriminate|].
    split; [reflexivity|]. cbn [take_fraction]. change (dot_c =? 46)%N with true. cbv iota.
    rewrite take_digits_app; [|unfold all_digits; rewrite forallb_app; apply andb_true_iff; split; [apply all_digits_zeros|exact Hd]|exact Hs].
    change (dval 0 [zero_c]) with 0%Z. rewrite dval_app, dval_zeros, app_length. unfold zeros. rewrite repeat_length.
    f_equal. f_equal. lia.
  - replace (Z.to_nat (dp - Z.of_nat (length ds))) with 0%nat by lia. cbn [zeros repeat]. rewrite app_nil_r.
    exists ds, rest. rewrite Hf. repeat split; try assumption. f_equal. f_equal. lia.
  - assert (Hk : (0 < Z.to_nat dp < length ds)%nat) by lia.
    exists (firstn (Z.to_nat dp) ds), (dot_c :: skipn (Z.to_nat dp) ds ++ rest).
    split; [rewrite <- app_assoc; reflexivity|]. split; [apply all_digits_firstn, Hd|].
    split; [intros Ec; apply (f_equal (@length N)) in Ec; rewrite firstn_length in Ec; cbn in Ec; lia|].
    split; [reflexivity|]. cbn [take_fraction]. change (dot_c =? 46)%N with true. cbv iota.
    rewrite take_digits_app by (try apply all_digits_skipn; assumption).
    rewrite <- dval_app, firstn_skipn, skipn_length. f_equal. f_equal. lia.
Qed.

Theorem parse_dec_print_dec : forall m e, parse_dec (print_dec m e) = Some (Fin m e).
Proof.
  intros m e. unfold parse_dec. rewrite (strip_filter_okc _ (print_dec_okc m e)), print_dec_eq. cbv zeta.
  destruct (digits_of_N_spec (Z.abs_N m)) as [Hd [Hne Hv]].
  set (ds := digits_of_N (Z.abs_N m)) in *. pose proof (length_pos ds Hne) as Hnd.
  set (nd := Z.of_nat (length ds)) in *.
  set (dp := if ((e <=? 0) && (-6 <? e + nd))%Z then (e + nd)%Z else 1%Z).
  assert (Hdp : (dp = e + nd /\ e <= 0 \/ dp = 1)%Z) by (unfold dp; destruct ((e <=? 0) && (-6 <? e + nd))%Z eqn:Ep; lia).
  destruct (dec_body_read ds dp (exp_part (e + nd - dp)) Hd Hne (exp_part_stops _) (exp_part_no_dot _) ltac:(lia))
    as [ip [r1 [Eb [Hi [Ni [Hs Hf]]]]]].
  rewrite Eb, (split_sign_digits _ ip r1 Hi Ni).
  rewrite (parse_unsigned_num _ ip r1 _ _ _ _ Hi Ni Hs Hf (Z.le_max_l _ _) (take_exponent_exp_part _)), Hv.
  f_equal. f_equal; [destruct (m <? 0)%Z eqn:Em|]; lia.
Qed.
