(* PreprocessFullProofs.v — lemmas behind props/C10x.v: C10 / C11 / C12 transported through the composition
   PreprocessFull.preprocess_docs (decode -> read the definitions -> merge -> preprocess with the PATH rules).
     1. the merged definitions: exactly one per distinct name, each the merge of its group; success of the
        merge = every group merges; a refused group = ValueError;
     2. JobParams.preprocess for either value of [dir_ok];
     3. reading the documents: total on accepted templates, the definitions are wf_def / wf_default;
     4. the theorems. *)
From Coq Require Import List NArith ZArith Bool String Lia.
Import ListNotations.
Require Import OJD.Base OJD.ListLib OJD.Lexer OJD.Json OJD.Schema OJD.Generated OJD.Numerals OJD.NumeralsSpec
               OJD.CreateJob OJD.Parse OJD.Validators OJD.Accept OJD.DecodeInv
               OJD.JobParams OJD.JobParamsSpec OJD.JobParamsProofs OJD.Merge OJD.MergeSpec OJD.MergeProofs
               OJD.Paths OJD.PathsSpec OJD.PathsProofs OJD.CreateJobFull OJD.CreateJobFullProofs
               OJD.PreprocessFull OJD.PreprocessFullSpec OJD.PreprocessFullLib.
Local Open Scope list_scope.

Lemma merge_groups_ok : forall gs ms,
  merge_groups gs = Ok (ms, false) <-> Forall2 (fun kg m => merge false (snd kg) = Ok m) gs ms.
Proof.
  induction gs as [|[k g] r IH]; intros ms.
  - cbn [merge_groups]. split.
    + intro H. injection H as <-. constructor.
    + intro H. inversion H. reflexivity.
  - cbn [merge_groups]. split.
    + intro H. destruct (merge false g) as [m|e] eqn:Em.
      * destruct (merge_groups r) as [[ms' b]|e'] eqn:Er; cbn [bind fst snd] in H; [|discriminate H].
        injection H as <- ->. constructor; [exact Em|]. apply IH. reflexivity.
      * destruct e; try discriminate H.
        destruct (merge_groups r) as [[ms' b]|e'] eqn:Er; cbn [bind fst snd] in H; discriminate H.
    + intro H. inversion H as [|kg m r' ms' Hm Hr]; subst. cbn [snd] in Hm. rewrite Hm.
      apply IH in Hr. rewrite Hr. reflexivity.
Qed.

(* a group that is refused makes the whole merge a CompatibilityError (whatever the other groups do, unless one of
   them leaves the modelled domain — excluded for decoded definitions by wf_default) *)
Lemma merge_groups_refused : forall gs x, merge_groups gs = Ok x ->
  (exists k g, In (k, g) gs /\ merge false g = Raise CompatibilityError) -> snd x = true.
Proof.
  induction gs as [|[k0 g0] r IH]; intros x H [k [g [Hin Hm]]]; [destruct Hin|].
  cbn [merge_groups] in H. destruct Hin as [E|Hin].
  - injection E as <- <-. rewrite Hm in H.
    destruct (merge_groups r) as [y|e]; cbn [bind] in H; [|discriminate H]. injection H as <-. reflexivity.
  - destruct (merge false g0) as [m|e].
    + destruct (merge_groups r) as [y|e'] eqn:Er; cbn [bind] in H; [|discriminate H]. injection H as <-.
      cbn [snd]. eapply IH; [reflexivity|]. exists k, g. split; assumption.
    + destruct e; try discriminate H.
      destruct (merge_groups r) as [y|e'] eqn:Er; cbn [bind] in H; [|discriminate H]. injection H as <-. reflexivity.
Qed.

Section Merged.
  Variable eds : list (list pdef).
  Variable jd : list pdef.
  Let srcs := List.concat eds ++ jd.

  Lemma group_names : forall k g, In (k, g) (collect_groups srcs) ->
    g = group_of k srcs /\ g <> [] /\ (forall d, In d g -> pname d = k) /\ In k (map pname srcs).
  Proof.
    intros k g H. destruct (collect_groups_spec srcs) as [_ [EL _]]. destruct (EL k g H) as [E NE].
    assert (A : forall d, In d g -> pname d = k /\ In d srcs).
    { intros d Hd. rewrite E in Hd. unfold group_of in Hd. apply filter_In in Hd. destruct Hd as [H1 H2].
      split; [apply str_eqb_eq; exact H2|exact H1]. }
    split; [exact E|]. split; [exact NE|]. split; [intros d Hd; apply A; exact Hd|].
    destruct g as [|d g']; [contradiction NE; reflexivity|].
    destruct (A d (or_introl eq_refl)) as [<- Hs]. apply in_map. exact Hs.
  Qed.

  (* the merge of one group is the merge of everything of its name, and carries that name *)
  Lemma group_merged : forall kg m, In kg (collect_groups srcs) -> merge false (snd kg) = Ok m ->
    pname m = fst kg /\ merge false (group_of (pname m) srcs) = Ok m.
  Proof.
    intros [k g] m Hin Hm. cbn [fst snd] in *. destruct (group_names k g Hin) as [E [NE [Hn _]]].
    destruct g as [|d g']; [contradiction NE; reflexivity|].
    assert (K : pname m = k) by (rewrite <- (merge_ok_name _ _ Hm d (or_introl eq_refl)); apply Hn; left; reflexivity).
    split; [exact K|]. rewrite K, <- E. exact Hm.
  Qed.

  Lemma merged_names : forall gs ms, incl gs (collect_groups srcs) ->
    Forall2 (fun kg m => merge false (snd kg) = Ok m) gs ms -> map pname ms = map fst gs.
  Proof.
    intros gs ms Hi F. induction F as [|kg m gs' ms' Hkg _ IH]; [reflexivity|]. cbn [map]. f_equal.
    - exact (proj1 (group_merged kg m (Hi kg (or_introl eq_refl)) Hkg)).
    - apply IH. intros x Hx. apply Hi. right. exact Hx.
  Qed.

  Theorem merge_definitions_merged : forall defs, merge_definitions eds jd = Ok defs ->
    merged_from srcs defs /\ Forall wf_def defs.
  Proof.
    intros defs H. unfold merge_definitions in H. fold srcs in H.
    destruct (merge_groups (collect_groups srcs)) as [[ms b]|e] eqn:Em; cbn [bind fst snd] in H; [|discriminate H].
    destruct b; [discriminate H|]. injection H as <-.
    apply merge_groups_ok in Em.
    assert (Each : forall m, In m ms -> merge false (group_of (pname m) srcs) = Ok m).
    { intros m Hm. destruct (Forall2_in_r _ _ _ _ _ _ Em Hm) as (kg & Hin & Hkg). exact (proj2 (group_merged kg m Hin Hkg)). }
    pose proof (merged_names _ _ (incl_refl _) Em) as Names.
    destruct (collect_groups_spec srcs) as [ND [_ CV]]. split.
    - split; [rewrite Names; exact ND|]. split; [exact Each|]. intros d Hd. rewrite Names. apply CV. exact Hd.
    - apply Forall_forall. intros m Hm. eapply merged_wf_def. apply Each. exact Hm.
  Qed.

  (* the merge succeeds exactly when the definitions of every name can be merged *)
  Theorem merge_definitions_ok_iff :
    (exists defs, merge_definitions eds jd = Ok defs) <->
    (forall k, In k (map pname srcs) -> exists m, merge false (group_of k srcs) = Ok m).
  Proof.
    split.
    - intros [defs H] k Hk. destruct (merge_definitions_merged defs H) as [[_ [Each CV]] _].
      apply in_map_iff in Hk. destruct Hk as [d [<- Hd]].
      specialize (CV d Hd). apply in_map_iff in CV. destruct CV as [m [E Hm]].
      exists m. rewrite <- E. apply Each. exact Hm.
    - intros A. unfold merge_definitions. fold srcs.
      assert (T : exists ms, merge_groups (collect_groups srcs) = Ok (ms, false)).
      { assert (G : forall k g, In (k, g) (collect_groups srcs) -> exists m, merge false g = Ok m).
        { intros k g Hin. destruct (group_names k g Hin) as [E [_ [_ Hk]]]. rewrite E. apply A. exact Hk. }
        revert G. generalize (collect_groups srcs) as gs. induction gs as [|[k g] r IH]; intros G.
        - exists []. reflexivity.
        - destruct (G k g (or_introl eq_refl)) as [m Hm].
          destruct IH as [ms Hms]; [intros k' g' H'; apply (G k' g'); right; exact H'|].
          exists (m :: ms). cbn [merge_groups]. rewrite Hm, Hms. reflexivity. }
      destruct T as [ms Hms]. exists ms. rewrite Hms. reflexivity.
  Qed.
End Merged.

(* what a merged definition accepts, and its default, in terms of ALL the sources of its name (C12) *)
Theorem merged_sat : forall srcs defs m v, Forall wf_def srcs -> merged_from srcs defs -> In m defs ->
  (sat m v <-> Forall (fun d => sat d v) (group_of (pname m) srcs)) /\
  pdefault m = last_given_default (group_of (pname m) srcs).
Proof.
  intros srcs defs m v W [_ [Each _]] Hm. specialize (Each m Hm).
  assert (Wg : Forall wf_def (group_of (pname m) srcs)).
  { apply Forall_forall. intros d Hd. unfold group_of in Hd. apply filter_In in Hd. destruct Hd as [Hd _].
    rewrite Forall_forall in W. apply W. exact Hd. }
  split; [split|].
  - apply merge_sound; assumption.
  - apply merge_complete; assumption.
  - apply merge_default. exact Each.
Qed.

Section Pre.
  Variable path_in : str -> str.
  Variable path_default : str -> outcome str.

  Lemma preprocess_dirok : forall dok defs vals r,
    preprocess false dok path_in path_default defs vals = Ok r <->
    (defs = [] \/ dok = true) /\ preprocess false true path_in path_default defs vals = Ok r.
  Proof.
    intros dok defs vals r. destruct dok; [tauto|].
    destruct defs as [|d0 ds].
    - split; [intro H; split; [left; reflexivity|exact H]|intros [_ H]; exact H].
    - split.
      + intro H. exfalso. unfold preprocess, JobParams.collect_defaults in H.
        apply finish_ok in H. destruct H as [H _]. lia.
      + intros [[H|H] _]; discriminate H.
  Qed.
End Pre.

Section Defs.
  Variables dir cwd : str.
  Variable walkup : bool.
  Notation pin := (path_supplied cwd).
  Notation pd := (default_body dir walkup).

  Lemma dir_rule_check : forall defs, (defs = [] \/ negb (dir_check dir walkup) = true) <-> dir_rule_ok dir walkup defs.
  Proof.
    intros defs. unfold dir_rule_ok, dir_check. destruct walkup, (is_absolute dir); cbn; intuition discriminate.
  Qed.

  Theorem preprocess_defs_ok_iff : forall defs vals r, Forall wf_def defs -> NoDup (map pname defs) ->
    (preprocess_defs dir cwd walkup defs vals = Ok r <->
     r = entries pin pd vals defs /\ dir_rule_ok dir walkup defs /\
     no_extra defs vals /\ no_missing defs vals /\ path_defaults_ok pd defs vals /\ all_sat pin pd defs vals).
  Proof.
    intros defs vals r W ND. unfold preprocess_defs. rewrite preprocess_dirok, dir_rule_check.
    rewrite (preprocess_ok_iff pin pd defs vals r W ND). tauto.
  Qed.

  Theorem preprocess_defs_iff : forall defs vals, Forall wf_def defs -> NoDup (map pname defs) ->
    ((exists r, preprocess_defs dir cwd walkup defs vals = Ok r) <->
     dir_rule_ok dir walkup defs /\
     no_extra defs vals /\ no_missing defs vals /\ path_defaults_ok pd defs vals /\ all_sat pin pd defs vals).
  Proof.
    intros defs vals W ND. split.
    - intros [r H]. apply preprocess_defs_ok_iff in H; try assumption. tauto.
    - intro H. exists (entries pin pd vals defs). apply preprocess_defs_ok_iff; try assumption. tauto.
  Qed.

  Lemma preprocess_defs_true : forall defs vals r, preprocess_defs dir cwd walkup defs vals = Ok r ->
    preprocess false true pin pd defs vals = Ok r.
  Proof. intros defs vals r H. unfold preprocess_defs in H. apply preprocess_dirok in H. tauto. Qed.

  Theorem preprocess_defs_error : forall defs vals e, preprocess_defs dir cwd walkup defs vals = Raise e -> e = ValueError.
  Proof.
    intros defs vals e H. unfold preprocess_defs in H. eapply preprocess_error; [|exact H].
    intros t e' Ht. eapply default_body_only_ValueError. exact Ht.
  Qed.

  (* a relative template directory, walk-up not allowed, at least one definition *)
  Theorem preprocess_defs_reldir : forall defs vals, walkup = false -> is_absolute dir = false -> defs <> [] ->
    preprocess_defs dir cwd walkup defs vals = Raise ValueError.
  Proof.
    intros defs vals Hw Ha Hne. destruct (preprocess_defs dir cwd walkup defs vals) as [r|e] eqn:E.
    - exfalso. unfold preprocess_defs in E. apply preprocess_dirok in E. destruct E as [[E|E] _]; [contradiction|].
      unfold dir_check in E. rewrite Hw, Ha in E. discriminate E.
    - rewrite (preprocess_defs_error defs vals e E). reflexivity.
  Qed.
End Defs.

(* the server-mode instance is what create_job's model (CreateJobFull.preprocess_server) computes *)
Lemma preprocess_defs_server : forall defs vals, preprocess_defs [] [] true defs vals = preprocess_server defs vals.
Proof. reflexivity. Qed.

Section Docs.
  Variable classify : N -> cclass.

  Lemma env_defs_wf : forall docs envs eds, mapM (decode_env classify) docs = Ok envs ->
    mapM defs_of_template envs = Ok eds -> Forall (Forall wf_def) eds.
  Proof.
    induction docs as [|dj r IH]; intros envs eds H Hd.
    - injection H as <-. injection Hd as <-. constructor.
    - apply mapM_cons_ok in H. destruct H as [y [ys [Hy [Hr ->]]]].
      apply mapM_cons_ok in Hd. destruct Hd as [d [ds [Hd1 [Hd2 ->]]]].
      constructor; [eapply decode_env_defs_wf; eassumption|eapply IH; eassumption].
  Qed.

  (* the facts every theorem below starts from *)
  Lemma docs_read : forall env_docs doc t envs,
    decode_job classify doc = Ok t -> mapM (decode_env classify) env_docs = Ok envs ->
    exists eds jd,
      mapM defs_of_template envs = Ok eds /\ defs_of_template t = Ok jd /\
      Forall (Forall wf_default) eds /\ Forall wf_default jd /\
      Forall wf_def (List.concat eds ++ jd) /\ Forall wf_default (List.concat eds ++ jd).
  Proof.
    intros env_docs doc t envs Hd He.
    destruct (env_defs_total classify envs (mapM_decode_envs classify env_docs envs He)) as [eds [Heds Hwe]].
    destruct (decode_job_defs classify doc t Hd) as [jd [Hjd [Hwj _]]].
    exists eds, jd. split; [exact Heds|]. split; [exact Hjd|]. split; [exact Hwe|]. split; [exact Hwj|]. split.
    - apply Forall_app. split; [|eapply decode_job_defs_wf; eassumption].
      apply Forall_concat. eapply env_defs_wf; eassumption.
    - apply Forall_app. split; [apply Forall_concat; exact Hwe|exact Hwj].
  Qed.

  Notation accepted := (PreprocessFullSpec.accepted classify).

  (* reading and grouping are total on accepted documents; the sources are well formed *)
  Theorem docs_sources_total : forall env_docs doc, accepted env_docs doc ->
    exists srcs, docs_sources classify env_docs doc = Ok srcs /\ Forall wf_def srcs /\ Forall wf_default srcs.
  Proof.
    intros env_docs doc [t [envs [Hd He]]].
    destruct (docs_read env_docs doc t envs Hd He) as [eds [jd [Heds [Hjd [_ [_ [W1 W2]]]]]]].
    exists (List.concat eds ++ jd). split; [|split; assumption].
    unfold docs_sources, source_defs. rewrite Hd, He. cbn [bind]. rewrite Heds, Hjd. reflexivity.
  Qed.

  (* each document-level function gets past the decoders only on accepted documents *)
  Lemma decoded_accepted : forall (A : Type) env_docs doc (k : mval -> list mval -> outcome A) x,
    (do t <- decode_job classify doc; do envs <- mapM (decode_env classify) env_docs; k t envs) = Ok x ->
    accepted env_docs doc.
  Proof.
    intros A env_docs doc k x H.
    destruct (decode_job classify doc) as [t|e] eqn:Hd; cbn [bind] in H; [|discriminate H].
    destruct (mapM (decode_env classify) env_docs) as [envs|e] eqn:He; cbn [bind] in H; [|discriminate H].
    exists t, envs. split; assumption.
  Qed.

  Lemma docs_sources_accepted : forall env_docs doc srcs,
    docs_sources classify env_docs doc = Ok srcs -> accepted env_docs doc.
  Proof. intros env_docs doc srcs. apply decoded_accepted. Qed.

  (* the sources and the merge, in terms of the definitions read from each template *)
  Lemma docs_unfold : forall env_docs doc srcs, docs_sources classify env_docs doc = Ok srcs ->
    exists eds jd, srcs = List.concat eds ++ jd /\ docs_merged classify env_docs doc = merge_definitions eds jd.
  Proof.
    intros env_docs doc srcs H. unfold docs_sources in H. unfold docs_merged.
    destruct (decode_job classify doc) as [t|e]; cbn [bind] in *; [|discriminate H].
    destruct (mapM (decode_env classify) env_docs) as [envs|e]; cbn [bind] in *; [|discriminate H].
    unfold source_defs in H. unfold merged_defs.
    destruct (mapM defs_of_template envs) as [eds|e]; cbn [bind] in *; [|discriminate H].
    destruct (defs_of_template t) as [jd|e]; cbn [bind] in *; [|discriminate H].
    injection H as <-. exists eds, jd. split; reflexivity.
  Qed.

  Lemma docs_sources_wf : forall env_docs doc srcs, docs_sources classify env_docs doc = Ok srcs ->
    Forall wf_def srcs /\ Forall wf_default srcs.
  Proof.
    intros env_docs doc srcs H.
    destruct (docs_sources_total env_docs doc (docs_sources_accepted _ _ _ H)) as [srcs' [H' W]].
    rewrite H in H'. injection H' as <-. exact W.
  Qed.

  (* C12 through the composition: what the merged definitions are *)
  Theorem docs_merged_spec : forall env_docs doc srcs defs,
    docs_sources classify env_docs doc = Ok srcs -> docs_merged classify env_docs doc = Ok defs ->
    merged_from srcs defs /\ Forall wf_def defs.
  Proof.
    intros env_docs doc srcs defs Hs Hm.
    destruct (docs_unfold env_docs doc srcs Hs) as [eds [jd [-> Em]]].
    rewrite Em in Hm. apply merge_definitions_merged. exact Hm.
  Qed.

  Theorem docs_merged_ok_iff : forall env_docs doc srcs,
    docs_sources classify env_docs doc = Ok srcs ->
    ((exists defs, docs_merged classify env_docs doc = Ok defs) <->
     (forall k, In k (map pname srcs) -> exists m, merge false (group_of k srcs) = Ok m)).
  Proof.
    intros env_docs doc srcs Hs.
    destruct (docs_unfold env_docs doc srcs Hs) as [eds [jd [-> Em]]].
    rewrite Em. apply merge_definitions_ok_iff.
  Qed.

  Theorem docs_merged_error : forall env_docs doc e, accepted env_docs doc ->
    docs_merged classify env_docs doc = Raise e -> e = CompatibilityError.
  Proof.
    intros env_docs doc e [t [envs [Hd He]]] H.
    destruct (docs_read env_docs doc t envs Hd He) as [eds [jd [Heds [Hjd [We [Wj _]]]]]].
    unfold docs_merged, merged_defs in H. rewrite Hd, He in H. cbn [bind] in H. rewrite Heds, Hjd in H. cbn [bind] in H.
    eapply merge_definitions_raise; eassumption.
  Qed.

  (* a refused merge is the ValueError of preprocess_job_parameters, in either mode *)
  Theorem preprocess_docs_refused : forall m tdir cwd walk env_docs doc vals, accepted env_docs doc ->
    docs_merged classify env_docs doc = Raise CompatibilityError ->
    preprocess_docs classify m tdir cwd walk env_docs doc vals = Ok (Raise ValueError).
  Proof.
    intros m tdir cwd walk env_docs doc vals [t [envs [Hd He]]] H. unfold docs_merged in H.
    unfold preprocess_docs, preprocess_templates. rewrite Hd, He in *. cbn [bind] in *.
    rewrite H. reflexivity.
  Qed.

  Theorem preprocess_docs_refused_name : forall m tdir cwd walk env_docs doc vals srcs k,
    docs_sources classify env_docs doc = Ok srcs -> In k (map pname srcs) ->
    merge false (group_of k srcs) = Raise CompatibilityError ->
    preprocess_docs classify m tdir cwd walk env_docs doc vals = Ok (Raise ValueError).
  Proof.
    intros m tdir cwd walk env_docs doc vals srcs k Hs Hk Hm.
    pose proof (docs_sources_accepted _ _ _ Hs) as A. apply (preprocess_docs_refused _ _ _ _ _ _ _ A).
    destruct (docs_merged classify env_docs doc) as [defs|e] eqn:Em; [exfalso|rewrite (docs_merged_error _ _ _ A Em); reflexivity].
    destruct (proj1 (docs_merged_ok_iff env_docs doc srcs Hs) (ex_intro _ defs Em) k Hk) as [m' Hm']. congruence.
  Qed.

  (* once the merged definitions are known, every call on the same documents is [preprocess_defs] on them *)
  Lemma preprocess_docs_with : forall env_docs doc defs, docs_merged classify env_docs doc = Ok defs ->
    forall m tdir cwd walk vals,
    preprocess_docs classify m tdir cwd walk env_docs doc vals =
    Ok (preprocess_defs (eff_dir m tdir) (eff_cwd m cwd) (eff_walk m walk) defs vals).
  Proof.
    intros env_docs doc defs Hm m tdir cwd walk vals. unfold docs_merged in Hm. unfold preprocess_docs.
    destruct (decode_job classify doc) as [t|e]; cbn [bind] in *; [|discriminate Hm].
    destruct (mapM (decode_env classify) env_docs) as [envs|e]; cbn [bind] in *; [|discriminate Hm].
    unfold preprocess_templates. rewrite Hm. reflexivity.
  Qed.

  (* merged definitions have distinct names and are well formed *)
  Lemma docs_merged_wf : forall env_docs doc defs, docs_merged classify env_docs doc = Ok defs ->
    NoDup (map pname defs) /\ Forall wf_def defs.
  Proof.
    intros env_docs doc defs Hm.
    destruct (docs_sources_total env_docs doc (decoded_accepted _ _ _ _ _ Hm)) as [srcs [Hs _]].
    destruct (docs_merged_spec env_docs doc srcs defs Hs Hm) as [[ND _] W]. auto.
  Qed.

  (* the call succeeds only through a successful merge *)
  Lemma preprocess_docs_ok_inv : forall m tdir cwd walk env_docs doc vals r,
    preprocess_docs classify m tdir cwd walk env_docs doc vals = Ok (Ok r) ->
    exists defs, docs_merged classify env_docs doc = Ok defs /\ NoDup (map pname defs) /\ Forall wf_def defs /\
      preprocess_defs (eff_dir m tdir) (eff_cwd m cwd) (eff_walk m walk) defs vals = Ok r.
  Proof.
    intros m tdir cwd walk env_docs doc vals r H. pose proof (decoded_accepted _ _ _ _ _ H) as A.
    destruct (docs_merged classify env_docs doc) as [defs|e] eqn:Em.
    - rewrite (preprocess_docs_with _ _ _ Em) in H. injection H as H. destruct (docs_merged_wf _ _ _ Em) as [ND W].
      exists defs. auto.
    - rewrite (docs_merged_error _ _ _ A Em) in Em. rewrite (preprocess_docs_refused _ _ _ _ _ _ _ A Em) in H. discriminate H.
  Qed.

  (* C10_full_iff: success <-> the merge succeeds and the conditions of the property text hold for the MERGED
     definitions (plus the template-directory rule, plus the joinability of the PATH defaults that are used) *)
  Theorem preprocess_docs_iff : forall m tdir cwd walk env_docs doc vals,
    ((exists r, preprocess_docs classify m tdir cwd walk env_docs doc vals = Ok (Ok r)) <->
     exists defs, docs_merged classify env_docs doc = Ok defs /\
       dir_rule_ok (eff_dir m tdir) (eff_walk m walk) defs /\
       no_extra defs vals /\ no_missing defs vals /\
       path_defaults_ok (path_default_of m tdir walk) defs vals /\
       all_sat (path_in_of m cwd) (path_default_of m tdir walk) defs vals).
  Proof.
    intros m tdir cwd walk env_docs doc vals. split.
    - intros [r H]. destruct (preprocess_docs_ok_inv _ _ _ _ _ _ _ _ H) as (defs & Hm & ND & W & Hp).
      exists defs. split; [exact Hm|].
      apply (proj1 (preprocess_defs_iff _ _ _ defs vals W ND)). exists r. exact Hp.
    - intros [defs [Hm C]]. destruct (docs_merged_wf _ _ _ Hm) as [ND W].
      destruct (proj2 (preprocess_defs_iff (eff_dir m tdir) (eff_cwd m cwd) (eff_walk m walk) defs vals W ND) C) as [r Hr].
      exists r. rewrite (preprocess_docs_with env_docs doc defs Hm), Hr. reflexivity.
  Qed.

  (* the same in terms of the SOURCES (C12_sound / C12_complete through the composition): every final value is
     accepted by every individual definition of its parameter *)
  Theorem preprocess_docs_iff_sources : forall m tdir cwd walk env_docs doc vals srcs,
    docs_sources classify env_docs doc = Ok srcs ->
    ((exists r, preprocess_docs classify m tdir cwd walk env_docs doc vals = Ok (Ok r)) <->
     exists defs, docs_merged classify env_docs doc = Ok defs /\
       dir_rule_ok (eff_dir m tdir) (eff_walk m walk) defs /\
       no_extra defs vals /\ no_missing defs vals /\
       path_defaults_ok (path_default_of m tdir walk) defs vals /\
       (forall d v, In d defs -> final (path_in_of m cwd) (path_default_of m tdir walk) vals d v ->
                    Forall (fun s => sat s v) (group_of (pname d) srcs))).
  Proof.
    intros m tdir cwd walk env_docs doc vals srcs Hs.
    rewrite (preprocess_docs_iff m tdir cwd walk env_docs doc vals).
    destruct (docs_sources_wf env_docs doc srcs Hs) as [W _].
    split; intros [defs [Hm [C1 [C2 [C3 [C4 C5]]]]]]; exists defs; (split; [exact Hm|]);
      (split; [exact C1|]); (split; [exact C2|]); (split; [exact C3|]); (split; [exact C4|]);
      destruct (docs_merged_spec env_docs doc srcs defs Hs Hm) as [MF _].
    - intros d v Hd F. apply (proj1 (merged_sat srcs defs d v W MF Hd)). apply C5; assumption.
    - intros d v Hd F. apply (proj1 (merged_sat srcs defs d v W MF Hd)). apply C5; assumption.
  Qed.

  (* C10_full_result *)
  Theorem preprocess_docs_result : forall m tdir cwd walk env_docs doc vals r,
    preprocess_docs classify m tdir cwd walk env_docs doc vals = Ok (Ok r) ->
    exists defs, docs_merged classify env_docs doc = Ok defs /\
      Forall2 (fun d (e : str * (ptype * str)) =>
                 fst e = pname d /\ fst (snd e) = ptyp d /\
                 final (path_in_of m cwd) (path_default_of m tdir walk) vals d (snd (snd e))) defs r /\
      (forall d v, In d defs -> is_path d = false -> lookup (pname d) vals = Some v ->
                   lookup (pname d) r = Some (ptyp d, v)) /\
      (forall d t, In d defs -> is_path d = false -> lookup (pname d) vals = None -> pdefault d = Some t ->
                   lookup (pname d) r = Some (ptyp d, t)).
  Proof.
    intros m tdir cwd walk env_docs doc vals r H.
    destruct (preprocess_docs_ok_inv _ _ _ _ _ _ _ _ H) as (defs & Hm & ND & W & Hp).
    apply preprocess_defs_true in Hp.
    exists defs. split; [exact Hm|]. split; [|split].
    - exact (preprocess_result _ _ defs vals r W ND Hp).
    - intros d v Hd NP L. exact (preprocess_supplied _ _ defs vals r d v W ND Hp Hd NP L).
    - intros d t Hd NP L D. exact (preprocess_defaulted _ _ defs vals r d t W ND Hp Hd NP L D).
  Qed.

  (* C10_full_error *)
  Theorem preprocess_docs_error : forall m tdir cwd walk env_docs doc vals e,
    preprocess_docs classify m tdir cwd walk env_docs doc vals = Ok (Raise e) -> e = ValueError.
  Proof.
    intros m tdir cwd walk env_docs doc vals e H. pose proof (decoded_accepted _ _ _ _ _ H) as A.
    destruct (docs_merged classify env_docs doc) as [defs|e0] eqn:Em.
    - rewrite (preprocess_docs_with _ _ _ Em) in H. injection H as H. eapply preprocess_defs_error. exact H.
    - rewrite (docs_merged_error _ _ _ A Em) in Em. rewrite (preprocess_docs_refused _ _ _ _ _ _ _ A Em) in H.
      injection H as <-. reflexivity.
  Qed.

  (* C11 through the composition, client mode, walk-up disallowed *)
  Lemma to_str_nonnil : forall pp, to_str pp <> [].
  Proof.
    intros pp. unfold to_str. cbv zeta.
    match goal with |- (if is_nil ?x then _ else _) <> _ => destruct x as [|c s'] end; cbn [is_nil]; discriminate.
  Qed.

  Lemma default_body_nonnil : forall dir t v, is_absolute dir = true -> t <> [] ->
    default_body dir false t = Ok v -> v <> [].
  Proof.
    intros dir t v Ha Hne H. unfold default_body in H.
    destruct t as [|c t']; [contradiction Hne; reflexivity|]. cbn [is_nil] in H.
    destruct (is_absolute (c :: t')); cbn [negb] in H; [discriminate H|].
    rewrite Ha in H. cbn [andb] in H.
    destruct (negb (is_relative_to _ _)); [discriminate H|]. injection H as <-. apply to_str_nonnil.
  Qed.

  Theorem preprocess_docs_contained : forall tdir cwd env_docs doc vals r,
    preprocess_docs classify Client tdir cwd false env_docs doc vals = Ok (Ok r) ->
    exists defs, docs_merged classify env_docs doc = Ok defs /\
      forall d t, In d defs -> ptyp d = PATH -> lookup (pname d) vals = None -> pdefault d = Some t ->
        exists v, lookup (pname d) r = Some (PATH, v) /\ ((t = [] /\ v = []) \/ (t <> [] /\ contained tdir v)).
  Proof.
    intros tdir cwd env_docs doc vals r H.
    destruct (preprocess_docs_ok_inv _ _ _ _ _ _ _ _ H) as (defs & Hm & ND & W & Hp).
    cbn [eff_dir eff_cwd eff_walk] in Hp.
    assert (DR : defs = [] \/ is_absolute tdir = true).
    { unfold preprocess_defs in Hp. apply preprocess_dirok in Hp. destruct Hp as [[E|E] _]; [left; exact E|right].
      unfold dir_check in E. cbn [negb andb] in E. apply negb_true_iff in E. apply negb_false_iff in E. exact E. }
    apply preprocess_defs_true in Hp.
    exists defs. split; [exact Hm|]. intros d t Hd Ty L D.
    destruct (preprocess_lookup _ _ defs vals r d W ND Hp Hd) as [v [Lv F]].
    exists v. rewrite Ty in Lv. split; [exact Lv|].
    apply final_fv in F. unfold fv, default_value in F. rewrite L, D in F.
    assert (IP : is_path d = true) by (unfold is_path; rewrite Ty; reflexivity). rewrite IP in F. cbn [andb] in F.
    destruct t as [|c t']; cbn [is_nil negb] in F.
    - injection F as <-. left. split; reflexivity.
    - right. split; [discriminate|]. injection F as F.
      destruct DR as [E|Ha]; [subst defs; destruct Hd|].
      assert (NN : v <> []) by (eapply default_body_nonnil; [exact Ha| |exact F]; discriminate).
      eapply contained_thm; [|exact NN]. unfold collect_path_default, dir_check. rewrite Ha. cbn [negb andb]. exact F.
  Qed.

  (* ... a relative template directory never yields anything once there is a definition *)
  Theorem preprocess_docs_reldir : forall tdir cwd env_docs doc vals defs,
    docs_merged classify env_docs doc = Ok defs -> defs <> [] -> is_absolute tdir = false ->
    preprocess_docs classify Client tdir cwd false env_docs doc vals = Ok (Raise ValueError).
  Proof.
    intros tdir cwd env_docs doc vals defs Hm Hne Ha.
    rewrite (preprocess_docs_with env_docs doc defs Hm).
    cbn [eff_dir eff_cwd eff_walk]. rewrite preprocess_defs_reldir; [reflexivity|reflexivity|exact Ha|exact Hne].
  Qed.

  (* ... supplied PATH values, either mode: joined to the (effective) working directory *)
  Theorem preprocess_docs_supplied_path : forall m tdir cwd walk env_docs doc vals r,
    preprocess_docs classify m tdir cwd walk env_docs doc vals = Ok (Ok r) ->
    exists defs, docs_merged classify env_docs doc = Ok defs /\
      forall d v, In d defs -> ptyp d = PATH -> lookup (pname d) vals = Some v ->
        lookup (pname d) r = Some (PATH, spec_supplied (eff_cwd m cwd) v).
  Proof.
    intros m tdir cwd walk env_docs doc vals r H.
    destruct (preprocess_docs_ok_inv _ _ _ _ _ _ _ _ H) as (defs & Hm & ND & W & Hp).
    apply preprocess_defs_true in Hp.
    exists defs. split; [exact Hm|]. intros d v Hd Ty L.
    destruct (preprocess_lookup _ _ defs vals r d W ND Hp Hd) as [v' [Lv F]].
    rewrite Ty in Lv. rewrite Lv. apply final_fv in F. unfold fv, supplied_value in F. rewrite L in F.
    injection F as <-.
    assert (IP : is_path d = true) by (unfold is_path; rewrite Ty; reflexivity). rewrite IP. cbn [andb].
    rewrite <- supplied_exact. unfold path_supplied. destruct v as [|c v']; cbn [is_nil negb andb]; reflexivity.
  Qed.

  (* ... server mode: a PATH default is returned verbatim *)
  Theorem preprocess_docs_server_default : forall tdir cwd walk env_docs doc vals r,
    preprocess_docs classify Server tdir cwd walk env_docs doc vals = Ok (Ok r) ->
    exists defs, docs_merged classify env_docs doc = Ok defs /\
      forall d t, In d defs -> lookup (pname d) vals = None -> pdefault d = Some t ->
        lookup (pname d) r = Some (ptyp d, t).
  Proof.
    intros tdir cwd walk env_docs doc vals r H.
    destruct (preprocess_docs_ok_inv _ _ _ _ _ _ _ _ H) as (defs & Hm & ND & W & Hp).
    apply preprocess_defs_true in Hp. cbn [eff_dir eff_cwd eff_walk] in Hp.
    exists defs. split; [exact Hm|]. intros d t Hd L D.
    destruct (preprocess_lookup _ _ defs vals r d W ND Hp Hd) as [v' [Lv F]].
    rewrite Lv. apply final_fv in F. unfold fv, default_value in F. rewrite L, D in F.
    destruct (is_path d && negb (Numerals.is_nil t)).
    - change (default_body [] true t) with (server_default t) in F. rewrite server_default_verbatim in F.
      congruence.
    - congruence.
  Qed.

  (* the server mode of preprocess_docs is the preprocessing step of create_job's model (CreateJobFull.prep_full) *)
  Theorem preprocess_docs_server_is_prep_full : forall tdir cwd walk env_docs doc vals t envs,
    decode_job classify doc = Ok t -> mapM (decode_env classify) env_docs = Ok envs ->
    match preprocess_docs classify Server tdir cwd walk env_docs doc vals with
    | Ok (Ok r) => prep_full envs t vals = Ok (pvals_of r)
    | Ok (Raise _) => prep_full envs t vals = Raise DecodeValidationError
    | Raise _ => False
    end.
  Proof.
    intros tdir cwd walk env_docs doc vals t envs Hd He.
    destruct (docs_read env_docs doc t envs Hd He) as [eds [jd [Heds [Hjd [We [Wj _]]]]]].
    unfold preprocess_docs, preprocess_templates, merged_defs, prep_full.
    rewrite Hd, He. cbn [bind]. rewrite Heds, Hjd. cbn [bind eff_dir eff_cwd eff_walk].
    destruct (merge_definitions eds jd) as [defs|e] eqn:E.
    - rewrite preprocess_defs_server. destruct (preprocess_server defs vals) as [r|e] eqn:Ep; [reflexivity|].
      rewrite (preprocess_server_raise defs vals e Ep). reflexivity.
    - rewrite (merge_definitions_raise eds jd e We Wj E). reflexivity.
  Qed.
End Docs.
