(* ParseOutcomes.v — lemmas behind props/C04.v: the acceptance model (Parse.v / Accept.v) only ever
   accepts, rejects (ValueError) or declares the input outside its domain (RuntimeError); for ANY
   schema, hooks, fuel, class / kind and json value.  Version dispatch of decode_*; the C03 walker
   reports reference errors only. *)
From Coq Require Import List NArith ZArith Bool String Lia.
Import ListNotations.
Require Import OJD.Base OJD.Lexer OJD.Json OJD.Schema OJD.Generated OJD.Charsets OJD.Numerals OJD.NumPrint
               OJD.FormatStr OJD.FsRefs OJD.CreateJob OJD.Parse OJD.Validators OJD.Accept OJD.AcceptMono
               OJD.ScopeWalk OJD.ScopeSpec OJD.ScopeProofs OJD.Export OJD.ListLib.
Local Open Scope string_scope.
Local Open Scope list_scope.

(* "rejected, or not judged" *)
Definition vr (e : exn) : Prop := e = ValueError \/ e = RuntimeError.

Lemma vr_reject : vr ValueError. Proof. left. reflexivity. Qed.
Lemma vr_unsupported : vr RuntimeError. Proof. right. reflexivity. Qed.

(* every leaf of [parse_scalar] is [Ok _], [reject] or [unsupported] *)
Lemma parse_scalar_outcomes : forall classify k v e, parse_scalar classify k v = Raise e -> vr e.
Proof.
  intros classify k v e. destruct k, v; cbn [parse_scalar]; unfold check_str;
    repeat match goal with |- context [match ?x with _ => _ end] => destruct x; cbv beta iota end;
    intros H; try discriminate H; injection H as <-; [> apply vr_reject || apply vr_unsupported ..].
Qed.

Section Outcomes.
  Variable SC : schema_t.
  Variable classify : N -> cclass.
  Variable pre : string -> json -> bool.
  Variable post : string -> json -> list (string * mval) -> bool.
  Notation pk := (parse_kind SC classify pre post).
  Notation pc := (parse_cls SC classify pre post).

  (* each piece rejects by itself or passes on the failure of a part *)
  Theorem parse_outcomes : forall fuel,
    (forall k v e, pk fuel k v = Raise e -> vr e) /\ (forall c v e, pc fuel c v = Raise e -> vr e).
  Proof.
    induction fuel as [|f [IHk IHc]]; [split; intros x v e H; injection H as <-; apply vr_unsupported|].
    assert (IHl : forall lo hi k v e, list_items (pk f) lo hi k v = Raise e -> vr e).
    { intros lo hi k v e H. apply list_items_raise in H.
      destruct H as [->|(items & x & _ & _ & H)]; [apply vr_reject|exact (IHk _ _ _ H)]. }
    split.
    - intros k v e H. rewrite parse_kind_S in H. destruct k; try exact (parse_scalar_outcomes _ _ _ _ H).
      + exact (IHc _ _ _ H).
      + apply disc_res_raise in H. destruct H as [->|(kc & _ & H)]; [apply vr_reject|exact (IHc _ _ _ H)].
      + apply try_alts_raise in H.
        destruct H as [->|([k'|lo hi k'] & _ & H)]; [apply vr_reject|exact (IHk _ _ _ H)|exact (IHl _ _ _ _ _ H)].
    - intros c v e H. apply parse_cls_raise in H.
      destruct H as [->|[(-> & _)|(f' & c0 & ms & fl & E & _ & _ & _ & H)]]; [apply vr_reject|apply vr_unsupported|].
      injection E as <-. apply parse_value_raise in H. destruct H as [->|(_ & H)]; [apply vr_reject|].
      destruct (f_shape fl);
        [|destruct H as (items & x & _ & _ & H)|destruct H as (ms' & kv & _ & _ & [H|H])]; exact (IHk _ _ _ H).
  Qed.
End Outcomes.

Theorem parse_kind_outcomes : forall SC classify pre post fuel k v e,
  parse_kind SC classify pre post fuel k v = Raise e -> e = ValueError \/ e = RuntimeError.
Proof. intros SC classify pre post fuel. exact (proj1 (parse_outcomes SC classify pre post fuel)). Qed.

Theorem parse_cls_outcomes : forall SC classify pre post fuel c v e,
  parse_cls SC classify pre post fuel c v = Raise e -> e = ValueError \/ e = RuntimeError.
Proof. intros SC classify pre post fuel. exact (proj2 (parse_outcomes SC classify pre post fuel)). Qed.

Lemma parse_template_outcomes classify root j e : parse_template classify root j = Raise e -> vr e.
Proof. unfold parse_template, parse_root. apply parse_cls_outcomes. Qed.

(* both decoders: a version test in front of the parse of one root class *)
Lemma dispatch_outcomes versions (p : json -> outcome mval) j e :
  (forall e, p j = Raise e -> vr e) ->
  match j with JObj _ => if version_ok versions j then p j else Raise ValueError | _ => Raise RuntimeError end = Raise e ->
  vr e.
Proof.
  intros Hp H. destruct j; try (injection H as <-; apply vr_unsupported).
  destruct (version_ok versions (JObj members)); [exact (Hp e H)|injection H as <-; apply vr_reject].
Qed.

Theorem decode_job_outcomes : forall classify j e,
  decode_job classify j = Raise e -> e = ValueError \/ e = RuntimeError.
Proof. intros classify j e. apply dispatch_outcomes. intros e'. apply parse_template_outcomes. Qed.

Theorem decode_env_outcomes : forall classify j e,
  decode_env classify j = Raise e -> e = ValueError \/ e = RuntimeError.
Proof. intros classify j e. apply dispatch_outcomes. intros e'. apply parse_template_outcomes. Qed.

(* the job-side re-validation (parse_model on a target class, with the concrete-model pre hooks) *)
Theorem parse_any_outcomes : forall classify root j e,
  parse_any classify root j = Raise e -> e = ValueError \/ e = RuntimeError.
Proof. intros classify root j e H. unfold parse_any in H. eapply parse_cls_outcomes. exact H. Qed.

(* ------------------------------------------------------------------ version dispatch *)

Definition version_in (versions : list string) (j : json) : Prop :=
  exists s, jget "specificationVersion" j = JStr s /\ exists v, In v versions /\ s = str_of_string v.

Lemma version_ok_iff : forall versions j, version_ok versions j = true <-> version_in versions j.
Proof.
  intros versions j. unfold version_ok, version_in. split.
  - intros H. destruct (jget "specificationVersion" j); try discriminate H.
    exists s. split; [reflexivity|]. apply existsb_exists in H. destruct H as [v [Hv He]].
    exists v. split; [exact Hv|]. apply str_eqb_eq. exact He.
  - intros [s [-> [v [Hv ->]]]]. apply existsb_exists. exists v. split; [exact Hv|apply str_eqb_refl].
Qed.

Lemma dispatch_version versions (x : outcome mval) j :
  (~ version_in versions j -> (if version_ok versions j then x else Raise ValueError) = Raise ValueError) /\
  (version_in versions j -> (if version_ok versions j then x else Raise ValueError) = x).
Proof.
  rewrite <- version_ok_iff. destruct (version_ok versions j); split; intros H; try reflexivity;
    [contradiction H; reflexivity|discriminate H].
Qed.

Theorem decode_job_dispatch : forall classify ms,
  (~ version_in Generated.job_template_versions (JObj ms) -> decode_job classify (JObj ms) = Raise ValueError) /\
  (version_in Generated.job_template_versions (JObj ms) ->
   decode_job classify (JObj ms) = parse_template classify "JobTemplate" (JObj ms)).
Proof. intros classify ms. apply dispatch_version. Qed.

Theorem decode_env_dispatch : forall classify ms,
  (~ version_in Generated.env_template_versions (JObj ms) -> decode_env classify (JObj ms) = Raise ValueError) /\
  (version_in Generated.env_template_versions (JObj ms) ->
   decode_env classify (JObj ms) = parse_template classify "EnvironmentTemplate" (JObj ms)).
Proof. intros classify ms. apply dispatch_version. Qed.

Lemma versions_now :
  Generated.job_template_versions = ["jobtemplate-2023-09"] /\
  Generated.env_template_versions = ["environment-2023-09"].
Proof. split; reflexivity. Qed.

(* ------------------------------------------------------------------ the walker is total *)

Theorem walk_total : forall refs j,
  (forall w, In w (prevalidate Generated.schema refs "JobTemplate" j) -> exists l n, w = ERef l n) /\
  (forall w, In w (prevalidate Generated.schema refs "EnvironmentTemplate" j) -> exists l n, w = ERef l n).
Proof.
  intros refs j. destruct (no_fuel refs j) as [H1 H2]. split; intros w Hw.
  - destruct w as [l n|]; [exists l, n; reflexivity|contradiction].
  - destruct w as [l n|]; [exists l, n; reflexivity|contradiction].
Qed.

(* an accepted job template passed the reference check (the post validator of the root runs the
   walker on the raw document) *)
Theorem decode_job_prevalidated : forall classify j t,
  decode_job classify j = Ok t ->
  prevalidate Generated.schema (fs_refs classify) "JobTemplate" j = [].
Proof.
  intros classify j t H. unfold decode_job in H.
  destruct j as [| | | | | |ms]; try discriminate H.
  destruct (version_ok Generated.job_template_versions (JObj ms)); [|discriminate H].
  destruct (parse_cls_ok_inv _ _ _ _ _ _ _ _ H) as (_ & _ & _ & fields & _ & _ & _ & _ & _ & _ & Ep & _).
  change (job_template_ok classify (JObj ms) fields = true) in Ep. unfold job_template_ok in Ep.
  repeat (apply andb_true_iff in Ep; destruct Ep as [Ep ?]).
  destruct (prevalidate Generated.schema (fs_refs classify) "JobTemplate" (JObj ms)); [reflexivity|discriminate].
Qed.
