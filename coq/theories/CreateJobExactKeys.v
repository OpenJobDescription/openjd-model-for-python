(* CreateJobExactKeys.v — C05_exact up to member ORDER, with no condition on the two Jobs.

   CreateJobExact.v proves [json_equiv job job'] (model Job vs. specification Job) and, from it, [json_perm]
   under three conditions on the two VALUES: both have pairwise distinct keys, the specification's Job has no
   null member.  Here the three conditions are proved from the hypotheses on the DOCUMENT alone
   (accepted + [distinct_keys j]):

     model_job_distinct_keys   (CreateJobExactKeysModel.v)  generic in the schema: decode / instantiate / export
                                                            invariants and one boolean check of Generated.schema;
     expected_job_good         (CreateJobExactKeysSpec.v)   the specification's Job: distinct keys and no null
                                                            member, from the acceptance inversions.

   Hence the model's Job and the specification's Job are the same JSON document up to the order of object
   members: scalars equal, arrays pointwise, objects a permutation of members. *)
From Coq Require Import List NArith ZArith Bool String.
Import ListNotations.
Require Import OJD.Base OJD.ListLib OJD.Lexer OJD.Json OJD.Schema OJD.Generated OJD.CreateJob OJD.CreateJobSpec OJD.Accept OJD.Export
               OJD.JsonEquiv OJD.CreateJobExactCarried OJD.CreateJobExactSpace OJD.CreateJobExactHost OJD.CreateJobExact
               OJD.CreateJobExactKeysLib OJD.CreateJobExactKeysModel OJD.CreateJobExactKeysSpec.
Local Open Scope string_scope.
Local Open Scope list_scope.

Theorem spec_job_dk : forall classify resolve sigma j t job',
  decode_job classify j = Ok t -> distinct_keys j = true ->
  expected_job resolve sigma j = Ok job' -> distinct_keys job' = true.
Proof.
  intros classify resolve sigma j t job' Hdec Hd H. exact (proj1 (expected_job_good classify resolve sigma j t job' Hdec Hd H)).
Qed.

Theorem spec_job_nnm : forall classify resolve sigma j t job',
  decode_job classify j = Ok t -> distinct_keys j = true ->
  expected_job resolve sigma j = Ok job' -> no_null_members job' = true.
Proof.
  intros classify resolve sigma j t job' Hdec Hd H. exact (proj2 (expected_job_good classify resolve sigma j t job' Hdec Hd H)).
Qed.

(* the two Jobs of an accepted document are always in the domain where [json_equiv] is [json_perm] *)
Theorem jobs_perm_of_equiv : forall classify resolve sigma j t vals job job',
  decode_job classify j = Ok t -> distinct_keys j = true ->
  create_job_object Generated.schema resolve vals t = Ok job ->
  expected_job resolve sigma j = Ok job' ->
  json_equiv job job' -> json_perm job job'.
Proof.
  intros classify resolve sigma j t vals job job' Hdec Hd Hm Hs He. apply json_equiv_perm.
  - exact He.
  - exact (create_job_object_nnm _ _ _ _ Hm).
  - exact (spec_job_nnm classify resolve sigma j t job' Hdec Hd Hs).
  - exact (model_job_distinct_keys classify resolve j t vals job Hdec Hd Hm).
  - exact (spec_job_dk classify resolve sigma j t job' Hdec Hd Hs).
Qed.

Theorem C05_exact_perm_unconditional : forall classify j t vals job,
  ascii_ok classify = true ->
  decode_job classify j = Ok t ->
  distinct_keys j = true -> lax_ints_native j = true -> canonical_numbers j = true ->
  create_job_object Generated.schema (Export.fs_resolve classify) vals t = Ok job ->
  exists job', expected_job (Export.fs_resolve classify) (symtab_of vals) j = Ok job' /\ json_perm job job'.
Proof.
  intros classify j t vals job Hascii Hdec Hd Hl Hc H.
  destruct (C05_exact_full classify j t vals job Hascii Hdec Hd Hl Hc H) as [job' [Hs He]].
  exists job'. split; [exact Hs|].
  exact (jobs_perm_of_equiv classify _ _ j t vals job job' Hdec Hd H Hs He).
Qed.

(* the partial theorem of CreateJobExact.v for plain steps, likewise up to member order *)
Theorem C05_exact_plain_perm : forall classify resolve j t vals job,
  decode_job classify j = Ok t ->
  distinct_keys j = true -> lax_ints_native j = true -> plain_steps j = true ->
  create_job_object Generated.schema resolve vals t = Ok job ->
  exists job', expected_job resolve (symtab_of vals) j = Ok job' /\ json_perm job job'.
Proof.
  intros classify resolve j t vals job Hdec Hd Hl Hp H.
  destruct (C05_exact_plain classify resolve j t vals job Hdec Hd Hl Hp H) as [job' [Hs He]].
  exists job'. split; [exact Hs|].
  exact (jobs_perm_of_equiv classify _ _ j t vals job job' Hdec Hd H Hs He).
Qed.
