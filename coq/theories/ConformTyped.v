(* ConformTyped.v — decoded instance trees are WELL TYPED with respect to the schema that decoded them.

   [tk SC k m] : the instance value [m] has kind [k];  [tc SC c m] : [m] is an instance of class [c]
   (its fields are the class's fields, in declaration order, each of its field's shape and kind).
   The judgment records the representation only (which constructor of [mval], which class, which literal),
   not the constraints (lengths apart, which are needed below).

     parse_typed       : whatever Parse.parse_kind / parse_cls accept is well typed  (any schema, hooks, fuel)
     decode_job_typed  : an accepted job template is a well-typed instance of "JobTemplate"

   and inversion lemmas that turn [tc] / [tv] / [tk] on CONCRETE kinds into shapes. *)
From Coq Require Import List NArith ZArith Bool String.
Import ListNotations.
Require Import OJD.Base OJD.Lexer OJD.Json OJD.Schema OJD.Generated OJD.Charsets OJD.Numerals OJD.NumPrint
               OJD.FormatStr OJD.CreateJob OJD.Parse OJD.Validators OJD.Accept OJD.AcceptMono OJD.DecodeInv
               OJD.ListLib.
Local Open Scope string_scope.
Local Open Scope list_scope.

Section Judgment.
  Variable SC : schema_t.

  Inductive tk : kind -> mval -> Prop :=
  | tk_lit : forall lit, tk (KLiteral lit) (MStr (str_of_string lit))
  | tk_enum : forall ms s, existsb (fun m => str_eqb s (str_of_string m)) ms = true -> tk (KEnum ms) (MStr s)
  | tk_str : forall st lo hi cs s, len_ok lo hi s = true -> tk (KStr st lo hi cs) (MStr s)
  | tk_fmt : forall c lo hi cs s, tk (KFormat c lo hi cs) (MFmt s)
  | tk_bool : forall st b, tk (KBool st) (MBool b)
  | tk_int : forall st ge le gt z, tk (KInt st ge le gt) (MInt z)
  | tk_float : forall gt m e, tk (KFloat gt) (MFloat m e)
  | tk_dec : forall m e, tk KDec (MDec m e)
  | tk_model : forall c m, tc c m -> tk (KModel c) m
  | tk_disc : forall key mp k c m, In (k, c) mp -> tc c m -> tk (KDisc key mp) m
  | tk_union : forall alts a m, In a alts -> ta a m -> tk (KUnion alts) m
  with ta : ualt -> mval -> Prop :=
  | ta_scalar : forall k m, tk k m -> ta (UScalar k) m
  | ta_list : forall lo hi k l, Forall (tk k) l -> ta (UList lo hi k) (MList l)
  with tc : string -> mval -> Prop :=
  | tc_intro : forall c c0 fs, lookup_cls SC c = Some c0 -> Forall2 tf (c_fields c0) fs -> tc c (MModel c fs)
  with tf : field -> string * mval -> Prop :=
  | tf_intro : forall fl x, tv fl x -> tf fl (f_name fl, x)
  with tv : field -> mval -> Prop :=
  | tv_none : forall fl, f_required fl = false -> tv fl MNone
  | tv_single : forall fl x, f_shape fl = Single -> tk (f_kind fl) x -> tv fl x
  | tv_list : forall fl lo hi l, f_shape fl = ListOf lo hi -> Forall (tk (f_kind fl)) l -> tv fl (MList l)
  | tv_dict : forall fl kk l, f_shape fl = DictOf kk ->
                              Forall (fun kv : str * mval => tk (f_kind fl) (snd kv)) l -> tv fl (MDict l).

  Lemma parse_scalar_typed : forall classify k v m, parse_scalar classify k v = Ok m -> tk k m.
  Proof.
    intros classify k v m H.
    destruct k as [lit|enum|strict lo hi cs|c lo hi cs|strict|strict ge le gt|gt| |c|key mp|alts];
      cbn [parse_scalar] in H; try discriminate H.
    - destruct v as [|b|z|dm de|s|l|members]; try discriminate H.
      destruct (str_eqb s (str_of_string lit)) eqn:E; [|discriminate H].
      injection H as <-. apply str_eqb_eq in E. subst s. constructor.
    - destruct v as [|b|z|dm de|s|l|members]; try discriminate H.
      destruct (existsb _ enum) eqn:E; [|discriminate H]. injection H as <-. constructor. exact E.
    - destruct v as [|b|z|dm de|s|l|members]; try discriminate H; try (destruct strict; try discriminate H);
        apply check_str_ok in H; destruct H as [-> Hl]; constructor; exact Hl.
    - destruct v as [|b|z|dm de|s|l|members]; try discriminate H.
      destruct (len_ok lo hi s && cs_ok cs s && fs_ok classify s); [|discriminate H].
      injection H as <-. constructor.
    - destruct v; try (destruct strict; discriminate H). injection H as <-. constructor.
    - assert (F : forall z, (if zopt_ok ge le gt z then Ok (MInt z) else reject) = Ok m -> tk (KInt strict ge le gt) m).
      { intros z Hz. destruct (zopt_ok ge le gt z); [|discriminate Hz]. injection Hz as <-. constructor. }
      destruct v as [|b|z|dm de|s|l|members]; try discriminate H; try (destruct strict; try discriminate H); try (eapply F; exact H).
      + destruct (dec_integral dm de); [eapply F; exact H|discriminate H].
      + destruct (parse_int s); [eapply F; exact H|discriminate H].
    - assert (F : forall a x, match gt with
                              | Some b => if num_ltb (num_of_Z b) (mkNum a x) then Ok (MFloat a x) else reject
                              | None => Ok (MFloat a x)
                              end = Ok m -> tk (KFloat gt) m).
      { intros a x Hz. destruct gt as [b|]; [|injection Hz as <-; constructor].
        destruct (num_ltb (num_of_Z b) (mkNum a x)); [|discriminate Hz]. injection Hz as <-. constructor. }
      destruct v; try discriminate H; eapply F; exact H.
    - destruct v as [|b|z|dm de|s|l|members]; try discriminate H; try (injection H as <-; constructor).
      destruct (parse_dec s) as [[a x|b|]|]; try discriminate H. injection H as <-. constructor.
  Qed.

  Variable classify : N -> cclass.
  Variable pre : string -> json -> bool.
  Variable post : string -> json -> list (string * mval) -> bool.
  Notation pk := (parse_kind SC classify pre post).
  Notation pc := (parse_cls SC classify pre post).

  (* AcceptMono.list_items_ok with the length condition kept *)
  Lemma list_items_inv : forall f lo hi k raw x, list_items (pk f) lo hi k raw = Ok x ->
    exists items l, raw = JArr items /\ x = MList l /\ len_ok_n lo hi (List.length items) = true /\
                    mapM (pk f k) items = Ok l.
  Proof.
    intros f lo hi k raw x H. destruct (list_items_ok _ _ _ _ _ _ H) as [items [l [-> [Em ->]]]].
    exists items, l. repeat split; [|exact Em]. unfold list_items in H.
    destruct (len_ok_n lo hi (List.length items)); [reflexivity|discriminate H].
  Qed.

  Lemma list_items_typed : forall f lo hi k v m,
    (forall k v m, pk f k v = Ok m -> tk k m) ->
    list_items (pk f) lo hi k v = Ok m -> exists l, m = MList l /\ Forall (tk k) l.
  Proof.
    intros f lo hi k v m IH H. destruct (list_items_ok _ _ _ _ _ _ H) as [items [l [_ [Em ->]]]].
    exists l. split; [reflexivity|]. apply Forall_forall. intros y Hy.
    destruct (mapM_ok_in _ _ _ _ _ Em y Hy) as [x [_ Hx]]. exact (IH _ _ _ Hx).
  Qed.

  Lemma parse_value_typed : forall f fl raw x,
    (forall k v m, pk f k v = Ok m -> tk k m) -> parse_value (pk f) fl raw = Ok x -> tv fl x.
  Proof.
    intros f fl raw x IH H. unfold parse_value in H.
    assert (K : match f_shape fl with
                | Single => pk f (f_kind fl) raw
                | ListOf minl maxl => list_items (pk f) minl maxl (f_kind fl) raw
                | DictOf kk =>
                  match raw with
                  | JObj members => do l' <- mapM (dict_entry (pk f) kk (f_kind fl)) members; Ok (MDict l')
                  | _ => reject
                  end
                end = Ok x -> tv fl x).
    { clear H. intros H. destruct (f_shape fl) as [|lo hi|kk] eqn:Es.
      - apply tv_single; [exact Es|]. eapply IH; exact H.
      - destruct (list_items_typed _ _ _ _ _ _ IH H) as [l [-> Hl]]. eapply tv_list; [exact Es|exact Hl].
      - destruct raw as [|b|z|a e|s|l|ms]; try discriminate H.
        destruct (mapM (dict_entry (pk f) kk (f_kind fl)) ms) as [l'|e] eqn:Em; cbn [bind] in H; [|discriminate H].
        injection H as <-. eapply tv_dict; [exact Es|]. apply Forall_forall. intros kv' Hy.
        destruct (mapM_ok_in _ _ _ _ _ Em kv' Hy) as [kv [_ Hx]]. unfold dict_entry in Hx.
        destruct (pk f kk (JStr (fst kv))) as [y1|e1]; cbn [bind] in Hx; [|discriminate Hx].
        destruct (pk f (f_kind fl) (snd kv)) as [y2|e2] eqn:E2; cbn [bind] in Hx; [|discriminate Hx].
        injection Hx as <-. cbn [snd]. exact (IH _ _ _ E2). }
    destruct raw; try (apply K; exact H).
    destruct (f_required fl) eqn:Eq; [discriminate H|]. injection H as <-. apply tv_none. exact Eq.
  Qed.

  Lemma parse_fields_typed : forall f ms fls fs,
    (forall k v m, pk f k v = Ok m -> tk k m) ->
    mapM (parse_field (pk f) ms) fls = Ok fs -> Forall2 tf fls fs.
  Proof.
    intros f ms fls fs IH H. apply mapM_Forall2 in H.
    induction H as [|fl fv fls fs Hf _ IHf]; constructor; [|exact IHf].
    unfold parse_field in Hf.
    destruct (parse_value (pk f) fl (field_raw ms fl)) as [x|e] eqn:Ev; cbn [bind] in Hf; [|discriminate Hf].
    injection Hf as <-. constructor. eapply parse_value_typed; eassumption.
  Qed.

  Theorem parse_typed : forall fuel,
    (forall k v m, pk fuel k v = Ok m -> tk k m) /\ (forall c v m, pc fuel c v = Ok m -> tc c m).
  Proof.
    induction fuel as [|f [IHk IHc]].
    - split; intros x v m H; [rewrite parse_kind_O in H|rewrite parse_cls_O in H]; discriminate H.
    - split.
      + intros k v m H. rewrite parse_kind_S in H.
        destruct k as [lit|members|strict lo hi cs|c lo hi cs|strict|strict ge le gt|gt| |c|key mp|alts];
          try (eapply parse_scalar_typed; exact H).
        * constructor. exact (IHc c v m H).
        * unfold disc_res in H. destruct v as [|b|z|dm de|s|l|members]; try discriminate H.
          destruct (assoc (str_of_string key) members) as [[| | | |s| |]|]; try discriminate H.
          destruct (List.find _ mp) as [[k' c']|] eqn:Ef; [|discriminate H].
          apply find_some in Ef. destruct Ef as [Hin _].
          eapply tk_disc; [exact Hin|]. exact (IHc c' _ m H).
        * apply try_alts_inv in H. destruct H as [a [Ha Hr]].
          eapply tk_union; [exact Ha|].
          destruct a as [k'|lo hi k']; cbn [alt_res] in Hr.
          -- constructor. exact (IHk k' v m Hr).
          -- destruct (list_items_typed _ _ _ _ _ _ IHk Hr) as [l [-> Hl]]. constructor. exact Hl.
      + intros c v m H. rewrite parse_cls_S in H.
        destruct (lookup_cls SC c) as [c0|] eqn:El; [|discriminate H].
        destruct v as [|b|z|a e|s|l|ms]; try discriminate H.
        destruct (negb (pre c (JObj ms))); [discriminate H|].
        destruct (extra_bad c0 ms); [discriminate H|].
        destruct (mapM (parse_field (pk f) ms) (c_fields c0)) as [fields|e'] eqn:Em; cbn [bind] in H; [|discriminate H].
        destruct (post c (JObj ms) fields); [|discriminate H]. injection H as <-.
        eapply tc_intro; [exact El|]. eapply parse_fields_typed; eassumption.
  Qed.

  Lemma tk_lit_inv : forall lit m, tk (KLiteral lit) m -> m = MStr (str_of_string lit).
  Proof. intros lit m H. inversion H; subst. reflexivity. Qed.
  Lemma tk_enum_inv : forall ms m, tk (KEnum ms) m -> exists s, m = MStr s.
  Proof. intros ms m H. inversion H; subst. eexists. reflexivity. Qed.
  Lemma tk_str_inv : forall st lo hi cs m, tk (KStr st lo hi cs) m -> exists s, m = MStr s /\ len_ok lo hi s = true.
  Proof. intros st lo hi cs m H. inversion H; subst. eexists. split; [reflexivity|assumption]. Qed.
  Lemma tk_fmt_inv : forall c lo hi cs m, tk (KFormat c lo hi cs) m -> exists s, m = MFmt s.
  Proof. intros c lo hi cs m H. inversion H; subst. eexists. reflexivity. Qed.
  Lemma tk_int_inv : forall st ge le gt m, tk (KInt st ge le gt) m -> exists z, m = MInt z.
  Proof. intros st ge le gt m H. inversion H; subst. eexists. reflexivity. Qed.
  Lemma tk_dec_inv : forall m, tk KDec m -> exists a e, m = MDec a e.
  Proof. intros m H. inversion H; subst. eexists. eexists. reflexivity. Qed.
  Lemma tk_model_inv : forall c m, tk (KModel c) m -> tc c m.
  Proof. intros c m H. inversion H; subst. assumption. Qed.
  Lemma tk_disc_inv : forall key mp m, tk (KDisc key mp) m -> exists k c, In (k, c) mp /\ tc c m.
  Proof. intros key mp m H. inversion H; subst. eexists. eexists. split; eassumption. Qed.
  Lemma tk_union_inv : forall alts m, tk (KUnion alts) m -> exists a, In a alts /\ ta a m.
  Proof. intros alts m H. inversion H; subst. eexists. split; eassumption. Qed.
  Lemma ta_scalar_inv : forall k m, ta (UScalar k) m -> tk k m.
  Proof. intros k m H. inversion H; subst. assumption. Qed.
  Lemma ta_list_inv : forall lo hi k m, ta (UList lo hi k) m -> exists l, m = MList l /\ Forall (tk k) l.
  Proof. intros lo hi k m H. inversion H; subst. eexists. split; [reflexivity|assumption]. Qed.

  Lemma tc_inv : forall c m, tc c m ->
    exists c0 fs, lookup_cls SC c = Some c0 /\ m = MModel c fs /\ Forall2 tf (c_fields c0) fs.
  Proof. intros c m H. inversion H; subst. eexists. eexists. split; [eassumption|]. split; [reflexivity|assumption]. Qed.

  Lemma tf_inv : forall fl fv, tf fl fv -> fst fv = f_name fl /\ tv fl (snd fv).
  Proof. intros fl fv H. inversion H; subst. split; [reflexivity|assumption]. Qed.

  Lemma tv_single_inv : forall fl x, f_shape fl = Single -> tv fl x ->
    (x = MNone /\ f_required fl = false) \/ tk (f_kind fl) x.
  Proof.
    intros fl x Hs H. inversion H; subst.
    - left. split; [reflexivity|assumption].
    - right. assumption.
    - congruence.
    - congruence.
  Qed.

  Lemma tv_list_inv : forall fl lo hi x, f_shape fl = ListOf lo hi -> tv fl x ->
    (x = MNone /\ f_required fl = false) \/ exists l, x = MList l /\ Forall (tk (f_kind fl)) l.
  Proof.
    intros fl lo hi x Hs H. inversion H; subst.
    - left. split; [reflexivity|assumption].
    - congruence.
    - right. eexists. split; [reflexivity|assumption].
    - congruence.
  Qed.
End Judgment.

Theorem decode_job_typed : forall classify j t, decode_job classify j = Ok t -> tc Generated.schema "JobTemplate" t.
Proof.
  intros classify j t H. unfold decode_job in H.
  destruct j as [| | | | | |ms]; try discriminate H.
  destruct (version_ok Generated.job_template_versions (JObj ms)); [|discriminate H].
  unfold parse_template, parse_root in H.
  exact (proj2 (parse_typed Generated.schema classify pre_hook (post_hook classify) _) _ _ _ H).
Qed.
