(* CreateJobExactLib.v — tools for C05_exact (the end-to-end theorem: model of create_job on the decoded
   template = document-level specification [expected_job], up to [json_equiv]): [tobj] / [jobj], fuel-free forms of
   [to_object] and of [to_object ∘ coerce_job]; [inst] does not increase the depth of an instance tree (so the fuels
   of [create_job_object] suffice); [strip_nulls] preserves [json_equiv]; str(Decimal(z)) = str(z), and a string of
   number characters resolves to itself; objects written with [opt] (CreateJobSpec) have the bindings of the full
   member list. *)
From Coq Require Import List NArith ZArith Bool String Lia.
Import ListNotations.
Require Import OJD.Base OJD.ListLib OJD.Lexer OJD.Json OJD.Schema OJD.Numerals OJD.NumPrint OJD.NumRoundtrip
               OJD.FormatStr OJD.FormatStrSpec OJD.FormatStrProofs
               OJD.CreateJob OJD.CreateJobProofs OJD.CreateJobSpec OJD.JsonEquiv.
Local Open Scope string_scope.
Local Open Scope list_scope.

Definition scalarj (j : json) : bool := match j with JArr _ | JObj _ => false | _ => true end.

(* the members an exported dictionary or model keeps: those whose value is not None, under [key], with value [g] *)
Definition kept {A : Type} (key : A -> str) (g : A * mval -> json) (l : list (A * mval)) : list (str * json) :=
  flat_map (fun kv => match snd kv with MNone => [] | _ => [(key (fst kv), g kv)] end) l.

Lemma in_kept : forall (A : Type) (key : A -> str) g (l : list (A * mval)) m, In m (kept key g l) ->
  exists kv, In kv l /\ snd kv <> MNone /\ m = (key (fst kv), g kv).
Proof.
  intros A key g l m H. apply in_flat_map in H. destruct H as [[k x] [Hin H]]. exists (k, x). cbn [fst snd] in *.
  destruct x; [destruct H|..]; destruct H as [<-|[]]; (split; [exact Hin|split; [discriminate|reflexivity]]).
Qed.

Lemma nnm_kept : forall (A : Type) (key : A -> str) g (l : list (A * mval)),
  (forall kv, In kv l -> snd kv <> MNone -> g kv <> JNull /\ no_null_members (g kv) = true) ->
  no_null_members (JObj (kept key g l)) = true.
Proof.
  intros A key g l H. cbn [no_null_members]. rewrite forallb_forall. intros m Hm.
  destruct (in_kept _ _ _ _ _ Hm) as [kv [Hin [Hn ->]]]. destruct (H kv Hin Hn) as [H1 H2]. cbn [snd]. rewrite H2.
  destruct (g kv); try reflexivity. contradiction.
Qed.

Lemma jfind_kept : forall (A : Type) (key : A -> str) g (l : list (A * mval)) k,
  (forall kv, snd kv = MNone -> g kv = JNull) ->
  jfind k (kept key g l) = jfind k (map (fun kv => (key (fst kv), g kv)) l).
Proof.
  intros A key g l k Hg. induction l as [|[a x] r IH]; [reflexivity|]. unfold kept in *. cbn [flat_map map fst snd].
  rewrite jfind_app, IH. clear IH.
  destruct x; [rewrite (Hg (a, MNone) eq_refl)|..]; cbn [jfind onn]; destruct (str_eqb k (key a)); try reflexivity;
    match goal with |- context [onn ?v] => destruct (onn v); reflexivity end.
Qed.

Section Tobj.
  Variable SC : schema_t.

  Fixpoint tobj (v : mval) : json :=
    match v with
    | MNone => JNull
    | MBool b => JBool b
    | MInt z => JInt z
    | MDec m e => JStr (print_dec m e)
    | MFloat m e => JDec m e
    | MStr s | MFmt s => JStr s
    | MList l => JArr (map tobj l)
    | MDict l => JObj (flat_map (fun kv => match snd kv with
                                           | MNone => []
                                           | _ => [(fst kv, tobj (snd kv))]
                                           end) l)
    | MModel c fs => JObj (flat_map (fun fv => match snd fv with
                                               | MNone => []
                                               | _ => [(str_of_string (alias_of SC c (fst fv)), tobj (snd fv))]
                                               end) fs)
    end.

  (* the value of one field of a job-side model: a list under the name "range" has its int / Decimal
     items printed (coerce_job), everything else is exported as it is *)
  Definition range_item (i : mval) : json := tobj (coerce_range_item i).

  Fixpoint jobj (v : mval) : json :=
    match v with
    | MList l => JArr (map jobj l)
    | MDict l => JObj (flat_map (fun kv => match snd kv with
                                           | MNone => []
                                           | _ => [(fst kv, jobj (snd kv))]
                                           end) l)
    | MModel c fs =>
      JObj (flat_map (fun fv =>
                        match snd fv with
                        | MNone => []
                        | _ =>
                          [(str_of_string (alias_of SC c (fst fv)),
                            if String.eqb (fst fv) "range"
                            then match snd fv with
                                 | MList items => JArr (map range_item items)
                                 | _ => tobj (snd fv)
                                 end
                            else jobj (snd fv))]
                        end) fs)
    | _ => tobj v
    end.

  Lemma tobj_null : forall x, tobj x = JNull -> x = MNone.
  Proof. intros x H. destruct x; try discriminate H. reflexivity. Qed.

  Lemma jobj_null : forall x, jobj x = JNull -> x = MNone.
  Proof. intros x H. destruct x; try discriminate H. reflexivity. Qed.

  Definition jfield (fv : string * mval) : json :=
    if String.eqb (fst fv) "range"
    then match snd fv with MList items => JArr (map range_item items) | _ => tobj (snd fv) end
    else jobj (snd fv).

  Lemma tobj_dict : forall l, tobj (MDict l) = JObj (kept (fun k => k) (fun kv => tobj (snd kv)) l).
  Proof. reflexivity. Qed.
  Lemma tobj_model : forall c fs,
    tobj (MModel c fs) = JObj (kept (fun n => str_of_string (alias_of SC c n)) (fun fv => tobj (snd fv)) fs).
  Proof. reflexivity. Qed.
  Lemma jobj_dict : forall l, jobj (MDict l) = JObj (kept (fun k => k) (fun kv => jobj (snd kv)) l).
  Proof. reflexivity. Qed.
  Lemma jobj_fields : forall c fs, jobj (MModel c fs) = JObj (kept (fun n => str_of_string (alias_of SC c n)) jfield fs).
  Proof. reflexivity. Qed.

  Lemma flat_map_map2 : forall (A B C : Type) (f : A -> B) (g : B -> list C) l,
    flat_map g (map f l) = flat_map (fun x => g (f x)) l.
  Proof. induction l as [|a l IH]; [reflexivity|]. cbn [map flat_map]. rewrite IH. reflexivity. Qed.

  Lemma item_depth : forall l (x : mval), In x l -> mval_depth x < mval_depth (MList l).
  Proof. intros l x H. apply (depth_le_max _ mval_depth) in H. cbn [mval_depth]. lia. Qed.

  Lemma member_depth : forall (l : list (str * mval)) kv, In kv l -> mval_depth (snd kv) < mval_depth (MDict l).
  Proof. intros l kv H. apply (depth_le_max _ (fun kv : str * mval => mval_depth (snd kv))) in H. cbn [mval_depth]. lia. Qed.

  Lemma field_depth : forall c (l : list (string * mval)) kv, In kv l -> mval_depth (snd kv) < mval_depth (MModel c l).
  Proof. intros c l kv H. apply (depth_le_max _ (fun kv : string * mval => mval_depth (snd kv))) in H. cbn [mval_depth]. lia. Qed.

  Lemma fields_below : forall c (fs : list (string * mval)) F, mval_depth (MModel c fs) < S F ->
    forall n x, In (n, x) fs -> mval_depth x < F.
  Proof. intros c fs F H n x Hin. pose proof (field_depth c fs (n, x) Hin) as K. cbn [snd] in K. lia. Qed.

  Lemma to_object_tobj : forall v F, mval_depth v < F -> to_object SC F v = tobj v.
  Proof.
    induction v as [ | | | | | | |l IH|l IH|c fs IH] using mval_ind3; intros F HF;
      (destruct F as [|F]; [lia|]); try reflexivity.
    - cbn [to_object tobj]. f_equal. apply map_ext_in. intros y Hy.
      rewrite Forall_forall in IH. apply (IH y Hy). pose proof (item_depth l y Hy). lia.
    - cbn [to_object tobj]. f_equal. apply flat_map_ext_in. intros kv Hkv.
      rewrite Forall_forall in IH. assert (E : to_object SC F (snd kv) = tobj (snd kv))
        by (apply (IH kv Hkv); pose proof (member_depth l kv Hkv); lia).
      destruct kv as [k y]. cbn [snd fst] in *. destruct y; try reflexivity; rewrite E; reflexivity.
    - cbn [to_object tobj]. f_equal. apply flat_map_ext_in. intros kv Hkv.
      rewrite Forall_forall in IH. assert (E : to_object SC F (snd kv) = tobj (snd kv))
        by (apply (IH kv Hkv); pose proof (field_depth c fs kv Hkv); lia).
      destruct kv as [k y]. cbn [snd fst] in *. destruct y; try reflexivity; rewrite E; reflexivity.
  Qed.
  Lemma coerce_range_item_depth : forall i, mval_depth (coerce_range_item i) <= mval_depth i.
  Proof. intros i. destruct i; cbn [coerce_range_item mval_depth]; lia. Qed.

  Lemma to_object_coerce_jobj : forall v F1 F2, mval_depth v < F1 -> mval_depth v < F2 ->
    to_object SC F2 (coerce_job F1 v) = jobj v.
  Proof.
    induction v as [ | | | | | | |l IH|l IH|c fs IH] using mval_ind3; intros F1 F2 H1 H2;
      (destruct F1 as [|F1]; [lia|]); (destruct F2 as [|F2]; [lia|]); try reflexivity.
    - cbn [coerce_job to_object jobj]. rewrite map_map. f_equal. apply map_ext_in. intros y Hy.
      rewrite Forall_forall in IH. pose proof (item_depth l y Hy). apply (IH y Hy); lia.
    - cbn [coerce_job to_object jobj]. rewrite flat_map_map2. f_equal. apply flat_map_ext_in. intros kv Hkv.
      rewrite Forall_forall in IH. pose proof (member_depth l kv Hkv) as Hd.
      assert (E : to_object SC F2 (coerce_job F1 (snd kv)) = jobj (snd kv)) by (apply (IH kv Hkv); lia).
      destruct kv as [k y]. cbn [snd fst] in *.
      destruct F1 as [|F1]; [lia|].
      destruct y; cbn [coerce_job] in *; try reflexivity; rewrite E; reflexivity.
    - cbn [coerce_job to_object jobj]. rewrite flat_map_map2. f_equal. apply flat_map_ext_in. intros kv Hkv.
      rewrite Forall_forall in IH. pose proof (field_depth c fs kv Hkv) as Hd.
      destruct kv as [n y]. cbn [snd fst] in *.
      destruct (String.eqb n "range") eqn:En.
      + destruct y as [ | | | | | | |items| | ]; cbn [snd fst]; try reflexivity;
          try (rewrite to_object_tobj by lia; reflexivity).
        destruct F2 as [|F2]; [lia|].
        cbn [to_object]. rewrite map_map. f_equal. f_equal. f_equal. apply map_ext_in. intros i Hi.
        unfold range_item. apply to_object_tobj.
        pose proof (item_depth items i Hi). pose proof (coerce_range_item_depth i). lia.
      + assert (E : to_object SC F2 (coerce_job F1 y) = jobj y) by (apply (IH (n, y) Hkv); cbn [snd]; lia).
        destruct F1 as [|F1]; [lia|].
        destruct y; cbn [coerce_job snd fst] in *; try reflexivity; rewrite E; reflexivity.
  Qed.
End Tobj.

Section NoNullMembers.
  Variable SC : schema_t.

  Lemma nnm_tobj : forall v, no_null_members (tobj SC v) = true.
  Proof.
    induction v as [ | | | | | | |l IH|l IH|c fs IH] using mval_ind3; try reflexivity.
    - cbn [tobj no_null_members]. rewrite forallb_forall. intros y Hy. apply in_map_iff in Hy.
      destruct Hy as [x [<- Hx]]. rewrite Forall_forall in IH. exact (IH x Hx).
    - rewrite tobj_dict. apply nnm_kept. intros kv Hin Hn. rewrite Forall_forall in IH.
      split; [intros E; exact (Hn (tobj_null SC _ E))|exact (IH kv Hin)].
    - rewrite tobj_model. apply nnm_kept. intros kv Hin Hn. rewrite Forall_forall in IH.
      split; [intros E; exact (Hn (tobj_null SC _ E))|exact (IH kv Hin)].
  Qed.

  Lemma jfield_null : forall fv, jfield SC fv = JNull -> snd fv = MNone.
  Proof.
    intros [n x] H. unfold jfield in H. cbn [fst snd] in *. destruct (String.eqb n "range").
    - destruct x; try discriminate H. reflexivity.
    - exact (jobj_null SC x H).
  Qed.

  Lemma jfield_none : forall fv, snd fv = MNone -> jfield SC fv = JNull.
  Proof. intros [n x] E. cbn [snd] in E. subst x. unfold jfield. cbn [fst snd]. destruct (String.eqb n "range"); reflexivity. Qed.

  Lemma nnm_jobj : forall v, no_null_members (jobj SC v) = true.
  Proof.
    induction v as [ | | | | | | |l IH|l IH|c fs IH] using mval_ind3; try reflexivity.
    - cbn [jobj no_null_members]. rewrite forallb_forall. intros y Hy. apply in_map_iff in Hy.
      destruct Hy as [x [<- Hx]]. rewrite Forall_forall in IH. exact (IH x Hx).
    - rewrite jobj_dict. apply nnm_kept. intros kv Hin Hn. rewrite Forall_forall in IH.
      split; [intros E; exact (Hn (jobj_null SC _ E))|exact (IH kv Hin)].
    - rewrite jobj_fields. apply nnm_kept. intros [n x] Hin Hn. rewrite Forall_forall in IH.
      split; [intros E; exact (Hn (jfield_null _ E))|]. specialize (IH _ Hin). unfold jfield. cbn [fst snd] in *.
      destruct (String.eqb n "range"); [|exact IH]. destruct x; try apply nnm_tobj.
      cbn [no_null_members]. rewrite forallb_forall. intros y Hy. apply in_map_iff in Hy.
      destruct Hy as [i [<- _]]. apply nnm_tobj.
  Qed.
End NoNullMembers.

Definition maxd {K : Type} (l : list (K * mval)) : nat :=
  fold_right (fun x acc => Nat.max (mval_depth (snd x)) acc) O l.

Lemma maxd_le : forall (K : Type) (l : list (K * mval)) M,
  (forall kv, In kv l -> mval_depth (snd kv) <= M) -> maxd l <= M.
Proof.
  induction l as [|a r IH]; intros M H; [cbn; lia|].
  cbn [maxd fold_right]. fold (maxd r). pose proof (H a (or_introl eq_refl)).
  assert (maxd r <= M) by (apply IH; intros kv Hkv; apply H; right; exact Hkv). lia.
Qed.

Lemma maxd_in : forall (K : Type) (l : list (K * mval)) kv, In kv l -> mval_depth (snd kv) <= maxd l.
Proof. intros K l kv H. exact (depth_le_max _ (fun kv : K * mval => mval_depth (snd kv)) l kv H). Qed.

Lemma maxl_le : forall (l : list mval) M,
  (forall x, In x l -> mval_depth x <= M) -> fold_right (fun x acc => Nat.max (mval_depth x) acc) O l <= M.
Proof.
  induction l as [|a r IH]; intros M H; [cbn; lia|].
  cbn [fold_right]. pose proof (H a (or_introl eq_refl)).
  assert (fold_right (fun x acc => Nat.max (mval_depth x) acc) O r <= M) by (apply IH; intros x Hx; apply H; right; exact Hx). lia.
Qed.

Lemma dict_set_in : forall d k v kv, In kv (dict_set d k v) -> kv = (k, v) \/ In kv d.
Proof.
  induction d as [|[k' v'] r IH]; intros k v kv H.
  - destruct H as [H|[]]. left. symmetry. exact H.
  - cbn [dict_set] in H. destruct (str_eqb k k').
    + destruct H as [H|H]; [left; symmetry; exact H|right; right; exact H].
    + destruct H as [H|H]; [right; left; exact H|]. destruct (IH _ _ _ H) as [E|E]; [left; exact E|right; right; exact E].
Qed.

Section InstDepth.
  Variable SC : schema_t.
  Variable resolve : symtab -> str -> outcome str.
  Variable sigma : symtab.

  Lemma inst_item_depth : forall rec j fn x y,
    (forall a b, rec a = Ok b -> mval_depth b <= mval_depth a) ->
    inst_item resolve sigma rec j fn x = Ok y -> mval_depth y <= mval_depth x.
  Proof.
    intros rec j fn x y Hrec H. destruct x; cbn [inst_item] in H; try (injection H as <-; lia).
    - destruct (mem_s fn (j_resolve j)); [|injection H as <-; lia].
      destruct (resolve sigma s); cbn [bind] in H; [injection H as <-; cbn; lia|discriminate H].
    - exact (Hrec _ _ H).
  Qed.

  Lemma reshape_fold_depth : forall rec j fn kf items acc d M,
    (forall a b, rec a = Ok b -> mval_depth b <= mval_depth a) ->
    (forall x, In x items -> mval_depth x <= M) ->
    (forall kv, In kv acc -> mval_depth (snd kv) <= M) ->
    fold_left (reshape_step resolve sigma rec j fn kf) items (Ok acc) = Ok d ->
    forall kv, In kv d -> mval_depth (snd kv) <= M.
  Proof.
    intros rec j fn kf items. induction items as [|it r IH]; intros acc d M Hrec Hit Hacc H kv Hkv.
    - cbn [fold_left] in H. injection H as <-. exact (Hacc kv Hkv).
    - cbn [fold_left] in H.
      destruct (reshape_step resolve sigma rec j fn kf (Ok acc) it) as [acc'|e] eqn:Es.
      + apply (IH acc' d M Hrec); try assumption.
        * intros x Hx. apply Hit. right. exact Hx.
        * intros kv' Hkv'. unfold reshape_step in Es. cbn [bind] in Es.
          destruct (key_of it kf) as [k|e]; cbn [bind] in Es; [|discriminate Es].
          destruct (inst_item resolve sigma rec j fn it) as [y|e] eqn:Ei; cbn [bind] in Es; [|discriminate Es].
          injection Es as <-. apply dict_set_in in Hkv'. destruct Hkv' as [->|Hkv'].
          -- cbn [snd]. pose proof (inst_item_depth _ _ _ _ _ Hrec Ei). pose proof (Hit it (or_introl eq_refl)). lia.
          -- exact (Hacc kv' Hkv').
      + exfalso. clear - H. induction r as [|it' r IH]; [discriminate H|]. cbn [fold_left] in H. apply IH. exact H.
  Qed.

  Lemma inst_val_depth : forall rec j fn x y,
    (forall a b, rec a = Ok b -> mval_depth b <= mval_depth a) ->
    inst_val resolve sigma rec j fn x = Ok y -> mval_depth y <= mval_depth x.
  Proof.
    intros rec j fn x y Hrec H. destruct x as [ | | | | | | |items|members|c fs];
      try exact (inst_item_depth _ _ _ _ _ Hrec H).
    - cbn [inst_val] in H. destruct (lookup_s fn (j_reshape j)) as [kf|].
      + destruct (fold_left _ items (Ok [])) as [d|e] eqn:Ef; cbn [bind] in H; [|discriminate H].
        injection H as <-. cbn [mval_depth]. apply le_n_S. apply maxd_le. intros kv Hkv.
        apply (reshape_fold_depth rec j fn kf items [] d _ Hrec) with (kv := kv); try assumption.
        * intros x Hx. exact (depth_le_max _ mval_depth items x Hx).
        * intros kv' [].
      + destruct (mapM _ items) as [l|e] eqn:Em; cbn [bind] in H; [|discriminate H].
        injection H as <-. cbn [mval_depth]. apply le_n_S. apply maxl_le. intros y Hy.
        destruct (mapM_ok_in _ _ _ _ _ Em y Hy) as [x [Hx Hf]].
        pose proof (inst_item_depth _ _ _ _ _ Hrec Hf). pose proof (depth_le_max _ mval_depth items x Hx). lia.
    - cbn [inst_val] in H. destruct (mapM _ members) as [l|e] eqn:Em; cbn [bind] in H; [|discriminate H].
      injection H as <-. cbn [mval_depth]. apply le_n_S. apply maxd_le. intros kv Hkv.
      destruct (mapM_ok_in _ _ _ _ _ Em kv Hkv) as [kv0 [Hx Hf]]. unfold inst_member in Hf.
      pose proof (maxd_in _ members kv0 Hx) as Hm. unfold maxd in Hm.
      destruct kv0 as [k0 x0]. cbn [snd fst] in *.
      destruct x0; cbn [bind] in Hf; try (injection Hf as <-; cbn [snd]; exact Hm).
      + destruct (existsb _ (j_resolve j)); cbn [bind] in Hf; [|injection Hf as <-; exact Hm].
        destruct (resolve sigma s); cbn [bind] in Hf; [injection Hf as <-; cbn [snd mval_depth] in *; lia|discriminate Hf].
      + destruct (rec (MModel cls fields)) as [y|e] eqn:Er; cbn [bind] in Hf; [|discriminate Hf].
        injection Hf as <-. cbn [snd]. pose proof (Hrec _ _ Er). lia.
  Qed.

  Theorem inst_depth : forall f v y, inst SC resolve sigma f v = Ok y -> mval_depth y <= mval_depth v.
  Proof.
    induction f as [|f IH]; intros v y H; [rewrite inst_O in H; discriminate H|].
    rewrite inst_S in H. destruct v as [ | | | | | | | | |c fields]; try (injection H as <-; lia).
    unfold inst_model in H.
    destruct (mapM _ fields) as [fss|e] eqn:Em; cbn [bind] in H; [|discriminate H].
    destruct (add_value sigma (jcm_of SC c) fields (List.concat fss)) as [fs'|e] eqn:Ea; cbn [bind] in H; [|discriminate H].
    injection H as <-. cbn [mval_depth]. apply le_n_S. fold (maxd fs'). fold (maxd fields).
    assert (Hc : forall kv, In kv (List.concat fss) -> mval_depth (snd kv) <= maxd fields).
    { intros kv Hkv. apply in_concat in Hkv. destruct Hkv as [fs0 [Hfs0 Hkv]].
      destruct (mapM_ok_in _ _ _ _ _ Em fs0 Hfs0) as [[fn x] [Hx Hf]]. unfold inst_field in Hf.
      destruct (mem_s fn (j_exclude (jcm_of SC c))); [injection Hf as <-; destruct Hkv|].
      destruct (inst_val resolve sigma (inst SC resolve sigma f) (jcm_of SC c) fn x) as [y|e] eqn:Ev; cbn [bind] in Hf; [|discriminate Hf].
      injection Hf as <-. destruct Hkv as [<-|[]]. cbn [snd].
      pose proof (inst_val_depth _ _ _ _ _ IH Ev). pose proof (maxd_in _ fields (fn, x) Hx) as Hm. cbn [snd] in Hm. lia. }
    unfold add_value in Ea. destruct (j_adds_value (jcm_of SC c)).
    - destruct (mfield "name" fields) as [ | | | | |n| | | | ] eqn:En; try discriminate Ea.
      destruct (st_lookup sigma _); [|discriminate Ea]. injection Ea as <-.
      apply maxd_le. intros kv Hkv. apply in_app_or in Hkv. destruct Hkv as [Hkv|[<-|[]]]; [exact (Hc kv Hkv)|].
      cbn [snd mval_depth]. unfold mfield in En.
      destruct (lookup_s "name" fields) as [x|] eqn:El; [|discriminate En]. subst x.
      pose proof (maxd_in _ fields _ (lookup_s_in _ _ _ _ El)) as Hm. cbn [snd mval_depth] in Hm. exact Hm.
    - injection Ea as <-. apply maxd_le. exact Hc.
  Qed.
End InstDepth.

Lemma strip_nulls_nn : forall f x, x <> JNull -> strip_nulls f x <> JNull.
Proof. intros f x H. destruct f; [exact H|]. destruct x; cbn [strip_nulls]; try discriminate. contradiction. Qed.

Theorem json_equiv_strip_r : forall f a b, json_equiv a b -> json_equiv a (strip_nulls f b).
Proof.
  induction f as [|f IH]; intros a b H; [exact H|].
  destruct b as [| | | | |l|ms]; cbn [strip_nulls]; try exact H.
  - inversion H as [| | | | |la l' HF|]; subst. constructor.
    clear H. induction HF as [|x y r r' Hxy _ IH2]; cbn [map]; constructor; [apply IH; exact Hxy|exact IH2].
  - inversion H as [| | | | | |msa ms' HF]; subst. constructor. intros k.
    change (flat_map (fun kv : str * json => match snd kv with
                                             | JNull => []
                                             | x => [(fst kv, strip_nulls f x)]
                                             end) ms)
      with (drop_null_members (strip_nulls f) ms).
    rewrite jfind_drop_nulls by (apply strip_nulls_nn).
    specialize (HF k). destruct HF as [|x y Hxy]; cbn [option_map]; constructor. apply IH. exact Hxy.
Qed.

Corollary json_equiv_same_r : forall a b, json_equiv a b -> json_equiv a (same b).
Proof. intros a b H. unfold same. apply json_equiv_strip_r. exact H. Qed.

(* str(Decimal(z)) = str(z) *)
Lemma print_dec_int : forall z, print_dec z 0 = print_Z z.
Proof.
  intros z. rewrite print_dec_eq. cbv zeta.
  destruct (digits_of_N_spec (Z.abs_N z)) as [Hd [Hne Hv]].
  set (ds := digits_of_N (Z.abs_N z)) in *.
  assert (Hnd : (0 < Z.of_nat (List.length ds))%Z) by (destruct ds; [contradiction|cbn [List.length]; lia]).
  assert (E1 : ((0 <=? 0) && (-6 <? 0 + Z.of_nat (List.length ds)))%Z = true) by lia.
  rewrite E1. replace (0 + Z.of_nat (List.length ds) - (0 + Z.of_nat (List.length ds)))%Z with 0%Z by lia.
  unfold exp_part. cbn [Z.eqb]. rewrite app_nil_r.
  unfold dec_body.
  assert (E2 : (0 + Z.of_nat (List.length ds) <=? 0)%Z = false) by lia. rewrite E2.
  assert (E3 : (Z.of_nat (List.length ds) <=? 0 + Z.of_nat (List.length ds))%Z = true) by lia. rewrite E3.
  replace (Z.to_nat (0 + Z.of_nat (List.length ds) - Z.of_nat (List.length ds))) with O by lia.
  cbn [zeros repeat]. rewrite app_nil_r.
  subst ds. destruct z as [|p|p]; reflexivity.
Qed.

Lemma okc_not_brace : forall c, okc c = true -> c <> lbrace /\ c <> rbrace.
Proof. intros c H. split; intros ->; discriminate H. Qed.

Lemma NoSub_absent : forall x s, ~ In x s -> NoSub [x; x] s.
Proof.
  intros x s H a b E. apply H. rewrite E. apply in_or_app. right. left. reflexivity.
Qed.

(* a string made of the characters of a printed number is no reference: it resolves to itself *)
Theorem resolve_plain : forall classify, ascii_ok classify = true ->
  forall sigma s, forallb okc s = true -> CreateJobProofs.fs_resolve classify sigma s = Ok s.
Proof.
  intros classify Hok sigma s Hs.
  assert (Hd : Decomp classify s [] s).
  { rewrite forallb_forall in Hs. constructor; apply NoSub_absent; intros Hin; apply Hs in Hin; apply okc_not_brace in Hin; tauto. }
  rewrite (fs_resolve_single_pass classify Hok s [] s sigma Hd). reflexivity.
Qed.

Definition members_eq (a b : list (str * json)) : Prop := forall k, jfind k a = jfind k b.

Lemma meq_refl : forall a, members_eq a a.
Proof. intros a k. reflexivity. Qed.

Lemma meq_cons : forall x a b, members_eq a b -> members_eq (x :: a) (x :: b).
Proof. intros [k' v] a b H k. cbn [jfind]. rewrite (H k). reflexivity. Qed.

Lemma meq_opt : forall key v a b, members_eq a b -> members_eq (opt key v ++ a) ((str_of_string key, v) :: b).
Proof.
  intros key v a b H k. unfold opt. destruct v; cbn [app jfind onn]; rewrite (H k); try reflexivity.
  destruct (str_eqb k (str_of_string key)); reflexivity.
Qed.

Lemma meq_opt_last : forall key v, members_eq (opt key v) [(str_of_string key, v)].
Proof.
  intros key v k. unfold opt. destruct v; cbn [jfind onn]; try reflexivity.
  destruct (str_eqb k (str_of_string key)); reflexivity.
Qed.

Lemma json_equiv_meq_r : forall a ms ms', members_eq ms ms' -> json_equiv a (JObj ms') -> json_equiv a (JObj ms).
Proof.
  intros a ms ms' H He. inversion He as [| | | | | |msa ms0 HF]; subst. constructor. intros k. rewrite (H k). exact (HF k).
Qed.

Lemma json_equiv_meq_l : forall a ms ms', members_eq ms ms' -> json_equiv (JObj ms') a -> json_equiv (JObj ms) a.
Proof.
  intros a ms ms' H He. inversion He as [| | | | | |ms0 msa HF]; subst. constructor. intros k. rewrite (H k). exact (HF k).
Qed.

Ltac meq_tac := repeat first [apply meq_opt_last | apply meq_opt | apply meq_cons | apply meq_refl].

Ltac in_tac := cbn [In]; first [left; reflexivity | right; in_tac].
Ltac keys_split := repeat apply Forall_cons; try apply Forall_nil.

(* aliases: every class but JobTemplate exports its fields under their own names *)
Section Alias.
  Variable SC : schema_t.
  Definition aliases_plain (c : string) : bool :=
    match lookup_cls SC c with
    | Some c0 => forallb (fun fl => String.eqb (f_alias fl) (f_name fl)) (c_fields c0)
    | None => true
    end.

  Lemma alias_plain : forall c, aliases_plain c = true -> forall n, alias_of SC c n = n.
  Proof.
    intros c H n. unfold aliases_plain in H. unfold alias_of. destruct (lookup_cls SC c) as [c0|]; [|reflexivity].
    destruct (List.find (fun fl => String.eqb (f_name fl) n) (c_fields c0)) as [fl|] eqn:Ef; [|reflexivity].
    apply find_some in Ef. destruct Ef as [Hin Hn]. rewrite forallb_forall in H. specialize (H fl Hin).
    apply String.eqb_eq in H. apply String.eqb_eq in Hn. congruence.
  Qed.
End Alias.

Lemma json_equiv_obj_pointwise : forall (ms ms' : list (str * json)),
  Forall2 (fun a b => fst a = fst b /\ json_equiv (snd a) (snd b)) ms ms' -> json_equiv (JObj ms) (JObj ms').
Proof.
  intros ms ms' HF. constructor. intros k. induction HF as [|[k1 v1] [k2 v2] r r' [Hk Hv] _ IH]; [constructor|].
  cbn [fst snd] in Hk, Hv. subst k2. cbn [jfind]. destruct (str_eqb k k1); [|exact IH].
  pose proof (onn_equiv _ _ Hv) as Ho. destruct Ho as [|a b Hab]; [exact IH|constructor; exact Hab].
Qed.
