(* ParamSpaceProofs.v — the model of the parameter-space iterator (ParamSpace.v) meets its
   specification (ParamSpaceSpec.v) for every tree: property C07.
   len / getitem: induction on the tree; the index arithmetic of a product is one fact about the
   row-major position in a cross product ([nth_cross_mod]).
   Iteration: [Rep t k st] says that [st] is an iterator over [t] that has handed out k items; for a
   product it records the digit of every child (the mixed-radix digits of k - 1) and that the dict
   [prev] agrees with each child's current item.  One call of next takes [Rep t k] to [Rep t (k + 1)]
   and writes item k ([step_all]); the carry loop adds one to the little-endian number read off the
   reversed children ([carry_spec]). *)
From Coq Require Import ZArith List Bool Lia ZifyBool Permutation.
Import ListNotations.
Require Import OJD.Base OJD.ListLib OJD.ParamSpace OJD.ParamSpaceSpec.

Lemma str_eq_dec : forall a b : str, {a = b} + {a <> b}.
Proof. exact (list_eq_dec N.eq_dec). Qed.

Definition keys (e : env) : list str := map fst e.
Definition wf (e : env) : Prop := NoDup (keys e).

Definition Upd (r e r' : env) : Prop :=
  forall n, lookup n r' = match lookup n e with Some v => Some v | None => lookup n r end.

Lemma lookup_set : forall e k v n,
  lookup n (set e k v) = if str_eqb n k then Some v else lookup n e.
Proof.
  induction e as [|[k' v'] e IH]; intros k v n; cbn.
  - reflexivity.
  - destruct (str_eqb k k') eqn:E.
    + apply str_eqb_eq in E. subst k'. cbn. destruct (str_eqb n k); reflexivity.
    + cbn. destruct (str_eqb n k') eqn:E2.
      * apply str_eqb_eq in E2. subst k'. destruct (str_eqb n k) eqn:E3; [|reflexivity].
        apply str_eqb_eq in E3. subst n. rewrite str_eqb_refl in E. discriminate.
      * apply IH.
Qed.

Lemma lookup_in_keys : forall e n, lookup n e <> None <-> In n (keys e).
Proof.
  induction e as [|[k v] e IH]; intros n; cbn.
  - split; [congruence | tauto].
  - destruct (str_eqb n k) eqn:E.
    + apply str_eqb_eq in E. subst. split; [auto | discriminate].
    + apply str_eqb_neq in E. rewrite IH. split; [auto | intros [H|H]; [congruence | exact H]].
Qed.

Lemma lookup_none_keys : forall e n, lookup n e = None <-> ~ In n (keys e).
Proof.
  intros e n. rewrite <- lookup_in_keys. destruct (lookup n e); split; intro H; try congruence; try tauto.
  exfalso. apply H. discriminate.
Qed.

Lemma keys_set : forall e k v x, In x (keys (set e k v)) <-> In x (keys e) \/ x = k.
Proof.
  intros e k v x. rewrite <- !lookup_in_keys, lookup_set.
  destruct (str_eqb x k) eqn:E.
  - apply str_eqb_eq in E. subst. split; [auto | discriminate].
  - apply str_eqb_neq in E. tauto.
Qed.

Lemma wf_set : forall e k v, wf e -> wf (set e k v).
Proof.
  unfold wf, keys. induction e as [|[k' v'] e IH]; intros k v H; cbn.
  - constructor; [tauto | constructor].
  - cbn in H. inversion H as [|? ? Hn Hd]; subst. destruct (str_eqb k k') eqn:E; cbn.
    + constructor; assumption.
    + constructor.
      * intro Hin. apply (keys_set e k v k') in Hin. destruct Hin as [Hin|Hin]; [exact (Hn Hin)|].
        subst. rewrite str_eqb_refl in E. discriminate.
      * apply IH. exact Hd.
Qed.

Lemma wf_update : forall s e, wf e -> wf (update e s).
Proof.
  unfold update. induction s as [|[k v] s IH]; intros e H; cbn; [exact H|].
  apply IH. apply wf_set. exact H.
Qed.

Lemma wf_nil : wf [].
Proof. constructor. Qed.

Lemma lookup_update : forall s e n, wf s ->
  lookup n (update e s) = match lookup n s with Some v => Some v | None => lookup n e end.
Proof.
  unfold update. induction s as [|[k v] s IH]; intros e n H; cbn; [reflexivity|].
  inversion H as [|? ? Hn Hd]; subst. rewrite IH by exact Hd. rewrite lookup_set.
  destruct (str_eqb n k) eqn:E.
  - apply str_eqb_eq in E. subst n.
    assert (Hk : lookup k s = None) by (apply lookup_none_keys; exact Hn). rewrite Hk. reflexivity.
  - reflexivity.
Qed.

Lemma Upd_update : forall r s, wf s -> Upd r s (update r s).
Proof. intros r s H n. apply lookup_update. exact H. Qed.

Lemma lookup_app : forall a b n,
  lookup n (a ++ b) = match lookup n a with Some v => Some v | None => lookup n b end.
Proof.
  induction a as [|[k v] a IH]; intros b n; cbn; [reflexivity|].
  destruct (str_eqb n k); [reflexivity | apply IH].
Qed.

Lemma keys_app : forall a b, keys (a ++ b) = keys a ++ keys b.
Proof. intros. unfold keys. apply map_app. Qed.

Lemma keys_concat : forall es, keys (concat es) = concat (map keys es).
Proof. induction es as [|e es IH]; cbn; [reflexivity|]. rewrite keys_app, IH. reflexivity. Qed.

Lemma Upd_equiv : forall r e e' r', Upd r e r' -> e ≈ e' -> Upd r e' r'.
Proof. intros r e e' r' H E n. rewrite (H n), (E n). reflexivity. Qed.

Lemma Upd_nil_equiv : forall e r', Upd [] e r' -> r' ≈ e.
Proof. intros e r' H n. rewrite (H n). cbn. destruct (lookup n e); reflexivity. Qed.

Lemma Upd_app_over : forall r a b r1 r2, Upd r b r1 -> Upd r1 a r2 -> Upd r (a ++ b) r2.
Proof.
  intros r a b r1 r2 H1 H2 n. rewrite (H2 n), (H1 n), lookup_app.
  destruct (lookup n a); reflexivity.
Qed.

Lemma Upd_app_disj : forall r a b r1 r2,
  Upd r a r1 -> Upd r1 b r2 -> (forall n, In n (keys a) -> ~ In n (keys b)) -> Upd r (a ++ b) r2.
Proof.
  intros r a b r1 r2 H1 H2 D n. rewrite (H2 n), (H1 n), lookup_app.
  destruct (lookup n a) eqn:Ea; destruct (lookup n b) eqn:Eb; try reflexivity.
  exfalso. apply (D n); apply lookup_in_keys; congruence.
Qed.

Lemma nth_flat_map_map : forall (A B C : Type) (f : A -> B -> C) (xs : list A) (ys : list B) i j da db dc,
  (i < length xs)%nat -> (j < length ys)%nat ->
  nth (i * length ys + j) (flat_map (fun a => map (f a) ys) xs) dc = f (nth i xs da) (nth j ys db).
Proof.
  intros A B C f xs ys. induction xs as [|x xs IH]; intros i j da db dc Hi Hj; cbn in Hi; [lia|].
  cbn [flat_map]. destruct i as [|i].
  - cbn [Nat.mul Nat.add nth]. rewrite app_nth1 by (rewrite map_length; exact Hj).
    rewrite (nth_indep _ dc (f x db)) by (rewrite map_length; exact Hj).
    apply map_nth.
  - rewrite app_nth2 by (rewrite map_length; lia). rewrite map_length.
    replace (S i * length ys + j - length ys)%nat with (i * length ys + j)%nat by lia.
    cbn [nth]. apply IH; lia.
Qed.

Lemma length_flat_map_map : forall (A B C : Type) (f : A -> B -> C) (xs : list A) (ys : list B),
  length (flat_map (fun a => map (f a) ys) xs) = (length xs * length ys)%nat.
Proof.
  intros. induction xs as [|x xs IH]; cbn; [reflexivity|]. rewrite app_length, map_length, IH. reflexivity.
Qed.

Lemma length_cross : forall d acc, length (cross d acc) = (length d * length acc)%nat.
Proof. intros. unfold cross. apply length_flat_map_map. Qed.

Lemma nth_cross : forall d acc i j, (i < length d)%nat -> (j < length acc)%nat ->
  nth (i * length acc + j) (cross d acc) [] = nth i d [] ++ nth j acc [].
Proof. intros. unfold cross. apply (nth_flat_map_map env env env (fun a b => a ++ b)); assumption. Qed.

(* row-major: position i mod (|d| * |acc|) of d x acc pairs element (i / |acc|) mod |d| of d with
   element i mod |acc| of acc (Z.rem_mul_r is the division identity behind it) *)
Lemma nth_cross_mod : forall d acc i, (0 < length d)%nat -> (0 < length acc)%nat ->
  nth (Z.to_nat (i mod Z.of_nat (length (cross d acc)))) (cross d acc) [] =
  nth (Z.to_nat ((i / Z.of_nat (length acc)) mod Z.of_nat (length d))) d [] ++
  nth (Z.to_nat (i mod Z.of_nat (length acc))) acc [].
Proof.
  intros d acc i Hd Hacc. rewrite length_cross, Nat2Z.inj_mul, Z.mul_comm, Z.rem_mul_r by lia.
  pose proof (Z.mod_pos_bound i (Z.of_nat (length acc)) ltac:(lia)) as Hb.
  pose proof (Z.mod_pos_bound (i / Z.of_nat (length acc)) (Z.of_nat (length d)) ltac:(lia)) as Ha.
  revert Ha Hb. generalize ((i / Z.of_nat (length acc)) mod Z.of_nat (length d))%Z as a.
  generalize (i mod Z.of_nat (length acc))%Z as b. intros b a Ha Hb.
  replace (Z.to_nat (b + Z.of_nat (length acc) * a)) with (Z.to_nat a * length acc + Z.to_nat b)%nat by lia.
  apply nth_cross; lia.
Qed.

Lemma in_cross : forall d acc e, In e (cross d acc) <-> exists a b, In a d /\ In b acc /\ e = a ++ b.
Proof.
  intros. unfold cross. rewrite in_flat_map. split.
  - intros [a [Ha Hm]]. apply in_map_iff in Hm. destruct Hm as [b [Hb Hin]]. exists a, b. auto.
  - intros [a [b [Ha [Hb He]]]]. exists a. split; [exact Ha|]. apply in_map_iff. exists b. auto.
Qed.

Lemma length_zipL : forall d ds, length (zipL (d :: ds)) = length d.
Proof. intros. unfold zipL. rewrite map_length, seq_length. reflexivity. Qed.

Lemma nth_zipL : forall ds i, (i < length (hd [] ds))%nat ->
  nth i (zipL ds) [] = concat (map (fun d => nth i d []) ds).
Proof.
  intros ds i H. unfold zipL.
  rewrite nth_indep with (d' := concat (map (fun d => nth 0 d []) ds)) by (rewrite map_length, seq_length; exact H).
  rewrite (map_nth (fun i => concat (map (fun d => nth i d []) ds))), seq_nth by exact H. reflexivity.
Qed.

Section NodeInd.
  Variable P : node -> Prop.
  Hypothesis HL : forall n ty vs, P (Leaf n ty vs).
  Hypothesis HP : forall cs, Forall P cs -> P (Prod cs).
  Hypothesis HA : forall cs, Forall P cs -> P (Assoc cs).
  Fixpoint node_ind2 (t : node) : P t :=
    match t with
    | Leaf n ty vs => HL n ty vs
    | Prod cs => HP cs ((fix go (l : list node) : Forall P l :=
                           match l with [] => Forall_nil P | c :: r => Forall_cons c (node_ind2 c) (go r) end) cs)
    | Assoc cs => HA cs ((fix go (l : list node) : Forall P l :=
                            match l with [] => Forall_nil P | c :: r => Forall_cons c (node_ind2 c) (go r) end) cs)
    end.
End NodeInd.

Definition dlen (t : node) : nat := length (denote t).

Lemma wfnode_children_prod : forall cs, wfnode (Prod cs) -> Forall wfnode cs.
Proof. intros cs H. inversion H; assumption. Qed.

Lemma wfnode_children_assoc : forall cs, wfnode (Assoc cs) -> Forall wfnode cs.
Proof. intros cs H. inversion H; assumption. Qed.

Lemma prodL_cons : forall d ds, prodL (d :: ds) = cross d (prodL ds).
Proof. reflexivity. Qed.

Lemma length_prodL_pos : forall ds, Forall (fun d => (0 < length d)%nat) ds -> (0 < length (prodL ds))%nat.
Proof.
  induction ds as [|d ds IH]; intros H; [cbn; lia|].
  inversion H as [|? ? Hd Hr]; subst. rewrite prodL_cons, length_cross. specialize (IH Hr). nia.
Qed.

Lemma dlen_pos : forall t, wfnode t -> (0 < dlen t)%nat.
Proof.
  unfold dlen. induction t as [n ty vs | cs IH | cs IH] using node_ind2; intros W.
  - inversion W; subst. cbn. rewrite map_length. destruct vs; [contradiction | cbn; lia].
  - cbn. apply length_prodL_pos. apply wfnode_children_prod in W.
    rewrite Forall_map. rewrite Forall_forall in *. intros c Hc. apply IH; auto.
  - inversion W as [| |c cs' Wc Hb]; subst. cbn [denote map]. rewrite length_zipL.
    inversion IH; subst. inversion Wc; subst. auto.
Qed.

Lemma len_loop_spec : forall cs acc,
  Forall (fun c => node_len c = Ok (Z.of_nat (dlen c))) cs ->
  len_loop node_len cs acc = Ok (acc * Z.of_nat (length (prodL (map denote cs))))%Z.
Proof.
  induction cs as [|c cs IH]; intros acc H.
  - cbn. f_equal. lia.
  - inversion H as [|? ? Hc Hr]; subst. cbn [len_loop map]. rewrite Hc. cbn [bind]. rewrite IH by exact Hr.
    f_equal. rewrite prodL_cons, length_cross. unfold dlen. lia.
Qed.

Theorem node_len_spec : forall t, wfnode t -> node_len t = Ok (Z.of_nat (dlen t)).
Proof.
  induction t as [n ty vs | cs IH | cs IH] using node_ind2; intros W.
  - cbn. unfold dlen. cbn. rewrite map_length. reflexivity.
  - cbn [node_len]. rewrite len_loop_spec.
    + f_equal. unfold dlen. cbn [denote]. lia.
    + apply wfnode_children_prod in W. rewrite Forall_forall in *. intros c Hc. apply IH; auto.
  - inversion W as [| |c cs' Wc Hb]; subst. cbn [node_len]. inversion IH; subst. inversion Wc; subst.
    rewrite H1 by assumption. f_equal. unfold dlen. cbn [denote map]. rewrite length_zipL. reflexivity.
Qed.

Theorem len_correct : forall t, valid t -> node_len t = Ok (Z.of_nat (length (denote t))).
Proof. intros t [_ W]. apply node_len_spec. exact W. Qed.

(* the _len memo holds, if anything, the value node_len computes: it never changes an answer *)
Definition cache_ok (t : node) (c : option Z) : Prop := c = None \/ node_len t = Ok (match c with Some v => v | None => 0%Z end).

Theorem cache_transparent : forall t c, cache_ok t c ->
  match cached_len c t with
  | Ok (v, c') => node_len t = Ok v /\ cache_ok t c'
  | Raise x => node_len t = Raise x
  end.
Proof.
  intros t c [->|H]; unfold cached_len.
  - destruct (node_len t) as [v|x] eqn:E; cbn; [|reflexivity]. split; [reflexivity|]. right. exact E.
  - destruct c as [v|].
    + split; [exact H | right; exact H].
    + destruct (node_len t) as [v|x] eqn:E; cbn; [|reflexivity]. split; [reflexivity|]. right. exact E.
Qed.

Definition Pieces (cs : list node) (e : env) : Prop :=
  exists es, e = concat es /\ Forall2 (fun c a => In a (denote c)) cs es.

Lemma prodL_pieces : forall cs e, In e (prodL (map denote cs)) -> Pieces cs e.
Proof.
  induction cs as [|c cs IH]; intros e Hin.
  - cbn in Hin. destruct Hin as [<-|[]]. exists []. split; [reflexivity | constructor].
  - cbn [map] in Hin. rewrite prodL_cons in Hin. apply in_cross in Hin. destruct Hin as [a [b [Ha [Hb ->]]]].
    destruct (IH b Hb) as [es [-> F]]. exists (a :: es). split; [reflexivity | constructor; assumption].
Qed.

Lemma zipL_pieces : forall c cs e, Forall (fun c' => length (denote c') = length (denote c)) cs ->
  In e (zipL (map denote (c :: cs))) -> Pieces (c :: cs) e.
Proof.
  intros c cs e Hb Hin. unfold zipL in Hin. apply in_map_iff in Hin. destruct Hin as [i [<- Hi]].
  apply in_seq in Hi. cbn [map hd] in Hi. eexists. split; [reflexivity|]. rewrite map_map.
  assert (G : Forall (fun c' => (i < length (denote c'))%nat) (c :: cs)).
  { constructor; [lia|]. eapply Forall_impl; [|exact Hb]. intros c' E. rewrite E. lia. }
  clear - G. induction G as [|c' l Hc' _ IHG]; cbn [map]; constructor; [apply nth_In; exact Hc' | exact IHG].
Qed.

Lemma keys_pieces : forall cs e,
  Forall (fun c => forall a, In a (denote c) -> keys a = names c) cs -> Pieces cs e -> keys e = flat_map names cs.
Proof.
  intros cs e H [es [-> F]]. induction F as [|c a cs es Hca F IH]; [reflexivity|].
  inversion H as [|? ? Hc Hr]; subst. cbn [concat flat_map]. rewrite keys_app, (Hc a Hca), (IH Hr). reflexivity.
Qed.

Theorem denote_keys : forall t, wfnode t -> forall e, In e (denote t) -> keys e = names t.
Proof.
  induction t as [n ty vs | cs IH | cs IH] using node_ind2; intros W e Hin.
  - cbn in Hin. apply in_map_iff in Hin. destruct Hin as [v [<- _]]. reflexivity.
  - cbn [denote names] in *. apply keys_pieces; [|apply prodL_pieces; exact Hin].
    apply wfnode_children_prod in W. rewrite Forall_forall in *. intros c Hc. apply IH; auto.
  - inversion W as [| |c cs' Wc Hb]; subst. cbn [denote names] in *.
    apply keys_pieces; [|apply zipL_pieces; assumption].
    rewrite Forall_forall in *. intros c' Hc'. apply IH; auto.
Qed.

Lemma nth_keys : forall t k, wfnode t -> (k < dlen t)%nat -> keys (nth k (denote t) []) = names t.
Proof. intros t k W H. apply denote_keys; [exact W|]. apply nth_In. exact H. Qed.

Lemma keys_row : forall cs k, Forall (fun c => wfnode c /\ (k < dlen c)%nat) cs ->
  keys (concat (map (fun c => nth k (denote c) []) cs)) = flat_map names cs.
Proof.
  intros cs k H. induction H as [|c cs [W Hk] _ IH]; [reflexivity|].
  cbn [map concat flat_map]. rewrite keys_app, IH, nth_keys by assumption. reflexivity.
Qed.

Lemma NoDup_flat_map_each : forall (A B : Type) (f : A -> list B) l, NoDup (flat_map f l) -> Forall (fun x => NoDup (f x)) l.
Proof.
  intros A B f. induction l as [|x l IH]; intros H; [constructor|].
  cbn in H. constructor; [eapply NoDup_app_l; exact H | apply IH; eapply NoDup_app_r; exact H].
Qed.

Lemma mod_norm : forall i len, (- len <= i < len)%Z -> (i mod len = if i <? 0 then len + i else i)%Z.
Proof.
  intros i len H. destruct (i <? 0)%Z eqn:E.
  - rewrite <- (Z_mod_plus_full i 1 len). rewrite Z.mod_small; lia.
  - apply Z.mod_small; lia.
Qed.

(* the bounds test of list and ProductNode __getitem__: i in [-len, len) is served at i mod len *)
Lemma index_bounds : forall (A : Type) (F : Z -> outcome A) len i,
  let j := (if i <? 0 then len + i else i)%Z in
  let r := if ((0 <=? j) && (j <? len))%Z then F j else Raise IndexError in
  ((- len <= i < len)%Z -> r = F (i mod len)%Z) /\ (~ (- len <= i < len)%Z -> r = Raise IndexError).
Proof.
  intros A F len i j r. unfold r. split; intros H.
  - rewrite (mod_norm i len H). fold j. destruct ((0 <=? j)%Z && (j <? len)%Z) eqn:T; [reflexivity|].
    unfold j in T. destruct (i <? 0)%Z eqn:E; lia.
  - destruct ((0 <=? j)%Z && (j <? len)%Z) eqn:T; [|reflexivity].
    exfalso. apply H. unfold j in T. destruct (i <? 0)%Z eqn:E; lia.
Qed.

Lemma py_index_spec : forall (A : Type) (l : list A) i d,
  let len := Z.of_nat (length l) in
  ((- len <= i < len)%Z -> py_index l i = Ok (nth (Z.to_nat (i mod len)) l d)) /\
  (~ (- len <= i < len)%Z -> py_index l i = Raise IndexError).
Proof.
  intros A l i d len. unfold py_index. fold len.
  destruct (index_bounds A (fun j => match nth_error l (Z.to_nat j) with Some v => Ok v | None => Raise IndexError end)
              len i) as [Hin Hout].
  split; intros H; [|exact (Hout H)]. rewrite (Hin H).
  pose proof (Z.mod_pos_bound i len ltac:(lia)). rewrite (nth_error_nth' l d) by lia. reflexivity.
Qed.

Definition GetOK (t : node) : Prop := forall i,
  let len := Z.of_nat (dlen t) in
  ((- len <= i < len)%Z ->
     exists e, getitem t i = Ok e /\ wf e /\ e ≈ nth (Z.to_nat (i mod len)) (denote t) []) /\
  (~ (- len <= i < len)%Z -> getitem t i = Raise IndexError).

Lemma GetOK_nonneg : forall t i, GetOK t -> (0 <= i < Z.of_nat (dlen t))%Z ->
  exists e, getitem t i = Ok e /\ wf e /\ e ≈ nth (Z.to_nat i) (denote t) [].
Proof.
  intros t i G H. destruct (G i) as [Gin _]. rewrite Z.mod_small in Gin by exact H. apply Gin. lia.
Qed.

Lemma Upd_refl_nil : forall r, Upd r [] r.
Proof. intros r n. reflexivity. Qed.

Lemma prodL_children_pos : forall cs, Forall wfnode cs -> (0 < length (prodL (map denote cs)))%nat.
Proof.
  intros cs H. apply length_prodL_pos. rewrite Forall_map. eapply Forall_impl; [|exact H]. exact dlen_pos.
Qed.

(* children[1:], right to left: the quotient index / (product of their lengths) is left for
   children[0], and [res] has received element index mod (that product) of their product *)
Lemma prod_get_tail_spec : forall cs,
  Forall (fun c => wfnode c /\ GetOK c) cs ->
  forall index res, wf res ->
  exists res', prod_get_tail getitem cs index res
                 = Ok ((index / Z.of_nat (length (prodL (map denote cs))))%Z, res') /\ wf res' /\
               Upd res (nth (Z.to_nat (index mod Z.of_nat (length (prodL (map denote cs))))) (prodL (map denote cs)) []) res'.
Proof.
  induction cs as [|c cs IH]; intros H index res Hw.
  - exists res. cbn [map prodL fold_right length prod_get_tail]. change (Z.of_nat 1) with 1%Z.
    rewrite Z.div_1_r, Z.mod_1_r. split; [reflexivity|]. split; [exact Hw | apply Upd_refl_nil].
  - inversion H as [|? ? [Wc Gc] Hr]; subst.
    destruct (IH Hr index res Hw) as [res1 [E1 [W1 U1]]].
    pose proof (dlen_pos c Wc) as Hc.
    assert (Hlp : (0 < length (prodL (map denote cs)))%nat).
    { apply prodL_children_pos. eapply Forall_impl; [|exact Hr]. intros c' [W' _]. exact W'. }
    cbn [prod_get_tail map]. rewrite E1. cbn [bind fst snd]. rewrite (node_len_spec c Wc). cbn [bind].
    destruct (Z.eqb_spec (Z.of_nat (dlen c)) 0) as [Ez|_]; [lia|].
    destruct (GetOK_nonneg c ((index / Z.of_nat (length (prodL (map denote cs)))) mod Z.of_nat (dlen c)) Gc)
      as [e [Ee [We Eq]]]; [apply Z.mod_pos_bound; lia|].
    rewrite Ee. cbn [bind]. exists (update res1 e). rewrite prodL_cons. split; [|split].
    + rewrite length_cross, Nat2Z.inj_mul, Z.div_div, (Z.mul_comm (Z.of_nat (dlen c))) by lia. reflexivity.
    + apply wf_update. exact W1.
    + rewrite nth_cross_mod by assumption.
      eapply Upd_app_over; [exact U1|]. eapply Upd_equiv; [apply Upd_update; exact We | exact Eq].
Qed.

(* ProductNode.__getitem__ past the bounds test *)
Lemma prod_get_spec : forall cs, cs <> [] ->
  Forall (fun c => wfnode c /\ GetOK c) cs ->
  forall j, (0 <= j < Z.of_nat (length (prodL (map denote cs))))%Z ->
  exists e, prod_get getitem cs j = Ok e /\ wf e /\ e ≈ nth (Z.to_nat j) (prodL (map denote cs)) [].
Proof.
  intros [|c rest] Hne H j Hj; [congruence|]. inversion H as [|? ? [Wc Gc] Hr]; subst.
  destruct (prod_get_tail_spec rest Hr j [] wf_nil) as [res1 [E1 [W1 U1]]].
  pose proof (dlen_pos c Wc) as Hc.
  assert (Hlp : (0 < length (prodL (map denote rest)))%nat).
  { apply prodL_children_pos. eapply Forall_impl; [|exact Hr]. intros c' [W' _]. exact W'. }
  cbn [map] in Hj |- *. rewrite prodL_cons in Hj |- *.
  assert (Hq : (0 <= j / Z.of_nat (length (prodL (map denote rest))) < Z.of_nat (dlen c))%Z).
  { rewrite length_cross, Nat2Z.inj_mul in Hj. unfold dlen.
    split; [apply Z.div_pos; lia | apply Z.div_lt_upper_bound; lia]. }
  destruct (GetOK_nonneg c _ Gc Hq) as [e [Ee [We Eq]]].
  cbn [prod_get]. rewrite E1. cbn [bind fst snd]. rewrite Ee. cbn [bind].
  exists (update res1 e). split; [reflexivity|]. split; [apply wf_update; exact W1|].
  rewrite <- (Z.mod_small j _ Hj), nth_cross_mod by assumption. fold (dlen c). rewrite (Z.mod_small _ _ Hq).
  apply Upd_nil_equiv. eapply Upd_app_over; [exact U1|]. eapply Upd_equiv; [apply Upd_update; exact We | exact Eq].
Qed.

Lemma assoc_get_spec : forall cs i m,
  Forall (fun c => wfnode c /\ GetOK c /\ dlen c = m) cs ->
  NoDup (flat_map names cs) -> (- Z.of_nat m <= i < Z.of_nat m)%Z ->
  forall res, wf res ->
  exists res', assoc_get getitem cs i res = Ok res' /\ wf res' /\
               Upd res (concat (map (fun c => nth (Z.to_nat (i mod Z.of_nat m)) (denote c) []) cs)) res'.
Proof.
  intros cs i m H ND Hi. pose proof (Z.mod_pos_bound i (Z.of_nat m) ltac:(lia)) as Hk.
  induction cs as [|c cs IH]; intros res Hw.
  - exists res. cbn. split; [reflexivity|]. split; [exact Hw | apply Upd_refl_nil].
  - inversion H as [|? ? [Wc [Gc Em]] Hr]; subst. cbn [flat_map] in ND.
    destruct (Gc i) as [Gin _]. destruct (Gin Hi) as [e [Ee [We Eq]]].
    destruct (IH Hr (NoDup_app_r _ _ _ ND) (update res e) (wf_update _ _ Hw)) as [res' [E' [W' U']]].
    exists res'. cbn [assoc_get map concat]. rewrite Ee. cbn [bind]. split; [exact E'|]. split; [exact W'|].
    eapply Upd_app_disj.
    + eapply Upd_equiv; [apply Upd_update; exact We | exact Eq].
    + exact U'.
    + intros n Hn. rewrite nth_keys in Hn by (assumption || lia). rewrite keys_row.
      * eapply NoDup_app_disj; eassumption.
      * eapply Forall_impl; [|exact Hr]. intros c' [Wc' [_ Em']]. split; [exact Wc' | lia].
Qed.

Lemma nth_denote_leaf : forall n ty vs k, (k < length vs)%nat ->
  nth k (denote (Leaf n ty vs)) [] = [(n, (ty, nth k vs []))].
Proof.
  intros n ty vs k H. cbn [denote]. rewrite nth_indep with (d' := [(n, (ty, [] : value))]) by (rewrite map_length; exact H).
  apply (map_nth (fun v => [(n, (ty, v))])).
Qed.

Theorem getitem_spec : forall t, wfnode t -> NoDup (names t) -> GetOK t.
Proof.
  induction t as [n ty vs | cs IH | cs IH] using node_ind2; intros W ND i len.
  - (* leaf *)
    unfold len, dlen. cbn [denote]. rewrite map_length.
    destruct (py_index_spec value vs i []) as [Hin Hout]. cbn [getitem]. split; intros H.
    + rewrite (Hin H). cbn [bind]. eexists. split; [reflexivity|]. split; [constructor; [tauto | constructor]|].
      pose proof (Z.mod_pos_bound i (Z.of_nat (length vs)) ltac:(lia)).
      change (map (fun v : value => [(n, (ty, v))]) vs) with (denote (Leaf n ty vs)).
      rewrite nth_denote_leaf by lia. intro x. reflexivity.
    + rewrite (Hout H). reflexivity.
  - (* product *)
    pose proof (wfnode_children_prod cs W) as Wcs.
    assert (Hch : Forall (fun c => wfnode c /\ GetOK c) cs).
    { cbn [names] in ND. apply NoDup_flat_map_each in ND. rewrite Forall_forall in *. intros c Hc.
      split; [auto | apply IH; auto]. }
    assert (Hne : cs <> []) by (inversion W; assumption).
    cbn [getitem]. rewrite (node_len_spec (Prod cs) W). cbn [bind]. fold len.
    destruct (index_bounds env (prod_get getitem cs) len i) as [Hin Hout].
    split; intros H; [|exact (Hout H)]. rewrite (Hin H).
    apply (prod_get_spec cs Hne Hch). apply (Z.mod_pos_bound i len). lia.
  - (* association *)
    inversion W as [| |c cs' Wc Hb]; subst.
    assert (Hlen : len = Z.of_nat (dlen c)).
    { unfold len, dlen. cbn [denote map]. rewrite length_zipL. reflexivity. }
    cbn [names] in ND. pose proof (NoDup_flat_map_each _ _ _ _ ND) as NDe.
    split; intros H.
    + assert (Hch : Forall (fun c' => wfnode c' /\ GetOK c' /\ dlen c' = dlen c) (c :: cs')).
      { rewrite Forall_forall in *. intros c' Hc'. split; [apply Wc; exact Hc'|]. split; [apply IH; auto|].
        destruct Hc' as [<-|Hc']; [reflexivity | apply Hb; exact Hc']. }
      rewrite Hlen in H |- *.
      destruct (assoc_get_spec (c :: cs') i (dlen c) Hch ND H [] wf_nil) as [res' [E' [W' U']]].
      exists res'. cbn [getitem]. split; [exact E'|]. split; [exact W'|].
      apply Upd_nil_equiv. cbn [denote]. rewrite nth_zipL, map_map; [exact U'|].
      pose proof (Z.mod_pos_bound i (Z.of_nat (dlen c)) ltac:(lia)). cbn [map hd]. unfold dlen in *. lia.
    + cbn [getitem assoc_get]. inversion IH as [|? ? IHc _]; subst. inversion Wc as [|? ? Wc0 _]; subst.
      inversion NDe as [|? ? NDc _]; subst.
      destruct (IHc Wc0 NDc i) as [_ Gout]. rewrite <- Hlen in Gout. rewrite (Gout H). reflexivity.
Qed.

Theorem getitem_correct : forall t i, valid t ->
  let len := Z.of_nat (length (denote t)) in
  ((- len <= i < len)%Z ->
     exists e, getitem t i = Ok e /\ e ≈ nth (Z.to_nat (i mod len)) (denote t) []) /\
  (~ (- len <= i < len)%Z -> getitem t i = Raise IndexError).
Proof.
  intros t i [ND W] len. destruct (getitem_spec t W ND i) as [Hin Hout]. split.
  - intros H. destruct (Hin H) as [e [E [_ Q]]]. exists e. split; assumption.
  - exact Hout.
Qed.

Definition keys_sub (e : env) (ns : list str) : Prop := forall n, lookup n e <> None -> In n ns.

(* a state of an iterator over [t], whatever its progress *)
Inductive Shape : node -> istate -> Prop :=
| ShLeaf n ty vs rest : Shape (Leaf n ty vs) (ILeaf n ty rest vs)
| ShProd cs ex first prev ss :
    wf prev -> keys_sub prev (flat_map names cs) -> Forall2 Shape cs ss ->
    Shape (Prod cs) (IProd ex first prev ss)
| ShAssoc cs ss : Forall2 Shape cs ss -> Shape (Assoc cs) (IAssoc ss).

(* children of a product with their digit and state *)
Definition triple := (node * nat * istate)%type.
Definition tc (x : triple) : node := fst (fst x).
Definition td (x : triple) : nat := snd (fst x).
Definition ts (x : triple) : istate := snd x.

Fixpoint PL (tr : list triple) : nat :=
  match tr with [] => 1 | x :: r => dlen (tc x) * PL r end.
(* big-endian value of the digits (first child most significant) *)
Fixpoint indexB (tr : list triple) : nat :=
  match tr with [] => 0 | x :: r => td x * PL r + indexB r end.
(* little-endian value (head least significant): the order the carry loop walks *)
Fixpoint indexR (tr : list triple) : nat :=
  match tr with [] => 0 | x :: r => td x + dlen (tc x) * indexR r end.

Definition tupleB (tr : list triple) : env :=
  concat (map (fun x => nth (td x) (denote (tc x)) []) tr).

Definition Agree (prev : env) (c : node) (d : nat) : Prop :=
  forall n, In n (names c) -> lookup n prev = lookup n (nth d (denote c) []).

(* the children of a product in progress: digits in range, [prev] holding the current item of each *)
Definition Wfs (tr : list triple) : Prop := Forall (fun x => wfnode (tc x)) tr.
Definition Digits (tr : list triple) : Prop := Forall (fun x => (td x < dlen (tc x))%nat) tr.
Definition Agrees (prev : env) (tr : list triple) : Prop := Forall (fun x => Agree prev (tc x) (td x)) tr.

(* [Rep t k st]: st is the state of an iterator over t that has produced k items *)
Inductive Rep : node -> nat -> istate -> Prop :=
| RepLeaf n ty vs k : (k <= length vs)%nat -> Rep (Leaf n ty vs) k (ILeaf n ty (skipn k vs) vs)
| RepAssoc cs k ss : Forall2 (fun c s => Rep c k s) cs ss -> Rep (Assoc cs) k (IAssoc ss)
| RepProd0 cs prev ss :
    wf prev -> keys_sub prev (flat_map names cs) ->
    Forall2 (fun c s => Rep c 0 s) cs ss ->
    Rep (Prod cs) 0 (IProd false true prev ss)
| RepProdS tr prev :
    wf prev -> keys_sub prev (flat_map names (map tc tr)) ->
    Digits tr -> Agrees prev tr -> Forall (fun x => Rep (tc x) (S (td x)) (ts x)) tr ->
    Rep (Prod (map tc tr)) (S (indexB tr)) (IProd false false prev (map ts tr)).

Definition Reps (tr : list triple) : Prop := Forall (fun x => Rep (tc x) (S (td x)) (ts x)) tr.

(* a state in which next() raises StopIteration, and keeps doing so *)
Inductive Dead : node -> istate -> Prop :=
| DeadLeaf n ty vs : Dead (Leaf n ty vs) (ILeaf n ty [] vs)
| DeadProd cs first prev ss :
    wf prev -> keys_sub prev (flat_map names cs) -> Forall2 Shape cs ss ->
    Dead (Prod cs) (IProd true first prev ss)
| DeadAssoc c cs s ss : Dead c s -> Forall2 Shape cs ss -> Dead (Assoc (c :: cs)) (IAssoc (s :: ss)).

Lemma PL_app : forall a b, PL (a ++ b) = (PL a * PL b)%nat.
Proof. induction a as [|x a IH]; intros b; cbn [PL app]; [lia|]. rewrite IH. lia. Qed.

Lemma PL_rev : forall tr, PL (rev tr) = PL tr.
Proof. induction tr as [|x r IH]; [reflexivity|]. cbn [rev]. rewrite PL_app, IH. cbn [PL]. lia. Qed.

Lemma indexR_snoc : forall a x, indexR (a ++ [x]) = (indexR a + PL a * td x)%nat.
Proof.
  induction a as [|y a IH]; intros x; cbn [app indexR PL]; [lia|]. rewrite IH. lia.
Qed.

Lemma indexR_rev : forall tr, indexR (rev tr) = indexB tr.
Proof.
  induction tr as [|x r IH]; [reflexivity|]. cbn [rev indexB]. rewrite indexR_snoc, IH, PL_rev. lia.
Qed.

Lemma PL_length : forall tr, PL tr = length (prodL (map denote (map tc tr))).
Proof.
  induction tr as [|x r IH]; [reflexivity|]. cbn [PL map]. rewrite prodL_cons, length_cross, IH. reflexivity.
Qed.

Lemma indexR_lt : forall tr, Forall (fun x => (td x < dlen (tc x))%nat) tr -> (indexR tr < PL tr)%nat.
Proof.
  induction tr as [|x r IH]; intros H; cbn [PL indexR]; [lia|]. inversion H as [|? ? Hx Hr]; subst.
  specialize (IH Hr). nia.
Qed.

Lemma PL_pos : forall tr, Forall (fun x => (td x < dlen (tc x))%nat) tr -> (0 < PL tr)%nat.
Proof. intros tr H. pose proof (indexR_lt tr H). lia. Qed.

Lemma indexB_lt : forall tr, Digits tr -> (indexB tr < PL tr)%nat.
Proof. intros tr H. rewrite <- indexR_rev, <- PL_rev. apply indexR_lt. apply Forall_rev. exact H. Qed.

Lemma nth_prodL : forall tr, Digits tr ->
  nth (indexB tr) (prodL (map denote (map tc tr))) [] = tupleB tr.
Proof.
  induction tr as [|x r IH]; intros H; [reflexivity|]. inversion H as [|? ? Hx Hr]; subst.
  cbn [indexB map]. rewrite prodL_cons, PL_length, nth_cross.
  - rewrite (IH Hr). reflexivity.
  - exact Hx.
  - rewrite <- PL_length. apply indexB_lt. exact Hr.
Qed.

Lemma in_names_tr : forall (L : list triple) x n, In x L -> In n (names (tc x)) -> In n (flat_map names (map tc L)).
Proof. intros L x n Hx Hn. apply in_flat_map. exists (tc x). split; [apply in_map; exact Hx | exact Hn]. Qed.

Lemma keys_tupleB : forall tr, Wfs tr -> Digits tr -> keys (tupleB tr) = flat_map names (map tc tr).
Proof.
  induction tr as [|x r IH]; intros HW HD; [reflexivity|]. inversion HW; inversion HD; subst.
  unfold tupleB in *. cbn [map concat flat_map]. rewrite keys_app, IH, nth_keys by assumption. reflexivity.
Qed.

Lemma lookup_tupleB : forall tr,
  NoDup (flat_map names (map tc tr)) -> Wfs tr -> Digits tr ->
  forall x n, In x tr -> In n (names (tc x)) ->
  lookup n (tupleB tr) = lookup n (nth (td x) (denote (tc x)) []).
Proof.
  induction tr as [|x0 r IH]; intros ND HW HD x n Hx Hn; [contradiction|].
  inversion HW as [|? ? W0 Wr]; inversion HD as [|? ? D0 Dr]; subst. cbn [map flat_map] in ND.
  unfold tupleB. cbn [map concat]. rewrite lookup_app. destruct Hx as [->|Hx].
  - destruct (lookup n (nth (td x) (denote (tc x)) [])) eqn:E; [reflexivity|].
    exfalso. apply lookup_none_keys in E. apply E. rewrite nth_keys by assumption. exact Hn.
  - assert (E : lookup n (nth (td x0) (denote (tc x0)) []) = None).
    { apply lookup_none_keys. rewrite nth_keys by assumption. intro Hin.
      eapply NoDup_app_disj; [exact ND | exact Hin|]. eapply in_names_tr; eassumption. }
    rewrite E. apply (IH (NoDup_app_r _ _ _ ND) Wr Dr x n Hx Hn).
Qed.

Lemma agree_tuple : forall tr prev,
  NoDup (flat_map names (map tc tr)) -> Wfs tr -> Digits tr -> Agrees prev tr ->
  keys_sub prev (flat_map names (map tc tr)) ->
  prev ≈ tupleB tr.
Proof.
  intros tr prev ND HW HD HA KS n.
  destruct (in_dec str_eq_dec n (flat_map names (map tc tr))) as [Hin|Hnot].
  - apply in_flat_map in Hin. destruct Hin as [c [Hc Hn]]. apply in_map_iff in Hc. destruct Hc as [x [<- Hx]].
    rewrite (lookup_tupleB tr ND HW HD x n Hx Hn). apply (proj1 (Forall_forall _ _) HA x Hx n Hn).
  - assert (E1 : lookup n prev = None).
    { destruct (lookup n prev) eqn:E; [|reflexivity]. exfalso. apply Hnot. apply KS. congruence. }
    assert (E2 : lookup n (tupleB tr) = None).
    { apply lookup_none_keys. rewrite keys_tupleB by assumption. exact Hnot. }
    congruence.
Qed.

Lemma Upd_agree : forall e c k r r', wfnode c -> (k < dlen c)%nat ->
  (forall n, In n (names c) -> lookup n e = lookup n (nth k (denote c) [])) ->
  Upd r e r' -> Agree r' c k.
Proof.
  intros e c k r r' W Hk He U n Hn. rewrite (U n), (He n Hn).
  destruct (lookup n (nth k (denote c) [])) eqn:E; [reflexivity|].
  exfalso. apply lookup_none_keys in E. apply E. rewrite nth_keys by assumption. exact Hn.
Qed.

Lemma Upd_frame : forall c k r r' n, wfnode c -> (k < dlen c)%nat ->
  Upd r (nth k (denote c) []) r' -> ~ In n (names c) -> lookup n r' = lookup n r.
Proof.
  intros c k r r' n W Hk U Hn. rewrite (U n).
  assert (E : lookup n (nth k (denote c) []) = None).
  { apply lookup_none_keys. rewrite nth_keys by assumption. exact Hn. }
  rewrite E. reflexivity.
Qed.

Lemma Forall2_from_Forall : forall (A B : Type) (R S : A -> B -> Prop) l l',
  Forall (fun a => forall b, R a b -> S a b) l -> Forall2 R l l' -> Forall2 S l l'.
Proof.
  intros A B R S l l' H F. induction F as [|a b l l' Hab F IH]; [constructor|].
  inversion H as [|? ? Ha Hl]; subst. constructor; [apply Ha; exact Hab | apply IH; exact Hl].
Qed.

Lemma Forall2_map_r : forall (A B C : Type) (R : A -> C -> Prop) (g : B -> C) l l',
  Forall2 (fun a b => R a (g b)) l l' -> Forall2 R l (map g l').
Proof. intros A B C R g l l' F. induction F; cbn; constructor; assumption. Qed.

Lemma Forall2_rev : forall (A B : Type) (R : A -> B -> Prop) l l',
  Forall2 R l l' -> Forall2 R (rev l) (rev l').
Proof.
  intros A B R l l' F. induction F as [|a b l l' Hab F IH]; [constructor|].
  cbn [rev]. apply Forall2_app; [exact IH | constructor; [exact Hab | constructor]].
Qed.

Lemma Forall2_triples : forall (R : node -> istate -> Prop) (tr : list triple),
  Forall (fun x => R (tc x) (ts x)) tr -> Forall2 R (map tc tr) (map ts tr).
Proof. intros R tr H. induction H; cbn [map]; constructor; assumption. Qed.

Lemma triples_of_Forall2 : forall (R : node -> istate -> Prop) d cs ss,
  Forall2 R cs ss ->
  exists tr : list triple, map tc tr = cs /\ map ts tr = ss /\
                           Forall (fun x => td x = d /\ R (tc x) (ts x)) tr.
Proof.
  intros R d cs ss F. induction F as [|c s cs ss Hcs F [tr [E1 [E2 Ht]]]].
  - exists []. repeat split; constructor.
  - exists ((c, d, s) :: tr). cbn [map tc td ts fst snd]. rewrite E1, E2.
    repeat split. constructor; [split; [reflexivity | exact Hcs] | exact Ht].
Qed.

Lemma Rep_Shape : forall t k st, Rep t k st -> Shape t st.
Proof.
  induction t as [n ty vs | cs IH | cs IH] using node_ind2; intros k st HR.
  - inversion HR; subst. constructor.
  - inversion HR as [| |cs' prev ss Hw Hk F|tr prev Hw Hk Hd Ha F]; subst.
    + constructor; [exact Hw | exact Hk|].
      eapply Forall2_from_Forall; [|exact F]. rewrite Forall_forall in *. intros c Hc s Hs. eapply IH; eauto.
    + constructor; [exact Hw | exact Hk|].
      apply Forall2_triples. rewrite Forall_forall in *. intros x Hx.
      eapply IH; [apply in_map; exact Hx | apply (F x Hx)].
  - inversion HR as [|cs' k' ss F| |]; subst. constructor.
    eapply Forall2_from_Forall; [|exact F]. rewrite Forall_forall in *. intros c Hc s Hs. eapply IH; eauto.
Qed.

Lemma Dead_Shape : forall t st, Dead t st -> Shape t st.
Proof.
  intros t st H. induction H as [n ty vs | cs first prev ss Hw Hk F | c cs s ss Hd IH F].
  - constructor.
  - constructor; assumption.
  - constructor. constructor; assumption.
Qed.

Lemma reset_Rep : forall t st, Shape t st -> Rep t 0 (reset st).
Proof.
  induction t as [n ty vs | cs IH | cs IH] using node_ind2; intros st HS.
  - inversion HS; subst. cbn [reset]. apply (RepLeaf n ty vs 0). lia.
  - inversion HS as [|cs' ex first prev ss Hw Hk F|]; subst. cbn [reset].
    apply RepProd0; [exact Hw | exact Hk|]. apply Forall2_map_r.
    eapply Forall2_from_Forall; [|exact F]. rewrite Forall_forall in *. intros c Hc s Hs. apply IH; assumption.
  - inversion HS as [| |cs' ss F]; subst. cbn [reset]. apply RepAssoc. apply Forall2_map_r.
    eapply Forall2_from_Forall; [|exact F]. rewrite Forall_forall in *. intros c Hc s Hs. apply IH; assumption.
Qed.

Lemma Forall2_map_init : forall (R : node -> istate -> Prop) cs,
  Forall (fun c => R c (init c)) cs -> Forall2 R cs (map init cs).
Proof. intros R cs H. induction H; cbn [map]; constructor; assumption. Qed.

Lemma init_Rep : forall t, Rep t 0 (init t).
Proof.
  induction t as [n ty vs | cs IH | cs IH] using node_ind2.
  - cbn [init]. apply (RepLeaf n ty vs 0). lia.
  - cbn [init]. apply RepProd0; [apply wf_nil | intros n H; cbn in H; congruence | apply Forall2_map_init; exact IH].
  - cbn [init]. apply RepAssoc. apply Forall2_map_init. exact IH.
Qed.

Lemma height_pos : forall t, (1 <= height t)%nat.
Proof. destruct t; cbn; lia. Qed.

Lemma height_children : forall cs f,
  (S (fold_right (fun c m => Nat.max (height c) m) 0%nat cs) <= S f)%nat -> Forall (fun c => (height c <= f)%nat) cs.
Proof.
  induction cs as [|c cs IH]; intros f H; [constructor|]. cbn [fold_right] in H.
  constructor; [lia | apply IH; lia].
Qed.

Lemma skipn_cons_nth : forall (A : Type) (l : list A) k d, (k < length l)%nat ->
  skipn k l = nth k l d :: skipn (S k) l.
Proof.
  intros A. induction l as [|x l IH]; intros k d H; cbn in H; [lia|].
  destruct k as [|k]; [reflexivity|]. cbn [skipn nth]. rewrite (IH k d) by lia. reflexivity.
Qed.

Definition OKc (f : nat) (t : node) : Prop := (height t <= f)%nat /\ wfnode t /\ NoDup (names t).

Lemma OKc_children : forall f cs,
  (S (fold_right (fun c m => Nat.max (height c) m) 0%nat cs) <= S f)%nat ->
  Forall wfnode cs -> NoDup (flat_map names cs) -> Forall (OKc f) cs.
Proof.
  intros f cs Hh W ND. apply height_children in Hh. apply NoDup_flat_map_each in ND.
  rewrite Forall_forall in *. intros c Hc. repeat split; auto.
Qed.

(* one call of next on an iterator over [t] that has produced k items: the k-th element of the
   denotation is written over [r], or, past the last one, StopIteration leaves [r] alone *)
Definition StepAt (f : nat) (t : node) : Prop := forall k st r, Rep t k st ->
  ((k < dlen t)%nat -> exists st' r', next false f st r = (st', r', None) /\ Rep t (S k) st' /\
                                      Upd r (nth k (denote t) []) r' /\ (wf r -> wf r')) /\
  (k = dlen t -> exists st', next false f st r = (st', r, Some StopIteration) /\ Dead t st').

Definition StepOK (f : nat) : Prop := forall t, OKc f t -> StepAt f t.

Lemma all_next_step : forall f, StepOK f -> forall k cs ss r,
  Forall (fun c => OKc f c /\ (k < dlen c)%nat) cs ->
  NoDup (flat_map names cs) ->
  Forall2 (fun c s => Rep c k s) cs ss ->
  exists ss' r', all_next (next false f) ss r = (ss', r', None) /\
                 Forall2 (fun c s => Rep c (S k) s) cs ss' /\
                 Upd r (concat (map (fun c => nth k (denote c) []) cs)) r' /\ (wf r -> wf r').
Proof.
  intros f HS k cs ss r H ND F. revert r H ND.
  induction F as [|c s cs ss Hcs F IH]; intros r H ND.
  - exists [], r. cbn. split; [reflexivity|]. split; [constructor|]. split; [apply Upd_refl_nil | auto].
  - inversion H as [|? ? [Hok Hk] Hr]; subst. cbn [flat_map] in ND.
    destruct (HS c Hok k s r Hcs) as [Hstep _]. destruct (Hstep Hk) as [s' [r1 [E1 [R1 [U1 W1]]]]].
    destruct (IH r1 Hr (NoDup_app_r _ _ _ ND)) as [ss' [r2 [E2 [R2 [U2 W2]]]]].
    exists (s' :: ss'), r2. cbn [all_next]. rewrite E1, E2. split; [reflexivity|].
    split; [constructor; assumption|]. split; [|auto].
    cbn [map concat]. destruct Hok as [_ [Wc _]]. eapply Upd_app_disj; [exact U1 | exact U2|].
    intros n Hn. rewrite nth_keys in Hn by assumption. rewrite keys_row.
    + eapply NoDup_app_disj; eassumption.
    + eapply Forall_impl; [|exact Hr]. intros c' [[_ [W' _]] Hk']. split; assumption.
Qed.

Lemma Upd_frame_out : forall c ns k r r', wfnode c -> (k < dlen c)%nat -> Upd r (nth k (denote c) []) r' ->
  forall n, ~ In n (names c ++ ns) -> lookup n r' = lookup n r.
Proof.
  intros c ns k r r' W Hk U n Hn. apply (Upd_frame c k r r' n W Hk U).
  intro Hx. apply Hn, in_or_app. left. exact Hx.
Qed.

Lemma Upd_frame_rest : forall c ns k r r', NoDup (names c ++ ns) -> wfnode c -> (k < dlen c)%nat ->
  Upd r (nth k (denote c) []) r' -> forall n, In n ns -> lookup n r' = lookup n r.
Proof.
  intros c ns k r r' ND W Hk U n Hn. apply (Upd_frame c k r r' n W Hk U).
  intro Hx. exact (NoDup_app_disj _ _ _ _ ND Hx Hn).
Qed.

Lemma Agrees_frame : forall prev p1 tr,
  (forall n, In n (flat_map names (map tc tr)) -> lookup n p1 = lookup n prev) -> Agrees prev tr -> Agrees p1 tr.
Proof.
  intros prev p1 tr Hf H. unfold Agrees in *. rewrite Forall_forall in *. intros x Hx n Hn.
  rewrite (Hf n (in_names_tr tr x n Hx Hn)). apply (H x Hx n Hn).
Qed.

(* the carry loop over the reversed children [L] (head = right-most): the little-endian value of the
   digits goes up by one, or every digit was at its maximum and the product is exhausted; names
   outside [L] are not touched *)
Lemma carry_spec : forall f, StepOK f -> forall L prev,
  L <> [] -> Forall (fun x => OKc f (tc x)) L -> NoDup (flat_map names (map tc L)) ->
  Digits L -> Agrees prev L -> Reps L ->
  exists ss' prev' sg ex, carry (next false f) (map ts L) prev = (ss', prev', sg, ex) /\
    (forall n, ~ In n (flat_map names (map tc L)) -> lookup n prev' = lookup n prev) /\
    (wf prev -> wf prev') /\
    ((sg = None /\ exists L', map tc L' = map tc L /\ ss' = map ts L' /\
                              Digits L' /\ Agrees prev' L' /\ Reps L' /\ indexR L' = S (indexR L))
     \/ (sg = Some StopIteration /\ ex = true /\ S (indexR L) = PL L /\ Forall2 Shape (map tc L) ss')).
Proof.
  intros f HS. induction L as [|x rest IH]; intros prev Hne HO ND HD HA HR; [congruence|].
  inversion HO as [|? ? Hok Horest]; inversion HD as [|? ? Hd Hdrest]; inversion HA as [|? ? Ha Harest];
    inversion HR as [|? ? Hr Hrrest]; subst.
  pose proof Hok as [_ [Wc _]]. pose proof (dlen_pos _ Wc) as H0.
  cbn [map flat_map] in ND |- *. cbn [carry].
  destruct (HS (tc x) Hok (S (td x)) (ts x) prev Hr) as [Hstep Hstop].
  destruct (Nat.eq_dec (S (td x)) (dlen (tc x))) as [Heq|Hneq].
  - (* this child is exhausted *)
    destruct (Hstop Heq) as [s1 [E1 D1]]. rewrite E1. cbn [is_stop exn_eqb].
    destruct rest as [|y rest'].
    + (* pos = 0 *)
      cbn [map]. exists [s1], prev, (Some StopIteration), true. split; [reflexivity|].
      split; [reflexivity|]. split; [auto|]. right.
      split; [reflexivity|]. split; [reflexivity|]. split.
      * cbn [indexR PL]. lia.
      * constructor; [apply Dead_Shape; exact D1 | constructor].
    + (* pos > 0: reset, advance, carry on *)
      cbn [map]. pose proof (reset_Rep _ _ (Dead_Shape _ _ D1)) as R0.
      destruct (HS (tc x) Hok 0%nat (reset s1) prev R0) as [Hstep0 _].
      destruct (Hstep0 H0) as [s2 [p2 [E2 [R2 [U2 W2]]]]]. rewrite E2.
      destruct (IH p2 ltac:(discriminate) Horest (NoDup_app_r _ _ _ ND) Hdrest
                  (Agrees_frame _ _ _ (Upd_frame_rest _ _ _ _ _ ND Wc H0 U2) Harest) Hrrest)
        as [ss' [p3 [sg [ex [E3 [F3 [W3 C3]]]]]]].
      cbn [map] in E3. rewrite E3.
      exists (s2 :: ss'), p3, sg, ex. split; [reflexivity|]. split; [|split; [auto|]].
      * intros n Hn. rewrite F3; [exact (Upd_frame_out _ _ _ _ _ Wc H0 U2 n Hn)|].
        intro Hn'. apply Hn. apply in_or_app. right. exact Hn'.
      * destruct C3 as [[-> [L' [Etc [-> [HD3 [HA3 [HR3 Hidx]]]]]]] | [-> [-> [Hidx HSh]]]].
        -- (* the remaining children advanced *)
           left. split; [reflexivity|]. exists ((tc x, 0%nat, s2) :: L').
           cbn [map tc td ts fst snd]. split; [rewrite Etc; reflexivity|]. split; [reflexivity|].
           split; [constructor; assumption|]. split; [|split; [constructor; assumption|]].
           ++ constructor; [|exact HA3]. intros n Hn. cbn [tc td fst snd].
              rewrite F3; [exact (Upd_agree _ _ _ _ _ Wc H0 (fun _ _ => eq_refl) U2 n Hn)|].
              eapply NoDup_app_disj; eassumption.
           ++ cbn [indexR tc td fst snd]. rewrite Hidx. cbn [indexR]. lia.
        -- (* they are exhausted as well: so is the whole product *)
           right. split; [reflexivity|]. split; [reflexivity|]. split.
           ++ cbn [indexR PL] in *. rewrite <- Hidx, <- Heq. lia.
           ++ constructor; [apply (Rep_Shape _ _ _ R2) | exact HSh].
  - (* this child advances *)
    assert (Hlt : (S (td x) < dlen (tc x))%nat) by lia.
    destruct (Hstep Hlt) as [s1 [p1 [E1 [R1 [U1 W1]]]]]. rewrite E1.
    exists (s1 :: map ts rest), p1, None, false. split; [reflexivity|].
    split; [exact (Upd_frame_out _ _ _ _ _ Wc Hlt U1)|]. split; [exact W1|].
    left. split; [reflexivity|]. exists ((tc x, S (td x), s1) :: rest).
    cbn [map tc td ts fst snd]. split; [reflexivity|]. split; [reflexivity|].
    split; [constructor; assumption|]. split; [|split; [constructor; assumption|]].
    + constructor; [exact (Upd_agree _ _ _ _ _ Wc Hlt (fun _ _ => eq_refl) U1)|].
      exact (Agrees_frame _ _ _ (Upd_frame_rest _ _ _ _ _ ND Wc Hlt U1) Harest).
    + cbn [indexR tc td fst snd]. lia.
Qed.

Lemma NoDup_names_rev : forall (L : list triple),
  NoDup (flat_map names (map tc L)) -> NoDup (flat_map names (map tc (rev L))).
Proof.
  intros L H. eapply Permutation_NoDup; [|exact H].
  apply Permutation_flat_map. apply Permutation_map. apply Permutation_rev.
Qed.

Lemma in_names_rev : forall (L : list triple) n,
  In n (flat_map names (map tc (rev L))) -> In n (flat_map names (map tc L)).
Proof.
  intros L n H. apply in_flat_map in H. destruct H as [c [Hc Hn]]. apply in_map_iff in Hc.
  destruct Hc as [x [<- Hx]]. apply in_rev in Hx. eapply in_names_tr; eassumption.
Qed.

Lemma dlen_prod : forall tr, dlen (Prod (map tc tr)) = PL tr.
Proof. intros. unfold dlen. cbn [denote]. symmetry. apply PL_length. Qed.

Lemma keys_sub_frame : forall ns prev prev',
  (forall n, ~ In n ns -> lookup n prev' = lookup n prev) -> keys_sub prev ns -> keys_sub prev' ns.
Proof.
  intros ns prev prev' F K n Hn. destruct (in_dec str_eq_dec n ns) as [Hin|Hnot]; [exact Hin|].
  apply K. rewrite <- (F n Hnot). exact Hn.
Qed.

(* what next() hands out once the children stand at the digits of [tr] and [prev] holds their items *)
Lemma prod_finish : forall tr prev r,
  wf prev -> keys_sub prev (flat_map names (map tc tr)) -> NoDup (flat_map names (map tc tr)) ->
  Wfs tr -> Digits tr -> Agrees prev tr ->
  Upd r (nth (indexB tr) (denote (Prod (map tc tr))) []) (update r prev).
Proof.
  intros tr prev r Hw Hk ND HW HD HA. cbn [denote]. rewrite nth_prodL by exact HD.
  eapply Upd_equiv; [apply Upd_update; exact Hw|]. apply agree_tuple; assumption.
Qed.

Lemma indexB_zero : forall tr, Forall (fun x => td x = 0%nat) tr -> indexB tr = 0%nat.
Proof.
  induction tr as [|x r IH]; intros H; [reflexivity|]. inversion H as [|? ? Hx Hr]; subst.
  cbn [indexB]. rewrite Hx, (IH Hr). lia.
Qed.

Lemma tupleB_const : forall d tr, Forall (fun x => td x = d) tr ->
  tupleB tr = concat (map (fun c => nth d (denote c) []) (map tc tr)).
Proof.
  intros d tr H. unfold tupleB. induction H as [|x tr Hx _ IH]; [reflexivity|].
  cbn [map concat]. rewrite Hx, IH. reflexivity.
Qed.

Lemma step_leaf : forall f n ty vs, StepAt (S f) (Leaf n ty vs).
Proof.
  intros f n ty vs k st r HR. inversion HR as [n' ty' vs' k' Hk| | |]; subst. cbn [next].
  unfold dlen. cbn [denote]. rewrite map_length. split; intros Hlt.
  - rewrite (skipn_cons_nth _ vs k [] Hlt). eexists. eexists. split; [reflexivity|].
    split; [apply RepLeaf; lia|]. split; [|apply wf_set].
    intro x. rewrite lookup_set. change (map (fun v : value => [(n, (ty, v))]) vs) with (denote (Leaf n ty vs)).
    rewrite (nth_denote_leaf n ty vs k Hlt). cbn [lookup]. destruct (str_eqb x n); reflexivity.
  - subst k. rewrite skipn_all. eexists. split; [reflexivity|]. constructor.
Qed.

(* first call on a product: every child is asked for its first item, in order *)
Lemma step_prod_first : forall f, StepOK f -> forall cs prev ss r,
  Forall (OKc f) cs -> NoDup (flat_map names cs) ->
  wf prev -> keys_sub prev (flat_map names cs) -> Forall2 (fun c s => Rep c 0 s) cs ss ->
  exists st' r', next false (S f) (IProd false true prev ss) r = (st', r', None) /\
                 Rep (Prod cs) 1 st' /\ Upd r (nth 0 (denote (Prod cs)) []) r' /\ (wf r -> wf r').
Proof.
  intros f HS cs prev ss r Hok ND Hw Hks F.
  assert (Hall : Forall (fun c => OKc f c /\ (0 < dlen c)%nat) cs).
  { eapply Forall_impl; [|exact Hok]. intros c Hc. split; [exact Hc | apply dlen_pos; apply Hc]. }
  destruct (all_next_step f HS 0%nat cs ss prev Hall ND F) as [ss' [p1 [E1 [R1 [U1 W1]]]]].
  cbn [next]. cbn [andb]. rewrite E1.
  destruct (triples_of_Forall2 (fun c s => Rep c 1%nat s) 0%nat cs ss' R1) as [tr [<- [<- Htr]]].
  assert (Hz : Forall (fun x => td x = 0%nat) tr) by (eapply Forall_impl; [|exact Htr]; intros x [H _]; exact H).
  rewrite <- (tupleB_const 0 tr Hz) in U1.
  assert (HW : Wfs tr).
  { apply Forall_map. eapply Forall_impl; [|exact Hok]. intros c Hc. apply Hc. }
  assert (HD : Digits tr).
  { unfold Wfs, Digits in *. rewrite Forall_forall in *. intros x Hx. rewrite (Hz x Hx). apply dlen_pos, HW, Hx. }
  assert (Hks1 : keys_sub p1 (flat_map names (map tc tr))).
  { intros n Hn. rewrite (U1 n) in Hn. destruct (lookup n (tupleB tr)) eqn:E; [|apply Hks; exact Hn].
    rewrite <- (keys_tupleB tr HW HD). apply lookup_in_keys. congruence. }
  assert (HA : Agrees p1 tr).
  { apply Forall_forall. intros x Hx.
    apply (Upd_agree (tupleB tr) _ _ prev); [exact (proj1 (Forall_forall _ _) HW x Hx) | exact (proj1 (Forall_forall _ _) HD x Hx) | | exact U1].
    intros n Hn. exact (lookup_tupleB tr ND HW HD x n Hx Hn). }
  exists (IProd false false p1 (map ts tr)), (update r p1). split; [reflexivity|].
  rewrite <- (indexB_zero tr Hz). split; [|split].
  - apply RepProdS; [apply W1; exact Hw | exact Hks1 | exact HD | exact HA|].
    eapply Forall_impl; [|exact Htr]. intros x [Hx0 Hx1]. rewrite Hx0. exact Hx1.
  - apply prod_finish; [apply W1; exact Hw | | | | |]; assumption.
  - intros Hr. apply wf_update. exact Hr.
Qed.

(* later calls: the carry loop, then the same hand-out *)
Lemma step_prod_carry : forall f, StepOK f -> forall tr prev r,
  tr <> [] -> Forall (fun x => OKc f (tc x)) tr -> NoDup (flat_map names (map tc tr)) ->
  wf prev -> keys_sub prev (flat_map names (map tc tr)) -> Digits tr -> Agrees prev tr -> Reps tr ->
  let t := Prod (map tc tr) in let st := IProd false false prev (map ts tr) in
  ((S (indexB tr) < PL tr)%nat ->
     exists st' r', next false (S f) st r = (st', r', None) /\ Rep t (S (S (indexB tr))) st' /\
                    Upd r (nth (S (indexB tr)) (denote t) []) r' /\ (wf r -> wf r')) /\
  (S (indexB tr) = PL tr -> exists st', next false (S f) st r = (st', r, Some StopIteration) /\ Dead t st').
Proof.
  intros f HS tr prev r Hne Hok ND Hw Hks HD HA HR t st. unfold t, st.
  cbn [next]. cbn [andb]. rewrite <- map_rev.
  assert (Hne' : rev tr <> []) by (intro H; apply Hne; rewrite <- (rev_involutive tr), H; reflexivity).
  destruct (carry_spec f HS (rev tr) prev Hne' (Forall_rev Hok) (NoDup_names_rev _ ND)
              (Forall_rev HD) (Forall_rev HA) (Forall_rev HR)) as [ss' [p1 [sg [ex [E1 [F1 [W1 C1]]]]]]].
  rewrite E1.
  assert (Hks1 : keys_sub p1 (flat_map names (map tc tr))).
  { apply (keys_sub_frame _ prev); [|exact Hks]. intros n Hn. apply F1. intro Hin. apply Hn, in_names_rev, Hin. }
  destruct C1 as [[-> [L' [Etc [-> [HD' [HA' [HR' Hidx]]]]]]] | [-> [-> [Hidx HSh]]]].
  - (* advanced *)
    assert (Etc' : map tc (rev L') = map tc tr).
    { rewrite map_rev, Etc, map_rev, rev_involutive. reflexivity. }
    assert (Eidx : indexB (rev L') = S (indexB tr)).
    { rewrite <- indexR_rev, rev_involutive, Hidx, indexR_rev. reflexivity. }
    apply Forall_rev in HD', HA', HR'. split; intros Hk.
    + exists (IProd false false p1 (rev (map ts L'))), (update r p1). split; [reflexivity|].
      rewrite <- map_rev, <- Etc', <- Eidx. rewrite <- Etc' in Hks1, ND.
      split; [|split].
      * apply RepProdS; [apply W1; exact Hw | | | |]; assumption.
      * apply prod_finish; [apply W1; exact Hw | | | | |]; try assumption.
        apply Forall_map. rewrite Etc'. apply Forall_map. eapply Forall_impl; [|exact Hok]. intros x Hx. apply Hx.
      * intros Hr. apply wf_update. exact Hr.
    + exfalso. pose proof (indexB_lt _ HD') as Hlt.
      rewrite <- (dlen_prod (rev L')), Etc', dlen_prod in Hlt. lia.
  - (* exhausted *)
    rewrite indexR_rev, PL_rev in Hidx. split; intros Hk; [lia|].
    exists (IProd (false || true) false p1 (rev ss')). split; [reflexivity|]. cbn [orb].
    apply DeadProd; [apply W1; exact Hw | exact Hks1|].
    apply Forall2_rev in HSh. rewrite map_rev, rev_involutive in HSh. exact HSh.
Qed.

Lemma step_assoc : forall f, StepOK f -> forall c cs,
  Forall (OKc f) (c :: cs) -> NoDup (flat_map names (c :: cs)) ->
  Forall (fun c' => dlen c' = dlen c) cs -> StepAt (S f) (Assoc (c :: cs)).
Proof.
  intros f HS c cs Hok ND Hb k st r HR. inversion HR as [|cs'' k' ss F| |]; subst. cbn [next].
  replace (dlen (Assoc (c :: cs))) with (dlen c) by (unfold dlen; cbn [denote map]; symmetry; apply length_zipL).
  split; intros Hk.
  - assert (Hall : Forall (fun c' => OKc f c' /\ (k < dlen c')%nat) (c :: cs)).
    { inversion Hok as [|? ? Hc Hcs]; subst. constructor; [split; assumption|].
      rewrite Forall_forall in *. intros c' Hc'. split; [apply Hcs; exact Hc' | rewrite (Hb c' Hc'); exact Hk]. }
    destruct (all_next_step f HS k (c :: cs) ss r Hall ND F) as [ss' [r1 [E1 [R1 [U1 W1]]]]].
    rewrite E1. exists (IAssoc ss'), r1. split; [reflexivity|]. split; [apply RepAssoc; exact R1|].
    split; [|exact W1]. cbn [denote]. rewrite nth_zipL by (cbn [map hd]; exact Hk).
    rewrite map_map. exact U1.
  - inversion F as [|c0 s cs0 ss0 Hcs0 F']; subst. inversion Hok as [|? ? Hc _]; subst.
    destruct (HS c Hc (dlen c) s r Hcs0) as [_ Hstop]. destruct (Hstop eq_refl) as [s' [E D]].
    cbn [all_next]. rewrite E. exists (IAssoc (s' :: ss0)). split; [reflexivity|].
    apply DeadAssoc; [exact D|].
    eapply Forall2_impl; [|exact F']. intros c' s0. apply Rep_Shape.
Qed.

Theorem step_all : forall f, StepOK f.
Proof.
  induction f as [|f IH]; intros t [Hh [W ND]]; [pose proof (height_pos t); lia|].
  destruct t as [n ty vs | cs | cs]; cbn [height names] in Hh, ND.
  - apply step_leaf.
  - pose proof (OKc_children f cs Hh (wfnode_children_prod cs W) ND) as Hok.
    intros k st r HR. inversion HR as [| |cs' prev ss Hw Hks F|tr prev Hw Hks Hd Ha F]; subst.
    + destruct (step_prod_first f IH cs prev ss r Hok ND Hw Hks F) as [st' [r' H]].
      split; intros Hk; [exists st', r'; exact H | pose proof (dlen_pos (Prod cs) W); lia].
    + rewrite dlen_prod. apply (step_prod_carry f IH tr prev r); try assumption.
      * intro E. subst tr. inversion W; congruence.
      * apply Forall_map. exact Hok.
  - pose proof (OKc_children f cs Hh (wfnode_children_assoc cs W) ND) as Hok.
    inversion W as [| |c cs' Wc Hb]; subst. apply (step_assoc f IH c cs' Hok ND). exact Hb.
Qed.

(* an exhausted iterator keeps raising StopIteration *)
Theorem dead_next : forall f t, (height t <= f)%nat -> forall st r, Dead t st ->
  exists st', next false f st r = (st', r, Some StopIteration) /\ Dead t st'.
Proof.
  induction f as [|f IH]; intros t Hh st r HD; [pose proof (height_pos t); lia|].
  destruct HD as [n ty vs | cs first prev ss Hw Hk F | c cs s ss HD F].
  - cbn [next]. eexists. split; [reflexivity | constructor].
  - cbn [next]. cbn [andb negb]. eexists. split; [reflexivity | constructor; assumption].
  - cbn [height] in Hh. pose proof (height_children (c :: cs) f Hh) as Hcs. inversion Hcs as [|? ? Hc _]; subst.
    destruct (IH c Hc s r HD) as [s' [E D]].
    cbn [next all_next]. rewrite E. exists (IAssoc (s' :: ss)). split; [reflexivity|].
    apply DeadAssoc; assumption.
Qed.

(* the iterator object after j calls of __next__ (results dropped) *)
Fixpoint iter_after (p : bool) (it : titer) (j : nat) : titer :=
  match j with
  | O => it
  | S j' => iter_after p (fst (fst (top_next p it))) j'
  end.

(* the iterator object of a valid [t] after k calls of __next__: still handing out, or exhausted *)
Definition At (t : node) (k : nat) (it : titer) : Prop :=
  exists st, it = ItNode (height t) st /\
             (((k <= dlen t)%nat /\ Rep t k st) \/ ((dlen t < k)%nat /\ Dead t st)).

Lemma at_init : forall t, At t 0 (top_iter (TopNode t)).
Proof. intros t. exists (init t). split; [reflexivity|]. left. split; [lia | apply init_Rep]. Qed.

Lemma top_call : forall t k it, valid t -> At t k it ->
  exists it' e sg, top_next false it = (it', e, sg) /\ At t (S k) it' /\
    ((k < dlen t)%nat -> sg = None /\ e ≈ nth k (denote t) []) /\
    ((dlen t <= k)%nat -> sg = Some StopIteration /\ e = []).
Proof.
  intros t k it [ND W] [st [-> HA]]; cbn [top_next].
  pose proof (step_all (height t) t (conj (le_n _) (conj W ND)) k st []) as HS.
  destruct (Nat.lt_ge_cases k (dlen t)) as [Hlt|Hge].
  - destruct HA as [[_ HR]|[Hk _]]; [|lia].
    destruct (proj1 (HS HR) Hlt) as [st' [r' [E [R' [U _]]]]]. rewrite E. exists (ItNode (height t) st'), r', None.
    split; [reflexivity|]. split; [exists st'; split; [reflexivity | left; split; [lia | exact R']]|].
    split; [intros _; split; [reflexivity | apply Upd_nil_equiv; exact U] | lia].
  - assert (Hstop : exists st', next false (height t) st [] = (st', [], Some StopIteration) /\ Dead t st').
    { destruct HA as [[Hk HR]|[_ HD]]; [apply (HS HR); lia | exact (dead_next _ t (le_n _) st [] HD)]. }
    destruct Hstop as [st' [E D]]. rewrite E. exists (ItNode (height t) st'), [], (Some StopIteration).
    split; [reflexivity|]. split; [exists st'; split; [reflexivity | right; split; [lia | exact D]]|].
    split; [lia | auto].
Qed.

Lemma after_calls : forall t j k it, valid t -> At t k it -> At t (k + j) (iter_after false it j).
Proof.
  intros t. induction j as [|j IH]; intros k it V HA; [rewrite Nat.add_0_r; exact HA|].
  cbn [iter_after]. destruct (top_call t k it V HA) as [it' [e [sg [E [HA' _]]]]].
  rewrite E, Nat.add_succ_r. apply (IH (S k) it' V HA').
Qed.

(* call number k + 1 on a fresh iterator: element k of the denotation, or StopIteration from call len + 1 on *)
Theorem next_call : forall t, valid t -> forall k,
  exists it' e sg, top_next false (iter_after false (top_iter (TopNode t)) k) = (it', e, sg) /\
    ((k < length (denote t))%nat -> sg = None /\ e ≈ nth k (denote t) []) /\
    ((length (denote t) <= k)%nat -> sg = Some StopIteration /\ e = []).
Proof.
  intros t V k. destruct (top_call t k _ V (after_calls t k 0 _ V (at_init t))) as [it' [e [sg [E [_ H]]]]].
  exists it', e, sg. split; [exact E | exact H].
Qed.

Theorem iterate_correct : forall t, valid t ->
  (forall k, (k < length (denote t))%nat ->
     exists it' e, top_next false (iter_after false (top_iter (TopNode t)) k) = (it', e, None) /\
                   e ≈ nth k (denote t) []) /\
  (exists it', top_next false (iter_after false (top_iter (TopNode t)) (length (denote t)))
               = (it', [], Some StopIteration)).
Proof.
  intros t V. split.
  - intros k Hk. destruct (next_call t V k) as [it' [e [sg [E [H _]]]]]. destruct (H Hk) as [-> Q].
    exists it', e. split; assumption.
  - destruct (next_call t V (length (denote t))) as [it' [e [sg [E [_ H]]]]]. destruct (H (le_n _)) as [-> ->].
    exists it'. exact E.
Qed.

Theorem exhausted_stays : forall t, valid t -> forall m, (length (denote t) <= m)%nat ->
  exists it', top_next false (iter_after false (top_iter (TopNode t)) m) = (it', [], Some StopIteration).
Proof.
  intros t V m Hm. destruct (next_call t V m) as [it' [e [sg [E [_ H]]]]]. destruct (H Hm) as [-> ->].
  exists it'. exact E.
Qed.

(* the code before commit 8169558: phantom task parameter sets after StopIteration *)
Definition wAB : node :=
  Prod [Leaf [65%N] TInt [[49%N]; [50%N]]; Leaf [66%N] TInt [[49%N; 48%N]; [50%N; 48%N]]].

Lemma valid_wAB : valid wAB.
Proof.
  split.
  - cbn. constructor; [cbn; intros [H|[]]; discriminate | constructor; [tauto | constructor]].
  - apply WfProd; [discriminate|]. repeat constructor; discriminate.
Qed.

Theorem exhausted_refuted :
  exists t m it' e, valid t /\ (length (denote t) <= m)%nat /\
    top_next true (iter_after true (top_iter (TopNode t)) m) = (it', e, None).
Proof.
  exists wAB, 5%nat. eexists. eexists. split; [exact valid_wAB|]. split; [cbn; lia|]. vm_compute. reflexivity.
Qed.

Definition pname (p : param) : str := fst (fst p).

Lemma find_param_in : forall ps p, NoDup (map pname ps) -> In p ps -> find_param ps (pname p) = Ok p.
Proof.
  induction ps as [|q ps IH]; intros p ND Hin; [contradiction|].
  cbn [map] in ND. inversion ND as [|? ? Hn Hd]; subst. cbn [find_param]. fold (pname q).
  destruct Hin as [->|Hin].
  - rewrite str_eqb_refl. reflexivity.
  - destruct (str_eqb (pname p) (pname q)) eqn:E.
    + apply str_eqb_eq in E. exfalso. apply Hn. rewrite <- E. apply in_map. exact Hin.
    + apply IH; assumption.
Qed.

Lemma mk_children_ids : forall ps qs, NoDup (map pname ps) -> incl qs ps ->
  mk_children (create_expr_tree ps) (map (fun p => CId (pname p)) qs) = Ok (map leaf_of qs).
Proof.
  intros ps qs ND. induction qs as [|q qs IH]; intros Hincl; [reflexivity|].
  cbn [map mk_children create_expr_tree]. rewrite (find_param_in ps q ND) by (apply Hincl; left; reflexivity).
  cbn [bind]. rewrite IH by (intros x Hx; apply Hincl; right; exact Hx). reflexivity.
Qed.

Lemma cross_unit_r : forall d, cross d [[]] = d.
Proof.
  induction d as [|a d IH]; [reflexivity|].
  change (cross (a :: d) [[]]) with ((a ++ []) :: cross d [[]]). rewrite app_nil_r, IH. reflexivity.
Qed.

Lemma names_leaves : forall ps, flat_map names (map leaf_of ps) = map pname ps.
Proof. induction ps as [|p ps IH]; [reflexivity|]. cbn [map flat_map leaf_of names app]. rewrite IH. reflexivity. Qed.

Theorem default_comb_correct : forall ps,
  ps <> [] -> NoDup (map pname ps) -> (forall p, In p ps -> snd p <> []) ->
  exists t, sps_init (Some (ps, None)) = Ok (TopNode t) /\ valid t /\ denote t = default_denote ps.
Proof.
  intros ps Hne ND Hvs.
  assert (Hwf : Forall wfnode (map leaf_of ps)).
  { rewrite Forall_map. apply Forall_forall. intros p Hp. apply WfLeaf. apply Hvs. exact Hp. }
  destruct ps as [|p [|q ps]]; [congruence| |].
  - (* one parameter: the parser returns the bare identifier node *)
    exists (leaf_of p). cbn [sps_init default_comb bind create_expr_tree]. fold (pname p).
    rewrite (find_param_in [p] p ND (or_introl eq_refl)). cbn [bind]. split; [reflexivity|]. split.
    + split; [cbn; constructor; [tauto | constructor] | inversion Hwf; assumption].
    + unfold default_denote. cbn [map]. rewrite prodL_cons. cbn [prodL fold_right]. symmetry. apply cross_unit_r.
  - exists (Prod (map leaf_of (p :: q :: ps))).
    cbn [sps_init default_comb bind create_expr_tree].
    pose proof (mk_children_ids (p :: q :: ps) (p :: q :: ps) ND (incl_refl _)) as E. unfold pname in E. unfold param in *.
    rewrite E. cbn [bind].
    split; [reflexivity|]. split.
    + split; [cbn [names]; rewrite names_leaves; exact ND | apply WfProd; [discriminate | exact Hwf]].
    + cbn [denote]. unfold default_denote. rewrite map_map. reflexivity.
Qed.

Theorem none_correct : forall p,
  let tp := TopList none_denote in
  sps_init None = Ok tp /\
  top_len tp = Ok 1%Z /\
  (forall i, top_getitem tp i = if ((i =? 0) || (i =? -1))%Z then Ok [] else Raise IndexError) /\
  top_next p (top_iter tp) = (ItList [], [], None) /\
  (forall m, (1 <= m)%nat -> top_next p (iter_after p (top_iter tp) m) = (ItList [], [], Some StopIteration)).
Proof.
  intros p tp. split; [reflexivity|]. split; [reflexivity|]. split; [|split].
  - intros i. unfold tp, top_getitem. destruct (py_index_spec env none_denote i []) as [Hin Hout].
    unfold none_denote in *. cbn [length] in Hin, Hout. change (Z.of_nat 1) with 1%Z in *.
    destruct ((i =? 0)%Z || (i =? -1)%Z) eqn:T; [|apply Hout; lia].
    rewrite Hin, Z.mod_1_r by lia. reflexivity.
  - reflexivity.
  - intros m Hm. destruct m as [|m]; [lia|]. clear Hm. cbn [iter_after]. unfold tp, none_denote. cbn [top_iter top_next fst].
    induction m as [|m IH]; [reflexivity|]. cbn [iter_after top_next fst]. exact IH.
Qed.

(* In this pure model the statement is immediate by construction: an iterator's state is a
   value stored in its own slot of [w_iters]; no operation on one slot reads or writes another,
   and the only shared mutable datum, the _len memo, is written by len() alone.  The theorem
   makes that precise: deleting from a history every next()/reset addressed to OTHER iterators
   changes none of the remaining observations. *)
Definition addressed_other (i : nat) (o : op) : bool :=
  match o with
  | OpNext j => negb (Nat.eqb j i)
  | OpReset j => negb (Nat.eqb j i)
  | _ => false
  end.

Fixpoint obs_kept (p : bool) (i : nat) (w : world) (h : list op) : list obs :=
  match h with
  | [] => []
  | o :: rest =>
    match exec p w o with
    | (w1, b) => if addressed_other i o then obs_kept p i w1 rest else b :: obs_kept p i w1 rest
    end
  end.

Definition SameFor (i : nat) (w w' : world) : Prop :=
  w_top w = w_top w' /\ w_cache w = w_cache w' /\ length (w_iters w) = length (w_iters w') /\
  nth_error (w_iters w) i = nth_error (w_iters w') i.

Lemma replace_nth_length : forall (A : Type) (l : list A) i x, length (replace_nth l i x) = length l.
Proof. intros A. induction l as [|a l IH]; intros [|i] x; cbn; try reflexivity. rewrite IH. reflexivity. Qed.

Lemma replace_nth_other : forall (A : Type) (l : list A) i j x, i <> j ->
  nth_error (replace_nth l j x) i = nth_error l i.
Proof.
  intros A. induction l as [|a l IH]; intros i j x H; [destruct j; reflexivity|].
  destruct j as [|j]; destruct i as [|i]; cbn; try reflexivity; try congruence. apply IH. congruence.
Qed.

Lemma replace_nth_same : forall (A : Type) (l : list A) i x, (i < length l)%nat ->
  nth_error (replace_nth l i x) i = Some x.
Proof.
  intros A. induction l as [|a l IH]; intros i x H; cbn in H; [lia|].
  destruct i as [|i]; cbn; [reflexivity | apply IH; lia].
Qed.

Lemma nth_error_app_same : forall (A : Type) (l l' : list A) x i, length l = length l' ->
  nth_error l i = nth_error l' i -> nth_error (l ++ [x]) i = nth_error (l' ++ [x]) i.
Proof.
  intros A l l' x i HL H. destruct (Nat.lt_ge_cases i (length l)) as [Hlt|Hge].
  - rewrite !nth_error_app1 by lia. exact H.
  - rewrite !nth_error_app2 by lia. rewrite HL. reflexivity.
Qed.

Lemma SameFor_replace_other : forall i j w w' x, SameFor i w w' -> j <> i ->
  SameFor i (mkW (w_top w) (w_cache w) (replace_nth (w_iters w) j x)) w'.
Proof.
  intros i j w w' x [H1 [H2 [H3 H4]]] Hj. unfold SameFor. cbn [w_top w_cache w_iters].
  rewrite replace_nth_length, replace_nth_other by congruence. repeat split; assumption.
Qed.

Lemma SameFor_replace_same : forall i w w' x, SameFor i w w' -> nth_error (w_iters w) i <> None ->
  SameFor i (mkW (w_top w) (w_cache w) (replace_nth (w_iters w) i x))
            (mkW (w_top w') (w_cache w') (replace_nth (w_iters w') i x)).
Proof.
  intros i w w' x [H1 [H2 [H3 H4]]] Hi. apply nth_error_Some in Hi. unfold SameFor. cbn [w_top w_cache w_iters].
  rewrite !replace_nth_length, !replace_nth_same by lia. repeat split; assumption.
Qed.

Lemma exec_other : forall p i w w' o, SameFor i w w' -> addressed_other i o = true ->
  SameFor i (fst (exec p w o)) w'.
Proof.
  intros p i w w' o HS Ho. destruct o as [ | j | z | | j ]; cbn in Ho; try discriminate;
    apply negb_true_iff, Nat.eqb_neq in Ho; cbn [exec]; destruct (nth_error (w_iters w) j) as [it|]; try exact HS.
  - destruct (top_next p it) as [[it1 r] sg]. apply SameFor_replace_other; assumption.
  - apply SameFor_replace_other; assumption.
Qed.

Lemma exec_kept : forall p i w w' o, SameFor i w w' -> addressed_other i o = false ->
  snd (exec p w o) = snd (exec p w' o) /\ SameFor i (fst (exec p w o)) (fst (exec p w' o)).
Proof.
  intros p i w w' o HS Ho. pose proof HS as [H1 [H2 [H3 H4]]].
  destruct o as [ | j | z | | j ]; cbn in Ho; cbn [exec].
  - split; [reflexivity|]. rewrite H1. unfold SameFor. cbn [fst w_top w_cache w_iters].
    rewrite !app_length, H3. repeat split; try assumption. apply nth_error_app_same; assumption.
  - apply negb_false_iff, Nat.eqb_eq in Ho. subst j. rewrite <- H4.
    destruct (nth_error (w_iters w) i) as [it|] eqn:E; [|split; [reflexivity | exact HS]].
    destruct (top_next p it) as [[it1 r] sg]. split; [reflexivity|].
    apply SameFor_replace_same; [exact HS | congruence].
  - rewrite H1. split; [reflexivity | exact HS].
  - rewrite <- H1, <- H2. destruct (w_top w) as [l|t] eqn:Et; [split; [reflexivity | exact HS]|].
    destruct (cached_len (w_cache w) t) as [[v c]|x]; (split; [reflexivity|]); [|exact HS].
    unfold SameFor. cbn [fst w_top w_cache w_iters]. repeat split; assumption.
  - apply negb_false_iff, Nat.eqb_eq in Ho. subst j. rewrite <- H4.
    destruct (nth_error (w_iters w) i) as [it|] eqn:E; [|split; [reflexivity | exact HS]].
    split; [reflexivity|]. apply SameFor_replace_same; [exact HS | congruence].
Qed.

Lemma histories_sim : forall p i h w w', SameFor i w w' ->
  obs_kept p i w h = snd (run p w' (filter (fun o => negb (addressed_other i o)) h)).
Proof.
  intros p i. induction h as [|o rest IH]; intros w w' HS; [reflexivity|].
  cbn [obs_kept filter]. destruct (addressed_other i o) eqn:Ho; cbn [negb].
  - pose proof (exec_other p i w w' o HS Ho) as HS1. destruct (exec p w o) as [w1 b]. cbn [fst] in HS1. apply IH. exact HS1.
  - destruct (exec_kept p i w w' o HS Ho) as [Hb HS1]. cbn [run].
    destruct (exec p w o) as [w1 b]. destruct (exec p w' o) as [w1' b']. cbn [fst snd] in *.
    rewrite (IH w1 w1' HS1). destruct (run p w1' (filter (fun o0 => negb (addressed_other i o0)) rest)) as [w2 bs].
    cbn [snd]. subst b'. reflexivity.
Qed.

Theorem histories_independent : forall p tp i h,
  obs_kept p i (new_world tp) h
  = snd (run p (new_world tp) (filter (fun o => negb (addressed_other i o)) h)).
Proof. intros. apply histories_sim. repeat split. Qed.

(* len(obj) and obj[i] inside any history answer as on a fresh object (the _len memo is a
   function of the tree only) *)
Definition world_ok (tp : top) (w : world) : Prop :=
  w_top w = tp /\ match tp with TopNode t => cache_ok t (w_cache w) | TopList _ => True end.

Lemma exec_world_ok : forall p tp w o, world_ok tp w -> world_ok tp (fst (exec p w o)).
Proof.
  intros p tp w o H. destruct o as [ | j | z | | j ]; cbn [exec]; try exact H.
  - destruct (nth_error (w_iters w) j) as [it|]; [destruct (top_next p it) as [[it1 r] sg]|]; exact H.
  - destruct H as [<- H]. destruct (w_top w) as [l|t] eqn:E; [split; [exact E | exact I]|].
    pose proof (cache_transparent t (w_cache w) H) as CT.
    destruct (cached_len (w_cache w) t) as [[v c]|x]; [split; [reflexivity | apply CT] | split; [exact E | exact H]].
  - destruct (nth_error (w_iters w) j); exact H.
Qed.

Lemma run_world_ok : forall p tp h w0 w bs, world_ok tp w0 -> run p w0 h = (w, bs) -> world_ok tp w.
Proof.
  intros p tp. induction h as [|o rest IH]; intros w0 w bs H0 E; cbn [run] in E.
  - inversion E; subst. exact H0.
  - pose proof (exec_world_ok p tp w0 o H0) as H1. destruct (exec p w0 o) as [w1 b].
    destruct (run p w1 rest) as [w2 bs2] eqn:E2. inversion E; subst. exact (IH w1 w bs2 H1 E2).
Qed.

Theorem len_get_history_free : forall p tp h w bs,
  run p (new_world tp) h = (w, bs) ->
  snd (exec p w OpLen) = match top_len tp with Ok v => ObLen v | Raise x => ObRaise x end /\
  forall z, snd (exec p w (OpGet z)) = match top_getitem tp z with Ok e => ObEnv e | Raise x => ObRaise x end.
Proof.
  intros p tp h w bs E.
  assert (H0 : world_ok tp (new_world tp)) by (split; [reflexivity | destruct tp; [exact I | left; reflexivity]]).
  destruct (run_world_ok p tp h _ w bs H0 E) as [Ht Hw]. cbn [exec snd]. rewrite Ht. split; [|reflexivity].
  destruct tp as [l|t]; [reflexivity|].
  pose proof (cache_transparent t (w_cache w) Hw) as CT. cbn [top_len].
  destruct (cached_len (w_cache w) t) as [[v c]|x]; cbn [snd]; [destruct CT as [CT _]|]; rewrite CT; reflexivity.
Qed.

Lemma names_of_leaves : forall t, map pname (leaves t) = names t.
Proof.
  induction t as [n ty vs | cs IH | cs IH] using node_ind2; [reflexivity| |];
    cbn [leaves names]; induction IH as [|c cs Hc _ IHl]; cbn [flat_map]; try reflexivity;
    rewrite map_app, Hc, IHl; reflexivity.
Qed.

Definition TypedIn (c : node) : Prop :=
  forall e, In e (denote c) -> forall n ty vs, In (n, ty, vs) (leaves c) ->
  exists v, In v vs /\ lookup n e = Some (ty, v).

Lemma typed_pieces : forall cs e,
  Pieces cs e ->
  Forall (fun c => wfnode c /\ TypedIn c) cs ->
  NoDup (flat_map names cs) ->
  forall n ty vs, In (n, ty, vs) (flat_map leaves cs) ->
  exists v, In v vs /\ lookup n e = Some (ty, v).
Proof.
  intros cs e [es [-> F]]. induction F as [|c a cs es Hca F IH]; intros HF ND n ty vs Hin; [contradiction|].
  inversion HF as [|? ? [Wc Tc] HFr]; subst. cbn [flat_map] in Hin, ND. cbn [concat]. rewrite lookup_app.
  apply in_app_or in Hin. destruct Hin as [Hin|Hin].
  - destruct (Tc a Hca n ty vs Hin) as [v [Hv El]]. exists v. rewrite El. split; [exact Hv | reflexivity].
  - assert (Hn : In n (flat_map names cs)).
    { apply in_flat_map in Hin. destruct Hin as [c' [Hc' Hl]]. apply in_flat_map. exists c'.
      split; [exact Hc' | rewrite <- names_of_leaves; exact (in_map pname _ _ Hl)]. }
    assert (E : lookup n a = None).
    { apply lookup_none_keys. rewrite (denote_keys c Wc a Hca). intro Hc. eapply NoDup_app_disj; eassumption. }
    rewrite E. apply (IH HFr (NoDup_app_r _ _ _ ND) n ty vs Hin).
Qed.

Theorem denote_typed : forall t, valid t -> forall e, In e (denote t) -> well_typed t e.
Proof.
  intros t [ND W] e Hin. split; [apply (denote_keys t W e Hin)|]. revert e Hin.
  change (TypedIn t). revert W ND.
  induction t as [n ty vs | cs IH | cs IH] using node_ind2; intros W ND e Hin n0 ty0 vs0 Hl.
  - cbn in Hl. destruct Hl as [Hl|[]]. inversion Hl; subst. cbn [denote] in Hin. apply in_map_iff in Hin.
    destruct Hin as [v [<- Hv]]. exists v. split; [exact Hv|]. cbn [lookup]. rewrite str_eqb_refl. reflexivity.
  - cbn [denote leaves names] in *. apply (typed_pieces cs e (prodL_pieces cs e Hin)); [|exact ND | exact Hl].
    pose proof (wfnode_children_prod cs W) as Wcs. pose proof (NoDup_flat_map_each _ _ _ _ ND) as NDe.
    rewrite Forall_forall in *. intros c Hc. split; [apply Wcs; exact Hc | apply IH; auto].
  - inversion W as [| |c cs' Wc Hb]; subst. cbn [denote leaves names] in *.
    apply (typed_pieces (c :: cs') e (zipL_pieces c cs' e Hb Hin)); [|exact ND | exact Hl].
    pose proof (NoDup_flat_map_each _ _ _ _ ND) as NDe.
    rewrite Forall_forall in *. intros c' Hc'. split; [apply Wc; exact Hc' | apply IH; auto].
Qed.

Lemma drain_live : forall t j k it bound, valid t -> At t k it -> (k + j = dlen t)%nat -> (j < bound)%nat ->
  exists l, drain false bound it = (l, Some StopIteration, true) /\ Forall2 env_equiv l (skipn k (denote t)).
Proof.
  intros t. induction j as [|j IH]; intros k it [|b] V HA Hk Hb; try lia;
    destruct (top_call t k it V HA) as [it' [e [sg [E [HA' [Hlt Hge]]]]]]; cbn [drain]; rewrite E.
  - destruct (Hge ltac:(lia)) as [-> _]. exists []. split; [reflexivity|].
    rewrite skipn_all2 by (unfold dlen in Hk; lia). constructor.
  - destruct (Hlt ltac:(lia)) as [-> Q].
    destruct (IH (S k) it' b V HA' ltac:(lia) ltac:(lia)) as [l [-> Fl]]. exists (e :: l). split; [reflexivity|].
    rewrite (skipn_cons_nth _ (denote t) k []) by (unfold dlen in Hk; lia). constructor; assumption.
Qed.

Theorem list_correct : forall t bound, valid t -> (length (denote t) < bound)%nat ->
  exists l, drain false bound (top_iter (TopNode t)) = (l, Some StopIteration, true) /\
            Forall2 env_equiv l (denote t).
Proof. intros t bound V Hb. exact (drain_live t (dlen t) 0 _ bound V (at_init t) eq_refl Hb). Qed.

(* For ANY tree (valid or not), any state of the right tree shape and fuel >= height, next never
   reports fuel exhaustion (RuntimeError) and keeps the shape.  The pinned flag [p] is arbitrary. *)
Inductive SShape : node -> istate -> Prop :=
| SSLeaf n ty vs n' ty' rest all : SShape (Leaf n ty vs) (ILeaf n' ty' rest all)
| SSProd cs ex first prev ss : Forall2 SShape cs ss -> SShape (Prod cs) (IProd ex first prev ss)
| SSAssoc cs ss : Forall2 SShape cs ss -> SShape (Assoc cs) (IAssoc ss).

Lemma SShape_init : forall t, SShape t (init t).
Proof.
  induction t as [n ty vs | cs IH | cs IH] using node_ind2; cbn [init]; constructor;
    apply Forall2_map_init; exact IH.
Qed.

Lemma SShape_reset : forall t st, SShape t st -> SShape t (reset st).
Proof.
  induction t as [n ty vs | cs IH | cs IH] using node_ind2; intros st H; inversion H; subst; cbn [reset]; constructor;
    apply Forall2_map_r; (eapply Forall2_from_Forall; [|eassumption]);
    rewrite Forall_forall in *; intros c Hc s Hs; apply IH; assumption.
Qed.

Definition no_fuel_err (sg : sig) : Prop := sg <> Some RuntimeError.

Definition NxOK (nx : istate -> env -> istate * env * sig) (c : node) : Prop :=
  forall s r, SShape c s -> no_fuel_err (snd (nx s r)) /\ SShape c (fst (fst (nx s r))).

Lemma all_next_fuel : forall nx cs ss r, Forall (NxOK nx) cs -> Forall2 SShape cs ss ->
  no_fuel_err (snd (all_next nx ss r)) /\ Forall2 SShape cs (fst (fst (all_next nx ss r))).
Proof.
  intros nx cs ss r HN F. revert r. induction F as [|c s cs ss Hcs F IH]; intros r.
  - cbn. split; [discriminate | constructor].
  - inversion HN as [|? ? Hc Hr]; subst. cbn [all_next]. destruct (Hc s r Hcs) as [H1 H2].
    destruct (nx s r) as [[s1 r1] [e|]].
    + split; [exact H1 | constructor; assumption].
    + destruct (IH Hr r1) as [H3 H4]. destruct (all_next nx ss r1) as [[ss1 r2] sg].
      split; [exact H3 | constructor; assumption].
Qed.

Lemma carry_fuel : forall nx cs ss prev, Forall (NxOK nx) cs -> Forall2 SShape cs ss ->
  no_fuel_err (snd (fst (carry nx ss prev))) /\ Forall2 SShape cs (fst (fst (fst (carry nx ss prev)))).
Proof.
  intros nx cs ss prev HN F. revert prev. induction F as [|c s cs ss Hcs F IH]; intros prev.
  - cbn. split; [discriminate | constructor].
  - inversion HN as [|? ? Hc Hr]; subst. cbn [carry]. destruct (Hc s prev Hcs) as [H1 H2].
    destruct (nx s prev) as [[s1 p1] [e|]].
    + destruct (is_stop e) eqn:Es.
      * destruct ss as [|s' ss'].
        -- inversion F; subst. split; [discriminate | constructor; [exact H2 | constructor]].
        -- destruct (Hc (reset s1) p1 (SShape_reset _ _ H2)) as [H3 H4].
           destruct (nx (reset s1) p1) as [[s2 p2] [e2|]].
           ++ split; [exact H3 | constructor; assumption].
           ++ destruct (IH Hr p2) as [H5 H6]. destruct (carry nx (s' :: ss') p2) as [[[ss1 p3] sg] ex].
              split; [exact H5 | constructor; assumption].
      * split; [exact H1 | constructor; assumption].
    + split; [discriminate | constructor; assumption].
Qed.

Theorem fuel_enough : forall p f t st r, (height t <= f)%nat -> SShape t st ->
  no_fuel_err (snd (next p f st r)) /\ SShape t (fst (fst (next p f st r))).
Proof.
  intros p. induction f as [|f IH]; intros t st r Hh HS; [pose proof (height_pos t); lia|].
  assert (HN : forall cs, Forall (fun c => (height c <= f)%nat) cs -> Forall (NxOK (next p f)) cs).
  { intros cs H. eapply Forall_impl; [|exact H]. intros c Hc s r0 Hs. apply IH; assumption. }
  destruct HS as [n ty vs n' ty' rest all | cs ex first prev ss F | cs ss F].
  - cbn [next]. destruct rest; split; try discriminate; constructor.
  - cbn [height] in Hh. pose proof (HN cs (height_children cs f Hh)) as HNc. cbn [next].
    destruct (ex && negb p); [split; [discriminate | constructor; exact F]|].
    destruct first.
    + destruct (all_next_fuel (next p f) cs ss prev HNc F) as [H1 H2].
      destruct (all_next (next p f) ss prev) as [[ss1 p1] [e|]]; (split; [assumption || discriminate | constructor; exact H2]).
    + assert (HNr : Forall (NxOK (next p f)) (rev cs)) by (apply Forall_rev; exact HNc).
      destruct (carry_fuel (next p f) (rev cs) (rev ss) prev HNr (Forall2_rev _ _ _ _ _ F)) as [H1 H2].
      destruct (carry (next p f) (rev ss) prev) as [[[ss1 p1] [e|]] exh];
        (split; [assumption || discriminate | constructor; apply Forall2_rev in H2; rewrite rev_involutive in H2; exact H2]).
  - cbn [height] in Hh. pose proof (HN cs (height_children cs f Hh)) as HNc. cbn [next].
    destruct (all_next_fuel (next p f) cs ss r HNc F) as [H1 H2].
    destruct (all_next (next p f) ss r) as [[ss1 r1] sg]. split; [exact H1 | constructor; exact H2].
Qed.

(* __getitem__ raises nothing but IndexError, for EVERY tree.  In particular the model's stand-in for
   ZeroDivisionError in ProductNode.__getitem__ (Raise RuntimeError; Base.exn has no
   ZeroDivisionError) is unreachable: past the bounds test the product of the child lengths is
   not zero, so no child length is. *)
Definition OnlyIndexError {A : Type} (o : outcome A) : Prop := forall x, o = Raise x -> x = IndexError.

Lemma OnlyIndexError_bind : forall (A B : Type) (o : outcome A) (f : A -> outcome B),
  OnlyIndexError o -> (forall a, o = Ok a -> OnlyIndexError (f a)) -> OnlyIndexError (bind o f).
Proof.
  intros A B [a|y] f Ho Hf x E; cbn [bind] in E; [exact (Hf a eq_refl x E)|].
  apply Ho. inversion E. reflexivity.
Qed.

Lemma OnlyIndexError_ok : forall (A : Type) (a : A), OnlyIndexError (Ok a).
Proof. intros A a x E. discriminate E. Qed.

Lemma len_loop_nonzero : forall cs acc v, len_loop node_len cs acc = Ok v -> v <> 0%Z ->
  acc <> 0%Z /\ Forall (fun c => exists l, node_len c = Ok l /\ l <> 0%Z) cs.
Proof.
  induction cs as [|c cs IH]; intros acc v E Hv; cbn [len_loop] in E.
  - inversion E; subst. split; [exact Hv | constructor].
  - apply bind_ok in E. destruct E as [n [En E]].
    destruct (IH _ _ E Hv) as [Hacc HF]. split; [nia|]. constructor; [exists n; split; [exact En | nia] | exact HF].
Qed.

Lemma node_len_raises : forall t, OnlyIndexError (node_len t).
Proof.
  induction t as [n ty vs | cs IH | cs IH] using node_ind2; cbn [node_len].
  - apply OnlyIndexError_ok.
  - generalize 1%Z. induction IH as [|c cs Hc _ IHl]; intros acc; cbn [len_loop]; [apply OnlyIndexError_ok|].
    apply OnlyIndexError_bind; [exact Hc|]. intros n _. apply IHl.
  - destruct IH as [|c cs Hc _]; [intros x E; congruence | exact Hc].
Qed.

Lemma prod_get_tail_raises : forall cs,
  Forall (fun c => exists l, node_len c = Ok l /\ l <> 0%Z) cs ->
  Forall (fun c => forall i, OnlyIndexError (getitem c i)) cs ->
  forall index res, OnlyIndexError (prod_get_tail getitem cs index res).
Proof.
  induction cs as [|c cs IH]; intros Hl H index res; [apply OnlyIndexError_ok|].
  inversion Hl as [|? ? [l [El Hnz]] Hlr]; inversion H as [|? ? Hc Hr]; subst. cbn [prod_get_tail].
  apply OnlyIndexError_bind; [apply (IH Hlr Hr)|]. intros ir _. rewrite El. cbn [bind].
  destruct (Z.eqb_spec l 0) as [|_]; [contradiction|].
  apply OnlyIndexError_bind; [apply Hc|]. intros e _. apply OnlyIndexError_ok.
Qed.

Theorem getitem_raises : forall t i, OnlyIndexError (getitem t i).
Proof.
  induction t as [n ty vs | cs IH | cs IH] using node_ind2; intros i; cbn [getitem].
  - apply OnlyIndexError_bind; [|intros v _; apply OnlyIndexError_ok].
    unfold py_index. destruct (_ && _); [destruct (nth_error _ _)|]; intros x E; congruence.
  - apply OnlyIndexError_bind; [apply node_len_raises|]. intros len EL. cbv zeta.
    destruct (_ && _) eqn:T; [|intros x E; congruence].
    destruct (len_loop_nonzero cs 1%Z len EL ltac:(lia)) as [_ Hnz].
    destruct cs as [|c0 rest]; [apply OnlyIndexError_ok|]. cbn [prod_get].
    inversion IH as [|? ? H0 Hrest]; inversion Hnz as [|? ? _ Hnzr]; subst.
    apply OnlyIndexError_bind; [apply prod_get_tail_raises; assumption|]. intros ir _.
    apply OnlyIndexError_bind; [apply H0|]. intros e _. apply OnlyIndexError_ok.
  - generalize (@nil (str * pval)). induction IH as [|c cs Hc _ IHl]; intros res; cbn [assoc_get]; [apply OnlyIndexError_ok|].
    apply OnlyIndexError_bind; [apply Hc|]. intros e _. apply IHl.
Qed.

Theorem getitem_no_zero_division : forall t i, getitem t i <> Raise RuntimeError.
Proof. intros t i E. apply getitem_raises in E. discriminate E. Qed.
