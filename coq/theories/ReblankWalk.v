(* ReblankWalk.v — C19, blanks inside '{{ }}', lifted to the reference walker: a document whose
   format strings are re-blanked gets the SAME list of reference errors (an error carries its
   location and the referenced name, not the quoted text).

   The walker reads a string at a format-string site only through its front end
   [refs : str -> option (list str)]; RenameProofs.v already proves that the walk commutes with a
   rewriting [rs] of the format-string sites together with a renaming [rho] of the declared names.
   Here [rho] is the identity, and [fs_refs classify (rs s) = fs_refs classify s] comes from
   ReblankProofs.v. *)
From Coq Require Import List NArith ZArith Bool String.
Import ListNotations.
Require Import OJD.Base OJD.Lexer OJD.Json OJD.Schema OJD.Generated OJD.FormatStr OJD.FsRefs
               OJD.ScopeWalk OJD.ScopeSpec OJD.RenameProofs OJD.Reblank OJD.ReblankProofs OJD.ReblankCanon.
Local Open Scope string_scope.
Local Open Scope list_scope.

Definition idn (x : str) : str := x.

(* the document with every format-string site mapped through [rs]; declared names (job parameters,
   task parameters, embedded files) and everything else untouched *)
Definition reblank_job (rs : str -> str) : json -> json := rename_job idn rs.
Definition reblank_env_template (rs : str -> str) : json -> json := rename_env_template idn rs.

Lemma rename_sym_idn : forall n, rename_sym idn n = n.
Proof.
  intros n. unfold rename_sym. destruct (split_pfx n) as [[p x]|] eqn:E; [|reflexivity].
  unfold split_pfx in E. apply split_in_some in E as [_ ->]. reflexivity.
Qed.

Lemma rename_err_idn : forall e, rename_err idn e = e.
Proof. intros [l n|]; [|reflexivity]. cbn [rename_err]. now rewrite rename_sym_idn. Qed.

Lemma map_idn : forall (A : Type) (f : A -> A), (forall a, f a = a) -> forall l, map f l = l.
Proof. intros A f H l. rewrite (map_ext f (fun a => a) H). apply map_id. Qed.

Lemma ren_name_idn : forall v, ren_name idn v = v.
Proof. intros [| | | |s| |]; try reflexivity. destruct s; reflexivity. Qed.

(* the walk depends on the strings at format-string sites only through the front end *)
Theorem walker_front_end : forall (rs : str -> str) (refs refs' : str -> option (list str)) (j : json),
  (forall s, In s (jstrings j) -> refs' (rs s) = refs s) ->
  prevalidate Generated.schema refs' "JobTemplate" (reblank_job rs j)
  = prevalidate Generated.schema refs "JobTemplate" j /\
  prevalidate Generated.schema refs' "EnvironmentTemplate" (reblank_env_template rs j)
  = prevalidate Generated.schema refs "EnvironmentTemplate" j.
Proof.
  intros rs refs refs' j H.
  assert (H' : forall s, In s (jstrings j) -> refs' (rs s) = option_map (map (rename_sym idn)) (refs s)).
  { intros s Hs. rewrite (H s Hs). destruct (refs s) as [l|]; [|reflexivity].
    cbn [option_map]. now rewrite (map_idn _ _ rename_sym_idn). }
  destruct (rename_walker idn rs refs refs' j (fun a b E => E)
              (fun c r (E : idn (c :: r) = []) => @nil_cons _ c r (eq_sym E)) H') as [HJ HE].
  unfold reblank_job, reblank_env_template. rewrite HJ, HE.
  now rewrite !(map_idn _ _ rename_err_idn).
Qed.

Theorem reblank_walker : forall classify, ascii_ok classify = true ->
  forall (rs : str -> str) (j : json),
  (forall s, In s (jstrings j) -> reblank classify s (rs s)) ->
  prevalidate Generated.schema (fs_refs classify) "JobTemplate" (reblank_job rs j)
  = prevalidate Generated.schema (fs_refs classify) "JobTemplate" j /\
  prevalidate Generated.schema (fs_refs classify) "EnvironmentTemplate" (reblank_env_template rs j)
  = prevalidate Generated.schema (fs_refs classify) "EnvironmentTemplate" j.
Proof.
  intros classify AOK rs j H. apply walker_front_end.
  intros s Hs. symmetry. apply (reblank_refs classify AOK). exact (H s Hs).
Qed.

(* an instance without hypothesis on the document: strip every blank inside every '{{ }}' of the document *)
Theorem reblank_walker_canon : forall classify, ascii_ok classify = true -> forall j : json,
  prevalidate Generated.schema (fs_refs classify) "JobTemplate" (reblank_job (canon classify) j)
  = prevalidate Generated.schema (fs_refs classify) "JobTemplate" j /\
  prevalidate Generated.schema (fs_refs classify) "EnvironmentTemplate" (reblank_env_template (canon classify) j)
  = prevalidate Generated.schema (fs_refs classify) "EnvironmentTemplate" j.
Proof.
  intros classify AOK j. apply (reblank_walker classify AOK).
  intros s _. apply (reblank_canon classify AOK).
Qed.
