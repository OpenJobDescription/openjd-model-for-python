(* ExportFaithfulProofs.v — C17 "faithful": the export of a decoded document is the document, up to numeric
   formatting ([jequiv], ExportFaithful.v).  For ALL documents / fuels / character tables / validators.

     scalar_body_faithful     every scalar kind coerces without loss: what it stores, printed again, reads as the
                              value it was given (lax int of 30.0 / "30" / true, lax str of 12 / true, Decimal of
                              1.5 / "1e3" / 2, float of 2 / true, ...)
     parse_walk               the walk of the decoder, for an arbitrary relation between a document and the value
                              decoded from it (also used by ExportFaithfulKeys.v)
     faithful_generic         any schema whose classes forbid unknown keys and have distinct names and aliases:
                              parse_kind / parse_cls f .. v = Ok x  ->  jequiv v (exp x)
     faithful_any             the live schema: every class of the module, as parse_any / export compute it
   Lemmas only; the property theorems are in props/C17xf.v. *)
From Coq Require Import List NArith ZArith Bool String Lia Arith.
Import ListNotations.
Require OJD.ListLib.
Require Import OJD.Base OJD.Lexer OJD.Json OJD.Schema OJD.Generated OJD.Charsets OJD.Numerals OJD.NumPrint
               OJD.CreateJob OJD.Parse OJD.Validators OJD.Accept OJD.Export OJD.NumRoundtrip OJD.ExportProofs
               OJD.ExportFaithful OJD.ExportFaithfulNum.
Local Open Scope string_scope.
Local Open Scope list_scope.

(* what the proof needs of a schema: every class forbids unknown keys, and its attribute names and its input
   names (aliases) are pairwise distinct *)
Definition faithful_cls_ok (k : cls) : bool :=
  c_extra_forbid k && nodup_sb (map f_name (c_fields k)) && nodup_sb (map f_alias (c_fields k)).

Definition faithful_schema_ok (SC : schema_t) : bool := forallb (fun ck => faithful_cls_ok (snd ck)) SC.

Lemma jequiv_null_l : forall b, jequiv JNull b -> b = JNull.
Proof.
  intros b H. inversion H as [| | | | |a0 b0 x y Ha Hb Hxy Hbs E1 E2| |]; subst; try reflexivity.
  discriminate Ha.
Qed.

Lemma je_same_num : forall a b x, as_num a = Some x -> as_num b = Some x -> bool_vs_str a b = false -> jequiv a b.
Proof. intros a b x Ha Hb Hbs. eapply JE_num; [exact Ha|exact Hb|apply num_eqb_refl|exact Hbs]. Qed.

Lemma as_num_print_dec : forall m e, as_num (JStr (print_dec m e)) = Some (mkNum m e).
Proof. intros m e. cbn [as_num]. rewrite parse_dec_print_dec. reflexivity. Qed.

Lemma json_null_dec : forall j : json, j = JNull \/ j <> JNull.
Proof. intros j. destruct j; try (right; discriminate). left. reflexivity. Qed.

Lemma jlook_some : forall k ms v, assoc k ms = Some v -> v <> JNull -> jlook k ms = Some v.
Proof. intros k ms v H Hn. unfold jlook. rewrite H. destruct v; try reflexivity. contradiction. Qed.

Lemma jlook_absent : forall k (ms : list (str * json)), assoc k ms = None -> jlook k ms = None.
Proof. intros k ms H. unfold jlook. rewrite H. reflexivity. Qed.

Lemma jlook_null : forall k ms, assoc k ms = Some JNull -> jlook k ms = None.
Proof. intros k ms H. unfold jlook. rewrite H. reflexivity. Qed.

Lemma je_obj_cases : forall ms ms',
  (forall key, (jlook key ms = None /\ jlook key ms' = None)
               \/ (exists v v', jlook key ms = Some v /\ jlook key ms' = Some v' /\ jequiv v v')) ->
  jequiv (JObj ms) (JObj ms').
Proof.
  intros ms ms' H. apply JE_obj.
  - intros key. destruct (H key) as [[A B]|[v0 [v0' [A [B _]]]]]; rewrite A, B; split; intros E; try reflexivity; discriminate E.
  - intros key v v' Hv Hv'. destruct (H key) as [[A B]|[v0 [v0' [A [B C]]]]].
    + rewrite A in Hv. discriminate Hv.
    + rewrite A in Hv. rewrite B in Hv'. inversion Hv. inversion Hv'. subst. exact C.
Qed.

Lemma assoc_lockstep : forall (R : json -> json -> Prop) (l l' : list (str * json)),
  Forall2 (fun a b => fst a = fst b /\ R (snd a) (snd b)) l l' ->
  forall key, match assoc key l, assoc key l' with
              | Some v, Some v' => R v v'
              | None, None => True
              | _, _ => False
              end.
Proof.
  intros R l l' H key. induction H as [|[k v] [k' v'] l l' Hab _ IH]; [exact I|].
  cbn [fst snd] in Hab. destruct Hab as [E HR]. subst k'. cbn [assoc].
  destruct (str_eqb key k); [exact HR|exact IH].
Qed.

(* the walk of the decoder.  A relation [R] between a document and the value decoded from it holds of every
   successful parse as soon as it holds of the scalars, passes from the items to a list, and passes through a
   dictionary and through a class body when it holds one level down.  ([no_none_items], proved by the same
   walk in ExportProofs.parse_nn, is passed along because both container cases need it.)             *)

Section Walk.
  Variable SC : schema_t.
  Variable classify : N -> cclass.
  Variable pre : string -> json -> bool.
  Variable post : string -> json -> list (string * mval) -> bool.
  Variable R : json -> mval -> Prop.

  Definition holds_below (pk : kind -> json -> outcome mval) : Prop :=
    (forall k v x, pk k v = Ok x -> no_none_items x = true) /\ (forall k v x, pk k v = Ok x -> R v x).

  Hypothesis R_scalar : forall k v x, scalar_body classify k v = Ok x -> R v x.
  Hypothesis R_list : forall items l, Forall2 R items l -> R (JArr items) (MList l).
  Hypothesis R_dict : forall pk kk k v x, holds_below pk -> dict_value pk kk k v = Ok x -> R v x.
  Hypothesis R_cls : forall pk c v x, holds_below pk ->
    (forall fl raw y, shape_value pk fl raw = Ok y -> R raw y) -> cls_body SC pre post pk c v = Ok x -> R v x.

  Section Step.
    Variable pk : kind -> json -> outcome mval.
    Variable pc : string -> json -> outcome mval.
    Hypothesis Hk : holds_below pk.
    Hypothesis Hc : forall c v x, pc c v = Ok x -> R v x.

    Lemma list_value_walk : forall minl maxl k v x, list_value pk minl maxl k v = Ok x -> R v x.
    Proof.
      intros minl maxl k v x H. destruct (AcceptMono.list_items_ok _ _ _ _ _ _ H) as [items [l [-> [E ->]]]].
      apply R_list. apply ListLib.mapM_Forall2 in E. eapply ListLib.Forall2_impl; [|exact E]. apply Hk.
    Qed.

    Lemma try_alts_walk : forall alts v x, try_alts_b pk alts v = Ok x -> R v x.
    Proof.
      induction alts as [|a r IH]; intros v x H; [discriminate|].
      destruct (try_alts_cons_ok _ _ _ _ _ H) as [E|[_ Hr]]; [|eapply IH; exact Hr].
      destruct a; cbn [alt_value] in E; [eapply Hk|eapply list_value_walk]; eassumption.
    Qed.

    Lemma kind_body_walk : forall k v x, kind_body classify pk pc k v = Ok x -> R v x.
    Proof.
      intros k v x H. destruct k; try (eapply R_scalar; exact H).
      - eapply Hc; eassumption.
      - cbn [kind_body] in H. unfold disc_value in H. destruct v; try discriminate.
        destruct (assoc $key members) as [[| | | |s| |]|]; try discriminate.
        destruct (List.find _ mapping) as [[t c]|]; [|discriminate]. eapply Hc; eassumption.
      - eapply try_alts_walk; eassumption.
    Qed.

    Lemma shape_value_walk : forall fl raw x, shape_value pk fl raw = Ok x -> R raw x.
    Proof.
      intros fl raw x H. unfold shape_value in H.
      destruct (f_shape fl); [eapply Hk|eapply list_value_walk|eapply R_dict]; eassumption.
    Qed.
  End Step.

  Theorem parse_walk : forall f,
    (forall k v x, parse_kind SC classify pre post f k v = Ok x -> R v x)
    /\ (forall c v x, parse_cls SC classify pre post f c v = Ok x -> R v x).
  Proof.
    induction f as [|f [IHk IHc]]; [split; intros; discriminate|].
    assert (Hb : holds_below (parse_kind SC classify pre post f))
      by (split; [apply (parse_nn SC classify pre post f)|exact IHk]).
    split.
    - intros k v x H. rewrite parse_kind_Sb in H. eapply kind_body_walk; eassumption.
    - intros c v x H. rewrite parse_cls_Sb in H.
      eapply R_cls; [exact Hb|apply shape_value_walk; exact Hb|exact H].
  Qed.
End Walk.

Section Scalars.
  Variable SC : schema_t.
  Variable classify : N -> cclass.
  Notation EXP := (exp SC).

  Lemma exp_scalar : forall x, sval x = true -> EXP x = to_object SC 2 x.
  Proof. intros x H. destruct x; try discriminate; reflexivity. Qed.

  Theorem scalar_body_faithful : forall k v x,
    scalar_body classify k v = Ok x -> jequiv v (EXP x).
  Proof.
    intros k v x H.
    destruct (scalar_body_ok _ _ _ _ H) as [lit s _|ms s _|strict lo hi cs v t Ht _|n lo hi cs s _|strict b
                                           |strict ge le gt v z Hz _|gt v m e Hv _|v m e Hv];
      try apply JE_str; try apply JE_bool.
    - (* a string field: given a string, or (lax) a bool or an int, stored as its text *)
      destruct v as [|b|z|dm de|s| |]; try discriminate Ht; try (destruct strict; [discriminate Ht|]);
        injection Ht as <-.
      + destruct b; [exact (JE_bool_str true)|exact (JE_bool_str false)].
      + eapply je_same_num; [reflexivity| |reflexivity].
        change (EXP (MStr (print_Z z))) with (JStr (print_Z z)). cbn [as_num]. rewrite parse_dec_print_Z. reflexivity.
      + apply JE_str.
    - (* an int field: given an int, or (lax) a bool, an integral float or a numeric text *)
      destruct v as [|b|z0|dm de|s| |]; try discriminate Hz; try (destruct strict; [discriminate Hz|]);
        cbn [int_value] in Hz.
      + injection Hz as <-. eapply je_same_num; reflexivity.
      + injection Hz as <-. eapply je_same_num; reflexivity.
      + destruct (dec_integral dm de) eqn:Ei; [|discriminate Hz]. injection Hz as <-.
        eapply JE_num; [reflexivity|reflexivity|apply trunc_dec_same_value; exact Ei|reflexivity].
      + eapply je_same_num; [|reflexivity|reflexivity]. cbn [as_num]. rewrite (parse_int_parse_dec _ _ Hz). reflexivity.
    - (* a float field *)
      destruct v; try discriminate Hv; injection Hv as <- <-; eapply je_same_num; reflexivity.
    - (* Decimal: stored as (m, e), exported as the text of the Decimal *)
      destruct v as [|b|z|dm de|s| |]; try discriminate Hv; cbn [dec_value] in Hv.
      + injection Hv as <- <-. eapply je_same_num; [reflexivity|apply as_num_print_dec|reflexivity].
      + injection Hv as <- <-. eapply je_same_num; [reflexivity|apply as_num_print_dec|reflexivity].
      + destruct (parse_dec s) as [[m' e'| |]|] eqn:Ep; try discriminate Hv. injection Hv as <- <-.
        eapply je_same_num; [cbn [as_num]; rewrite Ep; reflexivity|apply as_num_print_dec|reflexivity].
  Qed.
End Scalars.

Section FStep.
  Variable SC : schema_t.
  Variable classify : N -> cclass.
  Variable pre : string -> json -> bool.
  Variable post : string -> json -> list (string * mval) -> bool.
  Hypothesis Hsc : faithful_schema_ok SC = true.

  Notation EXP := (exp SC).

  Variable pk : kind -> json -> outcome mval.
  Hypothesis NNk : forall k v x, pk k v = Ok x -> no_none_items x = true.

  Lemma dict_value_f : forall kk k v x, (forall k v x, pk k v = Ok x -> jequiv v (EXP x)) ->
    dict_value pk kk k v = Ok x -> jequiv v (EXP x).
  Proof.
    intros kk k v x IHk H. destruct (dict_value_inv _ NNk _ _ _ _ H) as [members [l' [-> [-> Hm]]]].
    rewrite exp_dict.
    2:{ intros kv Hkv. destruct (ListLib.Forall2_in_r _ _ _ _ _ _ Hm Hkv) as [a [_ [_ [Hnn _]]]]. exact Hnn. }
    apply je_obj_cases. intros key.
    assert (Hl : Forall2 (fun a b => fst a = fst b /\ (snd a <> JNull /\ snd b <> JNull /\ jequiv (snd a) (snd b)))
                         members (map (fun kv : str * mval => (fst kv, EXP (snd kv))) l')).
    { clear - Hm IHk. induction Hm as [|a b l l' [E1 [E2 [E3 _]]] _ IH]; [constructor|].
      cbn [map]. constructor; [|exact IH]. cbn [fst snd]. split; [exact E1|]. apply IHk in E3.
      assert (Hb : EXP (snd b) <> JNull) by (apply exp_not_null; exact E2).
      split; [|split; [exact Hb|exact E3]].
      intros En. rewrite En in E3. apply jequiv_null_l in E3. contradiction. }
    pose proof (assoc_lockstep (fun v v' => v <> JNull /\ v' <> JNull /\ jequiv v v') _ _ Hl key) as Hk. cbv beta in Hk.
    destruct (assoc key members) as [v|] eqn:Ea;
      destruct (assoc key (map (fun kv : str * mval => (fst kv, EXP (snd kv))) l')) as [v'|] eqn:Ea';
      try contradiction.
    - destruct Hk as [H1 [H2 H3]]. right. exists v, v'.
      split; [apply jlook_some; assumption|]. split; [apply jlook_some; assumption|exact H3].
    - left. split; apply jlook_absent; assumption.
  Qed.

  Lemma cls_ok_f : forall c k, lookup_cls SC c = Some k ->
    c_extra_forbid k = true /\ NoDup (map f_name (c_fields k)) /\ NoDup (map f_alias (c_fields k)).
  Proof.
    intros c k Hl. apply AcceptMono.lookup_cls_In in Hl. unfold faithful_schema_ok in Hsc. rewrite forallb_forall in Hsc.
    specialize (Hsc _ Hl). cbn [snd] in Hsc. unfold faithful_cls_ok in Hsc.
    apply andb_true_iff in Hsc. destruct Hsc as [H12 H3]. apply andb_true_iff in H12. destruct H12 as [H1 H2].
    split; [exact H1|]. split; apply nodup_sb_NoDup; assumption.
  Qed.

  Lemma cls_body_exp : forall c v x, cls_body SC pre post pk c v = Ok x ->
    exists k ms vals,
      v = JObj ms /\ EXP x = JObj (emit EXP (combine (c_fields k) vals))
      /\ c_extra_forbid k = true /\ extra_ok k ms = true
      /\ Forall2 (fun fl y => field_value pk fl (raw_of fl ms) = Ok y) (c_fields k) vals
      /\ List.length vals = List.length (c_fields k)
      /\ NoDup (map (fun p : field * mval => f_alias (fst p)) (combine (c_fields k) vals)).
  Proof.
    intros c v x H.
    destruct (cls_body_inv _ _ _ _ c v x H) as [k [ms [vals [Hl [Ev [_ [Hex [Hf [Ex _]]]]]]]]].
    destruct (cls_ok_f c k Hl) as [Hforbid [Hn1 Hn2]].
    assert (Hlen : List.length vals = List.length (c_fields k)) by (symmetry; eapply ListLib.Forall2_length; exact Hf).
    exists k, ms, vals. subst x. rewrite (exp_model SC c k vals Hl Hn1 Hlen). repeat split; try assumption.
    rewrite <- (map_map fst f_alias), map_fst_combine by exact Hlen. exact Hn2.
  Qed.

  Lemma field_value_null : forall fl y, field_value pk fl JNull = Ok y -> y = MNone.
  Proof.
    intros fl y H. unfold field_value in H. destruct (f_required fl); [discriminate|]. inversion H. reflexivity.
  Qed.

  Lemma cls_body_f : forall c v x,
    (forall fl raw y, shape_value pk fl raw = Ok y -> jequiv raw (EXP y)) ->
    cls_body SC pre post pk c v = Ok x -> jequiv v (EXP x).
  Proof.
    intros c v x Hsv H.
    destruct (cls_body_exp c v x H) as [k [ms [vals [-> [-> [Hforbid [Hex [Hf [Hlen Hal]]]]]]]]].
    set (ms' := emit EXP (combine (c_fields k) vals)).
    apply je_obj_cases. intros key.
    destruct (existsb (fun fl => str_eqb key $(f_alias fl)) (c_fields k)) eqn:Ex.
    - (* the key names a field *)
      apply existsb_exists in Ex. destruct Ex as [fl [Hfl Ek]]. apply ListLib.str_eqb_eq in Ek. subst key.
      destruct (in_combine_l_ex _ _ _ vals fl Hfl Hlen) as [y Hy].
      pose proof (Forall2_combine_in _ _ _ _ _ _ _ Hf Hy) as Hfv. cbn beta in Hfv.
      pose proof (assoc_emit EXP _ fl y Hal Hy) as Hout. fold ms' in Hout.
      assert (Hnull : forall raw, raw = JNull -> field_value pk fl raw = Ok y ->
                                  jlook $(f_alias fl) ms' = None).
      { intros raw Er Hv. subst raw. apply field_value_null in Hv. subst y.
        cbn [present option_map] in Hout. apply jlook_absent. exact Hout. }
      unfold raw_of in Hfv. destruct (assoc $(f_alias fl) ms) as [raw|] eqn:Ea.
      + destruct (json_null_dec raw) as [Er|Er].
        * left. split; [subst raw; apply jlook_null; exact Ea|eapply Hnull; eassumption].
        * right. rewrite (field_value_nonnull pk fl raw Er) in Hfv.
          assert (Hnn : mnone y = false) by (apply nn_not_none; eapply shape_value_nn; eassumption).
          assert (Hp : present y = Some y) by (destruct y; try reflexivity; discriminate).
          rewrite Hp in Hout. cbn [option_map] in Hout.
          exists raw, (EXP y). split; [apply jlook_some; assumption|].
          split; [apply jlook_some; [exact Hout|apply exp_not_null; exact Hnn]|].
          eapply Hsv. exact Hfv.
      + left. split; [apply jlook_absent; exact Ea|eapply Hnull; [reflexivity|exact Hfv]].
    - (* the key names no field: it is in neither document *)
      left. split; apply jlook_absent.
      + destruct (assoc key ms) as [v|] eqn:Ea; [|reflexivity]. exfalso.
        apply ListLib.assoc_In in Ea. unfold extra_ok in Hex. rewrite Hforbid in Hex. cbn [andb] in Hex.
        rewrite negb_involutive in Hex. rewrite forallb_forall in Hex. specialize (Hex _ Ea). cbn [fst] in Hex.
        rewrite Hex in Ex. discriminate.
      + destruct (assoc key ms') as [v'|] eqn:Ea; [|reflexivity]. exfalso.
        apply ListLib.assoc_In in Ea. destruct (emit_keys _ _ _ Ea) as [[fl y] [Hp Hk]]. cbn [fst] in Hk.
        assert (Et : existsb (fun fl => str_eqb key $(f_alias fl)) (c_fields k) = true).
        { apply existsb_exists. exists fl. split; [apply in_combine_l in Hp; exact Hp|].
          rewrite Hk. apply ListLib.str_eqb_refl. }
        rewrite Et in Ex. discriminate.
  Qed.
End FStep.

Section FMain.
  Variable SC : schema_t.
  Variable classify : N -> cclass.
  Variable pre : string -> json -> bool.
  Variable post : string -> json -> list (string * mval) -> bool.
  Hypothesis Hsc : faithful_schema_ok SC = true.

  Notation PK := (parse_kind SC classify pre post).
  Notation PC := (parse_cls SC classify pre post).
  Notation EXP := (exp SC).

  Theorem faithful_generic : forall f,
    (forall k v x, PK f k v = Ok x -> jequiv v (EXP x))
    /\ (forall c v x, PC f c v = Ok x -> jequiv v (EXP x)).
  Proof.
    apply (parse_walk SC classify pre post (fun v x => jequiv v (EXP x))).
    - apply scalar_body_faithful.
    - intros items l H. rewrite exp_list. apply JE_arr.
      induction H as [|a b l0 l' Hab _ IH]; cbn [map]; constructor; assumption.
    - intros pk kk k v x [NNk IHk]. apply dict_value_f; assumption.
    - intros pk c v x [NNk _]. apply cls_body_f; assumption.
  Qed.
End FMain.

Lemma generated_faithful_ok : faithful_schema_ok Generated.schema = true.
Proof. vm_compute. reflexivity. Qed.

(* every class of the module *)
Theorem faithful_any : forall classify root j v,
  parse_any classify root j = Ok v -> jequiv j (export v).
Proof.
  intros classify root j v H. unfold parse_any in H. rewrite export_exp.
  destruct (faithful_generic Generated.schema classify (pre_full classify (parse_fuel j)) (post_hook classify)
                             generated_faithful_ok (parse_fuel j)) as [_ Hc].
  eapply Hc; eassumption.
Qed.
