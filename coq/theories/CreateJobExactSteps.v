(* CreateJobExactSteps.v — C05_exact: steps and the template root, with the treatment of a step's
   parameterSpace and hostRequirements left abstract (Section hypotheses [Hps], [Hhr]); they are
   supplied by CreateJobExactSpace.v / CreateJobExactHost.v.  It also says how an accepted field, StepTemplate and
   JobTemplate root were read ([read_opt], [read_list], [step_template_inv], [job_template_inv], [step_inst]); the
   key-distinctness half (CreateJobExactKeysSpec.v) and UsableTrace.v read steps and the root through these. *)
From Coq Require Import List NArith ZArith Bool String Lia.
Import ListNotations.
Require Import OJD.Base OJD.ListLib OJD.Lexer OJD.Json OJD.Schema OJD.Generated OJD.Charsets OJD.Numerals OJD.NumPrint
               OJD.FormatStr OJD.CreateJob OJD.CreateJobProofs OJD.CreateJobSpec OJD.Parse OJD.Validators OJD.Accept
               OJD.ExportProofs OJD.AcceptMono OJD.DecodeInv OJD.JsonEquiv OJD.CreateJobExactLib OJD.CreateJobExactCarried
               OJD.CreateJobExactParams.
Local Open Scope string_scope.
Local Open Scope list_scope.

Definition carried_ok (v : json) : bool := lax_ints_native v && keys_distinct v.

Lemma carried_ok_arr : forall l, carried_ok (JArr l) = true ->
  forallb lax_ints_native l = true /\ forallb keys_distinct l = true.
Proof. intros l H. unfold carried_ok in H. apply andb_true_iff in H. exact H. Qed.

Lemma carried_closed : closedb G carried_classes = true.
Proof. vm_compute. reflexivity. Qed.

Section FieldInv.
  Variable classify : N -> cclass.
  Notation pk := (parse_kind G classify pre_hook (post_hook classify)).
  Notation pc := (parse_cls G classify pre_hook (post_hook classify)).

  Lemma pk_classes_carried : forall f k v m, pk f k v = Ok m -> incl (kind_classes k) carried_classes ->
    incl (classes_in m) carried_classes.
  Proof.
    intros f. exact (proj1 (parse_classes G classify pre_hook (post_hook classify) carried_classes
                                          (closedb_sound _ _ carried_closed) f)).
  Qed.

  Lemma field_value_inv : forall f ms fl y, parse_field (pk f) ms fl = Ok y ->
    exists x, y = (f_name fl, x) /\
              (field_raw ms fl = JNull /\ x = MNone /\ f_required fl = false \/
               field_raw ms fl <> JNull /\ parse_value (pk f) fl (field_raw ms fl) = Ok x).
  Proof.
    intros f ms fl y H. destruct (parse_field_ok _ _ _ _ H) as [x [Hv ->]]. exists x. split; [reflexivity|].
    destruct (field_raw ms fl) eqn:E; [left|right; split; [discriminate|exact Hv] ..].
    cbn [parse_value] in Hv. destruct (f_required fl); [discriminate Hv|]. injection Hv as <-. repeat split.
  Qed.

  Lemma pk_model_shape : forall f c v x, pk f (KModel c) v = Ok x -> exists fs, x = MModel c fs.
  Proof.
    intros f c v x H. destruct f as [|f]; [discriminate H|]. rewrite parse_kind_S in H.
    destruct (pc_inv _ _ _ _ _ _ _ _ H) as [f' [c0 [ms [fields [_ [_ [_ [-> _]]]]]]]]. exists fields. reflexivity.
  Qed.

  (* how an optional field was read: absent, or a value / a list of values of kind [k] *)
  Definition read_opt (f : nat) (k : kind) (raw : json) (x : mval) : Prop :=
    raw = JNull /\ x = MNone \/ raw <> JNull /\ pk f k raw = Ok x.
  Definition read_list (f : nat) (k : kind) (raw : json) (x : mval) : Prop :=
    raw = JNull /\ x = MNone \/
    exists items l, raw = JArr items /\ x = MList l /\ Forall2 (fun it m => pk f k it = Ok m) items l.

  Definition list_shaped (fl : field) : Prop := match f_shape fl with ListOf _ _ => True | _ => False end.

  Lemma field_opt_inv : forall f ms fl y, parse_field (pk f) ms fl = Ok y -> f_shape fl = Single ->
    exists x, y = (f_name fl, x) /\ read_opt f (f_kind fl) (field_raw ms fl) x.
  Proof.
    intros f ms fl y H Hs. destruct (field_value_inv f ms fl y H) as [x [-> [[E1 [E2 _]]|[Hn Hv]]]]; exists x;
      (split; [reflexivity|]); [left; split; assumption|right; split; [exact Hn|]].
    exact (parse_value_single G classify pre_hook (post_hook classify) f fl _ x Hs Hn Hv).
  Qed.

  Lemma field_req_inv : forall f ms fl y, parse_field (pk f) ms fl = Ok y -> f_shape fl = Single -> f_required fl = true ->
    exists x, y = (f_name fl, x) /\ field_raw ms fl <> JNull /\ pk f (f_kind fl) (field_raw ms fl) = Ok x.
  Proof.
    intros f ms fl y H Hs Hr. destruct (field_value_inv f ms fl y H) as [x [-> [[_ [_ E]]|[Hn Hv]]]]; [congruence|].
    exists x. split; [reflexivity|]. split; [exact Hn|].
    exact (parse_value_single G classify pre_hook (post_hook classify) f fl _ x Hs Hn Hv).
  Qed.

  Lemma field_optlist_inv : forall f ms fl y, parse_field (pk f) ms fl = Ok y -> list_shaped fl ->
    exists x, y = (f_name fl, x) /\ read_list f (f_kind fl) (field_raw ms fl) x.
  Proof.
    intros f ms fl y H Hs. destruct (field_value_inv f ms fl y H) as [x [-> [[E1 [E2 _]]|[Hn Hv]]]]; exists x;
      (split; [reflexivity|]); [left; split; assumption|right].
    destruct (parse_value_ok _ _ _ _ Hv) as [[E _]|K]; [contradiction|].
    unfold list_shaped in Hs. destruct (f_shape fl) as [|lo hi|]; try destruct Hs.
    destruct (list_items_ok _ _ _ _ _ _ K) as [items [l [E [Hm ->]]]]. exists items, l. repeat split; [exact E|].
    apply mapM_Forall2. exact Hm.
  Qed.

  Lemma list_items_ne : forall f hi k raw x, list_items (pk f) (Some 1%N) hi k raw = Ok x ->
    exists items l, raw = JArr items /\ x = MList l /\ Forall2 (fun it m => pk f k it = Ok m) items l /\ l <> [].
  Proof.
    intros f hi k raw x K. unfold list_items in K. destruct raw as [| | | | |items|]; try discriminate K.
    destruct (len_ok_n (Some 1%N) hi (List.length items)) eqn:El; [|discriminate K].
    destruct (mapM (pk f k) items) as [l|e] eqn:Em; cbn [bind] in K; [|discriminate K]. injection K as <-.
    exists items, l. repeat split; [apply mapM_Forall2; exact Em|]. intros ->. apply mapM_length in Em.
    destruct items; [destruct hi; vm_compute in El; discriminate El|discriminate Em].
  Qed.

  Lemma field_reqlist_inv : forall f ms fl hi y, parse_field (pk f) ms fl = Ok y ->
    f_shape fl = ListOf (Some 1%N) hi -> f_required fl = true ->
    exists items l, y = (f_name fl, MList l) /\ field_raw ms fl = JArr items /\
                    Forall2 (fun it m => pk f (f_kind fl) it = Ok m) items l /\ l <> [].
  Proof.
    intros f ms fl hi y H Hs Hr. destruct (parse_field_ok _ _ _ _ H) as [x [Hv ->]].
    destruct (parse_value_ok _ _ _ _ Hv) as [[_ [E _]]|K]; [congruence|]. rewrite Hs in K.
    destruct (list_items_ne _ _ _ _ _ K) as [items [l [E [-> K']]]]. exists items, l. split; [reflexivity|]. split; assumption.
  Qed.

  Lemma carried_single : forall f k raw x, ckind_ok k = true -> pk f k raw = Ok x -> carried_ok raw = true ->
    json_equiv (jobj G x) (same raw).
  Proof.
    intros f k raw x Hk H Hc. unfold carried_ok in Hc. apply andb_true_iff in Hc. destruct Hc as [Hl Hd].
    apply json_equiv_same_r. exact (carried_kind classify f k raw x Hk H Hl Hd).
  Qed.

  Lemma carried_list : forall f k items l, ckind_ok k = true ->
    Forall2 (fun it m => pk f k it = Ok m) items l -> carried_ok (JArr items) = true ->
    json_equiv (jobj G (MList l)) (same (JArr items)).
  Proof.
    intros f k items l Hk HF Hc. destruct (carried_ok_arr _ Hc) as [Hl Hd].
    apply json_equiv_same_r. cbn [jobj]. constructor.
    exact (carried_items classify f k items l (carried_kind classify f) Hk HF Hl Hd).
  Qed.

  Lemma list_classes_carried : forall f k items l, incl (kind_classes k) carried_classes ->
    Forall2 (fun it m => pk f k it = Ok m) items l -> incl (classes_in (MList l)) carried_classes.
  Proof.
    intros f k items l Hk HF c Hc. cbn [classes_in] in Hc. apply in_flat_map in Hc. destruct Hc as [m [Hm Hc]].
    clear - HF Hm Hc Hk. induction HF as [|it m' r r' Hp _ IH]; [destruct Hm|].
    destruct Hm as [<-|Hm]; [exact (pk_classes_carried f k it m' Hp Hk c Hc)|exact (IH Hm)].
  Qed.

  Lemma read_opt_single : forall f c raw x, read_opt f (KModel c) raw x -> single x = true.
  Proof. intros f c raw x [[_ ->]|[_ H]]; [reflexivity|]. destruct (pk_model_shape f c raw x H) as [fs ->]. reflexivity. Qed.

  Lemma read_list_opt_list : forall f k raw x, read_list f k raw x -> opt_list x = true.
  Proof. intros f k raw x [[_ ->]|[items [l [_ [-> _]]]]]; reflexivity. Qed.

  Lemma read_list_carried : forall f k raw x, read_list f k raw x -> incl (kind_classes k) carried_classes ->
    incl (classes_in x) carried_classes.
  Proof.
    intros f k raw x [[_ ->]|[items [l [_ [-> HF]]]]] Hk; [intros c []|]. exact (list_classes_carried f k items l Hk HF).
  Qed.

  Lemma read_list_same : forall f k raw x, read_list f k raw x -> ckind_ok k = true -> carried_ok raw = true ->
    opt_rel json_equiv (onn (jobj G x)) (onn (same raw)).
  Proof.
    intros f k raw x [[-> ->]|[items [l [-> [-> HF]]]]] Hk Hc; [constructor|].
    apply onn_equiv. exact (carried_list f k items l Hk HF Hc).
  Qed.
End FieldInv.

Lemma jobj_list : forall l, jobj G (MList l) = JArr (map (jobj G) l).
Proof. reflexivity. Qed.

(* the JobTemplate validators include _unique_parameter_names *)
Lemma job_template_ok_unique : forall classify raw fields,
  job_template_ok classify raw fields = true -> unique_names (fget "parameterDefinitions" fields) = true.
Proof.
  intros classify raw fields H. unfold job_template_ok in H.
  do 5 (apply andb_true_iff in H; apply proj1 in H). apply andb_true_iff in H. exact (proj2 H).
Qed.

Section Classes.
  Variable classify : N -> cclass.
  Notation pk := (parse_kind G classify pre_hook (post_hook classify)).
  Notation pc := (parse_cls G classify pre_hook (post_hook classify)).

  Lemma step_template_inv : forall f st x, pk f (KModel "StepTemplate") st = Ok x ->
    exists f' n d sc se ps hr dp,
      f = S (S f') /\
      x = MModel "StepTemplate" [("name", n); ("description", d); ("script", sc); ("stepEnvironments", se);
                                 ("parameterSpace", ps); ("hostRequirements", hr); ("dependencies", dp)] /\
      jget "name" st <> JNull /\ (leaf n = true /\ tobj G n = jget "name" st) /\
      (leaf d = true /\ tobj G d = jget "description" st) /\
      (jget "script" st <> JNull /\ pk f' (KModel "StepScript") (jget "script" st) = Ok sc) /\
      read_list classify f' (KModel "Environment") (jget "stepEnvironments" st) se /\
      read_opt classify f' (KModel "StepParameterSpaceDefinition") (jget "parameterSpace" st) ps /\
      read_opt classify f' (KModel "HostRequirementsTemplate") (jget "hostRequirements" st) hr /\
      read_list classify f' (KModel "StepDependency") (jget "dependencies" st) dp.
  Proof.
    intros f st x H. fold_goal GOAL.
    destruct (pk_model_inv _ _ _ _ _ _ _ _ H) as [f' [c0 [ms [fields [Ef [Hlk [Ev [Ex [_ [_ [Hm _]]]]]]]]]]]. clear H.
    rewrite (cls_fields _ _ 7 Hlk eq_refl) in Hm. cbn [map seq] in Hm.
    next_field Hm y1 r1 H1. next_field Hm y2 r2 H2. next_field Hm y3 r3 H3. next_field Hm y4 r4 H4.
    next_field Hm y5 r5 H5. next_field Hm y6 r6 H6. next_field Hm y7 r7 H7. injection Hm as <-.
    apply field_req_inv in H1; [|reflexivity|reflexivity]. destruct H1 as [n [-> [Hnn Hn]]].
    apply (pk_exact_tobj G classify) in Hn; [|reflexivity].
    apply field_exact_inv in H2; [|reflexivity|reflexivity]. destruct H2 as [d [-> Hd]].
    apply field_req_inv in H3; [|reflexivity|reflexivity]. destruct H3 as [sc [-> Hsc]].
    apply field_optlist_inv in H4; [|exact I]. destruct H4 as [se [-> Hse]].
    apply field_opt_inv in H5; [|reflexivity]. destruct H5 as [ps [-> Hps]].
    apply field_opt_inv in H6; [|reflexivity]. destruct H6 as [hr [-> Hhr]].
    apply field_optlist_inv in H7; [|exact I]. destruct H7 as [dp [-> Hdp]].
    subst GOAL f st x. exists f', n, d, sc, se, ps, hr, dp.
    exact (conj eq_refl (conj eq_refl (conj Hnn (conj Hn (conj Hd (conj Hsc (conj Hse (conj Hps (conj Hhr Hdp))))))))).
  Qed.

  Lemma job_template_inv : forall j t, decode_job classify j = Ok t ->
    exists f' sv s st d pd je ss sitems l,
      t = MModel "JobTemplate" [("specificationVersion", sv); ("name", MFmt s); ("steps", st); ("description", d);
                                ("parameterDefinitions", pd); ("jobEnvironments", je); ("schemaStr", ss)] /\
      jget "name" j = JStr s /\
      jget "steps" j = JArr sitems /\ st = MList l /\ Forall2 (fun it m => pk f' (KModel "StepTemplate") it = Ok m) sitems l /\
      (leaf d = true /\ tobj G d = jget "description" j) /\
      read_list classify f' kdisc_params (jget "parameterDefinitions" j) pd /\ unique_names pd = true /\
      read_list classify f' (KModel "Environment") (jget "jobEnvironments" j) je.
  Proof.
    intros j t H. unfold decode_job in H. destruct j as [| | | | | |ms]; try discriminate H.
    destruct (version_ok Generated.job_template_versions (JObj ms)); [|discriminate H].
    fold_goal GOAL. unfold parse_template, parse_root in H. cls_open H. clear H. injection Ev as <-.
    next_field Hm y1 r1 H1. next_field Hm y2 r2 H2. next_field Hm y3 r3 H3. next_field Hm y4 r4 H4.
    next_field Hm y5 r5 H5. next_field Hm y6 r6 H6. next_field Hm y7 r7 H7. injection Hm as <-.
    apply field_any_inv in H1. destruct H1 as [sv ->].
    apply format_field_inv in H2. destruct H2 as [s [-> [Hs _]]].
    eapply field_reqlist_inv in H3; [|reflexivity|reflexivity]. destruct H3 as [sitems [l [-> [Est [HFst _]]]]].
    apply field_exact_inv in H4; [|reflexivity|reflexivity]. destruct H4 as [d [-> Hd]].
    apply field_optlist_inv in H5; [|exact I]. destruct H5 as [pd [-> Hpd]].
    apply field_optlist_inv in H6; [|exact I]. destruct H6 as [je [-> Hje]].
    apply field_any_inv in H7. destruct H7 as [ss ->].
    apply (job_template_ok_unique classify) in Hpost.
    subst GOAL t. exists f', sv, s, (MList l), d, pd, je, ss, sitems, l.
    split; [reflexivity|]. split; [cbn [jget]; rewrite Hs; reflexivity|].
    repeat (split; [first [reflexivity|assumption]|]). exact Hje.
  Qed.
End Classes.

Section Steps.
  Variable classify : N -> cclass.
  Variable resolve : symtab -> str -> outcome str.
  Variable sigma : symtab.
  Notation pk := (parse_kind G classify pre_hook (post_hook classify)).
  Notation pc := (parse_cls G classify pre_hook (post_hook classify)).

  (* a sub-document of a step that is rewritten: under the condition [P] on it, the export of its instantiated model
     is what [spec] makes of it, and neither is absent *)
  Definition sub_spec_ok (P : json -> Prop) (c : string) (spec : json -> outcome json) : Prop :=
    forall f raw x F y, raw <> JNull -> P raw ->
      pk f (KModel c) raw = Ok x -> mval_depth x < F -> inst G resolve sigma F x = Ok y ->
      exists s, spec raw = Ok s /\ json_equiv (jobj G y) s /\ y <> MNone /\ s <> JNull.

  Variable Pps Phr : json -> Prop.
  Hypothesis Hps : sub_spec_ok Pps "StepParameterSpaceDefinition" (param_space resolve sigma).
  Hypothesis Hhr : sub_spec_ok Phr "HostRequirementsTemplate" (host_req resolve sigma).

  Definition step_ok (st : json) : Prop :=
    carried_ok (jget "script" st) = true /\ carried_ok (jget "stepEnvironments" st) = true /\
    carried_ok (jget "dependencies" st) = true /\
    (jget "parameterSpace" st <> JNull -> Pps (jget "parameterSpace" st)) /\
    (jget "hostRequirements" st <> JNull -> Phr (jget "hostRequirements" st)).

  Lemma sub_model_equiv : forall (P : json -> Prop) c (spec : json -> outcome json),
    sub_spec_ok P c spec ->
    spec JNull = Ok JNull ->
    forall f raw x F y,
      read_opt classify f (KModel c) raw x ->
      (raw <> JNull -> P raw) -> mval_depth x < F -> inst_elem (inst G resolve sigma F) x = Ok y ->
      exists s, spec raw = Ok s /\ exports y s.
  Proof.
    intros P c spec Hsub Hnull f raw x F y [[-> ->]|[Hn Hp]] HP HF Hy.
    - cbn [inst_elem] in Hy. injection Hy as <-. exists JNull. split; [exact Hnull|constructor].
    - destruct (pk_model_shape classify f c raw x Hp) as [fs ->]. cbn [inst_elem] in Hy.
      destruct (Hsub f raw _ F y Hn (HP Hn) Hp HF Hy) as [s [Hs [He _]]].
      exists s. split; [exact Hs|apply onn_equiv; exact He].
  Qed.

  Lemma models_equiv : forall f F c (P : json -> Prop) (spec : json -> outcome json),
    (forall it m y, pk f (KModel c) it = Ok m -> P it -> mval_depth m < F -> inst G resolve sigma F m = Ok y ->
                    exists s, spec it = Ok s /\ json_equiv (jobj G y) s) ->
    forall items l l',
      Forall2 (fun it m => pk f (KModel c) it = Ok m) items l ->
      (forall it, In it items -> P it) -> (forall m, In m l -> mval_depth m < F) ->
      mapM (inst_elem (inst G resolve sigma F)) l = Ok l' ->
      exists ss, mapM spec items = Ok ss /\ Forall2 json_equiv (map (jobj G) l') ss.
  Proof.
    intros f F c P spec Hitem items l l' HF. revert l'. induction HF as [|it m r r' Hp _ IH]; intros l' Hok Hd Hm.
    - injection Hm as <-. exists []. split; [reflexivity|constructor].
    - apply mapM_cons_ok in Hm. destruct Hm as [y [ys [Ey [Er ->]]]].
      destruct (pk_model_shape classify f _ _ _ Hp) as [fs Em]. rewrite Em in Ey. cbn [inst_elem] in Ey. rewrite <- Em in Ey.
      destruct (Hitem it m y Hp (Hok it (or_introl eq_refl)) (Hd m (or_introl eq_refl)) Ey) as [s [Hs He]].
      destruct (IH ys (fun st Hst => Hok st (or_intror Hst)) (fun m' Hm' => Hd m' (or_intror Hm')) Er) as [ss [Hss HF2]].
      exists (s :: ss). split; [cbn [mapM]; rewrite Hs; cbn [bind]; rewrite Hss; reflexivity|].
      cbn [map]. constructor; assumption.
  Qed.

  Lemma step_object_equiv : forall n d sc se ps hr dp vn vd vsc vse vps vhr vdp,
    exports n vn -> exports d vd -> exports sc vsc -> exports se vse -> exports ps vps -> exports hr vhr -> exports dp vdp ->
    json_equiv (jobj G (MModel "Step" [("name", n); ("description", d); ("script", sc); ("stepEnvironments", se);
                                       ("parameterSpace", ps); ("hostRequirements", hr); ("dependencies", dp)]))
               (JObj ([($"name", vn); ($"script", vsc)] ++ opt "description" vd ++ opt "stepEnvironments" vse
                      ++ opt "parameterSpace" vps ++ opt "hostRequirements" vhr ++ opt "dependencies" vdp)).
  Proof.
    intros. by_keys; assumption.
  Qed.

  (* an accepted step, instantiated: script, environments and dependencies are carried over unchanged, the
     parameter space and the host requirements are instantiated *)
  Lemma step_inst : forall f rsc rse rps rhr rdp n d sc se ps hr dp F y,
    leaf n = true -> leaf d = true -> pk f (KModel "StepScript") rsc = Ok sc ->
    read_list classify f (KModel "Environment") rse se ->
    read_opt classify f (KModel "StepParameterSpaceDefinition") rps ps ->
    read_opt classify f (KModel "HostRequirementsTemplate") rhr hr ->
    read_list classify f (KModel "StepDependency") rdp dp ->
    mval_depth (MModel "StepTemplate" [("name", n); ("description", d); ("script", sc); ("stepEnvironments", se);
                                       ("parameterSpace", ps); ("hostRequirements", hr); ("dependencies", dp)]) < S F ->
    inst G resolve sigma (S F)
         (MModel "StepTemplate" [("name", n); ("description", d); ("script", sc); ("stepEnvironments", se);
                                 ("parameterSpace", ps); ("hostRequirements", hr); ("dependencies", dp)]) = Ok y ->
    exists ps' hr',
      inst_elem (inst G resolve sigma F) ps = Ok ps' /\ inst_elem (inst G resolve sigma F) hr = Ok hr' /\
      y = MModel "Step" [("name", n); ("description", d); ("script", sc); ("stepEnvironments", se);
                         ("parameterSpace", ps'); ("hostRequirements", hr'); ("dependencies", dp)].
  Proof.
    intros f rsc rse rps rhr rdp n d sc se ps hr dp F y Hln Hld Hsc Hse Hpsf Hhrf Hdp HF Hy.
    destruct (pk_model_shape classify _ _ _ _ Hsc) as [scf Esc].
    assert (carried : forall c, In c ["StepScript"; "Environment"; "StepDependency"] -> incl [c] carried_classes)
      by (intros c Hc a [<-|[]]; apply mem_s_In; destruct Hc as [<-|[<-|[<-|[]]]]; reflexivity).
    pose proof (fields_below _ _ _ HF) as D.
    rewrite (shape_StepTemplate_carried resolve sigma F n d sc se ps hr dp) in Hy;
      [|assumption|assumption|rewrite Esc; reflexivity|exact (read_list_opt_list _ _ _ _ _ Hse)
       |exact (read_opt_single _ _ _ _ _ Hpsf)|exact (read_opt_single _ _ _ _ _ Hhrf)|exact (read_list_opt_list _ _ _ _ _ Hdp)
       |apply (pk_classes_carried classify _ _ _ _ Hsc), carried; in_tac|apply (D "script"); in_tac
       |apply (read_list_carried _ _ _ _ _ Hse), carried; in_tac|apply Nat.lt_le_incl, (D "stepEnvironments"); in_tac
       |apply (read_list_carried _ _ _ _ _ Hdp), carried; in_tac|apply Nat.lt_le_incl, (D "dependencies"); in_tac].
    destruct (inst_elem (inst G resolve sigma F) ps) as [ps'|e]; cbn [bind] in Hy; [|discriminate Hy].
    destruct (inst_elem (inst G resolve sigma F) hr) as [hr'|e]; cbn [bind] in Hy; [|discriminate Hy].
    injection Hy as <-. exists ps', hr'. repeat split.
  Qed.

  Theorem step_equiv : forall f it x F y,
    pk f (KModel "StepTemplate") it = Ok x -> step_ok it -> mval_depth x < F -> inst G resolve sigma F x = Ok y ->
    exists s, step resolve sigma it = Ok s /\ json_equiv (jobj G y) s.
  Proof.
    intros f it x F y H [Csc [Cse [Cdp [Cps Chr]]]] HF Hy.
    destruct (step_template_inv classify f it x H)
      as [f' [n [d [sc [se [ps [hr [dp [_ [-> [_ [[Hln Hn] [[Hld Hd] [[_ Hsc] [Hse [Hpsf [Hhrf Hdp]]]]]]]]]]]]]]]]].
    destruct F as [|F]; [exact (False_ind _ (Nat.nlt_0_r _ HF))|]. pose proof (fields_below _ _ _ HF) as D.
    destruct (step_inst f' _ _ _ _ _ n d sc se ps hr dp F y Hln Hld Hsc Hse Hpsf Hhrf Hdp HF Hy) as [ps' [hr' [Eps [Ehr ->]]]].
    destruct (sub_model_equiv Pps "StepParameterSpaceDefinition" (param_space resolve sigma) Hps eq_refl
                              f' _ ps F ps' Hpsf Cps) as [sps [Esps Rps]]; [apply (D "parameterSpace"); in_tac|exact Eps|].
    destruct (sub_model_equiv Phr "HostRequirementsTemplate" (host_req resolve sigma) Hhr eq_refl
                              f' _ hr F hr' Hhrf Chr) as [shr [Eshr Rhr]]; [apply (D "hostRequirements"); in_tac|exact Ehr|].
    unfold step. rewrite Esps. cbn [bind]. rewrite Eshr. cbn [bind]. eexists. split; [reflexivity|].
    apply step_object_equiv; try assumption.
    - exact (exports_leaf n _ Hln Hn).
    - exact (exports_leaf d _ Hld Hd).
    - apply onn_equiv. exact (carried_single classify _ (KModel "StepScript") _ sc eq_refl Hsc Csc).
    - exact (read_list_same classify _ _ _ _ Hse eq_refl Cse).
    - exact (read_list_same classify _ _ _ _ Hdp eq_refl Cdp).
  Qed.

  (* the conditions on the document, as far as they concern the carried subtrees and the (abstract)
     conditions on parameter spaces and host requirements *)
  Definition doc_ok (j : json) : Prop :=
    carried_ok (jget "jobEnvironments" j) = true /\
    forall st, In st (items (jget "steps" j)) -> step_ok st.

  (* the parameter definitions become the "parameters" object, keyed by name *)
  Lemma job_params_equiv : forall f F j pd p,
    read_list classify f kdisc_params (jget "parameterDefinitions" j) pd -> unique_names pd = true -> mval_depth pd <= F ->
    keyed (inst G resolve sigma F) "name" pd = Ok p ->
    exists ps, match jget "parameterDefinitions" j with
               | JNull => Ok JNull
               | pdj => do ps <- mapM (CreateJobSpec.job_param sigma) (items pdj); Ok (JObj ps)
               end = Ok ps /\ exports p ps.
  Proof.
    intros f F j pd p [[-> ->]|[pitems [pl [-> [-> HFp]]]]] Hnd Hd Ep.
    - injection Ep as <-. exists JNull. split; [reflexivity|constructor].
    - destruct (keyed_dict_equiv (inst G resolve sigma F) "name"
                  (fun it m => pk f kdisc_params it = Ok m /\ mval_depth m < F) (CreateJobSpec.job_param sigma)
                  (fun it m k y0 Hq Hk => job_param_item classify resolve sigma f F it m k y0 (proj1 Hq) Hk (proj2 Hq))
                  pitems pl p) as [ps [Hps1 Hps2]]; [|exact Hnd|exact Ep|].
      + revert HFp. apply Forall2_impl_in2. intros it m _ Hm Hp. split; [exact Hp|].
        pose proof (item_depth pl m Hm). lia.
      + exists (JObj ps). cbn [items]. rewrite Hps1. split; [reflexivity|apply onn_equiv; exact Hps2].
  Qed.

  Lemma job_object_equiv : forall n st d p je vn vst vd vp vje,
    exports n vn -> exports st vst -> exports d vd -> exports p vp -> exports je vje ->
    json_equiv (jobj G (MModel "Job" [("name", n); ("steps", st); ("description", d); ("parameters", p); ("jobEnvironments", je)]))
               (JObj ([($"name", vn); ($"steps", vst)] ++ opt "description" vd ++ opt "parameters" vp ++ opt "jobEnvironments" vje)).
  Proof. intros. by_keys; assumption. Qed.

  Theorem root_equiv : forall j t F y,
    decode_job classify j = Ok t -> doc_ok j -> mval_depth t < F -> inst G resolve sigma F t = Ok y ->
    exists s, expected_job resolve sigma j = Ok s /\ json_equiv (jobj G y) s.
  Proof.
    intros j t F y H [Cje Cst] HF Hy.
    destruct (job_template_inv classify j t H)
      as [f' [sv [s [st [d [pd [je [ss [sitems [l [-> [Hname [Esteps [-> [HFst [[Hld Hd] [Hpd [Hnd Hje]]]]]]]]]]]]]]]]]].
    destruct F as [|F]; [exact (False_ind _ (Nat.nlt_0_r _ HF))|]. pose proof (fields_below _ _ _ HF) as D.
    assert (Dje : mval_depth je < F) by (apply (D "jobEnvironments"); in_tac).
    rewrite (shape_JobTemplate resolve sigma F sv s (MList l) d pd je ss) in Hy;
      [|reflexivity|exact Hld|exact (read_list_opt_list _ _ _ _ _ Hpd)|exact (read_list_opt_list _ _ _ _ _ Hje)].
    destruct (resolve sigma s) as [n|e] eqn:En; cbn [bind] in Hy; [|discriminate Hy].
    cbn [elems] in Hy.
    destruct (mapM (inst_elem (inst G resolve sigma F)) l) as [l'|e] eqn:El; cbn [bind] in Hy; [|discriminate Hy].
    destruct (keyed (inst G resolve sigma F) "name" pd) as [p|e] eqn:Ep; cbn [bind] in Hy; [|discriminate Hy].
    rewrite (elems_unchanged resolve sigma F je) in Hy; [|intros c Hc; apply carried_are_trivial|lia].
    2: { apply (read_list_carried _ _ _ _ _ Hje); [|exact Hc]. intros a [<-|[]]. apply mem_s_In. reflexivity. }
    cbn [bind] in Hy. injection Hy as <-.
    rewrite Esteps in Cst. cbn [items] in Cst.
    destruct (models_equiv f' F _ step_ok (step resolve sigma) (fun it m y Hp => step_equiv f' it m F y Hp) sitems l l' HFst Cst)
      as [sts [Hsts HF2]]; [|exact El|].
    { intros m Hm. pose proof (item_depth l m Hm). pose proof (D "steps" _ ltac:(in_tac)). lia. }
    destruct (job_params_equiv f' F _ pd p Hpd Hnd) as [ps [Hps1 Hps2]]; [apply Nat.lt_le_incl, (D "parameterDefinitions"); in_tac|exact Ep|].
    unfold expected_job. rewrite Hname. cbn [subst]. rewrite En. cbn [bind]. rewrite Esteps.
    change (items (JArr sitems)) with sitems. rewrite Hsts. cbn [bind]. rewrite Hps1. cbn [bind]. eexists. split; [reflexivity|].
    apply job_object_equiv; try assumption.
    - apply onn_equiv, json_equiv_refl.
    - apply onn_equiv. rewrite jobj_list. constructor. exact HF2.
    - exact (exports_leaf d _ Hld Hd).
    - exact (read_list_same classify _ _ _ _ Hje eq_refl Cje).
  Qed.
End Steps.
