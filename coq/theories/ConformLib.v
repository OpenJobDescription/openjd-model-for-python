(* ConformLib.v — small schema-independent lemmas for the C09x development (Conform*.v): the "all" loop over
   outcomes, a Forall helper.  Names are prefixed [cf_]. *)
From Coq Require Import List NArith Bool.
Import ListNotations.
Require Import OJD.Base OJD.Json OJD.CreateJob OJD.ListLib.
Local Open Scope list_scope.

(* the "all" loop of Export.nodes_ok *)
Lemma cf_all_fold_true : forall (A : Type) (G : A -> outcome bool) l acc,
  fold_left (fun (a : outcome bool) x => do b <- a; if b then G x else Ok false) l acc = Ok true ->
  acc = Ok true /\ forall x, In x l -> G x = Ok true.
Proof.
  intros A G. induction l as [|x r IH]; intros acc H.
  - cbn [fold_left] in H. split; [exact H|]. intros x [].
  - cbn [fold_left] in H. destruct (IH _ H) as [Hs Hr].
    destruct acc as [b|e]; cbn [bind] in Hs; [|discriminate Hs].
    destruct b; [|discriminate Hs]. split; [reflexivity|].
    intros y [<-|Hy]; [exact Hs|apply Hr; exact Hy].
Qed.

Lemma cf_Forall_map_ex : forall (A B : Type) (g : B -> A) (l : list A),
  Forall (fun x => exists s, x = g s) l -> exists ss, l = map g ss.
Proof.
  intros A B g. induction l as [|x r IH]; intros H; [exists []; reflexivity|].
  inversion H as [|? ? [s ->] Hr]; subst. destruct (IH Hr) as [ss ->]. exists (s :: ss). reflexivity.
Qed.

Lemma cf_str_eqb_refl : forall a, str_eqb a a = true.
Proof. exact str_eqb_refl. Qed.
