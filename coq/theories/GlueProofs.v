(* GlueProofs.v — lemmas behind props/C18.v (purity of resolve with scratch slots) and
   props/C09.v (declared types of parameter values).  No new model: everything is about Glue.v,
   FormatStr.v, JobParams.v, Validators.v, Parse.v as they are. *)
From Coq Require Import List NArith ZArith Bool String.
Import ListNotations.
Require Import OJD.Base OJD.Lexer OJD.Json OJD.Schema OJD.Generated OJD.Charsets OJD.Numerals OJD.NumPrint
               OJD.NumRoundtrip OJD.FormatStr OJD.CreateJob OJD.Parse OJD.Validators OJD.JobParams
               OJD.JobParamsSpec OJD.RangeExpr OJD.Glue OJD.GlueLib OJD.AcceptMono.
Local Open Scope list_scope.

(* number of expression records (= scratch slots) of an item list *)
Fixpoint n_iexpr (its : list item) : nat :=
  match its with
  | [] => O
  | ILit _ :: r => n_iexpr r
  | IExpr _ _ _ _ :: r => S (n_iexpr r)
  end.

Lemma n_exprs_items : forall f, n_exprs f = n_iexpr (items f).
Proof.
  intros f. unfold n_exprs, expressions. induction (items f) as [|it r IH]; [reflexivity|].
  destruct it as [l|a b t n]; simpl; [exact IH|]. f_equal. exact IH.
Qed.

(* resolve() with slots, in one induction: the result is the slot-free [resolve_items]; the slot list keeps its
   length; and after a successful call every slot holds the value of THAT call *)
Lemma resolve_slots_inv : forall sigma its slots,
  List.length slots = n_iexpr its ->
  snd (resolve_slots sigma its slots) = resolve_items sigma its /\
  List.length (fst (resolve_slots sigma its slots)) = List.length slots /\
  (forall r, snd (resolve_slots sigma its slots) = Ok r ->
   fst (resolve_slots sigma its slots)
   = flat_map (fun it => match it with
                         | IExpr _ _ _ n => [match expr_evaluate sigma n with Ok v => Some v | Raise _ => None end]
                         | ILit _ => []
                         end) its).
Proof.
  intros sigma its. induction its as [|[l|a b t name] rr IH]; intros slots Hlen;
    cbn [resolve_slots resolve_items flat_map n_iexpr app] in *.
  - destruct slots; [|discriminate Hlen]. repeat split.
  - specialize (IH slots Hlen). destruct (resolve_slots sigma rr slots) as [s' res]. cbn [fst snd] in *.
    destruct IH as (-> & IH2 & IH3). split; [destruct (resolve_items sigma rr); reflexivity|]. split; [exact IH2|].
    intros r Hr. destruct (resolve_items sigma rr) as [t'|]; [exact (IH3 _ eq_refl)|discriminate Hr].
  - destruct slots as [|old rest]; [discriminate Hlen|]. injection Hlen as Hlen.
    destruct (expr_evaluate sigma name) as [v|e].
    + specialize (IH rest Hlen). destruct (resolve_slots sigma rr rest) as [s' res]. cbn [fst snd] in *.
      destruct IH as (-> & IH2 & IH3). split; [destruct (resolve_items sigma rr); reflexivity|].
      split; [cbn [List.length]; f_equal; exact IH2|].
      intros r Hr. destruct (resolve_items sigma rr) as [t'|]; [f_equal; exact (IH3 _ eq_refl)|discriminate Hr].
    + cbn [fst snd]. repeat split. intros r Hr. destruct (is_expression_error e); discriminate Hr.
Qed.

Lemma resolve_slots_spec : forall sigma its slots,
  List.length slots = n_iexpr its ->
  snd (resolve_slots sigma its slots) = resolve_items sigma its /\
  List.length (fst (resolve_slots sigma its slots)) = List.length slots.
Proof. intros sigma its slots H. destruct (resolve_slots_inv sigma its slots H) as (A & B & _). auto. Qed.

Lemma resolve_history_spec : forall f sigmas slots,
  List.length slots = n_exprs f ->
  resolve_history f slots sigmas = map (fun s => resolve s f) sigmas.
Proof.
  intros f sigmas. induction sigmas as [|s r IH]; intros slots Hlen; [reflexivity|].
  cbn [resolve_history map].
  rewrite n_exprs_items in Hlen.
  destruct (resolve_slots_spec s (items f) slots Hlen) as [H1 H2].
  destruct (resolve_slots s (items f) slots) as [slots' res] eqn:E. cbn [fst snd] in *.
  f_equal; [exact H1|]. apply IH. rewrite H2. rewrite n_exprs_items. exact Hlen.
Qed.

(* nothing of an earlier call survives in a slot that was written *)
Lemma resolve_slots_ok_written : forall sigma its slots r,
  List.length slots = n_iexpr its ->
  snd (resolve_slots sigma its slots) = Ok r ->
  fst (resolve_slots sigma its slots)
  = flat_map (fun it => match it with
                        | IExpr _ _ _ n => [match expr_evaluate sigma n with Ok v => Some v | Raise _ => None end]
                        | ILit _ => []
                        end) its.
Proof. intros sigma its slots r H. exact (proj2 (proj2 (resolve_slots_inv sigma its slots H)) r). Qed.

Lemma all_frozen : forallb (fun nc => c_frozen (snd nc) && c_extra_forbid (snd nc)) Generated.schema = true.
Proof. vm_compute. reflexivity. Qed.

Local Open Scope string_scope.

Definition ptype_text (t : ptype) : str :=
  match t with
  | STRING => $"STRING" | PATH => $"PATH" | INT => $"INT" | FLOAT => $"FLOAT"
  end.

(* [conforms_job] / [conforms_task] at each declared type *)
Lemma conforms_job_type : forall t v,
  conforms_job (ptype_text t) v =
  match t with INT => is_int_numeral v | FLOAT => is_finite_decimal v | _ => true end.
Proof. intros [] v; reflexivity. Qed.

Lemma conforms_task_type : forall t v,
  conforms_task (ptype_text t) v =
  match t with
  | INT => is_int_numeral v
  | FLOAT => is_finite_decimal v
  | _ => N.leb (N.of_nat (List.length v)) 1024
  end.
Proof. intros [] v; reflexivity. Qed.

(* _check_constraints passing implies the declared type (no premise on the definition) *)
Lemma check_conforms_job : forall d v,
  check_constraints false d v = Ok tt -> conforms_job (ptype_text (ptyp d)) v = true.
Proof.
  intros d v H. rewrite conforms_job_type. unfold check_constraints, check_int, check_float in H.
  unfold is_int_numeral, is_finite_decimal. destruct (ptyp d); try reflexivity.
  - destruct (parse_int v); [reflexivity|discriminate H].
  - destruct (parse_dec v) as [[m e|b|]|]; try discriminate H. reflexivity.
Qed.

(* the same from the declarative side (C10's [sat]) *)
Lemma sat_conforms_job : forall d v, sat d v -> conforms_job (ptype_text (ptyp d)) v = true.
Proof.
  intros d v H. rewrite conforms_job_type. unfold sat in H. unfold is_int_numeral, is_finite_decimal.
  destruct (ptyp d); try reflexivity.
  - destruct H as [z [Hz _]]. rewrite Hz. reflexivity.
  - destruct H as [m [e [Hz _]]]. rewrite Hz. reflexivity.
Qed.

(* job-side range lists: the validators of the INT / FLOAT target classes *)
Lemma post_int_range_list : forall classify raw fs,
  post_hook classify "IntRangeListTaskParameterDefinition" raw fs = true ->
  forall it, In it (mitems (fget "range" fs)) -> conforms_task $"INT" (mstr it) = true.
Proof.
  intros classify raw fs H it Hin.
  change (post_hook classify "IntRangeListTaskParameterDefinition" raw fs)
    with (forallb (fun it => is_int_numeral (mstr it)) (mitems (fget "range" fs))) in H.
  rewrite forallb_forall in H. exact (H it Hin).
Qed.

Lemma post_float_range_list : forall classify raw fs,
  post_hook classify "FloatRangeListTaskParameterDefinition" raw fs = true ->
  forall it, In it (mitems (fget "range" fs)) -> conforms_task $"FLOAT" (mstr it) = true.
Proof.
  intros classify raw fs H it Hin.
  change (post_hook classify "FloatRangeListTaskParameterDefinition" raw fs)
    with (forallb (fun it => is_finite_decimal (mstr it)) (mitems (fget "range" fs))) in H.
  rewrite forallb_forall in H. exact (H it Hin).
Qed.

(* the structural kind of RangeListTaskParameterDefinition.range (STRING / PATH targets), read off
   the live schema *)
Definition range_item_kind : kind := KStr false (Some 0%N) (Some 1024%N) CS_any.

Lemma range_list_kind :
  match lookup_cls Generated.schema "RangeListTaskParameterDefinition" with
  | Some c => map (fun fl => (f_name fl, f_shape fl, f_kind fl)) (c_fields c)
  | None => []
  end
  = [("type", Single, KEnum ["INT"; "FLOAT"; "STRING"; "PATH"]);
     ("range", ListOf None None, range_item_kind)].
Proof. vm_compute. reflexivity. Qed.

Lemma check_str_len : forall lo cs s m,
  check_str lo (Some 1024%N) cs s = Ok m -> m = MStr s /\ (N.of_nat (List.length s) <= 1024)%N.
Proof.
  intros lo cs s m H. unfold check_str in H.
  destruct (len_ok lo (Some 1024%N) s && cs_ok cs s) eqn:E; [|discriminate H].
  injection H as <-. split; [reflexivity|].
  apply andb_true_iff in E. destruct E as [E _]. unfold len_ok in E.
  apply andb_true_iff in E. destruct E as [_ E]. apply N.leb_le in E. exact E.
Qed.

Lemma range_item_len : forall SC classify pre post fuel raw m,
  parse_kind SC classify pre post fuel range_item_kind raw = Ok m ->
  exists t, m = MStr t /\ conforms_task $"STRING" t = true /\ conforms_task $"PATH" t = true.
Proof.
  intros SC classify pre post fuel raw m H.
  destruct fuel as [|f]; [discriminate H|].
  rewrite parse_kind_S in H. unfold range_item_kind in H. cbn [parse_scalar] in H.
  destruct raw as [|b|z|dm de|s|l|ms]; try discriminate H.
  all: apply check_str_len in H; destruct H as [-> Hl]; eexists; (split; [reflexivity|]).
  all: rewrite (conforms_task_type STRING), (conforms_task_type PATH); apply N.leb_le in Hl; split; exact Hl.
Qed.

(* range expressions: the enumerated values are str(int) *)
Lemma print_Z_int_numeral : forall z, is_int_numeral (print_Z z) = true.
Proof. intros z. unfold is_int_numeral. rewrite parse_int_print_Z. reflexivity. Qed.

Lemma print_dec_finite : forall m e, is_finite_decimal (print_dec m e) = true.
Proof. intros m e. unfold is_finite_decimal. rewrite parse_dec_print_dec. reflexivity. Qed.

(* [str(v) for v in IntRangeExpr]: what RangeExpressionIdentifierNode hands to the iterator *)
Definition range_values (e : iexpr) : list str := map print_Z (elems e).

Lemma range_values_conform : forall e v, In v (range_values e) ->
  (exists z, In z (elems e) /\ v = print_Z z) /\ conforms_task $"INT" v = true.
Proof.
  intros e v H. unfold range_values in H. apply in_map_iff in H. destruct H as [z [<- Hz]].
  split; [exists z; split; [exact Hz|reflexivity]|].
  rewrite (conforms_task_type INT). apply print_Z_int_numeral.
Qed.

(* the job-side coercion of literal range items (int -> str(int), Decimal -> str(Decimal)) *)
Lemma coerce_item_conforms :
  (forall z, conforms_task $"INT" (mstr (coerce_range_item (MInt z))) = true) /\
  (forall m e, conforms_task $"FLOAT" (mstr (coerce_range_item (MDec m e))) = true).
Proof.
  split.
  - intros z. rewrite (conforms_task_type INT). apply print_Z_int_numeral.
  - intros m e. rewrite (conforms_task_type FLOAT). apply print_dec_finite.
Qed.
