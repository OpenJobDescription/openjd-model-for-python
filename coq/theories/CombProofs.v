(* CombProofs.v — model (Comb.v) = specification (CombSpec.v), for all inputs.
   The parser: [parser_spec], by induction on the fuel, says of the five functions at once that what they
   return derives from the grammar, that their errors are of the ExpressionError family, and how much fuel
   keeps RuntimeError away; [parser_complete_or_fuel], by induction on the derivation, that a derivable
   prefix is parsed to its tree.  Then, check by check: canonical trees and printing, identifier
   accounting, character set and length, sizes. *)
From Coq Require Import List NArith ZArith Bool Lia ZifyBool Permutation Arith.
Import ListNotations.
Require Import OJD.Base OJD.Lexer OJD.Generated OJD.Comb OJD.CombSpec OJD.ListLib.

Section CtreeInd.
  Variable P : ctree -> Prop.
  Hypothesis HId : forall s, P (Id s).
  Hypothesis HProd : forall cs, Forall P cs -> P (Prod cs).
  Hypothesis HAssoc : forall cs, Forall P cs -> P (Assoc cs).

  Fixpoint ctree_ind' (t : ctree) : P t :=
    match t with
    | Id s => HId s
    | Prod cs =>
      HProd cs ((fix go (l : list ctree) : Forall P l :=
                   match l with
                   | [] => Forall_nil P
                   | c :: r => Forall_cons c (ctree_ind' c) (go r)
                   end) cs)
    | Assoc cs =>
      HAssoc cs ((fix go (l : list ctree) : Forall P l :=
                    match l with
                    | [] => Forall_nil P
                    | c :: r => Forall_cons c (ctree_ind' c) (go r)
                    end) cs)
    end.
End CtreeInd.

Lemma p_expr_S f ts :
  p_expr (S f) ts =
  (do (c, r) <- p_elem f ts; do (cs, r') <- p_stars f r; Ok (mk_prod (c :: cs), r')).
Proof. reflexivity. Qed.

Lemma p_stars_S f ts :
  p_stars (S f) ts =
  match ts with
  | TStar :: r => do (c, r1) <- p_elem f r; do (cs, r2) <- p_stars f r1; Ok (c :: cs, r2)
  | _ => Ok ([], ts)
  end.
Proof. reflexivity. Qed.

Lemma p_elem_S f ts :
  p_elem (S f) ts =
  match ts with
  | [] => Raise ExpressionError
  | TName s :: r => Ok (Id s, r)
  | TLParen :: r => p_assoc f r
  | _ :: _ => Raise TokenError
  end.
Proof. reflexivity. Qed.

Lemma p_assoc_S f ts :
  p_assoc (S f) ts =
  (do (e, r) <- p_expr f ts;
   do (es, r') <- p_commas f r;
   match r' with
   | [] => Raise ExpressionError
   | TRParen :: r'' =>
     match es with
     | [] => Raise ExpressionError
     | _ :: _ => Ok (Assoc (e :: es), r'')
     end
   | _ :: _ => Raise TokenError
   end).
Proof. reflexivity. Qed.

Lemma p_commas_S f ts :
  p_commas (S f) ts =
  match ts with
  | TComma :: r => do (e, r1) <- p_expr f r; do (es, r2) <- p_commas f r1; Ok (e :: es, r2)
  | _ => Ok ([], ts)
  end.
Proof. reflexivity. Qed.

Lemma p_O ts :
  p_expr 0 ts = Raise RuntimeError /\ p_stars 0 ts = Raise RuntimeError /\
  p_elem 0 ts = Raise RuntimeError /\ p_assoc 0 ts = Raise RuntimeError /\
  p_commas 0 ts = Raise RuntimeError.
Proof. repeat split; reflexivity. Qed.

Lemma StarTail_nil_inv pre : StarTail pre [] -> pre = [].
Proof. intros H. inversion H. reflexivity. Qed.

Lemma CommaTail_nil_inv pre : CommaTail pre [] -> pre = [].
Proof. intros H. inversion H. reflexivity. Qed.

Lemma Elem_nonempty ts t : Elem ts t -> 1 <= length ts.
Proof. intros H. inversion H; cbn; lia. Qed.

Lemma Expr_nonempty ts t : Expr ts t -> 1 <= length ts.
Proof.
  intros H. inversion H as [ts0 t0 He|ts0 t0 rest c cs He Hs]; subst; apply Elem_nonempty in He.
  - exact He.
  - rewrite app_length. lia.
Qed.

(* an error of the ExpressionError family, or exhausted fuel when [fuel] is below [bound] *)
Definition fails (fuel bound : nat) (e : exn) : Prop :=
  is_expression_error e = true \/ e = RuntimeError /\ fuel < bound.

Lemma fails_S f n m e : fails f n e -> n < m -> fails (S f) m e.
Proof. intros [H|[H L]] Hm; [left; exact H | right; split; [exact H | lia]]. Qed.

(* a parser function called on [ts] returns something derived (in the sense of [G]) from the
   prefix it consumed, or fails; three units of fuel per token and [k] more are enough *)
Definition returns {A} (G : list tok -> A -> Prop) (k fuel : nat) (ts : list tok)
           (o : outcome (A * list tok)) : Prop :=
  match o with
  | Ok (a, r) => exists pre, ts = pre ++ r /\ G pre a
  | Raise e => fails fuel (3 * length ts + k) e
  end.

Lemma parser_spec : forall fuel,
  (forall ts, returns Expr 2 fuel ts (p_expr fuel ts)) /\
  (forall ts, returns StarTail 1 fuel ts (p_stars fuel ts)) /\
  (forall ts, returns Elem 1 fuel ts (p_elem fuel ts)) /\
  (forall ts, returns (fun pre => Elem (TLParen :: pre)) 3 fuel ts (p_assoc fuel ts)) /\
  (forall ts, returns CommaTail 1 fuel ts (p_commas fuel ts)).
Proof.
  induction fuel as [|f (IHexpr & IHstars & IHelem & IHassoc & IHcommas)].
  - repeat split; intros ts; right; (split; [reflexivity | lia]).
  - repeat split; intros ts.
    + rewrite p_expr_S. specialize (IHelem ts).
      destruct (p_elem f ts) as [[c r1]|e]; [|eapply fails_S; [exact IHelem | lia]].
      destruct IHelem as (pre1 & -> & D1). pose proof (Elem_nonempty _ _ D1) as L1.
      specialize (IHstars r1). cbn [bind].
      destruct (p_stars f r1) as [[cs r2]|e];
        [|eapply fails_S; [exact IHstars | rewrite app_length; lia]].
      destruct IHstars as (pre2 & -> & D2). exists (pre1 ++ pre2). split; [apply app_assoc|].
      destruct cs as [|c' cs]; [|apply Ex_prod; assumption].
      apply StarTail_nil_inv in D2. subst pre2. rewrite app_nil_r. apply Ex_elem. exact D1.
    + rewrite p_stars_S.
      destruct ts as [|[] r]; try (exists []; split; [reflexivity | constructor]).
      specialize (IHelem r).
      destruct (p_elem f r) as [[c r1]|e]; [|eapply fails_S; [exact IHelem | cbn; lia]].
      destruct IHelem as (pre1 & -> & D1). pose proof (Elem_nonempty _ _ D1) as L1.
      specialize (IHstars r1). cbn [bind].
      destruct (p_stars f r1) as [[cs r2]|e];
        [|eapply fails_S; [exact IHstars | cbn; rewrite app_length; lia]].
      destruct IHstars as (pre2 & -> & D2). exists (TStar :: pre1 ++ pre2).
      split; [cbn; rewrite app_assoc; reflexivity | apply St_cons; assumption].
    + rewrite p_elem_S.
      destruct ts as [|[] r]; try (left; reflexivity).
      * exists [TName s]. split; [reflexivity | constructor].
      * specialize (IHassoc r).
        destruct (p_assoc f r) as [[t r1]|e]; [|eapply fails_S; [exact IHassoc | cbn; lia]].
        destruct IHassoc as (pre & -> & D). exists (TLParen :: pre). split; [reflexivity | exact D].
    + rewrite p_assoc_S. specialize (IHexpr ts).
      destruct (p_expr f ts) as [[c r1]|e]; [|eapply fails_S; [exact IHexpr | lia]].
      destruct IHexpr as (pre1 & -> & D1). pose proof (Expr_nonempty _ _ D1) as L1.
      specialize (IHcommas r1). cbn [bind].
      destruct (p_commas f r1) as [[cs r2]|e];
        [|eapply fails_S; [exact IHcommas | rewrite app_length; lia]].
      destruct IHcommas as (pre2 & -> & D2).
      destruct r2 as [|[] r2]; try (left; reflexivity).
      destruct cs as [|c' cs]; [left; reflexivity|].
      exists (pre1 ++ pre2 ++ [TRParen]).
      split; [rewrite <- !app_assoc; reflexivity | apply El_assoc; assumption].
    + rewrite p_commas_S.
      destruct ts as [|[] r]; try (exists []; split; [reflexivity | constructor]).
      specialize (IHexpr r).
      destruct (p_expr f r) as [[c r1]|e]; [|eapply fails_S; [exact IHexpr | cbn; lia]].
      destruct IHexpr as (pre1 & -> & D1). pose proof (Expr_nonempty _ _ D1) as L1.
      specialize (IHcommas r1). cbn [bind].
      destruct (p_commas f r1) as [[cs r2]|e];
        [|eapply fails_S; [exact IHcommas | cbn; rewrite app_length; lia]].
      destruct IHcommas as (pre2 & -> & D2). exists (TComma :: pre1 ++ pre2).
      split; [cbn; rewrite app_assoc; reflexivity | apply Ct_cons; assumption].
Qed.

(* with the fuel that [parse] gives it, [p_expr] does not run out *)
Lemma p_expr_parse_fuel ts :
  match p_expr (parse_fuel ts) ts with
  | Ok (t, r) => exists pre, ts = pre ++ r /\ Expr pre t
  | Raise e => is_expression_error e = true
  end.
Proof.
  pose proof (proj1 (parser_spec (parse_fuel ts)) ts) as H.
  destruct (p_expr (parse_fuel ts) ts) as [[t r]|e]; [exact H|].
  destruct H as [H|[_ H]]; [exact H | unfold parse_fuel in H; lia].
Qed.

(* completeness up to fuel: on a derivable prefix the parser returns exactly the derived tree,
   unless it runs out of fuel *)
Definition ok_or_fuel {A} (o : outcome A) (x : A) : Prop := o = Ok x \/ o = Raise RuntimeError.

Lemma ok_or_fuel_bind {A B} (o : outcome A) x (k : A -> outcome B) y :
  ok_or_fuel o x -> ok_or_fuel (k x) y -> ok_or_fuel (bind o k) y.
Proof. intros [-> | ->] H; [exact H | right; reflexivity]. Qed.

Definition nsh (r : list tok) : Prop := match r with TStar :: _ => False | _ => True end.
Definition nch (r : list tok) : Prop := match r with TComma :: _ => False | _ => True end.

Lemma p_stars_stop fuel r : nsh r -> ok_or_fuel (p_stars fuel r) ([], r).
Proof.
  intros H. destruct fuel as [|f]; [right; reflexivity|]. left.
  destruct r as [|[] r]; try reflexivity. contradiction H.
Qed.

Lemma p_commas_stop fuel r : nch r -> ok_or_fuel (p_commas fuel r) ([], r).
Proof.
  intros H. destruct fuel as [|f]; [right; reflexivity|]. left.
  destruct r as [|[] r]; try reflexivity. contradiction H.
Qed.

Lemma CommaTail_head rest cs r : CommaTail rest cs -> nsh r -> nsh (rest ++ r).
Proof. intros H Hr. inversion H; cbn; [exact Hr|exact I]. Qed.

Lemma parser_complete_or_fuel :
  (forall ts t, Expr ts t -> forall fuel r, nsh r -> ok_or_fuel (p_expr fuel (ts ++ r)) (t, r)) /\
  (forall ts t, Elem ts t -> forall fuel r, ok_or_fuel (p_elem fuel (ts ++ r)) (t, r)) /\
  (forall ts cs, StarTail ts cs -> forall fuel r, nsh r ->
     ok_or_fuel (p_stars fuel (ts ++ r)) (cs, r)) /\
  (forall ts cs, CommaTail ts cs -> forall fuel r, nsh r -> nch r ->
     ok_or_fuel (p_commas fuel (ts ++ r)) (cs, r)).
Proof.
  apply grammar_mutind.
  - intros ts t _ IHe [|f] r Hr; [right; reflexivity|]. rewrite p_expr_S.
    eapply ok_or_fuel_bind; [apply IHe|].
    eapply ok_or_fuel_bind; [apply p_stars_stop, Hr | left; reflexivity].
  - intros ts t rest c cs _ IHe _ IHs [|f] r Hr; [right; reflexivity|].
    rewrite p_expr_S, <- app_assoc.
    eapply ok_or_fuel_bind; [apply IHe|].
    eapply ok_or_fuel_bind; [apply IHs, Hr | left; reflexivity].
  - intros s [|f] r; [right|left]; reflexivity.
  - intros ts t rest c cs _ IHe HC IHc [|[|f]] r; [right; reflexivity ..|].
    cbn [app]. rewrite p_elem_S, p_assoc_S.
    replace ((ts ++ rest ++ [TRParen]) ++ r) with (ts ++ rest ++ TRParen :: r)
      by (rewrite <- !app_assoc; reflexivity).
    eapply ok_or_fuel_bind; [apply IHe, (CommaTail_head _ _ _ HC), I|].
    eapply ok_or_fuel_bind; [apply (IHc f (TRParen :: r) I I) | left; reflexivity].
  - intros fuel r Hr. apply p_stars_stop, Hr.
  - intros ts t rest cs _ IHe _ IHs [|f] r Hr; [right; reflexivity|].
    cbn [app]. rewrite p_stars_S, <- app_assoc.
    eapply ok_or_fuel_bind; [apply IHe|].
    eapply ok_or_fuel_bind; [apply IHs, Hr | left; reflexivity].
  - intros fuel r _ Hr. apply p_commas_stop, Hr.
  - intros ts t rest cs _ IHe HC IHc [|f] r Hs Hc; [right; reflexivity|].
    cbn [app]. rewrite p_commas_S, <- app_assoc.
    eapply ok_or_fuel_bind; [apply IHe, (CommaTail_head _ _ _ HC), Hs|].
    eapply ok_or_fuel_bind; [apply IHc; assumption | left; reflexivity].
Qed.

Lemma parse_unfold ts :
  ts <> [] ->
  parse ts =
  (do (t, r) <- p_expr (parse_fuel ts) ts; match r with [] => Ok t | _ :: _ => Raise TokenError end).
Proof. destruct ts; [congruence | reflexivity]. Qed.

Theorem parse_iff_Expr : forall ts t, parse ts = Ok t <-> Expr ts t.
Proof.
  intros ts t. pose proof (p_expr_parse_fuel ts) as Hp. split.
  - intros H. destruct ts as [|t0 ts0]; [discriminate H|]. rewrite parse_unfold in H by discriminate.
    destruct (p_expr _ _) as [[t1 [|x r]]|e]; try discriminate H. injection H as ->.
    destruct Hp as (pre & E & D). rewrite app_nil_r in E. rewrite E. exact D.
  - intros H. pose proof (Expr_nonempty _ _ H) as Hn.
    rewrite parse_unfold by (intros ->; cbn in Hn; lia).
    destruct (proj1 parser_complete_or_fuel _ _ H (parse_fuel ts) [] I) as [E|E];
      rewrite app_nil_r in E; rewrite E in *; [reflexivity | discriminate Hp].
Qed.

Theorem parse_error_family : forall ts e, parse ts = Raise e -> is_expression_error e = true.
Proof.
  intros ts e H. destruct ts as [|t0 ts0]; [injection H as <-; reflexivity|].
  pose proof (p_expr_parse_fuel (t0 :: ts0)) as Hp. rewrite parse_unfold in H by discriminate.
  destruct (p_expr _ _) as [[t1 [|x r]]|e1]; try discriminate H; injection H as <-; [reflexivity | exact Hp].
Qed.

(* the grammar is unambiguous *)
Corollary Expr_deterministic : forall ts t t', Expr ts t -> Expr ts t' -> t = t'.
Proof.
  intros ts t t' H H'. apply parse_iff_Expr in H. apply parse_iff_Expr in H'.
  rewrite H in H'. injection H' as H'. exact H'.
Qed.

Lemma Forall_mp {A} (P Q : A -> Prop) l : Forall (fun x => P x -> Q x) l -> Forall P l -> Forall Q l.
Proof. rewrite !Forall_forall. auto. Qed.

Lemma grammar_canonical :
  (forall ts t, Expr ts t -> Canonical t) /\
  (forall ts t, Elem ts t -> Canonical t /\ is_elem_tree t) /\
  (forall ts cs, StarTail ts cs -> Forall Canonical cs /\ Forall is_elem_tree cs) /\
  (forall ts cs, CommaTail ts cs -> Forall Canonical cs).
Proof.
  apply grammar_mutind.
  - intros ts t _ [Hc _]. exact Hc.
  - intros ts t rest c cs _ [Hc He] _ [Fc Fe]. apply Can_prod.
    + cbn. lia.
    + constructor; assumption.
    + constructor; assumption.
  - intros s. split; [constructor|exact I].
  - intros ts t rest c cs _ Hc _ Fc. split; [|exact I]. apply Can_assoc.
    + cbn. lia.
    + constructor; assumption.
  - split; constructor.
  - intros ts t rest cs _ [Hc He] _ [Fc Fe]. split; constructor; assumption.
  - constructor.
  - intros ts t rest cs _ Hc _ Fc. constructor; assumption.
Qed.

Lemma star_tail_render l :
  Forall (fun c => Elem (to_tokens c) c) l ->
  StarTail (flat_map (fun y => TStar :: y) (map to_tokens l)) l.
Proof.
  induction 1 as [|c l Hc _ IH]; cbn; [constructor|]. apply St_cons; assumption.
Qed.

Lemma comma_tail_render l :
  Forall (fun c => Expr (to_tokens c) c) l ->
  CommaTail (flat_map (fun y => TComma :: y) (map to_tokens l)) l.
Proof.
  induction 1 as [|c l Hc _ IH]; cbn; [constructor|]. apply Ct_cons; assumption.
Qed.

Lemma canonical_renders : forall t,
  Canonical t -> Expr (to_tokens t) t /\ (is_elem_tree t -> Elem (to_tokens t) t).
Proof.
  induction t as [s|cs IH|cs IH] using ctree_ind'; intros HC.
  - split; [apply Ex_elem|intros _]; constructor.
  - inversion HC as [|cs0 Hlen Hcan Helem|]; subst cs0.
    split; [|intros F; contradiction F].
    destruct cs as [|a [|b rest]]; cbn in Hlen; try lia.
    pose proof (Forall_mp _ _ _ (Forall_impl _ (fun c H => proj2 H) (Forall_mp _ _ _ IH Hcan)) Helem) as HE.
    inversion HE as [|? ? Ha Hrest]; subst.
    cbn [to_tokens map join_toks]. apply Ex_prod; [exact Ha|].
    exact (star_tail_render (b :: rest) Hrest).
  - inversion HC as [| |cs0 Hlen Hcan]; subst cs0.
    assert (HEl : Elem (to_tokens (Assoc cs)) (Assoc cs)).
    { destruct cs as [|a [|b rest]]; cbn in Hlen; try lia.
      pose proof (Forall_impl _ (fun c H => proj1 H) (Forall_mp _ _ _ IH Hcan)) as HE.
      inversion HE as [|? ? Ha Hrest]; subst.
      cbn [to_tokens map join_toks]. rewrite <- app_assoc.
      apply El_assoc; [exact Ha|]. exact (comma_tail_render (b :: rest) Hrest). }
    split; [apply Ex_elem; exact HEl|intros _; exact HEl].
Qed.

Theorem print_parse_canonical : forall t, Canonical t -> parse (to_tokens t) = Ok t.
Proof. intros t H. apply parse_iff_Expr. apply canonical_renders. exact H. Qed.

Theorem parse_print_parse : forall ts t,
  parse ts = Ok t -> Canonical t /\ parse (to_tokens t) = Ok t.
Proof.
  intros ts t H. apply parse_iff_Expr in H.
  destruct grammar_canonical as (Hc & _). pose proof (Hc _ _ H) as HC.
  split; [exact HC|apply print_parse_canonical; exact HC].
Qed.

Lemma dedup_In : forall l x, In x (dedup l) <-> In x l.
Proof.
  induction l as [|y l IH]; intros x; cbn; [tauto|].
  destruct (mem_str y l) eqn:M; cbn; rewrite IH; [|tauto].
  apply mem_str_In in M. split; [auto|]. intros [<-|H]; assumption.
Qed.

Lemma dedup_NoDup : forall l, NoDup (dedup l).
Proof.
  induction l as [|y l IH]; cbn; [constructor|].
  destruct (mem_str y l) eqn:M; [exact IH|]. constructor; [|exact IH].
  rewrite dedup_In. apply mem_str_false. exact M.
Qed.

Lemma dedup_length_le : forall l, length (dedup l) <= length l.
Proof.
  induction l as [|y l IH]; cbn; [lia|]. destruct (mem_str y l); cbn; lia.
Qed.

Lemma dedup_length_NoDup : forall l, length l = length (dedup l) <-> NoDup l.
Proof.
  induction l as [|y l IH]; cbn; [split; [constructor|reflexivity]|].
  rewrite NoDup_cons_iff, <- IH, <- mem_str_false. pose proof (dedup_length_le l) as L.
  destruct (mem_str y l); cbn; [split; [lia | intros [E _]; discriminate E] | intuition lia].
Qed.

Lemma set_diff_nil : forall a b, is_nil (set_diff a b) = true <-> (forall x, In x a -> In x b).
Proof.
  intros a b. unfold set_diff. induction a as [|y a IH]; cbn; [tauto|].
  destruct (mem_str y b) eqn:M; cbn.
  - apply mem_str_In in M. rewrite IH. split; [intros H x [<-|Hin]; auto | auto].
  - apply mem_str_false in M. split; [discriminate | intros H; destruct (M (H y (or_introl eq_refl)))].
Qed.

Lemma accounting_iff : forall params ids,
  accounting false params ids = true <->
  (forall x, In x params -> In x ids) /\ (forall x, In x ids -> In x params) /\ NoDup ids.
Proof.
  intros params ids. unfold accounting.
  rewrite negb_true_iff, !orb_false_iff, !negb_false_iff.
  rewrite !set_diff_nil, Nat.eqb_eq, dedup_length_NoDup. setoid_rewrite dedup_In. tauto.
Qed.

Lemma accounting_permutation : forall params ids,
  NoDup params -> (accounting false params ids = true <-> Permutation ids params).
Proof.
  intros params ids ND. rewrite accounting_iff. split.
  - intros (H1 & H2 & H3). apply NoDup_Permutation; [exact H3|exact ND|].
    intros x. split; [apply H2|apply H1].
  - intros P. split; [|split].
    + intros x Hx. apply (Permutation_in x (Permutation_sym P)). exact Hx.
    + intros x Hx. apply (Permutation_in x P). exact Hx.
    + apply (Permutation_NoDup (Permutation_sym P)). exact ND.
Qed.

Lemma comb_char_iff : forall c, comb_char c = true <-> CombChar c.
Proof. intros c. unfold comb_char, CombChar. lia. Qed.

Lemma charsetb_iff : forall s, charsetb s = true <-> charset s.
Proof.
  intros s. unfold charsetb, charset. destruct s as [|c s].
  - split; [discriminate|]. intros [H _]. contradiction H. reflexivity.
  - rewrite forallb_forall, Forall_forall. split.
    + intros H. split; [discriminate|]. intros x Hx. apply comb_char_iff. apply H. exact Hx.
    + intros [_ H] x Hx. apply comb_char_iff. apply H. exact Hx.
Qed.

Lemma lengthb_iff : forall s, lengthb s = true <-> length s <= max_len.
Proof. intros s. unfold lengthb, comb_max_len, max_len. lia. Qed.

Theorem template_accept_iff : forall classify params s,
  NoDup params ->
  (template_check false classify params s = true <->
   length s <= max_len /\ charset s /\
   exists ts t, lex_for classify comb_kinds s = Ok ts /\ Expr ts t /\ each_once params t).
Proof.
  intros classify params s ND. unfold template_check, parse_str, each_once.
  rewrite !andb_true_iff, lengthb_iff, charsetb_iff.
  split.
  - intros ((HL & HC) & H). split; [exact HL|]. split; [exact HC|].
    destruct (lex_for classify comb_kinds s) as [ts|e] eqn:Hlex; cbn in H; [|discriminate H].
    destruct (parse ts) as [t|e] eqn:Hp; [|discriminate H].
    exists ts, t. split; [reflexivity|]. split; [apply parse_iff_Expr; exact Hp|].
    apply accounting_permutation; assumption.
  - intros (HL & HC & ts & t & Hlex & HE & HP). split; [split; assumption|].
    rewrite Hlex. cbn. apply parse_iff_Expr in HE. rewrite HE.
    apply accounting_permutation; assumption.
Qed.

(* [map_o f] succeeds where [f] succeeds on every element; otherwise the first error is returned *)
Lemma map_o_spec {A B} (f : A -> outcome B) (P Q : A -> Prop) (g : A -> B) (e0 : exn) l :
  Forall (fun c => match f c with
                   | Ok n => P c /\ n = g c
                   | Raise e => ~ P c /\ (Q c -> e = e0)
                   end) l ->
  match map_o f l with
  | Ok ls => Forall P l /\ ls = map g l
  | Raise e => ~ Forall P l /\ (Forall Q l -> e = e0)
  end.
Proof.
  induction 1 as [|c l Hc _ IH]; cbn; [split; constructor|].
  destruct (f c) as [y|e]; cbn.
  - destruct Hc as [Pc ->]. destruct (map_o f l) as [ys|e]; cbn.
    + destruct IH as [Pl ->]. split; [constructor; assumption | reflexivity].
    + destruct IH as [NPl HQ]. split; intros H; inversion H; auto.
  - destruct Hc as [NPc HQ]. split; intros H; inversion H; auto.
Qed.

(* [covered lens (Prod cs)] and [covered lens (Assoc cs)] both unfold to the hypothesis *)
Lemma covered_children lens cs :
  (forall s, In s (flat_map collect_ids cs) -> lens s <> None) -> Forall (covered lens) cs.
Proof.
  intros H. apply Forall_forall. intros c Hc s Hs.
  apply H. apply in_flat_map. exists c. split; assumption.
Qed.

Lemma fold_mul_sym l : fold_left N.mul l 1%N = fold_right N.mul 1%N l.
Proof. apply fold_symmetric; [intros; apply N.mul_assoc | intros; apply N.mul_comm]. Qed.

Lemma all_equal_iff {A} (g : A -> N) x l :
  forallb (N.eqb x) (map g l) = true <-> Forall (fun d => g d = x) l.
Proof.
  rewrite forallb_forall, Forall_forall. setoid_rewrite in_map_iff. setoid_rewrite N.eqb_eq. split.
  - intros H d Hd. symmetry. apply H. exists d. auto.
  - intros H y (d & <- & Hd). symmetry. apply H. exact Hd.
Qed.

(* C14_dims, C14_create_job: [dims] returns the size of a tree exactly when the tree is balanced; on a
   parsed tree its only error is ExpressionError *)
Theorem dims_spec : forall lens t, covered lens t ->
  match dims lens t with
  | Ok n => assoc_balanced lens t /\ n = tree_len lens t
  | Raise e => ~ assoc_balanced lens t /\ (Canonical t -> e = ExpressionError)
  end.
Proof.
  intros lens. induction t as [s|cs IH|cs IH] using ctree_ind'; intros Hcov.
  - cbn. destruct (lens s) eqn:Hl; [split; [constructor | reflexivity]|].
    destruct (Hcov s (or_introl eq_refl) Hl).
  - pose proof (map_o_spec _ _ Canonical _ ExpressionError _
                  (Forall_mp _ _ _ IH (covered_children _ _ Hcov))) as HM.
    cbn [dims tree_len]. destruct (map_o (dims lens) cs) as [ls|e]; cbn [bind].
    + destruct HM as [HB ->]. split; [constructor; exact HB | apply fold_mul_sym].
    + destruct HM as [HB HC]. split; intros H.
      * inversion H as [|cs0 HF|]. exact (HB HF).
      * inversion H as [|cs0 _ Hcan _|]. exact (HC Hcan).
  - pose proof (map_o_spec _ _ Canonical _ ExpressionError _
                  (Forall_mp _ _ _ IH (covered_children _ _ Hcov))) as HM.
    cbn [dims]. destruct (map_o (dims lens) cs) as [ls|e]; cbn [bind].
    + destruct HM as [HB ->]. destruct cs as [|c cs]; cbn.
      { split; [intros H; inversion H | intros H; inversion H as [| |? Hlen _]; cbn in Hlen; lia]. }
      destruct (forallb _ _) eqn:Hall.
      * split; [apply AB_assoc; [exact HB | apply all_equal_iff, Hall] | reflexivity].
      * split; [|reflexivity]. intros H. inversion H as [| |? ? _ Heq].
        apply all_equal_iff in Heq. congruence.
    + destruct HM as [HB HC]. split; intros H.
      * inversion H as [| |c cs' HF _]. subst cs. exact (HB HF).
      * inversion H as [| |cs0 _ Hcan]. exact (HC Hcan).
Qed.

Theorem dims_ok_iff : forall lens t,
  covered lens t ->
  forall n, dims lens t = Ok n <-> assoc_balanced lens t /\ n = tree_len lens t.
Proof.
  intros lens t Hcov n. pose proof (dims_spec lens t Hcov) as H. destruct (dims lens t) as [k|e].
  - destruct H as [HB ->]. split; [intros [= <-]; auto | intros [_ ->]; reflexivity].
  - split; [discriminate | intros [HB _]; destruct (proj1 H HB)].
Qed.

Theorem dims_unbalanced : forall lens t,
  covered lens t -> Canonical t -> ~ assoc_balanced lens t ->
  dims lens t = Raise ExpressionError /\ job_dims lens t = Raise DecodeValidationError.
Proof.
  intros lens t Hcov HC HB. pose proof (dims_spec lens t Hcov) as H. unfold job_dims.
  destruct (dims lens t) as [k|e]; [destruct (HB (proj1 H))|].
  rewrite (proj2 H HC). split; reflexivity.
Qed.

Theorem job_dims_ok_iff : forall lens t n,
  job_dims lens t = Ok n <-> dims lens t = Ok n.
Proof.
  intros lens t n. unfold job_dims. destruct (dims lens t) as [k|e]; [tauto|].
  split; intros H; discriminate H.
Qed.

Corollary dims_decides : forall lens t,
  covered lens t -> Canonical t ->
  (assoc_balanced lens t /\ job_dims lens t = Ok (tree_len lens t)) \/
  (~ assoc_balanced lens t /\ job_dims lens t = Raise DecodeValidationError).
Proof.
  intros lens t Hcov HC. pose proof (dims_spec lens t Hcov) as H. unfold job_dims.
  destruct (dims lens t) as [k|e].
  - left. destruct H as [HB ->]. auto.
  - right. rewrite (proj2 H HC). split; [exact (proj1 H) | reflexivity].
Qed.

(* the pinned (pre-5fdbd84) accounting violates the property *)
Definition w_params : list str := [[65%N]; [66%N]].                    (* A, B *)
Definition w_comb : str := [65; 32; 42; 32; 67]%N.                     (* "A * C" *)

Lemma pinned_accounting_refuted :
  exists params s,
    NoDup params /\
    template_check true ascii_class params s = true /\
    ~ (length s <= max_len /\ charset s /\
       exists ts t, lex_for ascii_class comb_kinds s = Ok ts /\ Expr ts t /\ each_once params t).
Proof.
  exists w_params, w_comb. split; [|split].
  - repeat constructor; cbn; intuition discriminate.
  - vm_compute. reflexivity.
  - intros (_ & _ & ts & t & Hlex & HE & HP).
    vm_compute in Hlex. injection Hlex as Hlex. subst ts.
    apply parse_iff_Expr in HE. vm_compute in HE. injection HE as HE. subst t.
    unfold each_once in HP. cbn in HP.
    assert (Hin : In [67%N] w_params) by (apply (Permutation_in _ HP); right; left; reflexivity).
    cbn in Hin. intuition discriminate.
Qed.

(* ... and the repaired accounting rejects that input *)
Lemma fixed_accounting_rejects_witness :
  template_check false ascii_class w_params w_comb = false.
Proof. vm_compute. reflexivity. Qed.
