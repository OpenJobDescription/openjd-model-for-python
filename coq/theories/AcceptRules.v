(* AcceptRules.v — C01/C02 part B: each validator of Validators.v, as coded, is equivalent to its
   declarative rule of WF.v.  (Capability names are in AcceptCap.v, the assembly in
   AcceptProofs.v.) *)
From Coq Require Import List NArith ZArith Bool String Lia Permutation.
Import ListNotations.
Require Import OJD.Base OJD.Lexer OJD.Json OJD.Schema OJD.Generated OJD.Charsets OJD.Numerals OJD.FormatStr
               OJD.FsRefs OJD.CreateJob OJD.RangeExpr OJD.Comb OJD.CombSpec OJD.CombProofs OJD.ScopeWalk
               OJD.DepGraph OJD.DepGraphSpec OJD.DepGraphProofs OJD.Parse OJD.Validators OJD.WF OJD.ListLib.
Local Open Scope string_scope.
Local Open Scope list_scope.

(* ------------------------------------------------------------------ *)
(* reflection                                                            *)
(* ------------------------------------------------------------------ *)
(* A validator is a boolean expression over tests, each of which has a meaning [b = true <-> P];
   these lemmas carry the meanings through the connectives the validators are written with. *)
Section Reflect.
  Variables (a b : bool) (A B : Prop).
  Hypotheses (HA : a = true <-> A) (HB : b = true <-> B).

  Lemma and_iff : a && b = true <-> A /\ B.
  Proof. rewrite andb_true_iff, HA, HB. reflexivity. Qed.
  Lemma or_iff : a || b = true <-> A \/ B.
  Proof. rewrite orb_true_iff, HA, HB. reflexivity. Qed.
  Lemma not_iff : negb a = true <-> ~ A.
  Proof. rewrite negb_true_iff, <- HA. symmetry. apply not_true_iff_false. Qed.
  (* "not both", "a requires b" (written either way round), "if a then b" *)
  Lemma nand_iff : negb (a && b) = true <-> (A -> ~ B).
  Proof. rewrite <- HA, <- HB. destruct a, b; cbn; intuition discriminate. Qed.
  Lemma nimp_iff : negb (a && negb b) = true <-> (A -> B).
  Proof. rewrite <- HA, <- HB. destruct a, b; cbn; intuition discriminate. Qed.
  Lemma nimp_iff_l : negb (negb b && a) = true <-> (A -> B).
  Proof. rewrite andb_comm. exact nimp_iff. Qed.
  Lemma if_iff : (if a then b else true) = true <-> (A -> B).
  Proof. rewrite <- HA, <- HB. destruct a, b; intuition discriminate. Qed.
End Reflect.

(* a conjunct whose meaning needs the one before it *)
Lemma and_iff_dep (a b : bool) (A B : Prop) :
  (a = true <-> A) -> (A -> (b = true <-> B)) -> (a && b = true <-> A /\ B).
Proof. intros HA HB. rewrite andb_true_iff, HA. split; intros [H1 H2]; (split; [exact H1|apply (HB H1), H2]). Qed.

Lemma forallb_iff {T} (p : T -> bool) (P : T -> Prop) l :
  (forall x, p x = true <-> P x) -> (forallb p l = true <-> forall x, In x l -> P x).
Proof. intros H. rewrite forallb_forall. split; intros F x Hx; apply H, F, Hx. Qed.

Lemma existsb_iff {T} (p : T -> bool) (P : T -> Prop) l :
  (forall x, p x = true <-> P x) -> (existsb p l = true <-> exists x, In x l /\ P x).
Proof. intros H. rewrite existsb_exists. split; intros (x & Hx & Hp); exists x; (split; [exact Hx|apply H, Hp]). Qed.

Lemma is_nil_iff {T} (l : list T) : (match l with [] => true | _ => false end) = true <-> l = [].
Proof. destruct l; split; intros H; try reflexivity; discriminate H. Qed.

(* a non-empty string whose first character passes [h] and whose other characters pass [t] *)
Lemma head_tail_iff (h t : N -> bool) (H T : N -> Prop) (s : str) :
  (forall c, h c = true <-> H c) -> (forall c, t c = true <-> T c) ->
  ((match s with c :: r => h c && forallb t r | [] => false end) = true <->
   exists c r, s = c :: r /\ H c /\ Forall T r).
Proof.
  intros Hh Ht. destruct s as [|c r].
  - split; [discriminate|intros (c & r & E & _); discriminate E].
  - rewrite (and_iff _ _ _ _ (Hh c) (forallb_iff t T r Ht)), <- Forall_forall. split.
    + intros Hc. exists c, r. split; [reflexivity|exact Hc].
    + intros (c' & r' & E & Hc). injection E as <- <-. exact Hc.
Qed.

(* ---------- one lemma per shape of [match] on a stored value ---------- *)
Lemma mint_match_iff (v : mval) (p : Z -> bool) (P : Z -> Prop) :
  (forall a, p a = true <-> P a) ->
  ((match v with MInt a => p a | _ => true end) = true <-> forall a, v = MInt a -> P a).
Proof.
  intros Hp. destruct v; split; intros H; try reflexivity; try (intros a E; discriminate E).
  - intros a E. injection E as <-. apply Hp, H.
  - apply Hp, H. reflexivity.
Qed.

Lemma mstr_match_iff (v : mval) (p : str -> bool) (P : str -> Prop) :
  (forall s, p s = true <-> P s) ->
  ((match v with MStr s => p s | _ => true end) = true <-> forall s, v = MStr s -> P s).
Proof.
  intros Hp. destruct v; split; intros H; try reflexivity; try (intros a E; discriminate E).
  - intros a E. injection E as <-. apply Hp, H.
  - apply Hp, H. reflexivity.
Qed.

Lemma mfmt_match_iff (v : mval) (p : str -> bool) (P : str -> Prop) :
  (forall s, p s = true <-> P s) ->
  ((match v with MFmt s => p s | _ => true end) = true <-> forall s, v = MFmt s -> P s).
Proof.
  intros Hp. destruct v; split; intros H; try reflexivity; try (intros a E; discriminate E).
  - intros a E. injection E as <-. apply Hp, H.
  - apply Hp, H. reflexivity.
Qed.

Lemma ui_match_iff (v : mval) (p : list (string * mval) -> bool) (P : list (string * mval) -> Prop) :
  (forall ui, p ui = true <-> P ui) ->
  ((match v with MModel _ ui => p ui | _ => true end) = true <-> forall c ui, v = MModel c ui -> P ui).
Proof.
  intros Hp. destruct v; split; intros H; try reflexivity; try (intros c' ui' E; discriminate E).
  - intros c' ui' E. injection E as <- <-. apply Hp, H.
  - apply Hp, (H cls). reflexivity.
Qed.

Lemma opt_match_iff {T} (o : option T) (p : T -> bool) (P : T -> Prop) :
  (forall v, p v = true <-> P v) ->
  ((match o with Some v => p v | None => true end) = true <-> forall v, o = Some v -> P v).
Proof.
  intros Hp. destruct o as [x|]; split; intros H; try reflexivity; try (intros v E; discriminate E).
  - intros v E. injection E as <-. apply Hp, H.
  - apply Hp, H. reflexivity.
Qed.

Lemma ok_match_iff {T} (o : outcome T) (p : T -> bool) (P : T -> Prop) :
  (forall t, p t = true <-> P t) ->
  ((match o with Ok t => p t | Raise _ => false end) = true <-> exists t, o = Ok t /\ P t).
Proof.
  intros Hp. destruct o as [t|e]; split; try discriminate.
  - intros H. exists t. split; [reflexivity|apply Hp, H].
  - intros (t' & E & H). injection E as <-. apply Hp, H.
  - intros (t' & E & _). discriminate E.
Qed.

Lemma not_none_match_iff (v : mval) (b : bool) (B : Prop) :
  (b = true <-> B) -> ((match v with MNone => true | _ => b end) = true <-> (v <> MNone -> B)).
Proof.
  intros <-. destruct v; split; intros H; try reflexivity; try (intros _; exact H); try (apply H; discriminate).
  intros C. exfalso. apply C. reflexivity.
Qed.

Lemma none_or_iff (v : mval) (b : bool) (B : Prop) :
  (b = true <-> B) -> ((match v with MNone => true | _ => b end) = true <-> (v = MNone \/ B)).
Proof.
  intros <-. destruct v; split; intros H; try (left; reflexivity); try (right; exact H); try reflexivity;
    destruct H as [E|E]; (discriminate E || exact E).
Qed.

Lemma not_empty_list_iff (v : mval) : (match v with MList [] => false | _ => true end) = true <-> v <> MList [].
Proof.
  destruct v as [ | | | | | | |[|x l]| | ]; split; intros H; try reflexivity; try discriminate.
  exfalso. apply H. reflexivity.
Qed.

Lemma nonempty_list_iff (v : mval) :
  (match v with MList (_ :: _) => true | _ => false end) = true <-> exists x l, v = MList (x :: l).
Proof.
  destruct v as [ | | | | | | |[|x l]| | ]; split; intros H; try discriminate; try reflexivity;
    try (destruct H as (x' & l' & E); discriminate E).
  exists x, l. reflexivity.
Qed.

Lemma is_none_iff v : is_none v = true <-> v = MNone.
Proof. destruct v; split; intros H; try reflexivity; try discriminate. Qed.

Lemma is_null_iff j : negb (is_null j) = true <-> NonNull j.
Proof. unfold NonNull. destruct j; cbn; split; intros H; try reflexivity; try discriminate; try congruence. Qed.

Lemma negb_mem_str x l : negb (mem_str x l) = true <-> ~ In x l.
Proof. exact (not_iff _ _ (mem_str_In x l)). Qed.

(* ------------------------------------------------------------------ *)
(* uniqueness                                                            *)
(* ------------------------------------------------------------------ *)
Theorem nodupb_iff : forall l, nodupb l = true <-> NoDup l.
Proof.
  induction l as [|x r IH]; cbn [nodupb].
  - split; [constructor|reflexivity].
  - rewrite andb_true_iff, negb_mem_str, IH, NoDup_cons_iff. reflexivity.
Qed.

Theorem unique_names_iff : forall v, unique_names v = true <-> UniqueNames v.
Proof.
  intros v. unfold unique_names, UniqueNames. destruct v; try apply nodupb_iff.
  split; [intros _; constructor|reflexivity].
Qed.

Theorem embedded_files_rule_iff : forall fs,
  unique_names (fget "embeddedFiles" fs) = true <-> EmbeddedFilesRule fs.
Proof. intros fs. apply unique_names_iff. Qed.

(* ------------------------------------------------------------------ *)
(* references                                                            *)
(* ------------------------------------------------------------------ *)
Lemma has_refs_iff classify s : has_refs classify s = true <-> HasRefs classify s.
Proof.
  unfold has_refs, refs_of, HasRefs. destruct (fs_refs classify s) as [[|r rs]|]; split; intros H;
    try discriminate; try reflexivity.
  - destruct H as (r & rs & E). discriminate E.
  - exists r, rs. reflexivity.
  - destruct H as (r & rs & E). discriminate E.
Qed.

(* ------------------------------------------------------------------ *)
(* numbers                                                               *)
(* ------------------------------------------------------------------ *)
Lemma num_leb_Z a b : num_leb (num_of_Z a) (num_of_Z b) = (a <=? b)%Z.
Proof.
  unfold num_leb, num_cmp, num_of_Z. cbn [mant expo].
  rewrite Z.min_id, Z.sub_diag, Z.pow_0_r, !Z.mul_1_r. reflexivity.
Qed.

Lemma opt_le_iff a b : opt_le a b = true <-> OptLe a b.
Proof.
  unfold opt_le, OptLe. destruct (num_of a) as [x|], (num_of b) as [y|]; split; intros H;
    try reflexivity; try (intros x' y' E1 E2; discriminate).
  - intros x' y' E1 E2. injection E1 as <-. injection E2 as <-. exact H.
  - apply H; reflexivity.
Qed.

(* on two integers the order is the integers' *)
Lemma OptLe_ints a b : OptLe (MInt a) (MInt b) <-> (a <= b)%Z.
Proof.
  rewrite <- opt_le_iff. unfold opt_le. cbn [num_of]. rewrite num_leb_Z. apply Z.leb_le.
Qed.

Lemma num_within_iff mn mx v : num_within mn mx v = true <-> NumWithin mn mx v.
Proof. apply and_iff; apply opt_le_iff. Qed.

(* ------------------------------------------------------------------ *)
(* STRING / PATH parameter constraints                                   *)
(* ------------------------------------------------------------------ *)
Section WithClassify.
Variable classify : N -> cclass.

Lemma len_within_iff minl maxl s : len_within minl maxl s = true <-> LenWithin minl maxl s.
Proof. apply and_iff; apply mint_match_iff; intros a; apply Z.leb_le. Qed.

Theorem string_param_rule_iff : forall fs, string_param_ok fs = true <-> StringParamRule fs.
Proof.
  intros fs. unfold string_param_ok, StringParamRule. cbv zeta. rewrite <- !andb_assoc.
  repeat apply and_iff.
  - apply mint_match_iff. intros a. apply Z.ltb_lt.
  - apply mint_match_iff. intros a. apply Z.ltb_lt.
  - apply opt_le_iff.
  - apply forallb_iff. intros it. apply len_within_iff.
  - apply mstr_match_iff. intros d. apply and_iff; [apply len_within_iff|].
    apply not_none_match_iff, existsb_iff. intros it. rewrite str_eqb_eq. split; intros E; symmetry; exact E.
Qed.

(* ------------------------------------------------------------------ *)
(* INT / FLOAT parameter constraints                                     *)
(* ------------------------------------------------------------------ *)
Theorem num_param_rule_iff : forall fs, num_param_ok fs = true <-> NumParamRule fs.
Proof.
  intros fs. unfold num_param_ok, NumParamRule. cbv zeta. rewrite <- !andb_assoc.
  repeat apply and_iff.
  - apply opt_le_iff.
  - apply forallb_iff. intros it. apply num_within_iff.
  - apply opt_match_iff. intros d. apply and_iff; [apply num_within_iff|].
    apply not_none_match_iff. rewrite existsb_exists. split.
    + intros (it & Hin & E). destruct (num_of it) as [x|] eqn:En; [|discriminate].
      exists it, x. repeat split; assumption.
    + intros (it & x & Hin & En & E). exists it. split; [exact Hin|]. rewrite En. exact E.
Qed.

(* ------------------------------------------------------------------ *)
(* user-interface compatibility                                          *)
(* ------------------------------------------------------------------ *)
Lemma has_allowed_iff fs : has_allowed fs = true <-> HasAllowed fs.
Proof. exact (nonempty_list_iff (fget "allowedValues" fs)). Qed.

Lemma set_eq_str_iff a b : set_eq_str a b = true <-> SameSet a b.
Proof.
  unfold set_eq_str, SameSet.
  rewrite (and_iff _ _ _ _ (forallb_iff _ _ a (fun x => mem_str_In x b)) (forallb_iff _ _ b (fun x => mem_str_In x a))).
  split.
  - intros [H1 H2] x. split; [apply H1|apply H2].
  - intros H. split; intros x; apply H.
Qed.

Lemma control_match_iff fs (p : str -> bool) (P : str -> Prop) :
  (forall ctl, p ctl = true <-> P ctl) ->
  ((match control_of fs with Some ctl => p ctl | None => true end) = true <-> forall ctl, Control fs ctl -> P ctl).
Proof.
  intros Hp. unfold control_of, Control.
  destruct (fget "userInterface" fs) as [ | | | | | | | | |c ui];
    try (split; [intros _ ctl (c' & ui' & E & _); discriminate E|reflexivity]).
  split.
  - intros H ctl (c' & ui' & E & <-). injection E as <- <-. apply Hp, H.
  - intros H. apply Hp, H. exists c, ui. split; reflexivity.
Qed.

(* the CHECK_BOX control wants the allowed values to be one of the listed pairs, in any case and order *)
Lemma checkbox_iff fs :
  (match fget "allowedValues" fs with
   | MNone => false
   | av => existsb (fun st => set_eq_str (map (fun it => upper_s (mstr it)) (mitems av)) (map str_of_string st))
                   Generated.checkbox_sets
   end) = true <->
  (fget "allowedValues" fs <> MNone /\
   exists st, In st Generated.checkbox_sets /\
     SameSet (map (fun it => upper_s (mstr it)) (mitems (fget "allowedValues" fs))) (map str_of_string st)).
Proof.
  pose proof (existsb_iff _ _ Generated.checkbox_sets
                (fun st => set_eq_str_iff (map (fun it => upper_s (mstr it)) (mitems (fget "allowedValues" fs)))
                                          (map str_of_string st))) as Hex.
  destruct (fget "allowedValues" fs);
    try (rewrite Hex; split; [intros H; split; [discriminate|exact H]|intros [_ H]; exact H]).
  split; [discriminate|intros [C _]; exfalso; apply C; reflexivity].
Qed.

Theorem string_ui_rule_iff : forall fs, string_ui_ok fs = true <-> StringUiRule fs.
Proof.
  intros fs. unfold string_ui_ok, StringUiRule. apply control_match_iff. intros ctl.
  rewrite <- !andb_assoc. repeat apply and_iff.
  - rewrite andb_comm. apply nand_iff; [apply or_iff; apply str_eqb_eq|apply has_allowed_iff].
  - apply nimp_iff_l; [apply str_eqb_eq|apply has_allowed_iff].
  - apply if_iff; [apply str_eqb_eq|apply checkbox_iff].
Qed.

Lemma has_filters_iff ui :
  (match fget "fileFilters" ui with MList (_ :: _) => true | _ => false end)
  || negb (is_none (fget "fileFilterDefault" ui)) = true <-> HasFilters ui.
Proof. apply or_iff; [apply nonempty_list_iff|apply not_iff, is_none_iff]. Qed.

Theorem path_ui_rule_iff : forall fs, path_ui_ok fs = true <-> PathUiRule fs.
Proof.
  intros fs. unfold path_ui_ok, PathUiRule. apply ui_match_iff. intros ui. cbv zeta.
  set (ctl := mstr (fget "control" ui)). set (ot := mstr (fget "objectType" fs)).
  pose proof (or_iff _ _ _ _ (str_eqb_eq ctl $"CHOOSE_INPUT_FILE") (str_eqb_eq ctl $"CHOOSE_OUTPUT_FILE")) as CF.
  rewrite <- !andb_assoc. repeat apply and_iff.
  - apply nand_iff; [apply has_allowed_iff|apply or_iff; [exact CF|apply str_eqb_eq]].
  - apply nimp_iff_l; [apply str_eqb_eq|apply has_allowed_iff].
  - apply nimp_iff; [apply has_filters_iff|exact CF].
  - apply nand_iff; apply str_eqb_eq.
  - apply nand_iff; [apply str_eqb_eq|exact CF].
Qed.

Lemma has_delta_iff ui :
  (match num_of (fget "singleStepDelta" ui) with Some d => num_truthy d | None => false end) = true <-> HasDelta ui.
Proof.
  unfold HasDelta. destruct (num_of (fget "singleStepDelta" ui)) as [d|]; split; intros H.
  - exists d. split; [reflexivity|]. unfold num_truthy in H. rewrite negb_true_iff in H.
    apply Z.eqb_neq. exact H.
  - destruct H as (d' & E & Hn). injection E as <-. unfold num_truthy. rewrite negb_true_iff.
    apply Z.eqb_neq. exact Hn.
  - discriminate.
  - destruct H as (d' & E & _). discriminate E.
Qed.

Theorem num_ui_rule_iff : forall fs, num_ui_ok fs = true <-> NumUiRule fs.
Proof.
  intros fs. unfold num_ui_ok, NumUiRule. apply ui_match_iff. intros ui. cbv zeta.
  rewrite <- !andb_assoc. repeat apply and_iff.
  - apply nand_iff; [apply has_allowed_iff|apply str_eqb_eq].
  - apply nimp_iff_l; [apply str_eqb_eq|apply has_allowed_iff].
  - apply nimp_iff; [apply has_delta_iff|apply str_eqb_eq].
Qed.

(* ------------------------------------------------------------------ *)
(* combination expression                                                *)
(* ------------------------------------------------------------------ *)
Theorem combination_rule_iff : forall fs,
  (nodupb (names_of (fget "taskParameterDefinitions" fs))
   && match fget "combination" fs with
      | MStr s => match Comb.parse_str classify s with
                  | Ok t => Comb.accounting false (names_of (fget "taskParameterDefinitions" fs)) (Comb.collect_ids t)
                  | Raise _ => false
                  end
      | _ => true
      end) = true <-> CombinationRule classify fs.
Proof.
  intros fs. apply and_iff_dep; [apply nodupb_iff|]. intros ND.
  apply mstr_match_iff. intros s. apply ok_match_iff. intros t. apply accounting_permutation, ND.
Qed.

(* ------------------------------------------------------------------ *)
(* task parameter ranges                                                 *)
(* ------------------------------------------------------------------ *)
Lemma fmt_items_iff items :
  forallb (fun it => match it with MFmt s => has_refs classify s | _ => true end) items = true <->
  (forall s, In (MFmt s) items -> HasRefs classify s).
Proof.
  rewrite forallb_forall. split.
  - intros H s Hin. apply has_refs_iff. exact (H (MFmt s) Hin).
  - intros H it Hin. destruct it; try reflexivity. apply has_refs_iff. apply H. exact Hin.
Qed.

Lemma range_expr_ok_iff s : range_expr_ok classify s = true <-> RangeExprOk classify s.
Proof. apply ok_match_iff. intros e. apply Z.ltb_lt. Qed.

Theorem int_range_rule_iff : forall fs,
  (match fget "range" fs with
   | MList items => forallb (fun it => match it with MFmt s => has_refs classify s | _ => true end) items
   | MFmt s => if has_refs classify s then true else range_expr_ok classify s
   | _ => true
   end) = true <-> IntRangeRule classify fs.
Proof.
  intros fs. unfold IntRangeRule. destruct (fget "range" fs) as [ | | | | | |s|items| | ];
    try (split; [intros _; exact I|reflexivity]).
  - exact (or_iff _ _ _ _ (has_refs_iff classify s) (range_expr_ok_iff s)).
  - apply fmt_items_iff.
Qed.

Theorem float_range_rule_iff : forall fs,
  forallb (fun it => match it with MFmt s => has_refs classify s | _ => true end) (mitems (fget "range" fs)) = true
  <-> FloatRangeRule classify fs.
Proof. intros fs. apply fmt_items_iff. Qed.

(* ------------------------------------------------------------------ *)
(* environments                                                          *)
(* ------------------------------------------------------------------ *)
Theorem env_rule_iff : forall fs,
  (match fget "variables" fs with MDict [] => false | _ => true end) = true <-> EnvRule fs.
Proof.
  intros fs. unfold EnvRule. destruct (fget "variables" fs) as [ | | | | | | | |[|x l]| ];
    split; intros H; try reflexivity; try discriminate. exfalso. apply H. reflexivity.
Qed.

(* ------------------------------------------------------------------ *)
(* steps: dependencies                                                   *)
(* ------------------------------------------------------------------ *)
Theorem step_rule_iff : forall c fs,
  (nodupb (dep_names (MModel c fs)) && unique_names (fget "stepEnvironments" fs)
   && negb (mem_str (mstr (fget "name" fs)) (dep_names (MModel c fs)))) = true <-> StepRule fs.
Proof.
  intros c fs. unfold StepRule. cbv zeta.
  change (dep_names (MModel c fs)) with (dep_names (MModel "StepTemplate" fs)).
  rewrite !andb_true_iff, nodupb_iff, unique_names_iff, negb_mem_str. tauto.
Qed.

(* where [index_of] finds a name: at a position holding it, counted from [i]; nowhere if it is absent *)
Lemma index_of_spec x l : forall i,
  match index_of x l i with
  | Some k => exists p, k = (i + N.of_nat p)%N /\ nth_error l p = Some x
  | None => ~ In x l
  end.
Proof.
  induction l as [|y r IH]; intros i; cbn [index_of]; [intros []|].
  destruct (str_eqb x y) eqn:E.
  - apply str_eqb_eq in E. subst y. exists 0. split; [lia|reflexivity].
  - specialize (IH (i + 1)%N). destruct (index_of x r (i + 1)) as [k|].
    + destruct IH as (p & Hk & Hn). exists (S p). split; [lia|exact Hn].
    + intros [Hy|Hr]; [subst y; rewrite str_eqb_refl in E; discriminate|exact (IH Hr)].
Qed.

Lemma map_fst_combine' {A B} (l1 : list A) : forall (l2 : list B),
  List.length l1 = List.length l2 -> map fst (combine l1 l2) = l1.
Proof.
  induction l1 as [|a r IH]; intros [|b s] H; cbn in *; try discriminate; [reflexivity|].
  f_equal. apply IH. lia.
Qed.

Lemma names_of_length v : List.length (names_of v) = List.length (mitems v).
Proof. unfold names_of. apply map_length. Qed.

Lemma dep_job_names steps :
  DepGraphSpec.names (dep_job steps) = map N.of_nat (seq 0 (List.length (mitems steps))).
Proof.
  unfold DepGraphSpec.names, dep_job. rewrite map_map. cbn [fst].
  rewrite names_of_length.
  rewrite <- (map_map fst N.of_nat). rewrite map_fst_combine'; [reflexivity|]. apply seq_length.
Qed.

Lemma dep_job_nodup steps : NoDup (DepGraphSpec.names (dep_job steps)).
Proof.
  rewrite dep_job_names. apply FinFun.Injective_map_NoDup; [|apply seq_NoDup].
  intros a b E. apply Nat2N.inj. exact E.
Qed.

Lemma dep_job_closed steps :
  (forall st d, In st (mitems steps) -> In d (dep_names st) -> In d (names_of steps)) ->
  closed (dep_job steps).
Proof.
  intros Hc n ds d Hin Hd. rewrite dep_job_names.
  unfold dep_job in Hin. apply in_map_iff in Hin. destruct Hin as ([i st] & E & Hcomb).
  cbn [fst snd] in E. inversion E. subst n ds. clear E.
  apply in_map_iff in Hd. destruct Hd as (d0 & Ed & Hd0).
  apply in_combine_r in Hcomb.
  pose proof (index_of_spec d0 (names_of steps) 0%N) as HS.
  destruct (index_of d0 (names_of steps) 0) as [k|]; [|destruct (HS (Hc st d0 Hcomb Hd0))].
  destruct HS as (p & -> & Hn). subst d.
  assert (Hlt : p < List.length (names_of steps)) by (apply nth_error_Some; congruence).
  rewrite names_of_length in Hlt. apply in_map_iff. exists p. split; [reflexivity|]. apply in_seq. lia.
Qed.

(* the positions of the steps are well named once every dependency names a step; the cycle test then
   decides [acyclic], which is a negative statement and so follows from its double negation *)
Lemma no_cycle_iff steps :
  (forall st d, In st (mitems steps) -> In d (dep_names st) -> In d (names_of steps)) ->
  (negb (has_cycle (dep_job steps)) = true <-> acyclic (dep_job steps)).
Proof.
  intros Hc.
  assert (Hw : well_named (dep_job steps)) by (split; [apply dep_job_nodup|apply dep_job_closed; exact Hc]).
  rewrite (not_iff _ _ (has_cycle_iff (dep_job steps) Hw)). split.
  - intros NN n Hp. apply NN. intros Ha. exact (Ha n Hp).
  - intros Ha Hn. exact (Hn Ha).
Qed.

Lemma deps_named_iff steps :
  forallb (fun st => forallb (fun d => mem_str d (names_of steps)) (dep_names st)) (mitems steps) = true
  <-> (forall st d, In st (mitems steps) -> In d (dep_names st) -> In d (names_of steps)).
Proof.
  rewrite (forallb_iff _ _ _ (fun st => forallb_iff _ _ (dep_names st) (fun d => mem_str_In d (names_of steps)))).
  split; intros H st; [intros d Hst|intros Hst d]; apply H, Hst.
Qed.

Theorem deps_rule_iff : forall steps,
  (nodupb (names_of steps)
   && negb (DepGraph.has_cycle (dep_job steps))
   && forallb (fun st => forallb (fun d => mem_str d (names_of steps)) (dep_names st)) (mitems steps)) = true
  <-> DepsRule steps.
Proof.
  intros steps. unfold DepsRule. rewrite !andb_true_iff, nodupb_iff, deps_named_iff. split.
  - intros [[ND Hcy] Hc]. split; [exact ND|]. split; [exact Hc|]. apply no_cycle_iff; assumption.
  - intros (ND & Hc & Ha). split; [split; [exact ND|]|exact Hc]. apply no_cycle_iff; assumption.
Qed.

Theorem env_disjoint_rule_iff : forall fs,
  (let jenv := env_names (fget "jobEnvironments" fs) in
   forallb (fun st => forallb (fun e => negb (mem_str e jenv)) (env_names (fget "stepEnvironments" (model_fields st))))
           (mitems (fget "steps" fs))) = true <-> EnvDisjointRule fs.
Proof.
  intros fs. unfold EnvDisjointRule, env_names. cbv zeta.
  rewrite (forallb_iff _ _ _ (fun st => forallb_iff _ _ _ (fun e => negb_mem_str e (names_of (fget "jobEnvironments" fs))))).
  split; intros H st; [intros e Hst|intros Hst e]; apply H, Hst.
Qed.

Theorem job_template_rule_iff : forall raw fs,
  job_template_ok classify raw fs = true <-> JobTemplateRule classify raw fs.
Proof.
  intros raw fs. unfold job_template_ok, JobTemplateRule. cbv zeta.
  (* the validator tests the clauses of [DepsRule] first, fifth and sixth *)
  assert (Hperm : forall n p j r c d e, n && p && j && r && c && d && e = (n && c && d) && (p && (j && (r && e))))
    by (intros [] [] [] [] [] []; reflexivity).
  rewrite Hperm. apply and_iff; [apply deps_rule_iff|]. repeat apply and_iff.
  - apply unique_names_iff.
  - apply unique_names_iff.
  - apply is_nil_iff.
  - apply env_disjoint_rule_iff.
Qed.

Theorem env_template_rule_iff : forall raw fs,
  (unique_names (fget "parameterDefinitions" fs)
   && (match prevalidate Generated.schema (fs_refs classify) "EnvironmentTemplate" raw with [] => true | _ => false end)) = true
  <-> EnvTemplateRule classify raw fs.
Proof. intros raw fs. apply and_iff; [apply unique_names_iff|apply is_nil_iff]. Qed.

(* ------------------------------------------------------------------ *)
(* host requirements (capability names: AcceptCap.v)                     *)
(* ------------------------------------------------------------------ *)
Theorem host_req_rule_iff : forall fs,
  ((match fget "amounts" fs with MList [] => false | _ => true end)
   && (match fget "attributes" fs with MList [] => false | _ => true end)
   && negb (is_none (fget "amounts" fs) && is_none (fget "attributes" fs))
   && N.leb (N.of_nat (List.length (mitems (fget "amounts" fs)) + List.length (mitems (fget "attributes" fs))))
            Generated.max_requirements) = true <-> HostReqRule fs.
Proof.
  intros fs. unfold HostReqRule. cbv zeta. rewrite <- !andb_assoc. repeat apply and_iff.
  - apply not_empty_list_iff.
  - apply not_empty_list_iff.
  - apply not_iff, and_iff; apply is_none_iff.
  - apply N.leb_le.
Qed.

Lemma existsb_sos_In s l :
  existsb (fun x => str_eqb s (str_of_string x)) l = true <-> In s (map str_of_string l).
Proof.
  rewrite in_map_iff, (existsb_iff _ (fun x => str_of_string x = s)); [split; intros (x & H1 & H2); exists x; split; assumption|].
  intros x. rewrite str_eqb_eq. split; intros E; symmetry; exact E.
Qed.

Lemma attr_value_ok_iff s : attr_value_ok s = true <-> AttrValue s.
Proof.
  apply head_tail_iff; [reflexivity|]. intros c. apply or_iff; [reflexivity|apply N.eqb_eq].
Qed.

Theorem attribute_list_rule_iff : forall name v is_allof,
  attribute_list_ok classify name v is_allof = true <-> AttrListRule classify name v is_allof.
Proof.
  intros name v is_allof. unfold attribute_list_ok, AttrListRule.
  apply none_or_iff, mfmt_match_iff. intros nm. cbv zeta. unfold std_attr.
  destruct (List.find (fun e => str_eqb (lower_s nm) (str_of_string (fst e))) Generated.std_attr_caps)
    as [[n0 [values multivalued]]|].
  - apply and_iff.
    + pose proof (Nat.ltb_ge 1 (List.length (mitems v))) as HL.
      destruct (Nat.ltb 1 (List.length (mitems v))), is_allof, multivalued; cbn; split; intros H;
        try reflexivity; try (intros; discriminate); try (intros _ _; apply HL; reflexivity).
      discriminate (proj2 HL (H eq_refl eq_refl)).
    + apply forallb_iff. intros it. apply or_iff; [apply has_refs_iff|apply existsb_sos_In].
  - apply forallb_iff. intros it. apply or_iff; [apply has_refs_iff|].
    apply and_iff; [apply attr_value_ok_iff|apply N.leb_le].
Qed.

(* ------------------------------------------------------------------ *)
(* pre validators (raw data)                                             *)
(* ------------------------------------------------------------------ *)
Lemma raw_int_or_str_iff j : raw_int_or_str j = true <-> RawIntOrStr j.
Proof.
  unfold RawIntOrStr. destruct j; cbn; split; intros H; try reflexivity; try discriminate;
    try (destruct H as [(z0 & E)|(s0 & E)]; discriminate E).
  - left. exists z. reflexivity.
  - right. exists s. reflexivity.
Qed.

Lemma raw_num_or_str_iff j : raw_num_or_str j = true <-> RawNumOrStr j.
Proof.
  unfold RawNumOrStr. destruct j; cbn; split; intros H; try reflexivity; try discriminate;
    try (destruct H as [(z0 & E)|[(m0 & e0 & E)|(s0 & E)]]; discriminate E).
  - left. exists z. reflexivity.
  - right. left. exists m, e. reflexivity.
  - right. right. exists s. reflexivity.
Qed.

Lemma raw_null_or_iff j : raw_null_or raw_int_or_str j = true <-> (NonNull j -> RawIntOrStr j).
Proof.
  unfold raw_null_or, NonNull. destruct j; try (rewrite raw_int_or_str_iff; split; [intros H _; exact H|intros H; apply H; discriminate]).
  split; [intros _ C; exfalso; apply C; reflexivity|reflexivity].
Qed.

Lemma arr_match_iff (j : json) (p : json -> bool) (P : json -> Prop) :
  (forall x, p x = true <-> P x) ->
  ((match j with JArr items => forallb p items | _ => true end) = true <->
   forall items, j = JArr items -> Forall P items).
Proof.
  intros Hp. destruct j; split; intros H; try reflexivity; try (intros items E; discriminate E).
  - intros items E. injection E as <-. apply Forall_forall, (forallb_iff p P l Hp), H.
  - apply (forallb_iff p P l Hp), Forall_forall, H. reflexivity.
Qed.

End WithClassify.
