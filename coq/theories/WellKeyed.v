(* WellKeyed.v — for props/C06.v: instance trees produced by the acceptance model are "well keyed"
   (every item of a list that create_job reshapes into a dict has a string-valued key field, every
   job parameter definition has a plain-string name), and on well-keyed trees instantiate_model
   raises neither TypeError nor AttributeError.  The schema-level condition is a boolean check on
   Generated.schema. *)
From Coq Require Import List NArith ZArith Bool String Lia.
Import ListNotations.
Require Import OJD.Base OJD.Lexer OJD.Json OJD.Schema OJD.Generated OJD.Charsets OJD.Numerals OJD.NumPrint
               OJD.FormatStr OJD.CreateJob OJD.CreateJobProofs OJD.Parse OJD.Validators OJD.Accept OJD.AcceptMono
               OJD.Export OJD.ScopeSpec OJD.ParseOutcomes OJD.NoMissingVar OJD.CreateExn OJD.DecodeInv OJD.ListLib.
Local Open Scope string_scope.
Local Open Scope list_scope.

(* the model nodes of an instance tree *)
Fixpoint nodes (v : mval) : list (string * list (string * mval)) :=
  match v with
  | MList l => flat_map nodes l
  | MDict l => flat_map (fun kv => nodes (snd kv)) l
  | MModel c fs => (c, fs) :: flat_map (fun kv => nodes (snd kv)) fs
  | _ => []
  end.

Lemma direct_nodes : forall x y n, In y (direct x) -> In n (nodes y) -> In n (nodes x).
Proof.
  intros x y n H Hn. destruct x; simpl in H;
    try (destruct H as [H|[]]; subst; exact Hn).
  - simpl. apply in_flat_map. exists y. split; assumption.
  - simpl. apply in_map_iff in H. destruct H as [kv [E H]]. subst y.
    apply in_flat_map. exists kv. split; assumption.
Qed.

Definition str_valued (fmt_ok : bool) (m : mval) : bool :=
  match m with MStr _ => true | MFmt _ => fmt_ok | _ => false end.

Definition keyed_item (kf : string) (item : mval) : bool :=
  match item with MModel _ fs => str_valued true (mfield kf fs) | _ => false end.

Lemma keyed_item_key : forall kf item, keyed_item kf item = true -> exists s, key_of item kf = Ok s.
Proof.
  intros kf item H. unfold keyed_item in H. destruct item as [ | | | | | | | | |c fields]; try discriminate H.
  unfold key_of. destruct (mfield kf fields); try discriminate H; eexists; reflexivity.
Qed.

Section WK.
  Variable SC : schema_t.

  Definition node_ok (c : string) (fields : list (string * mval)) : bool :=
    let j := jcm_of SC c in
    forallb (fun fv => match snd fv with
                       | MList items =>
                         match lookup_s (fst fv) (j_reshape j) with
                         | Some kf => forallb (keyed_item kf) items
                         | None => true
                         end
                       | _ => true
                       end) fields
    && (if j_adds_value j then str_valued false (mfield "name" fields) else true).

  Definition wk (v : mval) : Prop := forall c fs, In (c, fs) (nodes v) -> node_ok c fs = true.

  (* ---------------- instantiate_model on well-keyed trees ---------------- *)
  Theorem inst_wk_raises : forall resolve sigma,
    (forall s e, resolve sigma s = Raise e -> e = FormatStringError) ->
    forall fuel v, wk v -> forall e, inst SC resolve sigma fuel v = Raise e ->
    e = FormatStringError \/ e = KeyError \/ e = RuntimeError.
  Proof.
    intros resolve sigma Hres. induction fuel as [|f IH]; intros v Hwk e H.
    - rewrite inst_O in H. injection H as <-. tauto.
    - rewrite inst_S in H. destruct v as [ | | | | | | | | |c fields]; try discriminate H.
      assert (Hn : node_ok c fields = true) by (apply Hwk; cbn [nodes]; left; reflexivity).
      unfold node_ok in Hn. apply andb_true_iff in Hn. destruct Hn as [Hn1 Hn2].
      apply inst_model_raise_fine in H.
      destruct H as [[fv [y [Hfv [Hy Hr]]]]|[[s Hs]|[[fv [Hfv Hk]]|[[_ [Ha Hnm]]|[-> _]]]]].
      + apply (IH y); [|exact Hr]. intros c' fs' Hin. apply Hwk. cbn [nodes]. right.
        apply in_flat_map. exists fv. split; [exact Hfv|]. eapply direct_nodes; eassumption.
      + apply Hres in Hs. tauto.
      + exfalso. destruct Hk as [items [kf [item [Hx [Hl [Hit Hko]]]]]].
        rewrite forallb_forall in Hn1. specialize (Hn1 fv Hfv). cbv beta in Hn1. rewrite Hx, Hl in Hn1.
        rewrite forallb_forall in Hn1. specialize (Hn1 item Hit).
        destruct (keyed_item_key kf item Hn1) as [s Hs]. rewrite Hs in Hko. discriminate Hko.
      + exfalso. rewrite Ha in Hn2. destruct (mfield "name" fields) eqn:En; try discriminate Hn2.
        apply (Hnm s). reflexivity.
      + tauto.
  Qed.

  (* ---------------- the schema-level condition ---------------- *)
  Definition strkind (fmt_ok : bool) (k : kind) : bool :=
    match k with KStr _ _ _ _ => true | KFormat _ _ _ _ => fmt_ok | _ => false end.

  (* the class's first field is the required, single, string-kinded field [kf] *)
  Definition first_is (kf : string) (fmt_ok : bool) (c' : string) : bool :=
    match lookup_cls SC c' with
    | Some c0' =>
      match c_fields c0' with
      | fl1 :: _ => String.eqb (f_name fl1) kf && f_required fl1
                    && (match f_shape fl1 with Single => true | _ => false end) && strkind fmt_ok (f_kind fl1)
      | [] => false
      end
    | None => false
    end.

  Definition keyed_kind (kf : string) (k : kind) : bool :=
    match k with
    | KModel c' => first_is kf true c'
    | KDisc _ mp => forallb (fun kc => first_is kf true (snd kc)) mp
    | _ => false
    end.

  Definition cls_ok (c : string) (c0 : cls) : bool :=
    forallb (fun fl => match lookup_s (f_name fl) (j_reshape (c_jcm c0)) with
                       | Some kf => keyed_kind kf (f_kind fl)
                       | None => true
                       end) (c_fields c0)
    && (if j_adds_value (c_jcm c0) then first_is "name" false c else true).

  Definition schema_keyed : bool :=
    forallb (fun nc => match lookup_cls SC (fst nc) with Some c0 => cls_ok (fst nc) c0 | None => true end) SC.

  Variable classify : N -> cclass.
  Variable pre : string -> json -> bool.
  Variable post : string -> json -> list (string * mval) -> bool.
  Notation pk := (parse_kind SC classify pre post).
  Notation pc := (parse_cls SC classify pre post).

  Hypothesis keyed : schema_keyed = true.

  Lemma lookup_cls_ok : forall c c0, lookup_cls SC c = Some c0 -> cls_ok c c0 = true.
  Proof.
    intros c c0 H. pose proof keyed as K. unfold schema_keyed in K. rewrite forallb_forall in K.
    specialize (K (c, c0) (lookup_cls_In SC c c0 H)). cbn [fst] in K. rewrite H in K. exact K.
  Qed.

  (* an accepted value of a kind: well keyed, a string where the kind says so, a keyed item where it says so *)
  Definition keyed_val (k : kind) (m : mval) : Prop :=
    wk m /\ (forall fo, strkind fo k = true -> str_valued fo m = true) /\
    (forall kf, keyed_kind kf k = true -> keyed_item kf m = true).

  Definition keyed_obj (c : string) (m : mval) : Prop :=
    wk m /\ exists fs, m = MModel c fs /\ forall kf fo, first_is kf fo c = true -> str_valued fo (mfield kf fs) = true.

  Lemma wk_list : forall l, (forall y, In y l -> wk y) -> wk (MList l).
  Proof.
    intros l H c fs Hin. cbn [nodes] in Hin. apply in_flat_map in Hin. destruct Hin as [y [Hy Hn]].
    exact (H y Hy c fs Hn).
  Qed.

  Lemma wk_value : forall fl x, value_is keyed_val fl x -> wk x.
  Proof.
    intros fl x [(_ & ->)|H]; [intros c fs []|].
    destruct (f_shape fl); [exact (proj1 H)| |]; destruct H as (l & -> & Hl); rewrite Forall_forall in Hl.
    - apply wk_list. intros y Hy. exact (proj1 (Hl y Hy)).
    - intros c fs Hin. cbn [nodes] in Hin. apply in_flat_map in Hin. destruct Hin as (y & Hy & Hn).
      exact (proj1 (Hl y Hy) c fs Hn).
  Qed.

  Lemma first_field_valued : forall kf fo c c0 fs, first_is kf fo c = true -> lookup_cls SC c = Some c0 ->
    Forall2 (field_is keyed_val) (c_fields c0) fs -> str_valued fo (mfield kf fs) = true.
  Proof.
    intros kf fo c c0 fs Hf El H. unfold first_is in Hf. rewrite El in Hf.
    destruct H as [|fl [n x] fls fs' [Hn Hv] _]; [discriminate Hf|]. cbn [fst snd] in *.
    apply andb_true_iff in Hf. destruct Hf as [Hf Hk]. apply andb_true_iff in Hf. destruct Hf as [Hf Hs].
    apply andb_true_iff in Hf. destruct Hf as [Hnm Hq].
    unfold mfield. cbn [lookup_s]. rewrite Hn, Hnm.
    destruct Hv as [(Hq' & _)|Hv]; [congruence|]. destruct (f_shape fl); try discriminate Hs. exact (proj1 (proj2 Hv) fo Hk).
  Qed.

  Theorem parse_wk : forall fuel,
    (forall k v m, pk fuel k v = Ok m -> wk m) /\ (forall c v m, pc fuel c v = Ok m -> wk m).
  Proof.
    intros fuel. enough (A : (forall k v m, pk fuel k v = Ok m -> keyed_val k m) /\ (forall c v m, pc fuel c v = Ok m -> keyed_obj c m))
      by (split; intros x v m H; [exact (proj1 (proj1 A _ _ _ H))|exact (proj1 (proj2 A _ _ _ H))]).
    apply accepted_ind.
    - intros k m Hk Hv. split; [intros c fs Hin; pose proof (scalar_valb k m Hk Hv) as Hm; destruct m; destruct Hm; destruct Hin|].
      split; [intros fo Hs|intros kf Hs]; destruct k; try discriminate Hk; try discriminate Hs;
        destruct m; try discriminate Hv; first [reflexivity|exact Hs].
    - intros c m (Hw & fs & -> & Hf). split; [exact Hw|]. split; [discriminate|]. intros kf Hk. exact (Hf kf true Hk).
    - intros key mp kc m Hin (Hw & fs & -> & Hf). split; [exact Hw|]. split; [discriminate|]. intros kf Hk.
      cbn [keyed_kind] in Hk. rewrite forallb_forall in Hk. exact (Hf kf true (Hk kc Hin)).
    - intros alts k m _ (Hw & _). split; [exact Hw|]. split; discriminate.
    - intros alts lo hi k l _ H. rewrite Forall_forall in H.
      split; [apply wk_list; intros y Hy; exact (proj1 (H y Hy))|]. split; discriminate.
    - intros c c0 fs El H.
      assert (Hfirst : forall kf fo, first_is kf fo c = true -> str_valued fo (mfield kf fs) = true)
        by (intros kf fo Hf; exact (first_field_valued kf fo c c0 fs Hf El H)).
      split; [|exists fs; auto].
      pose proof (lookup_cls_ok c c0 El) as Hok. unfold cls_ok in Hok. apply andb_true_iff in Hok. destruct Hok as [Hok1 Hok2].
      intros c1 fs1 Hin. cbn [nodes] in Hin. destruct Hin as [E|Hin].
      + injection E as <- <-. unfold node_ok, jcm_of. rewrite El. apply andb_true_iff. split.
        * apply forallb_forall. intros fv Hfv. destruct (Forall2_in_r _ _ _ _ _ fv H Hfv) as (fl & Hfl & Hn & Hv).
          destruct (snd fv) as [ | | | | | | |items| | ]; try reflexivity. rewrite Hn.
          rewrite forallb_forall in Hok1. specialize (Hok1 fl Hfl). cbv beta in Hok1.
          destruct (lookup_s (f_name fl) (j_reshape (c_jcm c0))) as [kf|]; [|reflexivity].
          (* a list-valued field that create_job reshapes: every item is keyed *)
          destruct Hv as [(_ & E)|Hv]; [discriminate E|]. destruct (f_shape fl).
          -- apply (proj2 (proj2 Hv)) in Hok1. discriminate Hok1.
          -- destruct Hv as (l & E & Hl). injection E as <-. apply forallb_forall. intros y Hy.
             rewrite Forall_forall in Hl. exact (proj2 (proj2 (Hl y Hy)) kf Hok1).
          -- destruct Hv as (l & E & _). discriminate E.
        * destruct (j_adds_value (c_jcm c0)); [exact (Hfirst _ _ Hok2)|reflexivity].
      + apply in_flat_map in Hin. destruct Hin as (fv & Hfv & Hn).
        destruct (Forall2_in_r _ _ _ _ _ fv H Hfv) as (fl & _ & _ & Hv). exact (wk_value fl _ Hv c1 fs1 Hn).
  Qed.
End WK.

(* ------------------------------------------------------------------ fuel of instantiate_model *)
Theorem inst_fuel_enough : forall SC resolve sigma,
  (forall s e, resolve sigma s = Raise e -> e = FormatStringError) ->
  forall fuel v, mval_depth v < fuel -> inst SC resolve sigma fuel v <> Raise RuntimeError.
Proof.
  intros SC resolve sigma Hres. induction fuel as [|f IH]; intros v Hd H; [lia|].
  rewrite inst_S in H. destruct v as [ | | | | | | | | |c fields]; try discriminate H.
  apply inst_model_raise_fine in H.
  destruct H as [[fv [y [Hfv [Hy Hr]]]]|[[s Hs]|[[fv [_ Hk]]|[[E _]|[E _]]]]].
  - apply (IH y); [|exact Hr]. apply direct_depth in Hy.
    pose proof (depth_le_max _ (fun kv : string * mval => mval_depth (snd kv)) fields fv Hfv) as Hm.
    cbn [mval_depth] in Hd. cbv beta in Hm. lia.
  - apply Hres in Hs. discriminate Hs.
  - apply key_fail_exn in Hk. destruct Hk as [E|E]; discriminate E.
  - discriminate E.
  - discriminate E.
Qed.

(* ------------------------------------------------------------------ the live schema, end to end *)
Lemma generated_keyed : schema_keyed Generated.schema = true.
Proof. vm_compute. reflexivity. Qed.

Theorem accepted_wk : forall classify j t, decode_job classify j = Ok t -> wk Generated.schema t.
Proof.
  intros classify j t H. apply decode_job_ok in H. destruct H as (ms & f & _ & H).
  exact (proj2 (parse_wk Generated.schema classify pre_hook (post_hook classify) generated_keyed f) _ _ _ H).
Qed.

(* accepted template, a value for every declared parameter: instantiate_model either succeeds or
   fails with FormatStringError (which create_job reports as DecodeValidationError) *)
Theorem accepted_inst_raises : forall classify j t vals e,
  decode_job classify j = Ok t -> covers (jget "parameterDefinitions" j) vals ->
  inst Generated.schema (Export.fs_resolve classify) (symtab_of vals) (S (mval_depth t)) t = Raise e ->
  e = FormatStringError.
Proof.
  intros classify j t vals e Hd Hc H.
  assert (Hres : forall s e', Export.fs_resolve classify (symtab_of vals) s = Raise e' -> e' = FormatStringError).
  { intros s e'. apply fs_resolve_only_fse. }
  destruct (inst_wk_raises Generated.schema _ _ Hres _ t (accepted_wk classify j t Hd) e H) as [E|[E|E]].
  - exact E.
  - exfalso. subst e. apply (accepted_no_keyerror classify j t vals Hd Hc).
    unfold create_job_verdict. rewrite H. reflexivity.
  - exfalso. subst e. apply (inst_fuel_enough Generated.schema _ _ Hres (S (mval_depth t)) t); [lia|exact H].
Qed.

(* ... hence the only thing that can leave the create_job model is "outside the modelled domain",
   signalled by the job-side re-validation of the instantiated nodes *)
Theorem accepted_create_exn : forall classify j t vals e,
  decode_job classify j = Ok t -> covers (jget "parameterDefinitions" j) vals ->
  create_job_verdict classify vals t = Raise e -> e = RuntimeError.
Proof.
  intros classify j t vals e Hd Hc H. unfold create_job_verdict in H.
  destruct (inst Generated.schema (Export.fs_resolve classify) (symtab_of vals) (S (mval_depth t)) t) as [job|e0] eqn:Ei.
  - eapply nodes_ok_raises. exact H.
  - apply (accepted_inst_raises classify j t vals e0 Hd Hc) in Ei. subst e0. discriminate H.
Qed.
