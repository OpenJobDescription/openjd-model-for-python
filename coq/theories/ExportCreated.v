(* ExportCreated.v — C17 for CREATED Jobs.  Every Job the composed model [CreateJobFull.create_job_full] returns
   re-decodes from its own export (parse_model(Job, model_to_object(job))) to a Job that is equal to it as pydantic
   compares instances ([ExportCreatedRel.mval_equiv]: classes and field order ignored — the created Job holds the
   subclasses IntRangeListTaskParameterDefinition / FloatRangeListTaskParameterDefinition where the decoded one holds
   RangeListTaskParameterDefinition), and the re-decoded Job exports to the same document ([JsonEquiv.json_equiv]:
   member order ignored).

   Composition:
     decode_job = Ok t           -> t is a well-typed JobTemplate instance              (ConformTyped.decode_job_typed)
     inst ... t = Ok j0, coerce  -> [SEMC "Job"]: any successful parse of the export is equal to the Job
                                                                                         (ExportCreatedInst.job_sem)
     nodes_ok = Ok true          -> parse_model(Job, export) succeeds                   (ConformNodes.nodes_ok_all;
                                    create_job's own validation of the root node) *)
From Coq Require Import List NArith ZArith Bool String Lia.
Import ListNotations.
Require Import OJD.Base OJD.CreateJob OJD.Validators OJD.Accept OJD.Export OJD.ExportProofs OJD.ExportJob
               OJD.JsonEquiv OJD.CreateJobExactLib OJD.CreateJobFull OJD.ConformTyped OJD.ConformInst OJD.ConformNodes
               OJD.ConformProofs OJD.ExportCreatedRel OJD.ExportCreatedSem OJD.ExportCreatedInst
               OJD.ExportCreatedPlain.
Local Open Scope string_scope.
Local Open Scope list_scope.

(* a successful outcome is [Ok] of the value read off it (for closed computations: one evaluation decides [is_ok]) *)
Lemma ok_default : forall (A : Type) (m : outcome A) d, is_ok m = true -> m = Ok (match m with Ok x => x | Raise _ => d end).
Proof. intros A [x|e] d H; [reflexivity|discriminate H]. Qed.

Lemma ok_value : forall (A : Type) (m : outcome A) v d, m = Ok v -> v = match m with Ok x => x | Raise _ => d end.
Proof. intros A m v d ->. reflexivity. Qed.

Theorem created_job_sem : forall classify j t envs vals job,
  decode_job classify j = Ok t -> create_job_full classify envs t vals = Ok job ->
  (forall pre post, SEMC classify pre post "Job" job) /\ (exists fs, job = MModel "Job" fs)
  /\ nodes_ok classify (S (S (S (mval_depth t)))) job = Ok true.
Proof.
  intros classify j t envs vals job Hd H.
  destruct (create_job_full_ok classify envs t vals job H) as [pvals [j0 [_ [Ei [-> En]]]]].
  pose proof (fun pre post => job_sem classify pre post (fs_resolve classify) (symtab_of pvals) (mval_depth t) t j0
                                      (decode_job_typed classify j t Hd) (Nat.le_refl _) Ei) as Hs.
  split; [intros pre post; apply Hs|]. split; [exact (proj2 (Hs pre_hook (post_hook classify)))|exact En].
Qed.

Theorem created_job_roundtrip : forall classify j t envs vals job,
  decode_job classify j = Ok t -> create_job_full classify envs t vals = Ok job ->
  exists v, parse_any classify "Job" (export job) = Ok v
            /\ mval_equiv v job
            /\ json_equiv (export v) (export job).
Proof.
  intros classify j t envs vals job Hd H.
  destruct (created_job_sem classify j t envs vals job Hd H) as [Hs [[fs Ej] Hn]].
  destruct (nodes_ok_all classify _ job Hn "Job" fs) as [v Hv]; [rewrite Ej; apply nodes_self|].
  rewrite <- Ej in Hv. exists v. split; [exact Hv|].
  unfold parse_any in Hv. rewrite export_tobj in Hv.
  destruct (Hs _ _ _ _ Hv) as [Hm Hj]. split; [exact Hm|]. rewrite !export_tobj. exact Hj.
Qed.

(* from the re-decoded Job on, export / decode is the identity: C17_roundtrip_job applies to it *)
Theorem created_job_stable : forall classify j t envs vals job,
  decode_job classify j = Ok t -> create_job_full classify envs t vals = Ok job ->
  exists v, parse_any classify "Job" (export job) = Ok v
            /\ snd (roundtrip classify "Job" v) = true
            /\ plain (export v) = true.
Proof.
  intros classify j t envs vals job Hd H.
  destruct (created_job_roundtrip classify j t envs vals job Hd H) as [v [Hv _]].
  exists v. split; [exact Hv|]. split; [eapply roundtrip_job; exact Hv|eapply decoded_exports_plain; exact Hv].
Qed.

Theorem created_job_plain : forall classify j t envs vals job,
  decode_job classify j = Ok t -> create_job_full classify envs t vals = Ok job ->
  plain (export job) = true.
Proof.
  intros classify j t envs vals job Hd H. unfold export. apply to_object_plain; [|lia].
  destruct (create_job_full_ok classify envs t vals job H) as [pvals [j0 [_ [Ei [-> _]]]]].
  apply coerce_nn. eapply inst_nn; [exact Ei|]. eapply decode_job_nn. exact Hd.
Qed.

(* from the raw documents: the document create_job + model_to_object produce is plain, parse_model(Job, .) accepts it,
   and exporting what it decodes to gives the same document again *)
Theorem created_docs_roundtrip : forall classify env_docs doc vals obj,
  create_job_docs classify env_docs doc vals = Ok (Ok obj) ->
  plain obj = true /\
  exists v, parse_any classify "Job" obj = Ok v /\ json_equiv (export v) obj
            /\ snd (roundtrip classify "Job" v) = true.
Proof.
  intros classify env_docs doc vals obj H. unfold create_job_docs in H.
  destruct (decode_job classify doc) as [t|e] eqn:Ed; cbn [bind] in H; [|discriminate H].
  destruct (mapM (decode_env classify) env_docs) as [envs|e] eqn:Ee; cbn [bind] in H; [|discriminate H].
  destruct (create_job_full classify envs t vals) as [job|e] eqn:Ej; [|discriminate H].
  injection H as <-. split; [eapply created_job_plain; eassumption|].
  destruct (created_job_roundtrip classify doc t envs vals job Ed Ej) as [v [Hv [_ Hj]]].
  exists v. split; [exact Hv|]. split; [exact Hj|eapply roundtrip_job; exact Hv].
Qed.

(* neither export holds a null member: the "null member = absent member" clause of json_equiv is not in play *)
Theorem exports_no_null_members : forall v, no_null_members (export v) = true.
Proof. intros v. rewrite export_tobj. apply nnm_tobj. Qed.

(* ... and when the two documents have pairwise distinct keys (two boolean functions of the VALUES; true of whatever
   a Python dict can hold) they are the same up to the ORDER of the members (JsonEquiv.json_perm) *)
Theorem created_job_roundtrip_perm : forall classify j t envs vals job,
  decode_job classify j = Ok t -> create_job_full classify envs t vals = Ok job ->
  exists v, parse_any classify "Job" (export job) = Ok v
            /\ mval_equiv v job
            /\ (distinct_keys (export v) = true -> distinct_keys (export job) = true ->
                json_perm (export v) (export job)).
Proof.
  intros classify j t envs vals job Hd H.
  destruct (created_job_roundtrip classify j t envs vals job Hd H) as [v [Hv [Hm Hj]]].
  exists v. split; [exact Hv|]. split; [exact Hm|]. intros D1 D2.
  apply json_equiv_perm; try assumption; apply exports_no_null_members.
Qed.
