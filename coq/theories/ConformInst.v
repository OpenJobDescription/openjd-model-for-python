(* ConformInst.v — what instantiate_model (CreateJob.inst) + the job-side coercion (CreateJob.coerce_job)
   make of a WELL-TYPED job template (ConformTyped.tc Generated.schema "JobTemplate"), top-down:

     Job { name, steps : [Step { name, ..., parameterSpace : None | StepParameterSpace {
              taskParameterDefinitions : { p : <task parameter definition> }, combination } } ],
           description, parameters : None | { n : JobParameter { type, description, value } }, jobEnvironments }

   - every task parameter definition of the Job is one of ([jdef]):
       IntRangeListTaskParameterDefinition   { type = "INT",   range = [str, ...] }
       RangeExpressionTaskParameterDefinition{ type = "INT",   range = str }
       FloatRangeListTaskParameterDefinition { type = "FLOAT", range = [str, ...] }
       RangeListTaskParameterDefinition      { type = "STRING" | "PATH", range = [str, ...] }
     (the class follows from the template class, the type is the template class's literal, every range item
      is a str after resolution + coercion);
   - every job parameter n is JobParameter { type = T, description, value = symtab[RawParam.n] } where T is
     the "type" field of a definition named n in the template's parameterDefinitions ([jpar]).

   Built on the shape theorems of CreateJobProofs.v (C05).  No nodes_ok here: this is about the tree that
   instantiate_model builds, whether or not the target models accept it. *)
From Coq Require Import List NArith ZArith Bool String Lia.
Import ListNotations.
Require Import OJD.Base OJD.Lexer OJD.Json OJD.Schema OJD.Generated OJD.Charsets OJD.Numerals OJD.NumPrint
               OJD.FormatStr OJD.CreateJob OJD.CreateJobProofs OJD.Parse OJD.Validators OJD.CreateJobExactLib
               OJD.CreateJobExactParams OJD.CreateJobExactSpace
               OJD.ListLib OJD.ConformLib OJD.ConformTyped.
Local Open Scope string_scope.
Local Open Scope list_scope.

Local Notation G := Generated.schema.

Definition int_item (x : mval) : Prop := (exists z, x = MInt z) \/ (exists s, x = MStr s).
Definition dec_item (x : mval) : Prop := (exists a e, x = MDec a e) \/ (exists s, x = MStr s).
Definition str_item (x : mval) : Prop := exists s, x = MStr s.

(* a task parameter definition as instantiate_model leaves it (literal numbers not yet printed) *)
Inductive jdef_raw : mval -> Prop :=
| jr_int : forall its, Forall int_item its ->
    jdef_raw (MModel "IntRangeListTaskParameterDefinition" [("type", MStr $"INT"); ("range", MList its)])
| jr_expr : forall r,
    jdef_raw (MModel "RangeExpressionTaskParameterDefinition" [("type", MStr $"INT"); ("range", MStr r)])
| jr_float : forall its, Forall dec_item its ->
    jdef_raw (MModel "FloatRangeListTaskParameterDefinition" [("type", MStr $"FLOAT"); ("range", MList its)])
| jr_str : forall ty its, ty = $"STRING" \/ ty = $"PATH" -> Forall str_item its ->
    jdef_raw (MModel "RangeListTaskParameterDefinition" [("type", MStr ty); ("range", MList its)]).

(* ... and in the Job (after coerce_job): every range item is a str *)
Inductive jdef : mval -> Prop :=
| jd_int : forall ss,
    jdef (MModel "IntRangeListTaskParameterDefinition" [("type", MStr $"INT"); ("range", MList (map MStr ss))])
| jd_expr : forall r,
    jdef (MModel "RangeExpressionTaskParameterDefinition" [("type", MStr $"INT"); ("range", MStr r)])
| jd_float : forall ss,
    jdef (MModel "FloatRangeListTaskParameterDefinition" [("type", MStr $"FLOAT"); ("range", MList (map MStr ss))])
| jd_str : forall ty ss, ty = $"STRING" \/ ty = $"PATH" ->
    jdef (MModel "RangeListTaskParameterDefinition" [("type", MStr ty); ("range", MList (map MStr ss))]).

Section Shapes.
  Variable Pdef : mval -> Prop.            (* a task parameter definition *)
  Variable Ppar : str * mval -> Prop.      (* an entry of Job.parameters *)

  Definition space_of (ps : mval) : Prop :=
    ps = MNone \/
    exists d cb, ps = MModel "StepParameterSpace" [("taskParameterDefinitions", MDict d); ("combination", cb)] /\
                 Forall (fun kv : str * mval => Pdef (snd kv)) d.

  Definition step_of (st : mval) : Prop :=
    exists n d sc se ps hr dp,
      st = MModel "Step" [("name", MStr n); ("description", d); ("script", sc); ("stepEnvironments", se);
                          ("parameterSpace", ps); ("hostRequirements", hr); ("dependencies", dp)] /\
      space_of ps.

  Definition job_of (job : mval) : Prop :=
    exists n steps d p e,
      job = MModel "Job" [("name", MStr n); ("steps", MList steps); ("description", d); ("parameters", p);
                          ("jobEnvironments", e)] /\
      Forall step_of steps /\
      (p = MNone \/ exists pd, p = MDict pd /\ Forall Ppar pd).
End Shapes.

(* an entry of Job.parameters, tied to the template [t] and the symbol table *)
Definition jpar (t : mval) (sigma : symtab) (kv : str * mval) : Prop :=
  exists T dsc v,
    snd kv = MModel "JobParameter" [("type", MStr T); ("description", dsc); ("value", MStr v)] /\
    leaf dsc = true /\
    st_lookup sigma ($"RawParam." ++ fst kv) = Some v /\
    exists c fs l ic ifs, t = MModel c fs /\ mfield "parameterDefinitions" fs = MList l /\
                          In (MModel ic ifs) l /\ mfield "name" ifs = MStr (fst kv) /\ mfield "type" ifs = MStr T.

Section Fields.
  Notation tk := (tk G). Notation tc := (tc G). Notation tv := (tv G). Notation tf := (tf G).

  Lemma tv_req_single : forall fl x, tv fl x -> f_shape fl = Single -> f_required fl = true -> tk (f_kind fl) x.
  Proof. intros fl x H Hs Hq. destruct (tv_single_inv G fl x Hs H) as [[_ E]|K]; [congruence|exact K]. Qed.

  Lemma tv_opt_single : forall fl x, tv fl x -> f_shape fl = Single -> x = MNone \/ tk (f_kind fl) x.
  Proof. intros fl x H Hs. destruct (tv_single_inv G fl x Hs H) as [[E _]|K]; [left; exact E|right; exact K]. Qed.

  Lemma tv_req_list : forall fl lo hi x, tv fl x -> f_shape fl = ListOf lo hi -> f_required fl = true ->
    exists l, x = MList l /\ Forall (tk (f_kind fl)) l.
  Proof. intros fl lo hi x H Hs Hq. destruct (tv_list_inv G fl lo hi x Hs H) as [[_ E]|K]; [congruence|exact K]. Qed.

  Lemma tv_opt_list : forall fl lo hi x, tv fl x -> f_shape fl = ListOf lo hi ->
    x = MNone \/ exists l, x = MList l /\ Forall (tk (f_kind fl)) l.
  Proof. intros fl lo hi x H Hs. destruct (tv_list_inv G fl lo hi x Hs H) as [[E _]|K]; [left; exact E|right; exact K]. Qed.

  Definition opt_text (x : mval) : Prop := x = MNone \/ exists s, x = MStr s.
  Definition opt_dec (x : mval) : Prop := x = MNone \/ exists a e, x = MDec a e.
  Definition opt_items (k : kind) (x : mval) : Prop := x = MNone \/ exists l, x = MList l /\ Forall (tk k) l.

  Lemma opt_text_leaf : forall x, opt_text x -> leaf x = true.
  Proof. intros x [->|[s ->]]; reflexivity. Qed.

  Lemma opt_dec_leaf : forall x, opt_dec x -> leaf x = true.
  Proof. intros x [->|[a [e ->]]]; reflexivity. Qed.

  Lemma opt_items_list : forall k x, opt_items k x -> opt_list x = true.
  Proof. intros k x [->|[l [-> _]]]; reflexivity. Qed.

  Lemma tv_text : forall fl st lo hi cs x, tv fl x -> f_shape fl = Single -> f_kind fl = KStr st lo hi cs -> opt_text x.
  Proof.
    intros fl st lo hi cs x H Hs Hk. apply tv_opt_single in H; [|exact Hs]. rewrite Hk in H.
    destruct H as [->|H]; [left; reflexivity|]. apply tk_str_inv in H. destruct H as [s [-> _]]. right. exists s. reflexivity.
  Qed.

  Lemma tv_dec : forall fl x, tv fl x -> f_shape fl = Single -> f_kind fl = KDec -> opt_dec x.
  Proof.
    intros fl x H Hs Hk. apply tv_opt_single in H; [|exact Hs]. rewrite Hk in H.
    destruct H as [->|H]; [left; reflexivity|]. apply tk_dec_inv in H. destruct H as [a [e ->]]. right. exists a, e. reflexivity.
  Qed.

  Lemma tv_req_text : forall fl st lo hi cs x, tv fl x -> f_shape fl = Single -> f_required fl = true ->
    f_kind fl = KStr st lo hi cs -> exists s, x = MStr s.
  Proof.
    intros fl st lo hi cs x H Hs Hq Hk. apply tv_req_single in H; [|exact Hs|exact Hq]. rewrite Hk in H.
    apply tk_str_inv in H. destruct H as [s [-> _]]. exists s. reflexivity.
  Qed.

  Lemma tv_req_fmt : forall fl fc lo hi cs x, tv fl x -> f_shape fl = Single -> f_required fl = true ->
    f_kind fl = KFormat fc lo hi cs -> exists s, x = MFmt s.
  Proof.
    intros fl fc lo hi cs x H Hs Hq Hk. apply tv_req_single in H; [|exact Hs|exact Hq]. rewrite Hk in H.
    apply tk_fmt_inv in H. exact H.
  Qed.

  Lemma tv_items : forall fl lo hi x, tv fl x -> f_shape fl = ListOf lo hi -> opt_items (f_kind fl) x.
  Proof. exact tv_opt_list. Qed.

  Lemma tc_single : forall c x, tc c x -> single x = true.
  Proof. intros c x H. apply tc_inv in H. destruct H as [c0 [fs [_ [-> _]]]]. reflexivity. Qed.

  Lemma inst_elem_tc : forall rec c x, tc c x -> inst_elem rec x = rec x.
  Proof. intros rec c x H. apply tc_inv in H. destruct H as [c0 [fs [_ [-> _]]]]. reflexivity. Qed.

  Lemma opt_model_single : forall c x, x = MNone \/ tk (KModel c) x -> single x = true.
  Proof. intros c x [->|H]; [reflexivity|]. apply tk_model_inv in H. eapply tc_single. exact H. Qed.
End Fields.

(* [fields_elim fields k P] unfolds to  forall x1, tv fl1 x1 -> .. forall xn, tv fln xn -> k [(name1, x1); ..; (namen, xn)] -> P *)
Fixpoint fields_elim (fields : list field) (k : list (string * mval) -> Prop) (P : Prop) : Prop :=
  match fields with
  | [] => k [] -> P
  | fl :: r => forall x, tv G fl x -> fields_elim r (fun fs => k ((f_name fl, x) :: fs)) P
  end.

Lemma tf_elim : forall fields fs, Forall2 (tf G) fields fs ->
  forall (k : list (string * mval) -> Prop) P, k fs -> fields_elim fields k P -> P.
Proof.
  induction 1 as [|fl [n x] fields fs Hf _ IH]; intros k P Hk HP; [exact (HP Hk)|].
  apply tf_inv in Hf. destruct Hf as [Hn Hx]. cbn [fst snd] in Hn, Hx. subst n.
  exact (IH (fun fs' => k ((f_name fl, x) :: fs')) P Hk (HP x Hx)).
Qed.

Lemma tc_elim : forall c x, tc G c x -> forall k, lookup_cls G c = Some k ->
  forall P : Prop, fields_elim (c_fields k) (fun fs => x = MModel c fs) P -> P.
Proof.
  intros c x H k Hl P HP. apply tc_inv in H. destruct H as [k' [fs [Hl' [-> HF]]]].
  rewrite Hl' in Hl. injection Hl as <-. exact (tf_elim _ _ HF _ P eq_refl HP).
Qed.

(* a well-typed node [H : tc G "<Class>" x] of a concrete class: the goal becomes
   forall x1, tv fl1 x1 -> .. -> x = MModel "<Class>" [(name1, x1); ..] -> goal.
   (Unfolded by cbv before the introductions: checking the introductions against the folded form is slow.) *)
Ltac typed_fields H :=
  apply (tc_elim _ _ H _ eq_refl); clear H; cbv beta iota delta [fields_elim c_fields f_name].

Section Inst.
  Variable resolve : symtab -> str -> outcome str.
  Variable sigma : symtab.
  Notation tk := (tk G). Notation tc := (tc G). Notation tv := (tv G).
  Notation INST := (inst G resolve sigma).

  Definition range_length_kept (item y : mval) : Prop :=
    forall l', mfield "range" (model_fields y) = MList l' ->
    exists l, mfield "range" (model_fields item) = MList l /\ List.length l' = List.length l.

  Lemma res_items : forall (P : mval -> Prop) (Q : mval -> Prop) rec l l',
    (forall x y, P x -> res_elem resolve sigma rec x = Ok y -> Q y) ->
    Forall P l -> mapM (res_elem resolve sigma rec) l = Ok l' -> Forall Q l'.
  Proof.
    intros P Q rec l l' HPQ Hl Hm. apply Forall_forall. intros y Hy.
    destruct (mapM_ok_in _ _ _ _ _ Hm y Hy) as [x [Hx Hr]].
    rewrite Forall_forall in Hl. exact (HPQ x y (Hl x Hx) Hr).
  Qed.

  Lemma res_fmt : forall rec s y, res_elem resolve sigma rec (MFmt s) = Ok y -> exists r, y = MStr r.
  Proof.
    intros rec s y H. cbn [res_elem] in H. destruct (resolve sigma s) as [r|e]; cbn [bind] in H; [|discriminate H].
    injection H as <-. eexists. reflexivity.
  Qed.

  (* the items of the two kinds of range list that hold literals: a literal stays, a format string is resolved *)
  Lemma res_lit_or_fmt : forall (k : kind) (L : mval -> Prop) rec x y,
    (forall x, tk k x -> L x) -> (forall x, L x -> res_elem resolve sigma rec x = Ok x) ->
    tk (KUnion [UScalar k; UScalar (KFormat "TaskParameterStringValue" None None CS_any)]) x ->
    res_elem resolve sigma rec x = Ok y -> L y \/ str_item y.
  Proof.
    intros k L rec x y HL Hid Hx Hr. apply tk_union_inv in Hx. destruct Hx as [a [Ha Hx]].
    destruct Ha as [<-|[<-|[]]]; apply ta_scalar_inv in Hx.
    - left. apply HL in Hx. rewrite (Hid x Hx) in Hr. injection Hr as <-. exact Hx.
    - right. apply tk_fmt_inv in Hx. destruct Hx as [s ->]. eapply res_fmt. exact Hr.
  Qed.

  (* a class with a required "type" literal and a required list "range" of items of kind [k]
     (the Float, String and Path classes) *)
  Lemma inst_list_def : forall f c c0 fn lit lo hi k (Q : mval -> Prop) item y,
    In c ["FloatTaskParameterDefinition"; "StringTaskParameterDefinition"; "PathTaskParameterDefinition"] ->
    lookup_cls G c = Some c0 ->
    c_fields c0 = [fn; mkField "type" "type" true Single (KLiteral lit); mkField "range" "range" true (ListOf lo hi) k] ->
    f_name fn = "name" ->
    (forall rec x y, tk k x -> res_elem resolve sigma rec x = Ok y -> Q y) ->
    tc c item -> INST (S f) item = Ok y ->
    exists l', y = MModel (task_param_target c) [("type", MStr (str_of_string lit)); ("range", MList l')] /\ Forall Q l' /\
               range_length_kept item y.
  Proof.
    intros f c c0 fn lit lo hi k Q item y Hc El Ef En HQ Ht H.
    apply (tc_elim _ _ Ht _ El). rewrite Ef. cbn [fields_elim f_name]. rewrite En. intros m _ m0 Hf0 m1 Hf1 ->.
    apply tv_req_single in Hf0; [|reflexivity|reflexivity]. apply tk_lit_inv in Hf0. subst m0.
    eapply tv_req_list in Hf1; [|reflexivity|reflexivity]. destruct Hf1 as [l [-> Hl]].
    rewrite (shape_TaskParam _ _ _ c) in H; [|exact Hc|reflexivity].
    destruct (mapM _ l) as [l'|e] eqn:Em; cbn [bind] in H; [|discriminate H]. injection H as <-.
    exists l'. split; [reflexivity|]. split;
      [|intros l2 E; injection E as <-; exists l; split; [reflexivity|exact (mapM_length _ _ _ _ _ Em)]].
    eapply res_items; [|exact Hl|exact Em]. intros x y. apply HQ.
  Qed.

  Lemma inst_task_def_len : forall f c item y, In c task_classes -> tc c item -> INST f item = Ok y ->
    jdef_raw y /\ range_length_kept item y.
  Proof.
    intros f c item y Hc Ht H. destruct f as [|f]; [rewrite inst_O in H; discriminate H|].
    unfold task_classes in Hc. destruct Hc as [<-|[<-|[<-|[<-|[]]]]].
    - (* INT: a list of integers and format strings, or one range expression *)
      typed_fields Ht. intros nm _ ty Hty rg Hrg ->.
      apply tv_req_single in Hty; [|reflexivity|reflexivity]. apply tk_lit_inv in Hty. subst ty.
      apply tv_req_single in Hrg; [|reflexivity|reflexivity]. apply tk_union_inv in Hrg. destruct Hrg as [a [Ha Hu]].
      destruct Ha as [<-|[<-|[]]].
      + apply ta_list_inv in Hu. destruct Hu as [l [-> Hl]].
        rewrite shape_IntTaskParam_list in H by reflexivity.
        destruct (mapM _ l) as [l'|e] eqn:Em; cbn [bind] in H; [|discriminate H]. injection H as <-.
        split; [|intros l2 E; injection E as <-; exists l; split; [reflexivity|exact (mapM_length _ _ _ _ _ Em)]]. apply jr_int. eapply res_items; [|exact Hl|exact Em].
        intros x y. apply (res_lit_or_fmt _ (fun x => exists z, x = MInt z)); [apply tk_int_inv|intros x0 [z ->]; reflexivity].
      + apply ta_scalar_inv in Hu. apply tk_fmt_inv in Hu. destruct Hu as [s ->].
        rewrite shape_IntTaskParam_expr in H by reflexivity.
        destruct (resolve sigma s) as [r|e]; cbn [bind] in H; [|discriminate H]. injection H as <-. split; [apply jr_expr|intros l2 E; discriminate E].
    - destruct (inst_list_def f _ _ _ "FLOAT" _ _ _ dec_item item y (or_introl eq_refl) ltac:(vm_compute; reflexivity) eq_refl eq_refl)
        as [l' [-> [Hl Hn]]]; [|exact Ht|exact H|exact (conj (jr_float l' Hl) Hn)].
      intros rec x y0. apply (res_lit_or_fmt _ (fun x => exists a e, x = MDec a e)); [apply tk_dec_inv|intros x0 [a [e ->]]; reflexivity].
    - destruct (inst_list_def f _ _ _ "STRING" _ _ _ str_item item y (or_intror (or_introl eq_refl)) ltac:(vm_compute; reflexivity) eq_refl eq_refl)
        as [l' [-> [Hl Hn]]]; [|exact Ht|exact H|exact (conj (jr_str _ l' (or_introl eq_refl) Hl) Hn)].
      intros rec x y0 Hx Hr. apply tk_fmt_inv in Hx. destruct Hx as [s ->]. eapply res_fmt. exact Hr.
    - destruct (inst_list_def f _ _ _ "PATH" _ _ _ str_item item y (or_intror (or_intror (or_introl eq_refl))) ltac:(vm_compute; reflexivity) eq_refl eq_refl)
        as [l' [-> [Hl Hn]]]; [|exact Ht|exact H|exact (conj (jr_str _ l' (or_intror eq_refl) Hl) Hn)].
      intros rec x y0 Hx Hr. apply tk_fmt_inv in Hx. destruct Hx as [s ->]. eapply res_fmt. exact Hr.
  Qed.

  Theorem inst_task_def : forall f c item y, In c task_classes -> tc c item -> INST f item = Ok y -> jdef_raw y.
  Proof. intros f c item y Hc Ht H. exact (proj1 (inst_task_def_len f c item y Hc Ht H)). Qed.

  (* the dictionary built from a list by reshape: every entry is an instantiated item under its key *)
  Lemma keyed_fold_in : forall rec kf items acc d,
    fold_left (keyed_step rec kf) items acc = Ok d ->
    forall kv, In kv d ->
      (exists a, acc = Ok a /\ In kv a) \/
      (exists item, In item items /\ key_of item kf = Ok (fst kv) /\ inst_elem rec item = Ok (snd kv)).
  Proof.
    intros rec kf. induction items as [|x r IH]; intros acc d H kv Hkv.
    - cbn [fold_left] in H. left. exists d. split; [exact H|exact Hkv].
    - cbn [fold_left] in H. destruct (IH _ _ H kv Hkv) as [[a' [Ea Hin]]|[item [Hi [Hk Hy]]]].
      + unfold keyed_step in Ea. destruct acc as [a|e]; cbn [bind] in Ea; [|discriminate Ea].
        destruct (key_of x kf) as [k|e] eqn:Ek; cbn [bind] in Ea; [|discriminate Ea].
        destruct (inst_elem rec x) as [y|e] eqn:Ey; cbn [bind] in Ea; [|discriminate Ea].
        injection Ea as <-. apply dict_set_in in Hin. destruct Hin as [->|Hin].
        * right. exists x. split; [left; reflexivity|]. split; assumption.
        * left. exists a. split; [reflexivity|exact Hin].
      + right. exists item. split; [right; exact Hi|]. split; assumption.
  Qed.

  Lemma keyed_in : forall rec kf items d, keyed rec kf (MList items) = Ok (MDict d) ->
    forall kv, In kv d -> exists item, In item items /\ key_of item kf = Ok (fst kv) /\ inst_elem rec item = Ok (snd kv).
  Proof.
    intros rec kf items d H kv Hkv. unfold keyed in H.
    destruct (fold_left (keyed_step rec kf) items (Ok [])) as [d'|e] eqn:Ef; cbn [bind] in H; [|discriminate H].
    injection H as <-. destruct (keyed_fold_in _ _ _ _ _ Ef kv Hkv) as [[a [Ea Hin]]|K]; [|exact K].
    injection Ea as <-. destruct Hin.
  Qed.

  Lemma keyed_dict : forall rec kf items p, keyed rec kf (MList items) = Ok p -> exists d, p = MDict d.
  Proof.
    intros rec kf items p H. unfold keyed in H. destruct (fold_left _ items (Ok [])) as [d|e]; cbn [bind] in H; [|discriminate H].
    injection H as <-. exists d. reflexivity.
  Qed.

  Lemma elems_list : forall rec l e, elems rec (MList l) = Ok e ->
    exists l', e = MList l' /\ Forall2 (fun x y => inst_elem rec x = Ok y) l l'.
  Proof.
    intros rec l e H. cbn [elems] in H. destruct (mapM (inst_elem rec) l) as [l'|e'] eqn:Em; cbn [bind] in H; [|discriminate H].
    injection H as <-. exists l'. split; [reflexivity|]. apply mapM_Forall2. exact Em.
  Qed.

  Lemma disc_task_class : forall item, tk kdisc_task item -> exists c, In c task_classes /\ tc c item.
  Proof.
    intros item H. apply tk_disc_inv in H. destruct H as [k [c [Hin Hc]]]. exists c. split; [|exact Hc].
    apply mem_s_In. destruct Hin as [E|[E|[E|[E|[]]]]]; injection E as _ <-; reflexivity.
  Qed.

  Theorem inst_space : forall f ps y, tc "StepParameterSpaceDefinition" ps -> INST f ps = Ok y -> space_of jdef_raw y.
  Proof.
    intros f ps y Ht H. destruct f as [|f]; [rewrite inst_O in H; discriminate H|].
    typed_fields Ht. intros tpd Htpd cb Hcb ->.
    eapply tv_req_list in Htpd; [|reflexivity|reflexivity]. destruct Htpd as [items [-> Hitems]].
    eapply tv_text in Hcb; [|reflexivity..].
    rewrite shape_ParamSpace in H; [|reflexivity|exact (opt_text_leaf _ Hcb)].
    destruct (keyed (INST f) "name" (MList items)) as [t'|e] eqn:Ek; cbn [bind] in H; [|discriminate H]. injection H as <-.
    destruct (keyed_dict _ _ _ _ Ek) as [d ->]. right. exists d. eexists. split; [reflexivity|].
    apply Forall_forall. intros kv Hkv.
    destruct (keyed_in _ _ _ _ Ek kv Hkv) as [item [Hi [_ Hy]]].
    rewrite Forall_forall in Hitems. specialize (Hitems item Hi).
    destruct (disc_task_class item Hitems) as [c [Hc Htc]].
    rewrite (inst_elem_tc _ _ _ Htc) in Hy. exact (inst_task_def f c item _ Hc Htc Hy).
  Qed.

  Theorem inst_step : forall f st y, tc "StepTemplate" st -> INST f st = Ok y -> step_of jdef_raw y.
  Proof.
    intros f st y Ht H. destruct f as [|f]; [rewrite inst_O in H; discriminate H|].
    typed_fields Ht. intros nm Hn d Hd sc Hsc se Hse ps Hps hr Hhr dp Hdp ->.
    eapply tv_req_text in Hn; [|reflexivity..]. destruct Hn as [n ->].
    eapply tv_text in Hd; [|reflexivity..]. apply opt_text_leaf in Hd.
    apply tv_req_single in Hsc; [|reflexivity..]. apply tk_model_inv in Hsc. apply tc_single in Hsc.
    eapply tv_items in Hse; [|reflexivity]. apply opt_items_list in Hse.
    apply tv_opt_single in Hps; [|reflexivity].
    apply tv_opt_single in Hhr; [|reflexivity]. apply opt_model_single in Hhr.
    eapply tv_items in Hdp; [|reflexivity]. apply opt_items_list in Hdp.
    rewrite shape_StepTemplate in H; try assumption; try reflexivity; [|eapply opt_model_single; exact Hps].
    destruct (inst_elem (INST f) sc) as [sc'|e]; cbn [bind] in H; [|discriminate H].
    destruct (elems (INST f) se) as [se'|e]; cbn [bind] in H; [|discriminate H].
    destruct (inst_elem (INST f) ps) as [ps'|e] eqn:Eps; cbn [bind] in H; [|discriminate H].
    destruct (inst_elem (INST f) hr) as [hr'|e]; cbn [bind] in H; [|discriminate H].
    destruct (elems (INST f) dp) as [dp'|e]; cbn [bind] in H; [|discriminate H].
    injection H as <-. do 7 eexists. split; [reflexivity|].
    destruct Hps as [->|Hps].
    - cbn [inst_elem] in Eps. injection Eps as <-. left. reflexivity.
    - apply tk_model_inv in Hps. rewrite (inst_elem_tc _ _ _ Hps) in Eps. exact (inst_space f ps _ Hps Eps).
  Qed.

  (* a job parameter definition of any of the four classes: instantiate_model reads its name, its type and its
     description, and nothing else *)
  Lemma param_def_inst : forall item, tk kdisc_params item ->
    exists c ifs n T d,
      item = MModel c ifs /\ mfield "name" ifs = MStr n /\ mfield "type" ifs = MStr T /\
      opt_text d /\
      forall f, INST (S f) item = job_parameter sigma n (MStr T) d.
  Proof.
    intros item Ht. apply tk_disc_inv in Ht. destruct Ht as [kk [c [Hin Ht]]].
    destruct Hin as [E|[E|[E|[E|[]]]]]; injection E as _ <-; typed_fields Ht.
    1-3: intros nm Hn ty Hty ui _ d Hd mn _ mx _ av _ df _ ->.
    4: intros nm Hn ty Hty ot _ dfl _ ui _ d Hd mn _ mx _ av _ df _ ->.
    all: eapply tv_req_text in Hn; [|reflexivity..]; destruct Hn as [n ->];
      apply tv_req_single in Hty; [|reflexivity..]; apply tk_lit_inv in Hty; subst ty;
      eapply tv_text in Hd; [|reflexivity..];
      do 2 eexists; exists n; eexists; exists d; repeat (split; [first [reflexivity|exact Hd]|]); intros f.
    - apply shape_JobIntParam; [reflexivity|exact (opt_text_leaf _ Hd)].
    - apply shape_JobFloatParam; [reflexivity|exact (opt_text_leaf _ Hd)].
    - apply shape_JobStringParam; [reflexivity|exact (opt_text_leaf _ Hd)].
    - apply shape_JobPathParam; [reflexivity|exact (opt_text_leaf _ Hd)].
  Qed.

  Theorem inst_param : forall f t c fs l item k y,
    t = MModel c fs -> mfield "parameterDefinitions" fs = MList l -> In item l ->
    tk kdisc_params item -> key_of item "name" = Ok k -> inst_elem (INST f) item = Ok y -> jpar t sigma (k, y).
  Proof.
    intros f t c fs l item k y Et El Hin Ht Hk H.
    destruct (param_def_inst item Ht) as [ic [ifs [n [T [d [-> [En [Ety [Hd Hi]]]]]]]]].
    cbn [key_of] in Hk. rewrite En in Hk. injection Hk as <-. cbn [inst_elem] in H.
    destruct f as [|f]; [rewrite inst_O in H; discriminate H|]. rewrite Hi in H. unfold job_parameter in H.
    destruct (st_lookup sigma _) as [v|] eqn:Ev; [|discriminate H]. injection H as <-.
    exists T, d, v. split; [reflexivity|]. split; [exact (opt_text_leaf _ Hd)|]. split; [exact Ev|].
    exists c, fs, l, ic, ifs. repeat split; assumption.
  Qed.

  Theorem inst_job : forall f t job, tc "JobTemplate" t -> INST f t = Ok job -> job_of jdef_raw (jpar t sigma) job.
  Proof.
    intros f t job Ht H. destruct f as [|f]; [rewrite inst_O in H; discriminate H|].
    typed_fields Ht. intros sv _ nm Hn st Hst jd Hd pd Hpd je Hje ss _ ->.
    eapply tv_req_fmt in Hn; [|reflexivity..]. destruct Hn as [s ->].
    eapply tv_req_list in Hst; [|reflexivity..]. destruct Hst as [stl [-> Hsteps]].
    eapply tv_text in Hd; [|reflexivity..]. apply opt_text_leaf in Hd.
    eapply tv_items in Hpd; [|reflexivity].
    eapply tv_items in Hje; [|reflexivity]. apply opt_items_list in Hje.
    rewrite shape_JobTemplate in H; try assumption; try reflexivity; [|eapply opt_items_list; exact Hpd].
    destruct (resolve sigma s) as [n|e]; cbn [bind] in H; [|discriminate H].
    destruct (elems (INST f) (MList stl)) as [st'|e] eqn:Est; cbn [bind] in H; [|discriminate H].
    destruct (keyed (INST f) "name" pd) as [p|e] eqn:Ep; cbn [bind] in H; [|discriminate H].
    destruct (elems (INST f) je) as [je'|e]; cbn [bind] in H; [|discriminate H].
    injection H as <-.
    destruct (elems_list _ _ _ Est) as [steps [-> HFs]].
    exists n, steps. do 3 eexists. split; [reflexivity|]. split.
    - apply Forall_forall. intros y Hy. destruct (Forall2_in_r _ _ _ _ _ _ HFs Hy) as [x [Hx Hi]].
      rewrite Forall_forall in Hsteps. specialize (Hsteps x Hx). apply tk_model_inv in Hsteps.
      rewrite (inst_elem_tc _ _ _ Hsteps) in Hi. exact (inst_step f x y Hsteps Hi).
    - destruct Hpd as [->|[l [-> Hl]]].
      + cbn [keyed] in Ep. injection Ep as <-. left. reflexivity.
      + destruct (keyed_dict _ _ _ _ Ep) as [d ->]. right. exists d. split; [reflexivity|].
        apply Forall_forall. intros [k y] Hkv.
        destruct (keyed_in _ _ _ _ Ep (k, y) Hkv) as [item [Hi [Hk Hy]]]. cbn [fst snd] in Hk, Hy.
        rewrite Forall_forall in Hl.
        eapply inst_param; [reflexivity|reflexivity|exact Hi|exact (Hl item Hi)|exact Hk|exact Hy].
  Qed.
End Inst.

Fixpoint coerce (v : mval) : mval :=
  match v with
  | MModel c fs =>
    MModel c (map (fun fv =>
                     if String.eqb (fst fv) "range"
                     then match snd fv with
                          | MList items => (fst fv, MList (map coerce_range_item items))
                          | x => (fst fv, x)
                          end
                     else (fst fv, coerce (snd fv))) fs)
  | MList l => MList (map coerce l)
  | MDict l => MDict (map (fun kv => (fst kv, coerce (snd kv))) l)
  | _ => v
  end.

Lemma coerce_job_coerce : forall v F, mval_depth v <= F -> coerce_job F v = coerce v.
Proof.
  induction v as [ | | | | | | |l IH|l IH|c fs IH] using mval_ind3; intros F HF;
    (destruct F as [|F]; [cbn [mval_depth] in HF; lia|]); try reflexivity.
  - cbn [coerce_job coerce]. f_equal. apply map_ext_in. intros y Hy.
    rewrite Forall_forall in IH. apply (IH y Hy). pose proof (item_depth l y Hy). lia.
  - cbn [coerce_job coerce]. f_equal. apply map_ext_in. intros kv Hkv.
    rewrite Forall_forall in IH. f_equal. apply (IH kv Hkv). pose proof (member_depth l kv Hkv). lia.
  - cbn [coerce_job coerce]. f_equal. apply map_ext_in. intros kv Hkv.
    rewrite Forall_forall in IH. destruct (String.eqb (fst kv) "range"); [reflexivity|].
    f_equal. apply (IH kv Hkv). pose proof (field_depth c fs kv Hkv). lia.
Qed.

Lemma leaf_coerce : forall x, leaf x = true -> coerce x = x.
Proof. intros x H. destruct x; try reflexivity; discriminate H. Qed.

Lemma coerce_items_str : forall (P : mval -> Prop) its,
  (forall x, P x -> exists s, coerce_range_item x = MStr s) -> Forall P its ->
  exists ss, map coerce_range_item its = map MStr ss.
Proof.
  intros P its HP H. apply cf_Forall_map_ex. apply Forall_forall. intros y Hy.
  apply in_map_iff in Hy. destruct Hy as [x [<- Hx]]. rewrite Forall_forall in H. exact (HP x (H x Hx)).
Qed.

Lemma coerce_def : forall y, jdef_raw y -> jdef (coerce y).
Proof.
  intros y H. destruct H as [its Hits|r|its Hits|ty its Hty Hits];
    cbn [coerce map fst snd String.eqb Ascii.eqb Bool.eqb].
  - destruct (coerce_items_str int_item its) as [ss ->]; [|exact Hits|apply jd_int].
    intros x [[z ->]|[s ->]]; eexists; reflexivity.
  - apply jd_expr.
  - destruct (coerce_items_str dec_item its) as [ss ->]; [|exact Hits|apply jd_float].
    intros x [[a [e ->]]|[s ->]]; eexists; reflexivity.
  - destruct (coerce_items_str str_item its) as [ss ->]; [|exact Hits|apply jd_str; exact Hty].
    intros x [s ->]. eexists. reflexivity.
Qed.

Lemma coerce_space : forall ps, space_of jdef_raw ps -> space_of jdef (coerce ps).
Proof.
  intros ps [->|[d [cb [-> Hd]]]]; [left; reflexivity|].
  right. cbn [coerce map fst snd String.eqb Ascii.eqb Bool.eqb]. eexists. eexists. split; [reflexivity|].
  apply Forall_forall. intros kv Hkv. apply in_map_iff in Hkv. destruct Hkv as [kv0 [<- Hkv0]]. cbn [snd].
  apply coerce_def. rewrite Forall_forall in Hd. exact (Hd kv0 Hkv0).
Qed.

Lemma coerce_step : forall st, step_of jdef_raw st -> step_of jdef (coerce st).
Proof.
  intros st [n [d [sc [se [ps [hr [dp [-> Hps]]]]]]]].
  cbn [coerce map fst snd String.eqb Ascii.eqb Bool.eqb]. do 7 eexists. split; [reflexivity|].
  apply coerce_space. exact Hps.
Qed.

Lemma coerce_par : forall t sigma kv, jpar t sigma kv -> jpar t sigma (fst kv, coerce (snd kv)).
Proof.
  intros t sigma [k y] [T [dsc [v [E [Hd [Hv Hr]]]]]]. cbn [fst snd] in *. subst y.
  cbn [coerce map fst snd String.eqb Ascii.eqb Bool.eqb]. rewrite (leaf_coerce dsc Hd).
  exists T, dsc, v. split; [reflexivity|]. split; [exact Hd|]. split; [exact Hv|exact Hr].
Qed.

Theorem coerce_job_shape : forall t sigma job, job_of jdef_raw (jpar t sigma) job -> job_of jdef (jpar t sigma) (coerce job).
Proof.
  intros t sigma job [n [steps [d [p [e [-> [Hs Hp]]]]]]].
  cbn [coerce map fst snd String.eqb Ascii.eqb Bool.eqb].
  exists n, (map coerce steps). do 3 eexists. split; [reflexivity|]. split.
  - apply Forall_forall. intros y Hy. apply in_map_iff in Hy. destruct Hy as [x [<- Hx]].
    apply coerce_step. rewrite Forall_forall in Hs. exact (Hs x Hx).
  - destruct Hp as [->|[pd [-> Hpd]]]; [left; reflexivity|].
    right. cbn [coerce]. eexists. split; [reflexivity|].
    apply Forall_forall. intros kv Hkv. apply in_map_iff in Hkv. destruct Hkv as [kv0 [<- Hkv0]].
    apply coerce_par. rewrite Forall_forall in Hpd. exact (Hpd kv0 Hkv0).
Qed.
