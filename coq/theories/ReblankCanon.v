(* ReblankCanon.v — the canonical spelling [canon classify s] (every reference written
   "{{name}}" with no blank) is a re-blanking of s, for EVERY s; re-blanked accepted strings have
   the same canonical spelling.  So [reblank] is inhabited by a total computable function, and the
   walker statement of ReblankWalk.v has an instance without hypothesis on the document. *)
From Coq Require Import List NArith Bool Arith Lia.
Import ListNotations.
Require Import OJD.Base OJD.Lexer OJD.LexerProofs OJD.Generated OJD.FormatStr OJD.FormatStrSpec
               OJD.FormatStrProofs OJD.FsRefs OJD.Reblank OJD.ReblankProofs.

Section Canon.
  Variable classify : N -> cclass.
  Hypothesis AOK : ascii_ok classify = true.

  Notation lexg := (lex_go classify).
  Notation dots := (flat_map (fun w : str => dotc :: w)).

  Lemma dotc_is_dot : is_dot classify dotc = true.
  Proof.
    unfold is_dot. change dotc with (N.of_nat 46).
    rewrite (ascii_ok_class classify AOK 46) by lia. reflexivity.
  Qed.

  Lemma dots_nws : forall ns, nws classify (dots ns).
  Proof.
    intros [|w ns]; [exact I|]. cbn [flat_map app nws]. apply isd_not_word. exact dotc_is_dot.
  Qed.

  Lemma lex_dots : forall ns, Forall (ident classify) ns -> lexg LNone (dots ns) = Ok (tail_toks ns).
  Proof.
    intros ns F. induction F as [|w ns Hw F IH]; [reflexivity|].
    cbn [flat_map]. change ((dotc :: w) ++ dots ns) with (dotc :: (w ++ dots ns)).
    rewrite (lex_dot classify) by exact dotc_is_dot.
    rewrite (lex_ident classify); [|exact Hw|apply dots_nws].
    rewrite IH. reflexivity.
  Qed.

  (* a dotted name and its normal form have the same tokens *)
  Lemma lex_norm : forall e, DName classify e -> lex classify (norm classify e) = lex classify e.
  Proof.
    intros e [b [w [r [Hb [Hw [Ht ->]]]]]].
    destruct (lex_tail classify r Ht) as [ns [Hns [L Nr]]].
    unfold lex.
    rewrite !norm_app, (norm_blanks _ _ Hb), (norm_ident _ _ Hw), Nr. cbn [app].
    rewrite (lex_blanks classify b (w ++ r) Hb).
    rewrite (lex_ident classify w r Hw (DTail_nws classify r Ht)).
    rewrite (lex_ident classify w (dots ns) Hw (dots_nws ns)).
    now rewrite L, (lex_dots ns Hns).
  Qed.

  Lemma norm_no_rbrace : forall e, ~ In rbrace e -> ~ In rbrace (norm classify e).
  Proof.
    intros e H I. unfold norm in I. apply in_map_iff in I as [c [Hc I]].
    apply filter_In in I as [I _].
    destruct (is_dot classify c); [discriminate Hc|]. subst c. exact (H I).
  Qed.

  Lemma canon_items_of : forall segs last off,
    concat (map canon_piece (items_of classify off segs last)) = rebuild classify segs last.
  Proof.
    induction segs as [|[l e] segs IH]; intros last off.
    - cbn [items_of rebuild]. destruct last; [reflexivity|]. cbn [map concat canon_piece]. apply app_nil_r.
    - cbn [items_of map concat canon_piece rebuild]. rewrite IH. now rewrite <- !app_assoc.
  Qed.

  Lemma decomp_rebuild : forall t segs last, Decomp classify t segs last ->
    reblank classify t (rebuild classify segs last).
  Proof.
    intros t segs last D. induction D as [l HO HC | l e rest segs last HC HO HD D IH].
    - apply RB_same.
    - cbn [rebuild]. destruct (DName_no_brace classify AOK e HD) as [_ HR].
      apply RB_span.
      + exact HO.
      + now apply no_rbrace_span_text.
      + apply no_rbrace_span_text. now apply norm_no_rbrace.
      + symmetry. now apply lex_norm.
      + exact IH.
  Qed.

  Lemma canon_decomp : forall s segs last, Decomp classify s segs last ->
    canon classify s = rebuild classify segs last.
  Proof.
    intros s segs last D. unfold canon.
    assert (H : mk classify s = Ok (mkF s (items_of classify 0 segs last)))
      by (apply (mk_value_iff classify AOK); eauto).
    rewrite H. cbn [items]. apply canon_items_of.
  Qed.

  Theorem reblank_canon : forall s, reblank classify s (canon classify s).
  Proof.
    intros s. destruct (mk classify s) as [f|e] eqn:H.
    - apply (mk_value_iff classify AOK) in H as [segs [last [D _]]].
      rewrite (canon_decomp s segs last D). now apply decomp_rebuild.
    - unfold canon. rewrite H. apply RB_same.
  Qed.

  Lemma rebuild_sim : forall last segs segs', Forall2 (seg_sim classify) segs segs' ->
    rebuild classify segs last = rebuild classify segs' last.
  Proof.
    intros last segs segs' F. induction F as [|[l e] [l' e'] segs segs' [Hl Hn] F IH]; [reflexivity|].
    cbn [fst snd] in Hl, Hn. subst l'. cbn [rebuild]. now rewrite Hn, IH.
  Qed.

  (* re-blanked accepted strings have ONE canonical spelling *)
  Theorem reblank_canon_eq : forall s s', reblank classify s s' -> is_ok (mk classify s) = true ->
    canon classify s = canon classify s'.
  Proof.
    intros s s' R H. destruct (mk classify s) as [f|e] eqn:M; [|discriminate H].
    destruct (reblank_mk classify AOK s s' R f M) as [segs [segs' [last [D [D' [F _]]]]]].
    rewrite (canon_decomp s segs last D), (canon_decomp s' segs' last D'). now apply rebuild_sim.
  Qed.

  (* for accepted strings, being a re-blanking IS having the same canonical spelling *)
  Theorem reblank_iff_canon : forall s s', is_ok (mk classify s) = true -> is_ok (mk classify s') = true ->
    (reblank classify s s' <-> canon classify s = canon classify s').
  Proof.
    intros s s' H H'. split; [intros R; now apply reblank_canon_eq|].
    intros E. apply (reblank_trans classify s (canon classify s) (reblank_canon s)).
    rewrite E. apply reblank_sym. apply reblank_canon.
  Qed.

  (* canon is a normal form: applying it twice changes nothing more *)
  Theorem canon_accept : forall s, is_ok (mk classify (canon classify s)) = is_ok (mk classify s).
  Proof. intros s. symmetry. apply (reblank_accept classify AOK). apply reblank_canon. Qed.
End Canon.
