(* UsableShape.v — tools about the Job instance tree, independent of how it was made:

     1. [coerce_all]: the fuel-free form of CreateJob.coerce_job, and what the glue's accessors read
        through it (names, dependencies and any field but "range" are untouched);
     2. the shape of a job-side parameter space ([space_shape]);
     3. Export.nodes_ok = Ok true says: EVERY model node of the tree is accepted by its own class
        ([node_accepted] for every [subnode]). *)
From Coq Require Import List NArith ZArith Bool String.
Import ListNotations.
Require Import OJD.Base OJD.Lexer OJD.Json OJD.Schema OJD.Generated OJD.CreateJob OJD.CreateJobProofs
               OJD.Parse OJD.Validators OJD.Accept OJD.Export OJD.CreateJobExactLib OJD.Comb OJD.WF
               OJD.ParamSpace OJD.WellKeyed OJD.ConformNodes OJD.ConformInst OJD.UsableGlue.
Local Open Scope string_scope.
Local Open Scope list_scope.

Definition coerce_range_value (x : mval) : mval :=
  match x with
  | MList items => MList (map coerce_range_item items)
  | _ => x
  end.

Fixpoint coerce_all (v : mval) : mval :=
  match v with
  | MModel c fs =>
    MModel c (map (fun fv => if String.eqb (fst fv) "range"
                             then (fst fv, coerce_range_value (snd fv))
                             else (fst fv, coerce_all (snd fv))) fs)
  | MList l => MList (map coerce_all l)
  | MDict l => MDict (map (fun kv => (fst kv, coerce_all (snd kv))) l)
  | _ => v
  end.

Lemma coerce_all_eq : forall v, coerce_all v = coerce v.
Proof.
  induction v as [ | | | | | | |l IH|l IH|c fs IH] using mval_ind3; try reflexivity;
    cbn [coerce_all coerce]; f_equal; apply map_ext_in; intros x Hx; rewrite Forall_forall in IH.
  - exact (IH x Hx).
  - rewrite (IH x Hx). reflexivity.
  - destruct (String.eqb (fst x) "range"); [destruct (snd x); reflexivity|rewrite (IH x Hx); reflexivity].
Qed.

Lemma coerce_job_all : forall v f, mval_depth v <= f -> coerce_job f v = coerce_all v.
Proof. intros v f Hf. rewrite coerce_all_eq. exact (coerce_job_coerce v f Hf). Qed.

Definition coerce_fields (fs : list (string * mval)) : list (string * mval) :=
  map (fun fv => if String.eqb (fst fv) "range"
                 then (fst fv, coerce_range_value (snd fv))
                 else (fst fv, coerce_all (snd fv))) fs.

Lemma coerce_all_model : forall c fs, coerce_all (MModel c fs) = MModel c (coerce_fields fs).
Proof. reflexivity. Qed.

Lemma mfield_coerce : forall k fs, String.eqb k "range" = false ->
  mfield k (coerce_fields fs) = coerce_all (mfield k fs).
Proof.
  intros k fs Hk. unfold mfield. induction fs as [|[n x] r IH]; [reflexivity|].
  cbn [coerce_fields map fst snd]. destruct (String.eqb n "range") eqn:En; cbn [lookup_s].
  - destruct (String.eqb n k) eqn:Enk.
    + apply String.eqb_eq in Enk. subst n. rewrite Hk in En. discriminate En.
    + exact IH.
  - destruct (String.eqb n k); [reflexivity|exact IH].
Qed.

Lemma mfield_coerce_range : forall fs,
  mfield "range" (coerce_fields fs) = coerce_range_value (mfield "range" fs).
Proof.
  intros fs. unfold mfield. induction fs as [|[n x] r IH]; [reflexivity|].
  cbn [coerce_fields map fst snd]. destruct (String.eqb n "range") eqn:En; cbn [lookup_s]; rewrite En.
  - reflexivity.
  - exact IH.
Qed.

Lemma model_fields_coerce : forall v, model_fields (coerce_all v) = coerce_fields (model_fields v).
Proof. intros v. destruct v; reflexivity. Qed.

Lemma mitems_coerce : forall v, mitems (coerce_all v) = map coerce_all (mitems v).
Proof. intros v. destruct v; reflexivity. Qed.

Lemma mstr_coerce : forall v, mstr (coerce_all v) = mstr v.
Proof. intros v. destruct v; reflexivity. Qed.

Lemma fget_coerce : forall k v, String.eqb k "range" = false ->
  fget k (model_fields (coerce_all v)) = coerce_all (fget k (model_fields v)).
Proof. intros k v Hk. rewrite model_fields_coerce. unfold fget. apply mfield_coerce. exact Hk. Qed.

Lemma step_name_coerce : forall st, step_name (coerce_all st) = step_name st.
Proof. intros st. unfold step_name. rewrite fget_coerce by reflexivity. apply mstr_coerce. Qed.

Lemma dep_names_coerce : forall st, dep_names (coerce_all st) = dep_names st.
Proof.
  intros st. unfold dep_names. rewrite fget_coerce by reflexivity. rewrite mitems_coerce, map_map.
  apply map_ext. intros d. rewrite fget_coerce by reflexivity. apply mstr_coerce.
Qed.

Lemma names_of_coerce : forall v, names_of (coerce_all v) = names_of v.
Proof.
  intros v. unfold names_of. rewrite mitems_coerce, map_map. apply map_ext. intros m.
  rewrite fget_coerce by reflexivity. apply mstr_coerce.
Qed.

Lemma step_space_coerce : forall st, step_space (coerce_all st) = coerce_all (step_space st).
Proof. intros st. unfold step_space. rewrite model_fields_coerce. apply mfield_coerce. reflexivity. Qed.

Definition list_classes : list string :=
  ["IntRangeListTaskParameterDefinition"; "FloatRangeListTaskParameterDefinition"; "RangeListTaskParameterDefinition"].

Definition is_mstr (x : mval) : Prop := exists s, x = MStr s.
(* a range-list item as instantiate_model leaves it: a number of the template, or a resolved string *)
Definition raw_item (x : mval) : Prop := (exists z, x = MInt z) \/ (exists m e, x = MDec m e) \/ (exists s, x = MStr s).

Inductive def_shape (P : mval -> Prop) : mval -> Prop :=
| DS_expr ty rs :
    pty_of_str ty <> None ->
    def_shape P (MModel "RangeExpressionTaskParameterDefinition" [("type", MStr ty); ("range", MStr rs)])
| DS_list c ty items :
    In c list_classes -> pty_of_str ty <> None -> items <> [] -> Forall P items ->
    def_shape P (MModel c [("type", MStr ty); ("range", MList items)]).

Section SpaceShape.
  Variable classify : N -> cclass.

  Definition comb_ok (names : list str) (cb : mval) : Prop :=
    cb = MNone \/
    exists s ct, cb = MStr s /\ Comb.parse_str classify s = Ok ct /\
                 Comb.accounting false names (Comb.collect_ids ct) = true.

  Definition space_shape (P : mval -> Prop) (psn : mval) : Prop :=
    exists kys cb,
      psn = MModel "StepParameterSpace" [("taskParameterDefinitions", MDict kys); ("combination", cb)] /\
      kys <> [] /\ NoDup (map fst kys) /\
      Forall (fun kv => def_shape P (snd kv)) kys /\
      comb_ok (map fst kys) cb.
End SpaceShape.

Lemma coerce_item_mstr : forall x, raw_item x -> is_mstr (coerce_range_item x).
Proof.
  intros x [[z ->]|[[m [e ->]]|[s ->]]]; cbn [coerce_range_item]; eexists; reflexivity.
Qed.

Lemma def_shape_coerce : forall d, def_shape raw_item d -> def_shape is_mstr (coerce_all d).
Proof.
  intros d H. destruct H as [ty rs Hty|c ty items Hc Hty Hne HF].
  - cbn [coerce_all map fst snd String.eqb Ascii.eqb Bool.eqb coerce_range_value]. apply DS_expr. exact Hty.
  - cbn [coerce_all map fst snd String.eqb Ascii.eqb Bool.eqb coerce_range_value]. apply DS_list; try assumption.
    + intros E. apply map_eq_nil in E. exact (Hne E).
    + apply Forall_map. eapply Forall_impl; [|exact HF]. intros x Hx. apply coerce_item_mstr. exact Hx.
Qed.

Lemma space_shape_coerce : forall classify psn,
  space_shape classify raw_item psn -> space_shape classify is_mstr (coerce_all psn).
Proof.
  intros classify psn [kys [cb [-> [Hne [Hnd [HF Hcb]]]]]].
  exists (map (fun kv => (fst kv, coerce_all (snd kv))) kys), cb. split.
  - cbn [coerce_all map fst snd String.eqb Ascii.eqb Bool.eqb]. f_equal. f_equal. f_equal. f_equal.
    destruct Hcb as [->|[s [ct [-> _]]]]; reflexivity.
  - split; [intros E; apply map_eq_nil in E; exact (Hne E)|].
    rewrite map_map. cbn [fst]. split; [exact Hnd|]. split; [|exact Hcb].
    apply Forall_map. eapply Forall_impl; [|exact HF]. intros kv Hkv. cbn [snd]. apply def_shape_coerce. exact Hkv.
Qed.

Inductive subnode : mval -> mval -> Prop :=
| Sub_refl v : subnode v v
| Sub_list l x w : In x l -> subnode x w -> subnode (MList l) w
| Sub_dict l kv w : In kv l -> subnode (snd kv) w -> subnode (MDict l) w
| Sub_model c fs fv w : In fv fs -> subnode (snd fv) w -> subnode (MModel c fs) w.

Definition node_accepted (classify : N -> cclass) (w : mval) : Prop :=
  match w with
  | MModel c fs => exists v', parse_any classify c (export w) = Ok v'
  | _ => True
  end.

Lemma subnode_nodes : forall v w, subnode v w -> forall c fs, w = MModel c fs -> In (c, fs) (nodes v).
Proof.
  intros v w H. induction H as [v|l x w Hx _ IH|l kv w Hkv _ IH|c0 fs0 [n x] w Hfv _ IH]; intros c fs E.
  - subst v. apply nodes_self.
  - exact (nodes_item l x _ Hx (IH c fs E)).
  - exact (nodes_member l kv _ Hkv (IH c fs E)).
  - exact (nodes_field c0 fs0 n x _ Hfv (IH c fs E)).
Qed.

Theorem nodes_ok_accepted : forall classify F v, nodes_ok classify F v = Ok true ->
  forall w, subnode v w -> node_accepted classify w.
Proof.
  intros classify F v H w Hs. destruct w as [ | | | | | | | | |c fs]; try exact I.
  exact (nodes_ok_all classify F v H c fs (subnode_nodes v _ Hs c fs eq_refl)).
Qed.
