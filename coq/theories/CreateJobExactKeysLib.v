(* CreateJobExactKeysLib.v — tools for the key-distinctness / null-freeness half of C05_exact: keys of a filtered /
   rewritten member list; [good], a document all of whose objects have pairwise distinct keys and no null member;
   objects written with [opt] (CreateJobSpec) are the non-null members of an explicit member list; [strip_nulls] /
   [same] produce good documents from documents with distinct keys. *)
From Coq Require Import List NArith ZArith Bool String Lia.
Import ListNotations.
Require Import OJD.Base OJD.ListLib OJD.Json OJD.CreateJob OJD.CreateJobProofs OJD.CreateJobSpec OJD.JsonEquiv
               OJD.CreateJobExactLib.
Require OJD.ExportProofs.
Local Open Scope string_scope.
Local Open Scope list_scope.

Lemma NoDup_str_nodupb : forall l, NoDup l -> str_nodupb l = true.
Proof.
  induction l as [|x r IH]; intros H; [reflexivity|]. inversion H as [|a l Hn Hd]; subst.
  cbn [str_nodupb]. rewrite (IH Hd), andb_true_r. apply negb_true_iff.
  destruct (mem_str x r) eqn:E; [|reflexivity]. apply mem_str_In in E. contradiction.
Qed.

(* a member list rewritten member by member, each member kept (under the same key) or dropped *)
Section KeptKeys.
  Variables A B : Type.
  Variable key : A -> str.
  Variable key' : B -> str.
  Variable f : A -> list B.
  Hypothesis Hf : forall a, f a = [] \/ exists b, f a = [b] /\ key' b = key a.

  Lemma kept_keys_in : forall l k, In k (map key' (flat_map f l)) -> In k (map key l).
  Proof.
    induction l as [|a r IH]; intros k H; [destruct H|].
    cbn [flat_map] in H. rewrite map_app in H. apply in_app_or in H. cbn [map]. destruct H as [H|H].
    - destruct (Hf a) as [E|[b [E Ek]]]; rewrite E in H; [destruct H|].
      destruct H as [H|[]]. left. rewrite <- Ek. exact H.
    - right. exact (IH k H).
  Qed.

  Lemma kept_keys_NoDup : forall l, NoDup (map key l) -> NoDup (map key' (flat_map f l)).
  Proof.
    induction l as [|a r IH]; intros H; [constructor|].
    cbn [map] in H. inversion H as [|x l Hn Hd]; subst. cbn [flat_map]. rewrite map_app.
    destruct (Hf a) as [E|[b [E Ek]]]; rewrite E; cbn [map app]; [exact (IH Hd)|].
    constructor; [|exact (IH Hd)]. rewrite Ek. intros Hin. apply Hn. exact (kept_keys_in r _ Hin).
  Qed.
End KeptKeys.

Definition good (j : json) : Prop := distinct_keys j = true /\ no_null_members j = true.

Lemma good_scalar : forall j, scalarj j = true -> good j.
Proof. intros j H. destruct j; try discriminate H; split; reflexivity. Qed.

Lemma good_arr : forall l, (forall x, In x l -> good x) -> good (JArr l).
Proof.
  intros l H. split; cbn [distinct_keys no_null_members]; rewrite forallb_forall; intros x Hx; apply (H x Hx).
Qed.

Lemma good_arr_inv : forall l x, good (JArr l) -> In x l -> good x.
Proof.
  intros l x [H1 H2] Hx. cbn [distinct_keys no_null_members] in H1, H2. rewrite forallb_forall in H1, H2.
  split; [exact (H1 x Hx)|exact (H2 x Hx)].
Qed.

Notation dnm := (drop_null_members (fun x : json => x)).

Lemma dnm_step : forall k v, (fun kv : str * json => match snd kv with JNull => [] | x => [(fst kv, x)] end) (k, v)
                             = match v with JNull => [] | _ => [(k, v)] end.
Proof. intros k v. cbn [snd fst]. destruct v; reflexivity. Qed.

Lemma dnm_kept : forall kv : str * json,
  match snd kv with JNull => [] | x => [(fst kv, x)] end = [] \/
  exists b : str * json, match snd kv with JNull => [] | x => [(fst kv, x)] end = [b] /\ fst b = fst kv.
Proof. intros [k v]. cbn [snd fst]. destruct v; [left; reflexivity|right; eexists; split; reflexivity ..]. Qed.

Lemma in_dnm : forall full kv, In kv (dnm full) -> In kv full /\ snd kv <> JNull.
Proof.
  intros full kv H. unfold drop_null_members in H. apply in_flat_map in H. destruct H as [[k v] [Hin H]].
  cbn [snd fst] in H. destruct v; [destruct H|..]; destruct H as [<-|[]]; (split; [exact Hin|discriminate]).
Qed.

Theorem good_dnm : forall full,
  NoDup (map fst full) -> (forall k v, In (k, v) full -> v <> JNull -> good v) -> good (JObj (dnm full)).
Proof.
  intros full Hnd Hv.
  assert (K : forall kv, In kv (dnm full) -> snd kv <> JNull /\ good (snd kv)).
  { intros [k v] Hkv. apply in_dnm in Hkv. destruct Hkv as [Hin Hn]. split; [exact Hn|exact (Hv k v Hin Hn)]. }
  split.
  - cbn [distinct_keys]. apply andb_true_iff. split.
    + apply NoDup_str_nodupb. unfold drop_null_members.
      apply (kept_keys_NoDup _ _ fst fst); [exact dnm_kept|exact Hnd].
    + rewrite forallb_forall. intros kv Hkv. exact (proj1 (proj2 (K kv Hkv))).
  - cbn [no_null_members]. rewrite forallb_forall. intros kv Hkv. destruct (K kv Hkv) as [Hn [_ Hg]].
    rewrite Hg. destruct (snd kv); try reflexivity. contradiction.
Qed.

Definition dn_of (ms full : list (str * json)) : Prop := ms = dnm full.

Lemma dn_nil : dn_of [] [].
Proof. reflexivity. Qed.

Lemma dn_opt_last : forall key v, dn_of (opt key v) [(str_of_string key, v)].
Proof. intros key v. unfold dn_of, opt, drop_null_members. cbn [flat_map snd fst]. destruct v; reflexivity. Qed.

Lemma dn_opt : forall key v a b, dn_of a b -> dn_of (opt key v ++ a) ((str_of_string key, v) :: b).
Proof.
  intros key v a b H. unfold dn_of in *. subst a. unfold opt, drop_null_members. cbn [flat_map snd fst].
  destruct v; reflexivity.
Qed.

Lemma dn_cons : forall k v a b, v <> JNull -> dn_of a b -> dn_of ((k, v) :: a) ((k, v) :: b).
Proof.
  intros k v a b Hn H. unfold dn_of in *. subst a. unfold drop_null_members. cbn [flat_map snd fst].
  destruct v; try reflexivity. contradiction.
Qed.

Lemma good_dn : forall ms full, dn_of ms full ->
  NoDup (map fst full) -> (forall k v, In (k, v) full -> v <> JNull -> good v) -> good (JObj ms).
Proof. intros ms full -> Hnd Hv. exact (good_dnm full Hnd Hv). Qed.

Lemma strip_kept : forall f (kv : str * json),
  match snd kv with JNull => [] | x => [(fst kv, strip_nulls f x)] end = [] \/
  exists b : str * json, match snd kv with JNull => [] | x => [(fst kv, strip_nulls f x)] end = [b] /\ fst b = fst kv.
Proof. intros f [k v]. cbn [snd fst]. destruct v; [left; reflexivity|right; eexists; split; reflexivity ..]. Qed.

Lemma in_strip_members : forall f ms kv,
  In kv (flat_map (fun kv : str * json => match snd kv with JNull => [] | x => [(fst kv, strip_nulls f x)] end) ms) ->
  exists v, In (fst kv, v) ms /\ v <> JNull /\ snd kv = strip_nulls f v.
Proof.
  intros f ms kv H. apply in_flat_map in H. destruct H as [[k v] [Hin H]]. cbn [snd fst] in H.
  destruct v; [destruct H|..]; destruct H as [<-|[]]; cbn [fst snd]; eexists; (split; [exact Hin|split; [discriminate|reflexivity]]).
Qed.

Lemma dk_strip : forall f x, distinct_keys x = true -> distinct_keys (strip_nulls f x) = true.
Proof.
  induction f as [|f IH]; intros x H; [exact H|].
  destruct x as [| | | | |l|ms]; cbn [strip_nulls]; try exact H.
  - cbn [distinct_keys] in *. rewrite forallb_forall in *. intros y Hy. apply in_map_iff in Hy.
    destruct Hy as [x [<- Hx]]. apply IH, H, Hx.
  - destruct (dk_members ms H) as [Hnd Hv]. cbn [distinct_keys]. apply andb_true_iff. split.
    + apply NoDup_str_nodupb. apply (kept_keys_NoDup _ _ fst fst); [exact (strip_kept f)|exact Hnd].
    + rewrite forallb_forall. intros kv Hkv. apply in_strip_members in Hkv. destruct Hkv as [v [Hin [_ ->]]].
      apply IH. exact (Hv _ _ Hin).
Qed.

Lemma nnm_strip : forall f x, json_depth x <= f -> no_null_members (strip_nulls f x) = true.
Proof.
  induction f as [|f IH]; intros x H; [pose proof (ExportProofs.json_depth_pos x); lia|].
  destruct x as [| | | | |l|ms]; cbn [strip_nulls]; try reflexivity.
  - cbn [no_null_members]. rewrite forallb_forall. intros y Hy. apply in_map_iff in Hy.
    destruct Hy as [x [<- Hx]]. apply IH. pose proof (ExportProofs.json_depth_item l x Hx). lia.
  - cbn [no_null_members]. rewrite forallb_forall. intros kv Hkv. apply in_strip_members in Hkv.
    destruct Hkv as [v [Hin [Hn ->]]]. pose proof (ExportProofs.json_depth_member ms _ Hin) as Hd. cbn [snd] in Hd.
    rewrite IH by lia. rewrite andb_true_r. apply negb_true_iff.
    assert (Hs : strip_nulls f v <> JNull) by (destruct f; [exact Hn|destruct v; cbn [strip_nulls]; try discriminate; contradiction]).
    destruct (strip_nulls f v); try reflexivity. contradiction.
Qed.

Theorem good_same : forall x, distinct_keys x = true -> good (same x).
Proof. intros x H. unfold same. split; [apply dk_strip; exact H|apply nnm_strip; lia]. Qed.

Lemma same_nn : forall x, x <> JNull -> same x <> JNull.
Proof.
  intros x H. unfold same. destruct (json_depth x); [exact H|]. destruct x; cbn [strip_nulls]; try discriminate. contradiction.
Qed.
