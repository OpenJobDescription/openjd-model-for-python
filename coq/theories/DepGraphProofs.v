(* DepGraphProofs.v — C15: the model of _step_dependency_graph.py meets its specification.
   On a well-named Job the constructor builds [graph_of (names j) (all_edges j)] ([build_eq]); everything
   about [topo] is then proved on that graph.  [Inv] is the invariant of the sort loop: its clause about
   open steps (started, not completed) makes a raise exhibit a cycle and makes every dependency of a step
   complete before the step does.  [phi] bounds the number of iterations.  Stability: on an acyclic Job the
   iterations that begin with [x] on top of the stack and end with [x] popped add to the result exactly
   what [visit] adds ([visit_run]); the pushed dependencies, sorted by template index, follow the template
   order, so that visiting them is visiting the dependencies in template order ([fold_pushed]). *)
From Coq Require Import List NArith Bool Arith Lia Permutation Sorted.
Require Import OJD.Base OJD.DepGraph OJD.DepGraphSpec.
Import ListNotations.

Lemma mem_In : forall x l, mem x l = true <-> In x l.
Proof.
  induction l as [|y t IH]; simpl.
  - split; [discriminate | tauto].
  - rewrite orb_true_iff, IH, N.eqb_eq. split; intros [H|H]; auto.
Qed.

Lemma mem_nIn : forall x l, mem x l = false <-> ~ In x l.
Proof.
  intros x l. rewrite <- mem_In. destruct (mem x l); split; congruence.
Qed.

Lemma mem_app : forall x a b, mem x (a ++ b) = mem x a || mem x b.
Proof. induction a as [|y t IH]; simpl; intros; [reflexivity|]. rewrite IH, orb_assoc. reflexivity. Qed.

Lemma mem_rev : forall x l, mem x (rev l) = mem x l.
Proof.
  intros x l. destruct (mem x l) eqn:E.
  - apply mem_In. rewrite <- in_rev. apply mem_In; assumption.
  - apply mem_nIn. rewrite <- in_rev. apply mem_nIn; assumption.
Qed.

Definition to_n (n : name) (e : edge) : bool := N.eqb (snd e) n.
Definition from_n (n : name) (e : edge) : bool := N.eqb (fst e) n.

(* the node the constructor ends up storing under [n] once the edges [E] have been added *)
Definition node_for (E : list edge) (n : name) : node :=
  mk_node n (filter (to_n n) E) (filter (from_n n) E).
Definition graph_of (ns : list name) (E : list edge) : graph := map (node_for E) ns.

Lemma graph_of_names : forall ns E, map nname (graph_of ns E) = ns.
Proof.
  intros ns E. unfold graph_of. rewrite map_map. simpl. apply map_id.
Qed.

Lemma dict_set_fresh : forall ns n,
  ~ In n ns -> dict_set (graph_of ns []) (mk_node n [] []) = graph_of (ns ++ [n]) [].
Proof.
  induction ns as [|x t IH]; simpl; intros n Hn; [reflexivity|].
  destruct (N.eqb_spec x n) as [->|Hne]; [tauto|].
  f_equal. apply IH. tauto.
Qed.

Lemma init_nodes_gen : forall (steps : job) ns,
  NoDup (ns ++ map fst steps) ->
  fold_left (fun g s => dict_set g (mk_node (fst s) [] [])) steps (graph_of ns [])
  = graph_of (ns ++ map fst steps) [].
Proof.
  induction steps as [|[n ds] t IH]; simpl; intros ns Hnd.
  - rewrite app_nil_r. reflexivity.
  - rewrite dict_set_fresh.
    + rewrite IH; rewrite <- app_assoc; simpl; [reflexivity | assumption].
    + apply NoDup_remove_2 in Hnd. intro H. apply Hnd. apply in_or_app. auto.
Qed.

Lemma init_nodes_eq : forall j, NoDup (names j) -> init_nodes j = graph_of (names j) [].
Proof.
  intros j H. unfold init_nodes. change (@nil node) with (graph_of [] []).
  rewrite init_nodes_gen; simpl; auto.
Qed.

Lemma get_node_graph_of : forall ns E n, In n ns -> get_node (graph_of ns E) n = Ok (node_for E n).
Proof.
  induction ns as [|x t IH]; simpl; intros E n Hin; [tauto|].
  destruct (N.eqb_spec x n) as [->|Hne]; [reflexivity|].
  apply IH. destruct Hin; congruence.
Qed.

Lemma get_node_graph_of_none : forall ns E n, ~ In n ns -> get_node (graph_of ns E) n = Raise KeyError.
Proof.
  induction ns as [|x t IH]; simpl; intros E n Hin; [reflexivity|].
  destruct (N.eqb_spec x n) as [->|Hne]; [tauto|].
  apply IH. tauto.
Qed.

Lemma add_edge_graph_of : forall ns E d o,
  In o ns -> add_edge (graph_of ns E) d o = Ok (graph_of ns (E ++ [(o, d)])).
Proof.
  intros ns E d o Ho. unfold add_edge. rewrite get_node_graph_of by assumption. simpl.
  f_equal. unfold append_out, append_in, graph_of. rewrite !map_map.
  apply map_ext. intro x. simpl.
  unfold node_for. rewrite !filter_app. simpl.
  change (to_n x (o, d)) with (N.eqb d x). change (from_n x (o, d)) with (N.eqb o x).
  rewrite (N.eqb_sym d x), (N.eqb_sym o x).
  destruct (N.eqb x d) eqn:E1; simpl; destruct (N.eqb x o) eqn:E2; simpl;
    rewrite ?app_nil_r; reflexivity.
Qed.

Lemma add_deps_graph_of : forall ds ns E n,
  incl ds ns ->
  add_deps (graph_of ns E) n ds = Ok (graph_of ns (E ++ map (fun d => (d, n)) ds)).
Proof.
  induction ds as [|d t IH]; simpl; intros ns E n Hin.
  - rewrite app_nil_r. reflexivity.
  - rewrite add_edge_graph_of by (apply Hin; simpl; auto). simpl.
    rewrite IH by (intros x Hx; apply Hin; simpl; auto).
    rewrite <- app_assoc. reflexivity.
Qed.

Lemma add_steps_graph_of : forall steps ns E,
  (forall n ds, In (n, ds) steps -> In n ns /\ incl ds ns) ->
  add_steps (graph_of ns E) steps = Ok (graph_of ns (E ++ all_edges steps)).
Proof.
  induction steps as [|[n ds] t IH]; simpl; intros ns E H.
  - rewrite app_nil_r. reflexivity.
  - destruct (H n ds (or_introl eq_refl)) as [Hn Hds].
    assert (Ht : forall n ds, In (n, ds) t -> In n ns /\ incl ds ns) by (intros; apply H; auto).
    destruct ds as [|d ds'].
    + simpl. apply IH. assumption.
    + rewrite get_node_graph_of by assumption. cbn [bind].
      rewrite add_deps_graph_of by assumption. cbn [bind].
      rewrite IH by assumption. rewrite <- app_assoc. reflexivity.
Qed.

Lemma in_names : forall j n ds, In (n, ds) j -> In n (names j).
Proof. intros j n ds H. unfold names. change n with (fst (n, ds)). apply in_map. assumption. Qed.

(* the constructor, in closed form, on its KeyError-free domain *)
Theorem build_eq : forall j, well_named j -> build j = Ok (graph_of (names j) (all_edges j)).
Proof.
  intros j [Hnd Hcl]. unfold build. rewrite init_nodes_eq by assumption.
  rewrite add_steps_graph_of; [reflexivity|].
  intros n ds Hin. split; [eapply in_names; eassumption|].
  intros d Hd. eapply Hcl; eassumption.
Qed.

Lemma filter_to_all_edges_pairs : forall j n,
  filter (to_n n) (all_edges j) = map (fun d => (d, n)) (deps_of j n).
Proof.
  induction j as [|[m ds] t IH]; intros n; simpl; [reflexivity|].
  rewrite filter_app, map_app, IH. f_equal.
  unfold to_n. destruct (N.eqb_spec m n) as [->|Hne]; induction ds as [|d ds' IHd]; simpl; try reflexivity.
  - rewrite N.eqb_refl. f_equal. exact IHd.
  - destruct (N.eqb_spec m n); [congruence | exact IHd].
Qed.

Lemma filter_to_all_edges : forall j n,
  map fst (filter (to_n n) (all_edges j)) = deps_of j n.
Proof. intros j n. rewrite filter_to_all_edges_pairs, map_map. apply map_id. Qed.

Lemma deps_of_notin : forall j n, ~ In n (names j) -> deps_of j n = [].
Proof.
  induction j as [|[m ds] t IH]; intros n H; simpl in *; [reflexivity|].
  destruct (N.eqb_spec m n) as [->|Hne]; [tauto|]. simpl. apply IH. tauto.
Qed.

Lemma deps_of_unique : forall j n ds, NoDup (names j) -> In (n, ds) j -> deps_of j n = ds.
Proof.
  induction j as [|[m ds'] t IH]; intros n ds Hnd Hin; simpl in *; [tauto|].
  inversion Hnd as [|? ? Hm Ht]; subst.
  destruct Hin as [Heq|Hin].
  - inversion Heq; subst. rewrite N.eqb_refl. rewrite deps_of_notin by assumption. apply app_nil_r.
  - destruct (N.eqb_spec m n) as [->|Hne].
    + exfalso. apply Hm. eapply in_names; eassumption.
    + simpl. apply IH; assumption.
Qed.

Lemma depends_in_names : forall j a b, depends j a b -> In a (names j).
Proof.
  intros j a b H. destruct (in_dec N.eq_dec a (names j)) as [Hi|Hn]; [assumption|].
  unfold depends in H. rewrite deps_of_notin in H by assumption. destruct H.
Qed.

Lemma deps_of_closed : forall j n d, closed j -> In d (deps_of j n) -> In d (names j).
Proof.
  intros j n d Hcl H. unfold deps_of in H. apply in_flat_map in H. destruct H as [[m ds] [Hin Hd]].
  simpl in Hd. destruct (N.eqb m n); [|destruct Hd]. eapply Hcl; eassumption.
Qed.

Lemma in_all_edges : forall j o d, In (o, d) (all_edges j) <-> depends j d o.
Proof.
  intros j o d. unfold all_edges, depends, deps_of. rewrite !in_flat_map. split.
  - intros [[m ds] [Hin H]]. simpl in H. apply in_map_iff in H. destruct H as [x [Hx Hd]].
    inversion Hx; subst. exists (d, ds). split; [assumption|]. simpl. rewrite N.eqb_refl. assumption.
  - intros [[m ds] [Hin H]]. simpl in H. destruct (N.eqb_spec m d) as [->|Hne]; [|destruct H].
    exists (d, ds). split; [assumption|]. simpl. apply in_map_iff. exists o. auto.
Qed.

Lemma fold_max_spec : forall t x,
  In (fold_left Nat.max t x) (x :: t) /\ forall z, In z (x :: t) -> z <= fold_left Nat.max t x.
Proof.
  induction t as [|y t IH]; intros x; cbn [fold_left].
  - split; [left; reflexivity|]. intros z [Hz|[]]. subst. lia.
  - destruct (IH (Nat.max x y)) as [Hin Hle]. split.
    + destruct Hin as [Hin|Hin]; [|right; right; exact Hin].
      rewrite <- Hin.
      destruct (Nat.max_spec x y) as [[_ E]|[_ E]]; rewrite E; [right; left|left]; reflexivity.
    + assert (Hm : Nat.max x y <= fold_left Nat.max t (Nat.max x y)) by (apply Hle; left; reflexivity).
      intros z [Hz|[Hz|Hz]]; [subst z; lia | subst z; lia | apply Hle; right; exact Hz].
Qed.

Lemma py_max_ok : forall l, l <> [] -> exists m, py_max l = Ok m /\ is_max m l.
Proof. intros [|x t] H; [congruence|]. eexists. split; [reflexivity | apply fold_max_spec]. Qed.

Theorem edges_exact : forall j, well_named j ->
  exists g, build j = Ok g /\
    map nname g = names j /\
    (forall n, In n (names j) ->
       in_edges g n = Ok (map (fun d => (d, n)) (deps_of j n)) /\
       out_edges g n = Ok (filter (fun e => N.eqb (fst e) n) (all_edges j))) /\
    (forall n, ~ In n (names j) -> in_edges g n = Raise KeyError /\ out_edges g n = Raise KeyError) /\
    (j = [] -> max_indegree g = Raise ValueError /\ max_outdegree g = Raise ValueError) /\
    (j <> [] -> exists mi mo,
       max_indegree g = Ok mi /\ max_outdegree g = Ok mo /\
       is_max mi (map (fun n => length (deps_of j n)) (names j)) /\
       is_max mo (map (fun n => length (filter (fun e => N.eqb (fst e) n) (all_edges j))) (names j))).
Proof.
  intros j Hw. exists (graph_of (names j) (all_edges j)).
  split; [apply build_eq; assumption|].
  split; [apply graph_of_names|].
  split.
  { intros n Hn. unfold in_edges, out_edges. rewrite get_node_graph_of by assumption. simpl.
    rewrite filter_to_all_edges_pairs. split; reflexivity. }
  split.
  { intros n Hn. unfold in_edges, out_edges. rewrite get_node_graph_of_none by assumption. simpl. auto. }
  unfold max_indegree, max_outdegree, graph_of. rewrite !map_map. cbn [nin nout node_for].
  rewrite (map_ext _ (fun n => length (deps_of j n)))
    by (intro n; rewrite filter_to_all_edges_pairs; apply map_length).
  split.
  - intros ->. simpl. auto.
  - intros Hne.
    assert (Hn : forall f : name -> nat, map f (names j) <> []) by (intro f; destruct j; [congruence|discriminate]).
    destruct (py_max_ok _ (Hn (fun n => length (deps_of j n)))) as (mi & Hmi & Mi).
    destruct (py_max_ok _ (Hn (fun n => length (filter (from_n n) (all_edges j))))) as (mo & Hmo & Mo).
    exists mi, mo. auto.
Qed.

Definition idx (l : list name) (n : name) : nat :=
  match index_of n l with Some i => i | None => 0 end.

Lemma index_of_none : forall l n, index_of n l = None -> ~ In n l.
Proof.
  induction l as [|a l IH]; simpl; intros n H; [tauto|].
  destruct (N.eqb_spec a n) as [->|Hne]; [discriminate|].
  destruct (index_of n l) eqn:E; simpl in H; [discriminate|].
  intros [Ha|Hl]; [congruence|]. eapply IH; eauto.
Qed.

Lemma index_of_in : forall l n, In n l -> index_of n l = Some (idx l n).
Proof.
  intros l n H. unfold idx. destruct (index_of n l) eqn:E; [reflexivity|].
  exfalso. eapply index_of_none; eauto.
Qed.

Lemma idx_head : forall a t, idx (a :: t) a = 0.
Proof. intros. unfold idx. simpl. rewrite N.eqb_refl. reflexivity. Qed.

Lemma idx_tail : forall a t y, y <> a -> In y t -> idx (a :: t) y = S (idx t y).
Proof.
  intros a t y Hne Hin. unfold idx at 1. simpl.
  destruct (N.eqb_spec a y) as [E|_]; [congruence|].
  rewrite (index_of_in t y Hin). reflexivity.
Qed.

Lemma before_idx : forall l d n, NoDup l -> before d n l -> idx l d < idx l n.
Proof.
  induction l as [|a t IH]; intros d n Hnd [l1 [l2 [E Hd]]]; [destruct l1; discriminate|].
  destruct l1 as [|b l1]; [destruct Hd|]. injection E as <- Et. inversion Hnd as [|? ? Ha Hnd']; subst.
  assert (Hn : In n (l1 ++ n :: l2)) by (apply in_or_app; right; left; reflexivity).
  rewrite (idx_tail a _ n) by (try intros ->; auto).
  destruct (N.eq_dec d a) as [->|Hne]; [rewrite idx_head; lia|].
  assert (Hd' : In d l1) by (destruct Hd as [->|Hd]; [congruence | exact Hd]).
  rewrite (idx_tail a _ d Hne) by (apply in_or_app; left; exact Hd').
  pose proof (IH d n Hnd' (ex_intro _ l1 (ex_intro _ l2 (conj eq_refl Hd')))). lia.
Qed.

Definition kf (ns : list name) (d : name) : nat * name := (idx ns d, d).

Lemma with_keys_ok : forall ns l, incl l ns -> with_keys ns l = Ok (map (kf ns) l).
Proof.
  intros ns. unfold with_keys. induction l as [|d t IH]; intros Hin; cbn [mapM map]; [reflexivity|].
  rewrite index_of_in by (apply Hin; left; reflexivity). cbn [bind].
  rewrite IH by (intros x Hx; apply Hin; right; exact Hx). reflexivity.
Qed.

Lemma insert_desc_perm : forall x l, Permutation (insert_desc x l) (x :: l).
Proof.
  induction l as [|y t IH]; cbn [insert_desc]; [reflexivity|].
  destruct (Nat.ltb (fst x) (fst y)); [|reflexivity].
  transitivity (y :: x :: t); [constructor; exact IH | apply perm_swap].
Qed.

Lemma sorted_desc_perm : forall l, Permutation (sorted_desc l) l.
Proof.
  induction l as [|x t IH]; cbn [sorted_desc fold_right]; [reflexivity|].
  fold (sorted_desc t). rewrite insert_desc_perm. constructor. exact IH.
Qed.

Lemma sort_ok : forall ns l, incl l ns ->
  sort_by_index_desc ns l = Ok (map snd (sorted_desc (map (kf ns) l))).
Proof. intros ns l H. unfold sort_by_index_desc. rewrite with_keys_ok by assumption. reflexivity. Qed.

Lemma sort_perm : forall ns l, Permutation (map snd (sorted_desc (map (kf ns) l))) l.
Proof. intros ns l. rewrite sorted_desc_perm, map_map. simpl. rewrite map_id. reflexivity. Qed.

Lemma filter_length : forall (A : Type) (f : A -> bool) l, length (filter f l) <= length l.
Proof. induction l as [|x t IH]; simpl; [lia|]. destruct (f x); simpl; lia. Qed.

Lemma dpath_snoc : forall j a b c, dpath j a b -> depends j b c -> dpath j a c.
Proof.
  intros j a b c H. induction H as [a b Hab|a b c' Hab Hbc IH]; intro Hc.
  - eapply dpath_cons; [exact Hab|]. apply dpath_one. exact Hc.
  - eapply dpath_cons; [exact Hab|]. apply IH. exact Hc.
Qed.

Section Topo.
Variable j : job.
Hypothesis Hwn : well_named j.

Local Notation ns := (names j).
Local Notation g := (graph_of (names j) (all_edges j)).
Local Notation dp := (deps_of j).

Lemma ns_nodup : NoDup ns. Proof. exact (proj1 Hwn). Qed.
Lemma dp_closed : forall n d, In d (dp n) -> In d ns.
Proof. intros n d H. eapply deps_of_closed; [exact (proj2 Hwn)|exact H]. Qed.

Definition is_open (S C : list name) (d : name) : bool := mem d S && negb (mem d C).

(* the dependencies pushed when [x] starts, in push order (highest template index first) *)
Definition pushed (C : list name) (x : name) : list name :=
  map snd (sorted_desc (map (kf ns) (filter (fun d => negb (mem d C)) (dp x)))).

Lemma pushed_in : forall C x d, In d (pushed C x) <-> In d (dp x) /\ ~ In d C.
Proof.
  intros C x d. unfold pushed. rewrite sort_perm, filter_In, negb_true_iff, mem_nIn. reflexivity.
Qed.

Lemma pushed_length : forall C x, length (pushed C x) <= length (dp x).
Proof.
  intros C x. unfold pushed. rewrite (Permutation_length (sort_perm _ _)). apply filter_length.
Qed.

Lemma push_deps_spec : forall S C l stk, incl l ns ->
  push_deps g S C l stk = if existsb (is_open S C) l then Raise ValueError else Ok (rev l ++ stk).
Proof.
  intros S C. induction l as [|d t IH]; intros stk Hin; cbn [push_deps existsb rev]; [reflexivity|].
  fold (is_open S C d). destruct (is_open S C d); cbn [orb]; [reflexivity|].
  rewrite get_node_graph_of by (apply Hin; left; reflexivity). cbn [bind].
  rewrite IH by (intros y Hy; apply Hin; right; exact Hy).
  rewrite <- app_assoc. reflexivity.
Qed.

Definition s_outer (s : tstate) (n : name) (p : list name) : tstate :=
  mk_tstate p [n] (started s) (completed s) (result s).
Definition s_pop (s : tstate) (rest : list name) : tstate :=
  mk_tstate (pending s) rest (started s) (completed s) (result s).
Definition s_complete (s : tstate) (x : name) : tstate :=
  mk_tstate (pending s) (stack s) (started s) (x :: completed s) (result s ++ [x]).
Definition s_start (s : tstate) (x : name) (rest : list name) : tstate :=
  mk_tstate (pending s) (rev (pushed (completed s) x) ++ x :: rest) (x :: started s) (completed s) (result s).

Inductive step_case (s : tstate) : outcome (tstate + list name) -> Prop :=
| sc_done : stack s = [] -> pending s = [] -> step_case s (Ok (inr (result s)))
| sc_outer : forall n p, stack s = [] -> pending s = n :: p -> step_case s (Ok (inl (s_outer s n p)))
| sc_pop : forall x rest, stack s = x :: rest -> In x (completed s) ->
    step_case s (Ok (inl (s_pop s rest)))
| sc_complete : forall x rest, stack s = x :: rest -> ~ In x (completed s) -> In x (started s) ->
    step_case s (Ok (inl (s_complete s x)))
| sc_start : forall x rest, stack s = x :: rest -> ~ In x (completed s) -> ~ In x (started s) ->
    existsb (is_open (x :: started s) (completed s)) (pushed (completed s) x) = false ->
    step_case s (Ok (inl (s_start s x rest)))
| sc_raise : forall x rest, stack s = x :: rest -> ~ In x (completed s) -> ~ In x (started s) ->
    existsb (is_open (x :: started s) (completed s)) (pushed (completed s) x) = true ->
    step_case s (Raise ValueError).

Lemma step_pop : forall s x rest, stack s = x :: rest -> In x (completed s) ->
  step g s = Ok (inl (s_pop s rest)).
Proof.
  intros s x rest Ek Hc. unfold step. rewrite Ek. rewrite (proj2 (mem_In _ _) Hc). reflexivity.
Qed.

Lemma step_complete : forall s x rest, stack s = x :: rest -> ~ In x (completed s) -> In x (started s) ->
  step g s = Ok (inl (s_complete s x)).
Proof.
  intros s x rest Ek Hc Hs. unfold step. rewrite Ek.
  rewrite (proj2 (mem_nIn _ _) Hc), (proj2 (mem_In _ _) Hs). unfold s_complete. rewrite Ek. reflexivity.
Qed.

Lemma step_start_eq : forall s x rest, In x ns -> stack s = x :: rest ->
  ~ In x (completed s) -> ~ In x (started s) ->
  step g s = if existsb (is_open (x :: started s) (completed s)) (pushed (completed s) x)
             then Raise ValueError else Ok (inl (s_start s x rest)).
Proof.
  intros s x rest Hx Ek Hc Hs. unfold step.
  rewrite Ek, (proj2 (mem_nIn _ _) Hc), (proj2 (mem_nIn _ _) Hs).
  unfold in_edges. rewrite get_node_graph_of by exact Hx. cbn [bind nin node_for].
  rewrite filter_to_all_edges, graph_of_names, sort_ok.
  2:{ intros d Hd. apply filter_In in Hd. eapply dp_closed. exact (proj1 Hd). }
  cbn [bind]. fold (pushed (completed s) x).
  rewrite push_deps_spec.
  2:{ intros d Hd. apply pushed_in in Hd. eapply dp_closed. exact (proj1 Hd). }
  destruct (existsb _ _); reflexivity.
Qed.

Lemma step_cases : forall s, incl (stack s) ns -> step_case s (step g s).
Proof.
  intros s Hst. destruct (stack s) as [|x rest] eqn:Ek.
  - unfold step. rewrite Ek. destruct (pending s) as [|n p] eqn:Ep.
    + apply sc_done; assumption.
    + apply (sc_outer s n p); assumption.
  - destruct (in_dec N.eq_dec x (completed s)) as [Hc|Hc].
    { rewrite (step_pop s x rest Ek Hc). apply (sc_pop s x rest); assumption. }
    destruct (in_dec N.eq_dec x (started s)) as [Hs|Hs].
    { rewrite (step_complete s x rest Ek Hc Hs). apply (sc_complete s x rest); assumption. }
    rewrite (step_start_eq s x rest (Hst x (or_introl eq_refl)) Ek Hc Hs).
    destruct (existsb _ _) eqn:Ee; [apply (sc_raise s x rest) | apply (sc_start s x rest)]; assumption.
Qed.

(* what lies on the stack above the topmost occurrence of [o] *)
Fixpoint upto (o : name) (l : list name) : list name :=
  match l with [] => [] | y :: t => if N.eqb y o then [] else y :: upto o t end.

Lemma upto_cons_eq : forall o t, upto o (o :: t) = [].
Proof. intros o t. simpl. rewrite N.eqb_refl. reflexivity. Qed.

Lemma upto_cons_ne : forall y o t, y <> o -> upto o (y :: t) = y :: upto o t.
Proof. intros y o t H. simpl. destruct (N.eqb_spec y o); [contradiction | reflexivity]. Qed.

Lemma upto_app : forall o l t, ~ In o l -> upto o (l ++ t) = l ++ upto o t.
Proof.
  induction l as [|y l IH]; intros t H; [reflexivity|]. simpl in H |- *.
  destruct (N.eqb_spec y o); [tauto|]. rewrite IH by tauto. reflexivity.
Qed.

Record Inv (s : tstate) : Prop := {
  inv_stack : incl (stack s) ns;
  inv_pend : incl (pending s) ns;
  inv_cr : completed s = rev (result s);
  inv_nd : NoDup (result s);
  inv_cs : incl (completed s) (started s);
  inv_res : incl (result s) ns;
  inv_ord : forall c d, In c (result s) -> In d (dp c) -> before d c (result s);
  (* open = started and not completed.  Every open step sits on the stack; what is above its
     topmost occurrence are descendants of it, among them all of its dependencies that are
     not yet completed: the open steps form a dependency chain. *)
  inv_open : forall o, In o (started s) -> ~ In o (completed s) ->
    In o (stack s) /\
    (forall d, In d (dp o) -> In d (completed s) \/ In d (upto o (stack s))) /\
    (forall y, In y (upto o (stack s)) -> dpath j o y);
  inv_cover : forall n, In n ns -> In n (pending s) \/ In n (completed s) \/ In n (stack s)
}.

Lemma inv_init : Inv (init_state g).
Proof.
  unfold init_state. rewrite graph_of_names.
  constructor; cbn [stack pending started completed result].
  - intros x [].
  - apply incl_refl.
  - reflexivity.
  - constructor.
  - intros x [].
  - intros x [].
  - intros c d [].
  - intros o [].
  - intros n H. left. exact H.
Qed.

Lemma inv_completed : forall s x, Inv s -> (In x (completed s) <-> In x (result s)).
Proof. intros s x I. rewrite (inv_cr s I). symmetry. apply in_rev. Qed.

Lemma inv_top : forall s x rest, Inv s -> stack s = x :: rest -> In x ns.
Proof. intros s x rest I Ek. apply (inv_stack s I). rewrite Ek. left. reflexivity. Qed.

Lemma is_open_true : forall S C d, is_open S C d = true <-> In d S /\ ~ In d C.
Proof.
  intros S C d. unfold is_open. rewrite andb_true_iff, negb_true_iff, mem_In, mem_nIn. tauto.
Qed.

Lemma no_open_pushed : forall S C x,
  existsb (is_open S C) (pushed C x) = false -> forall d, In d (rev (pushed C x)) -> In d S -> False.
Proof.
  intros S C x He d Hd HS. apply in_rev in Hd.
  assert (Ht : existsb (is_open S C) (pushed C x) = true); [|congruence].
  apply existsb_exists. exists d. split; [exact Hd|].
  apply is_open_true. split; [exact HS|]. apply pushed_in in Hd. tauto.
Qed.

Lemma inv_pop : forall s x rest, Inv s -> stack s = x :: rest -> In x (completed s) -> Inv (s_pop s rest).
Proof.
  intros s x rest I Ek Hc. destruct I as [Ist Ipd Icr Ind Ics Irs Iord Iopen Icov].
  constructor; cbn [s_pop stack pending started completed result]; try assumption.
  - intros y Hy. apply Ist. rewrite Ek. right. exact Hy.
  - intros o Ho Hnc. destruct (Iopen o Ho Hnc) as (Hin & Hd & Hp).
    assert (Hne : x <> o) by (intros ->; tauto).
    rewrite Ek in Hin, Hd, Hp. rewrite (upto_cons_ne x o rest Hne) in Hd, Hp.
    split; [destruct Hin; [contradiction | assumption]|]. split.
    + intros d Hdd. destruct (Hd d Hdd) as [H|[H|H]]; [left; exact H | subst; left; exact Hc | right; exact H].
    + intros y Hy. apply Hp. right. exact Hy.
  - intros n Hn. destruct (Icov n Hn) as [H|[H|H]]; [auto|auto|].
    rewrite Ek in H. destruct H as [H|H]; [subst; auto|auto].
Qed.

Lemma before_app : forall d c l x, before d c l -> before d c (l ++ x).
Proof.
  intros d c l x [l1 [l2 [H1 H2]]]. exists l1, (l2 ++ x). split; [|exact H2].
  rewrite H1. rewrite <- app_assoc. reflexivity.
Qed.

Lemma inv_complete : forall s x rest, Inv s -> stack s = x :: rest ->
  ~ In x (completed s) -> In x (started s) -> Inv (s_complete s x).
Proof.
  intros s x rest I Ek Hnc Hs. pose proof (inv_top s x rest I Ek) as Hxn.
  destruct I as [Ist Ipd Icr Ind Ics Irs Iord Iopen Icov].
  assert (HxR : ~ In x (result s)) by (intro H; apply Hnc; rewrite Icr; apply in_rev in H; exact H).
  constructor; cbn [s_complete stack pending started completed result]; try assumption.
  - rewrite rev_unit. f_equal. exact Icr.
  - apply (Permutation_NoDup (Permutation_cons_append (result s) x)). constructor; assumption.
  - intros y [Hy|Hy]; [subst; exact Hs | apply Ics; exact Hy].
  - intros y Hy. apply in_app_or in Hy. destruct Hy as [Hy|[Hy|[]]]; [apply Irs; exact Hy | subst; exact Hxn].
  - intros c d Hc Hd. apply in_app_or in Hc. destruct Hc as [Hc|[Hc|[]]].
    + apply before_app. apply Iord; assumption.
    + (* [x] is open and on top of the stack: its dependencies are all completed *)
      subst c. destruct (Iopen x Hs Hnc) as (_ & Hdd & _). rewrite Ek, upto_cons_eq in Hdd.
      exists (result s), []. split; [reflexivity|].
      destruct (Hdd d Hd) as [H|[]]. rewrite Icr in H. apply in_rev in H. exact H.
  - intros o Ho Hno.
    assert (Hno' : ~ In o (completed s)) by (intro; apply Hno; right; assumption).
    destruct (Iopen o Ho Hno') as (Hin & Hd & Hp).
    split; [exact Hin|]. split; [|exact Hp].
    intros d Hdd. destruct (Hd d Hdd) as [H|H]; [left; right; exact H | right; exact H].
  - intros n Hn. destruct (Icov n Hn) as [H|[H|H]]; [auto| right; left; right; exact H |auto].
Qed.

Lemma inv_outer : forall s n p, Inv s -> stack s = [] -> pending s = n :: p -> Inv (s_outer s n p).
Proof.
  intros s n p I Ek Ep. destruct I as [Ist Ipd Icr Ind Ics Irs Iord Iopen Icov].
  constructor; cbn [s_outer stack pending started completed result]; try assumption.
  - intros y [Hy|[]]. subst. apply Ipd. rewrite Ep. left. reflexivity.
  - intros y Hy. apply Ipd. rewrite Ep. right. exact Hy.
  - intros o Ho Hno. destruct (Iopen o Ho Hno) as [Hin _]. rewrite Ek in Hin. destruct Hin.
  - intros m Hm. destruct (Icov m Hm) as [H|[H|H]].
    + rewrite Ep in H. destruct H as [H|H]; [subst; right; right; left; reflexivity | left; exact H].
    + auto.
    + rewrite Ek in H. destruct H.
Qed.

Lemma inv_start : forall s x rest, Inv s -> stack s = x :: rest ->
  ~ In x (completed s) -> ~ In x (started s) ->
  existsb (is_open (x :: started s) (completed s)) (pushed (completed s) x) = false ->
  Inv (s_start s x rest).
Proof.
  intros s x rest I Ek Hnc Hns He. pose proof (inv_top s x rest I Ek) as Hxn.
  destruct I as [Ist Ipd Icr Ind Ics Irs Iord Iopen Icov].
  pose proof (no_open_pushed _ _ _ He) as Hfresh.
  assert (Hin : forall y, In y (rev (pushed (completed s) x)) -> In y (dp x) /\ ~ In y (completed s))
    by (intros y Hy; apply pushed_in, in_rev, Hy).
  constructor; cbn [s_start stack pending started completed result]; try assumption.
  - intros y Hy. apply in_app_or in Hy. destruct Hy as [Hy|Hy].
    + eapply dp_closed. exact (proj1 (Hin y Hy)).
    + apply Ist. rewrite Ek. exact Hy.
  - intros y Hy. right. apply Ics. exact Hy.
  - (* nothing pushed is open, so the topmost occurrence of an open step is where it was *)
    intros o Ho Hno. rewrite <- Ek.
    rewrite upto_app by (intro H; exact (Hfresh o H Ho)).
    split; [|split].
    + destruct Ho as [<-|Ho]; [rewrite Ek; apply in_or_app; right; left; reflexivity|].
      apply in_or_app. right. apply (Iopen o Ho Hno).
    + intros d Hd. destruct (in_dec N.eq_dec d (completed s)) as [Hc|Hc]; [left; exact Hc | right].
      apply in_or_app. destruct Ho as [<-|Ho].
      * left. apply -> in_rev. apply pushed_in. split; assumption.
      * right. destruct (proj1 (proj2 (Iopen o Ho Hno)) d Hd); [contradiction | assumption].
    + intros y Hy. apply in_app_or in Hy. destruct Ho as [<-|Ho].
      * rewrite Ek, upto_cons_eq in Hy. destruct Hy as [Hy|[]]. apply dpath_one. exact (proj1 (Hin y Hy)).
      * destruct (Iopen o Ho Hno) as (_ & _ & Hp). destruct Hy as [Hy|Hy]; [|apply Hp; exact Hy].
        eapply dpath_snoc; [|exact (proj1 (Hin y Hy))]. apply Hp. rewrite Ek.
        rewrite upto_cons_ne by (intros ->; tauto). left. reflexivity.
  - intros n Hn. destruct (Icov n Hn) as [H|[H|H]]; [auto|auto|].
    right. right. apply in_or_app. right. rewrite <- Ek. exact H.
Qed.

(* a raise of ValueError exhibits a cycle *)
Lemma raise_cycle : forall s x rest, Inv s -> stack s = x :: rest ->
  ~ In x (started s) ->
  existsb (is_open (x :: started s) (completed s)) (pushed (completed s) x) = true ->
  exists n, dpath j n n.
Proof.
  intros s x rest I Ek Hns He.
  apply existsb_exists in He. destruct He as [d [Hd Ho]].
  apply is_open_true in Ho. destruct Ho as [Hs Hc].
  apply pushed_in in Hd. destruct Hd as [Hd _].
  exists d. destruct Hs as [<-|Hs]; [apply dpath_one; exact Hd|].
  eapply dpath_snoc; [|exact Hd]. apply (inv_open s I d Hs Hc). rewrite Ek.
  rewrite upto_cons_ne by (intros ->; tauto). left. reflexivity.
Qed.

Lemma step_inv : forall s s', Inv s -> step g s = Ok (inl s') -> Inv s'.
Proof.
  intros s s' I H. pose proof (step_cases s (inv_stack s I)) as Hc. rewrite H in Hc.
  inversion Hc; subst.
  - eapply inv_outer; eassumption.
  - eapply inv_pop; eassumption.
  - eapply inv_complete; eassumption.
  - eapply inv_start; eassumption.
Qed.

Lemma step_raise : forall s e, Inv s -> step g s = Raise e -> e = ValueError /\ exists n, dpath j n n.
Proof.
  intros s e I H. pose proof (step_cases s (inv_stack s I)) as Hc. rewrite H in Hc.
  inversion Hc; subst. split; [reflexivity|]. eapply raise_cycle; eassumption.
Qed.

(* termination: a potential that every step decreases.
   [weight w l st] adds up [w n] over the members [n] of [l] that are not in [st]. *)
Definition weight (w : name -> nat) (l st : list name) : nat :=
  list_sum (map (fun n => if mem n st then 0 else w n) l).
Definition unseen : list name -> list name -> nat := weight (fun _ => 1).
Definition phi (s : tstate) : nat :=
  length (stack s) + 2 * length (pending s)
  + weight (fun n => length (dp n)) ns (started s) + unseen ns (started s) + unseen ns (completed s).

Lemma weight_incl : forall w l st st', incl st st' -> weight w l st' <= weight w l st.
Proof.
  intros w l st st' H. unfold weight. induction l as [|n l IH]; simpl; [lia|].
  destruct (mem n st) eqn:E.
  - apply mem_In, H, mem_In in E. rewrite E. exact IH.
  - destruct (mem n st'); lia.
Qed.

Lemma weight_dec : forall w l x st, In x l -> ~ In x st -> weight w l (x :: st) + w x <= weight w l st.
Proof.
  intros w l x st Hin Hx. induction l as [|n l IH]; [destruct Hin|].
  pose proof (weight_incl w l st (x :: st) (incl_tl x (incl_refl st))) as M.
  unfold weight in *. simpl in *. destruct (N.eqb_spec n x) as [->|Hne]; simpl.
  - rewrite (proj2 (mem_nIn _ _) Hx). lia.
  - destruct Hin as [Hin|Hin]; [congruence|]. specialize (IH Hin). destruct (mem n st); lia.
Qed.

Lemma weight_nil : forall w l, weight w l [] = list_sum (map w l).
Proof. reflexivity. Qed.

Lemma unseen_incl : forall l c c', incl c c' -> unseen l c' <= unseen l c.
Proof. exact (weight_incl (fun _ => 1)). Qed.

Lemma unseen_dec : forall l x c, In x l -> ~ In x c -> unseen l (x :: c) + 1 <= unseen l c.
Proof. exact (weight_dec (fun _ => 1)). Qed.

Lemma unseen_nil : forall l, unseen l [] = length l.
Proof. induction l as [|n l IH]; [reflexivity|]. cbn. f_equal. exact IH. Qed.

Lemma unseen_le_length : forall l c, unseen l c <= length l.
Proof. intros l c. rewrite <- unseen_nil. apply unseen_incl. intros x []. Qed.

Lemma unseen_zero : forall l c, unseen l c = 0 -> incl l c.
Proof.
  unfold unseen, weight. induction l as [|a l IH]; intros c H n Hn; [destruct Hn|]. simpl in H.
  destruct (mem a c) eqn:E; [|discriminate].
  destruct Hn as [->|Hn]; [apply mem_In; exact E | apply IH; assumption].
Qed.

Lemma phi_dec : forall s s', Inv s -> step g s = Ok (inl s') -> phi s' < phi s.
Proof.
  intros s s' I H. pose proof (step_cases s (inv_stack s I)) as Hc. rewrite H in Hc.
  inversion Hc as [| n p Ek Ep | x rest Ek Hx | x rest Ek Hnc Hs | x rest Ek Hnc Hns He |]; subst;
    unfold phi; cbn [s_outer s_pop s_complete s_start stack pending started completed result].
  - rewrite Ek, Ep. simpl. lia.
  - rewrite Ek. simpl. lia.
  - pose proof (inv_top s x rest I Ek) as Hxn.
    pose proof (unseen_dec ns x (completed s) Hxn Hnc). lia.
  - pose proof (inv_top s x rest I Ek) as Hxn.
    pose proof (weight_dec (fun n => length (dp n)) ns x (started s) Hxn Hns).
    pose proof (unseen_dec ns x (started s) Hxn Hns).
    pose proof (pushed_length (completed s) x).
    rewrite Ek, app_length, rev_length. simpl. lia.
Qed.

Inductive reach : tstate -> tstate -> Prop :=
| reach_refl : forall s, reach s s
| reach_step : forall s s1 s2, step g s = Ok (inl s1) -> reach s1 s2 -> reach s s2.

Lemma reach_trans : forall a b c, reach a b -> reach b c -> reach a c.
Proof. intros a b c H. induction H; intro Hc; [exact Hc|]. eapply reach_step; [eassumption|auto]. Qed.

Lemma reach_one : forall s s1, step g s = Ok (inl s1) -> reach s s1.
Proof. intros. eapply reach_step; [eassumption|apply reach_refl]. Qed.

Lemma reach_inv : forall a b, reach a b -> Inv a -> Inv b.
Proof. intros a b H. induction H; intro I; [exact I|]. apply IHreach. eapply step_inv; eassumption. Qed.

Lemma reach_run : forall a b, reach a b -> forall f l, run g f a = Ok l -> exists f', run g f' b = Ok l.
Proof.
  intros a b H. induction H as [s|s s1 s2 Hs Hr IH]; intros f l Hrun; [eauto|].
  destruct f as [|f]; [discriminate|]. cbn [run] in Hrun. rewrite Hs in Hrun. eapply IH. exact Hrun.
Qed.

(* the one induction on the fuel of [run]: with more fuel than the potential, the loop comes to a
   state whose step ends it, with that step's outcome *)
Lemma run_end : forall f s, Inv s -> phi s < f ->
  exists s', reach s s' /\
    match step g s' with
    | Ok (inl _) => False
    | Ok (inr l) => run g f s = Ok l
    | Raise e => run g f s = Raise e
    end.
Proof.
  induction f as [|f IH]; intros s I Hf; [lia|]. cbn [run].
  destruct (step g s) as [[s1|l]|e] eqn:E.
  - destruct (IH s1) as [s' [Hr H]]; [eapply step_inv; eassumption | pose proof (phi_dec s s1 I E); lia|].
    exists s'. split; [eapply reach_step; eassumption | exact H].
  - exists s. split; [apply reach_refl | rewrite E; reflexivity].
  - exists s. split; [apply reach_refl | rewrite E; reflexivity].
Qed.

Lemma done_ok : forall s l, Inv s -> step g s = Ok (inr l) ->
  Permutation l ns /\ forall n d, In d (dp n) -> before d n l.
Proof.
  intros s l I E. pose proof (step_cases s (inv_stack s I)) as Hc. rewrite E in Hc.
  inversion Hc as [Ek Ep Hr | | | | |]. clear Hc.
  destruct I as [Ist Ipd Icr Ind Ics Irs Iord Iopen Icov].
  assert (Hall : forall n, In n ns -> In n (result s)).
  { intros n Hn. destruct (Icov n Hn) as [Hp|[Hp|Hp]].
    - rewrite Ep in Hp. destruct Hp.
    - rewrite Icr in Hp. apply in_rev in Hp. exact Hp.
    - rewrite Ek in Hp. destruct Hp. }
  split.
  - apply NoDup_Permutation; [exact Ind | exact ns_nodup |].
    intro x. split; [apply Irs | apply Hall].
  - intros n d Hd. apply Iord; [|exact Hd]. apply Hall. eapply depends_in_names. exact Hd.
Qed.

(* an order in which every dependency comes first exists only on acyclic Jobs *)
Lemma order_acyclic : forall l, NoDup l -> (forall n d, In d (dp n) -> before d n l) -> acyclic j.
Proof.
  intros l Hnd Hord.
  assert (Hp : forall n m, dpath j n m -> idx l m < idx l n).
  { intros n m H. induction H as [a b Hab|a b c Hab Hbc IH].
    - apply before_idx, Hord; assumption.
    - pose proof (before_idx l b a Hnd (Hord a b Hab)). lia. }
  intros n H. apply Hp in H. lia.
Qed.

Lemma total_in_edges_g : total_in_edges g = list_sum (map (fun n => length (dp n)) ns).
Proof.
  unfold total_in_edges, graph_of. rewrite map_map. f_equal. apply map_ext. intro n. simpl.
  rewrite filter_to_all_edges_pairs. apply map_length.
Qed.

Lemma phi_init : phi (init_state g) < fuel_bound g.
Proof.
  unfold phi, fuel_bound, init_state. cbn [stack pending started completed].
  rewrite graph_of_names, weight_nil, !unseen_nil, total_in_edges_g.
  unfold graph_of. rewrite map_length. simpl. lia.
Qed.

Lemma topo_cases :
  (exists l, topo g = Ok l /\ Permutation l ns /\ forall n d, In d (dp n) -> before d n l) \/
  (topo g = Raise ValueError /\ exists n, dpath j n n).
Proof.
  destruct (run_end _ _ inv_init phi_init) as [s [Hr H]].
  pose proof (reach_inv _ _ Hr inv_init) as I.
  destruct (step g s) as [[s1|l]|e] eqn:E; [destruct H | left | right].
  - exists l. split; [exact H | eapply done_ok; eassumption].
  - destruct (step_raise s e I E) as [-> Hc]. split; assumption.
Qed.

Lemma topo_fuel : topo g <> Raise RuntimeError.
Proof. destruct topo_cases as [[l [-> _]]|[-> _]]; discriminate. Qed.

Lemma topo_ok_acyclic : forall l, topo g = Ok l -> acyclic j.
Proof.
  intros l H. destruct topo_cases as [[l' (_ & Hp & Ho)]|[E _]]; [|congruence].
  apply (order_acyclic l'); [|exact Ho].
  apply (Permutation_NoDup (Permutation_sym Hp)). exact ns_nodup.
Qed.

Lemma topo_valid : acyclic j ->
  exists l, topo g = Ok l /\ Permutation l ns /\ forall n d, In d (dp n) -> before d n l.
Proof. intro Ha. destruct topo_cases as [H|[_ [n Hn]]]; [exact H | destruct (Ha n Hn)]. Qed.

Lemma topo_cyclic : ~ acyclic j -> topo g = Raise ValueError.
Proof.
  intro Hna. destruct topo_cases as [[l [Hl _]]|[H _]]; [|exact H].
  destruct (Hna (topo_ok_acyclic l Hl)).
Qed.

Lemma fold_incl : forall (F : list name -> name -> list name),
  (forall R x y, In y R -> In y (F R x)) -> forall l R y, In y R -> In y (fold_left F l R).
Proof. intros F HF. induction l as [|a l IH]; intros R y H; simpl; [exact H | apply IH, HF, H]. Qed.

Lemma visit_incl : forall f R x y, In y R -> In y (visit j f R x).
Proof.
  induction f as [|f IH]; intros R x y H; simpl; [exact H|].
  destruct (mem x R); [exact H|]. apply in_or_app. left. apply (fold_incl _ IH), H.
Qed.

Lemma visit_placed : forall f R x, In x R -> visit j f R x = R.
Proof. intros f R x H. destruct f; simpl; [reflexivity|]. rewrite (proj2 (mem_In _ _) H). reflexivity. Qed.

Lemma visit_in : forall f R x, In x (visit j (S f) R x).
Proof.
  intros f R x. simpl. destruct (mem x R) eqn:E.
  - apply mem_In. exact E.
  - apply in_or_app. right. left. reflexivity.
Qed.

Lemma fold_visit_0 : forall l R, fold_left (visit j 0) l R = R.
Proof. induction l as [|a l IH]; intros R; simpl; [reflexivity|apply IH]. Qed.

(* whether a step that is already placed is visited again makes no difference *)
Lemma fold_filter_placed : forall f (p q : name -> bool) l R,
  (forall y, In y l -> p y = q y \/ In y R) ->
  fold_left (visit j f) (filter p l) R = fold_left (visit j f) (filter q l) R.
Proof.
  intros f p q. induction l as [|a l IH]; intros R H; simpl; [reflexivity|].
  assert (Hl : forall R', incl R R' -> forall y, In y l -> p y = q y \/ In y R').
  { intros R' HR y Hy. destruct (H y (or_intror Hy)); [left | right; apply HR]; assumption. }
  destruct (H a (or_introl eq_refl)) as [E|Ha].
  - rewrite <- E. destruct (p a); simpl; apply IH, Hl; [intros y; apply visit_incl | apply incl_refl].
  - destruct (p a), (q a); simpl; rewrite ?(visit_placed f R a Ha); apply IH, Hl, incl_refl.
Qed.

Local Notation by_key_desc := (fun a b : nat * name => fst b <= fst a).

Lemma insert_desc_sorted : forall x l,
  StronglySorted by_key_desc l -> StronglySorted by_key_desc (insert_desc x l).
Proof.
  intros x. induction l as [|y t IH]; intros Hs; simpl.
  - constructor; constructor.
  - inversion Hs as [|? ? Hst Hf]; subst.
    destruct (Nat.ltb_spec (fst x) (fst y)) as [Hlt|Hge].
    + constructor; [apply IH; exact Hst|].
      apply Forall_forall. intros z Hz. apply (Permutation_in _ (insert_desc_perm x t)) in Hz.
      destruct Hz as [<-|Hz]; [lia|]. rewrite Forall_forall in Hf. apply Hf. exact Hz.
    + constructor; [exact Hs|]. constructor; [exact Hge|].
      rewrite Forall_forall in *. intros z Hz. specialize (Hf z Hz). lia.
Qed.

Lemma sorted_desc_sorted : forall l, StronglySorted by_key_desc (sorted_desc l).
Proof. induction l as [|x t IH]; simpl; [constructor|]. apply insert_desc_sorted. exact IH. Qed.

Lemma SS_map : forall (A B : Type) (f : A -> B) (R : B -> B -> Prop) l,
  StronglySorted (fun a b => R (f a) (f b)) l -> StronglySorted R (map f l).
Proof.
  intros A B f R l H. induction H as [|a l _ IH Hf]; simpl; constructor; [exact IH|].
  apply Forall_map. exact Hf.
Qed.

Lemma SS_impl_in : forall (A : Type) (R R' : A -> A -> Prop) l,
  (forall a b, In a l -> In b l -> R a b -> R' a b) -> StronglySorted R l -> StronglySorted R' l.
Proof.
  intros A R R'. induction l as [|x t IH]; intros H Hs; [constructor|].
  inversion Hs as [|? ? Hst Hf]; subst. constructor.
  - apply IH; [|exact Hst]. intros a b Ha Hb. apply H; right; assumption.
  - rewrite Forall_forall in *. intros z Hz. apply H; [left; reflexivity | right; exact Hz | apply Hf; exact Hz].
Qed.

(* the keys are the template indices of the names they are paired with *)
Lemma pushed_sorted : forall C x, StronglySorted (fun a b => idx ns b <= idx ns a) (pushed C x).
Proof.
  intros C x. unfold pushed. apply SS_map. eapply SS_impl_in; [|apply sorted_desc_sorted].
  intros a b Ha Hb H.
  apply (Permutation_in _ (sorted_desc_perm _)), in_map_iff in Ha, Hb.
  destruct Ha as (a' & <- & _), Hb as (b' & <- & _). exact H.
Qed.

Lemma SS_rev : forall (R : name -> name -> Prop) l,
  StronglySorted R l -> StronglySorted (fun a b => R b a) (rev l).
Proof.
  intros R l H. induction H as [|x t _ IH Hf]; simpl; [constructor|].
  apply Forall_rev in Hf. revert IH Hf. generalize (rev t) as u.
  induction u as [|y u IHu]; intros Hs Hf; simpl; [repeat constructor|].
  inversion Hs as [|? ? Hs' Hy]; inversion Hf as [|? ? Hyx Hf']; subst. constructor; [exact (IHu Hs' Hf')|].
  apply Forall_app. split; [exact Hy | constructor; [exact Hyx | constructor]].
Qed.

(* [l] lists members of [l0] in the order of [l0], possibly more than once each *)
Inductive follows : list name -> list name -> Prop :=
| fo_nil : forall l0, follows [] l0
| fo_same : forall a l l0, follows l (a :: l0) -> follows (a :: l) (a :: l0)
| fo_skip : forall a l l0, follows l l0 -> follows l (a :: l0).

Lemma follows_incl : forall l l0, follows l l0 -> incl l l0.
Proof.
  induction 1 as [l0|a l l0 _ IH|a l l0 _ IH]; intros y Hy.
  - destruct Hy.
  - destruct Hy as [<-|Hy]; [left; reflexivity | apply IH, Hy].
  - right. apply IH, Hy.
Qed.

Lemma sorted_follows : forall l0 l, incl l l0 ->
  StronglySorted (fun a b => idx l0 a <= idx l0 b) l -> follows l l0.
Proof.
  induction l0 as [|a t IH]; intros l Hin Hs.
  { destruct l as [|y l]; [constructor | destruct (Hin y (or_introl eq_refl))]. }
  induction l as [|y l IHl]; [constructor|].
  inversion Hs as [|? ? Hst Hf]; subst.
  destruct (N.eq_dec y a) as [->|Hne].
  { apply fo_same, IHl; [intros z Hz; apply Hin; right; exact Hz | exact Hst]. }
  (* the head is not [a], so nothing in the list is: it is sorted by the indices in [t] *)
  assert (Hy : In y t) by (destruct (Hin y (or_introl eq_refl)); [congruence | assumption]).
  assert (Hall : forall z, In z (y :: l) -> z <> a /\ In z t).
  { intros z [<-|Hz]; [auto|]. rewrite Forall_forall in Hf. specialize (Hf z Hz).
    rewrite (idx_tail a t y Hne Hy) in Hf.
    destruct (Hin z (or_intror Hz)) as [<-|Ht]; [rewrite idx_head in Hf; lia|].
    split; [intros ->; rewrite idx_head in Hf; lia | exact Ht]. }
  apply fo_skip, IH; [intros z Hz; apply Hall, Hz|].
  apply (SS_impl_in _ (fun u v => idx (a :: t) u <= idx (a :: t) v)); [|exact Hs].
  intros u v Hu Hv. destruct (Hall u Hu), (Hall v Hv). rewrite !idx_tail by assumption. lia.
Qed.

Lemma fold_follows : forall f l l0, follows l l0 -> NoDup l0 -> forall R,
  fold_left (visit j f) l R = fold_left (visit j f) (filter (fun m => mem m l) l0) R.
Proof.
  intros [|f]; [intros; rewrite !fold_visit_0; reflexivity|].
  induction 1 as [l0|a l l0 H IH|a l l0 H IH]; intros Hnd R.
  - clear Hnd. induction l0 as [|b l0 IH0]; [reflexivity | exact IH0].
  - inversion Hnd as [|? ? Ha _]; subst. cbn [fold_left filter mem]. rewrite N.eqb_refl. cbn [orb fold_left].
    rewrite (IH Hnd). cbn [filter].
    assert (E : filter (fun m => mem m (a :: l)) l0 = filter (fun m => mem m l) l0).
    { apply filter_ext_in. intros m Hm. simpl. destruct (N.eqb_spec m a) as [->|_]; [contradiction | reflexivity]. }
    cbn [mem] in E. rewrite E. destruct (mem a l); [|reflexivity].
    cbn [fold_left]. rewrite (visit_placed (S f) _ a (visit_in f R a)). reflexivity.
  - inversion Hnd as [|? ? Ha Hnd']; subst. cbn [filter].
    rewrite (proj2 (mem_nIn a l)) by (intro Hl; apply Ha, (follows_incl _ _ H), Hl).
    apply IH, Hnd'.
Qed.

(* visiting the pushed dependencies = visiting the dependencies in template order *)
Lemma fold_pushed : forall f C R x, (forall d, In d C <-> In d R) ->
  fold_left (visit j f) (rev (pushed C x)) R
  = fold_left (visit j f) (filter (fun m => mem m (dp x)) ns) R.
Proof.
  intros f C R x HCR.
  assert (Hfo : follows (rev (pushed C x)) ns).
  { apply sorted_follows.
    - intros y Hy. apply in_rev, pushed_in in Hy. eapply dp_closed. exact (proj1 Hy).
    - apply (SS_rev (fun a b => idx ns b <= idx ns a)), pushed_sorted. }
  rewrite (fold_follows f _ ns Hfo ns_nodup). apply fold_filter_placed. intros y _.
  destruct (in_dec N.eq_dec y C) as [Hc|Hc]; [right; apply HCR, Hc | left].
  rewrite mem_rev. apply eq_iff_eq_true. rewrite !mem_In, pushed_in. tauto.
Qed.


Definition same_open (a b : tstate) : Prop :=
  forall n, (In n (started a) /\ ~ In n (completed a)) <-> (In n (started b) /\ ~ In n (completed b)).

(* from [s] the loop reaches [s'], where the stack is [k] and the result [R]; the outer loop has
   not moved, the steps that are open are the same and none has been un-started *)
Definition settles (s s' : tstate) (k R : list name) : Prop :=
  reach s s' /\ stack s' = k /\ pending s' = pending s /\ result s' = R /\
  same_open s s' /\ incl (started s) (started s').

Lemma settles_refl : forall s, settles s s (stack s) (result s).
Proof. intro s. repeat split; try tauto; [apply reach_refl | apply incl_refl]. Qed.

Lemma settles_trans : forall s s1 s2 k1 R1 k2 R2,
  settles s s1 k1 R1 -> settles s1 s2 k2 R2 -> settles s s2 k2 R2.
Proof.
  intros s s1 s2 k1 R1 k2 R2 (Hr1 & _ & Ep1 & _ & Ho1 & Hi1) (Hr2 & Ek2 & Ep2 & Er2 & Ho2 & Hi2).
  split; [eapply reach_trans; eassumption|]. split; [exact Ek2|]. split; [congruence|].
  split; [exact Er2|]. split; [intro n; rewrite (Ho1 n); apply Ho2 | eapply incl_tran; eassumption].
Qed.

Lemma settles_pop : forall s x rest, stack s = x :: rest -> In x (completed s) ->
  settles s (s_pop s rest) rest (result s).
Proof.
  intros s x rest Ek Hc. split; [apply reach_one; eapply step_pop; eassumption|].
  repeat split; try tauto. apply incl_refl.
Qed.

(* starting [x], settling with [x] back on top, completing [x] and popping it *)
Lemma settles_visit : forall s x rest s2 R,
  stack s = x :: rest -> ~ In x (completed s) -> ~ In x (started s) ->
  step g s = Ok (inl (s_start s x rest)) ->
  settles (s_start s x rest) s2 (x :: rest) R ->
  settles s (s_pop (s_complete s2 x) rest) rest (R ++ [x]).
Proof.
  intros s x rest s2 R Ek Hx Hxs Hst1 (Hr2 & Ek2 & Ep2 & Er2 & Ho2 & Hi2).
  cbn [s_start pending started completed] in Ep2, Ho2, Hi2.
  destruct (proj1 (Ho2 x) (conj (or_introl eq_refl) Hx)) as [Hx2s Hx2c].
  split.
  { eapply reach_step; [exact Hst1|]. eapply reach_trans; [exact Hr2|].
    eapply reach_step; [exact (step_complete s2 x rest Ek2 Hx2c Hx2s)|].
    apply reach_one, (step_pop _ x rest); [exact Ek2 | left; reflexivity]. }
  cbn [s_pop s_complete stack pending started completed result].
  split; [reflexivity|]. split; [exact Ep2|]. split; [rewrite Er2; reflexivity|]. split.
  - intro n. specialize (Ho2 n). split.
    + intros [Hn Hc]. destruct (proj1 Ho2 (conj (or_intror Hn) Hc)) as [A B].
      split; [exact A|]. intros [E|E]; [subst n; tauto | tauto].
    + intros [Hn Hc]. destruct (proj2 Ho2) as [A B].
      { split; [exact Hn|]. intro E. apply Hc. right. exact E. }
      destruct A as [A|A]; [|tauto]. subst n. exfalso. apply Hc. left. reflexivity.
  - intros y Hy. apply Hi2. right. exact Hy.
Qed.

Definition visit_run_stmt (f : nat) : Prop :=
  forall s x rest, Inv s -> stack s = x :: rest ->
    (In x (started s) -> In x (completed s)) -> unseen ns (started s) <= f ->
    exists s', settles s s' rest (visit j f (result s) x).

Lemma fold_run : forall f, visit_run_stmt f ->
  forall l s x rest, Inv s -> stack s = l ++ x :: rest ->
    (forall y, In y l -> In y (started s) -> In y (completed s)) -> unseen ns (started s) <= f ->
    exists s', settles s s' (x :: rest) (fold_left (visit j f) l (result s)).
Proof.
  intros f Hv. induction l as [|y l IH]; intros s x rest I Ek Hno Hf.
  - exists s. simpl in Ek. rewrite <- Ek. apply settles_refl.
  - destruct (Hv s y (l ++ x :: rest) I Ek (Hno y (or_introl eq_refl)) Hf) as [s1 H1].
    pose proof H1 as (Hr1 & Ek1 & _ & Er1 & Ho1 & Hi1).
    destruct (IH s1 x rest (reach_inv _ _ Hr1 I) Ek1) as [s2 H2].
    + intros z Hz Hs1. destruct (in_dec N.eq_dec z (completed s1)) as [Hc|Hc]; [exact Hc|].
      exfalso. destruct (proj2 (Ho1 z) (conj Hs1 Hc)) as [Hs Hnc].
      apply Hnc. apply Hno; [right; exact Hz | exact Hs].
    + pose proof (unseen_incl ns _ _ Hi1). lia.
    + exists s2. rewrite Er1 in H2. exact (settles_trans _ _ _ _ _ _ _ H1 H2).
Qed.

Lemma visit_run : acyclic j -> forall f, visit_run_stmt f.
Proof.
  intros Hac. induction f as [|f IH]; intros s x rest I Ek Hno Hf.
  - (* everything has been started, so [x] is completed *)
    exists (s_pop s rest). apply (settles_pop s x rest Ek). apply Hno.
    apply (unseen_zero ns); [lia | exact (inv_top s x rest I Ek)].
  - destruct (in_dec N.eq_dec x (completed s)) as [Hx|Hx].
    + exists (s_pop s rest). rewrite visit_placed; [exact (settles_pop s x rest Ek Hx)|].
      apply (inv_completed s x I), Hx.
    + assert (Hxs : ~ In x (started s)) by tauto.
      pose proof (inv_top s x rest I Ek) as Hxn.
      pose proof (step_start_eq s x rest Hxn Ek Hx Hxs) as Hst1.
      destruct (existsb (is_open (x :: started s) (completed s)) (pushed (completed s) x)) eqn:He.
      { destruct (raise_cycle s x rest I Ek Hxs He) as [n Hn]. destruct (Hac n Hn). }
      destruct (fold_run f IH (rev (pushed (completed s) x)) (s_start s x rest) x rest
                  (step_inv _ _ I Hst1) eq_refl) as [s2 H2].
      { intros y Hy Hys. destruct (no_open_pushed _ _ _ He y Hy Hys). }
      { cbn [s_start started]. pose proof (unseen_dec ns x (started s) Hxn Hxs). lia. }
      exists (s_pop (s_complete s2 x) rest). cbn [visit].
      rewrite (proj2 (mem_nIn _ _) (fun H => Hx (proj2 (inv_completed s x I) H))).
      rewrite <- (fold_pushed f (completed s)) by (intro d; apply inv_completed, I).
      exact (settles_visit s x rest s2 _ Ek Hx Hxs Hst1 H2).
Qed.

Lemma outer_run : acyclic j -> forall f P s, Inv s -> stack s = [] -> pending s = P ->
  length ns <= f ->
  exists s', reach s s' /\ stack s' = [] /\ pending s' = [] /\
    result s' = fold_left (visit j f) P (result s).
Proof.
  intros Hac f. induction P as [|n P IH]; intros s I Ek Ep Hf.
  - exists s. split; [apply reach_refl|]. auto.
  - assert (Hs1 : step g s = Ok (inl (s_outer s n P))).
    { unfold step. rewrite Ek, Ep. reflexivity. }
    set (s1 := s_outer s n P) in *.
    assert (I1 : Inv s1) by (eapply step_inv; eassumption).
    destruct (visit_run Hac f s1 n [] I1 eq_refl) as [s2 [Hr2 [Ek2 [Ep2 [Er2 [Ho2 Hi2]]]]]].
    + cbn [s1 s_outer started completed]. intro Hn.
      destruct (in_dec N.eq_dec n (completed s)) as [Hc|Hc]; [exact Hc|].
      destruct (inv_open s I n Hn Hc) as [Hin _]. rewrite Ek in Hin. destruct Hin.
    + pose proof (unseen_le_length ns (started s1)). lia.
    + assert (I2 : Inv s2) by (eapply reach_inv; eassumption).
      destruct (IH s2 I2 Ek2 Ep2 Hf) as [s3 [Hr3 [Ek3 [Ep3 Er3]]]].
      exists s3. split; [eapply reach_step; [exact Hs1|]; eapply reach_trans; eassumption|].
      split; [exact Ek3|]. split; [exact Ep3|]. rewrite Er3, Er2. reflexivity.
Qed.

Lemma topo_stable_fuel : acyclic j -> forall f, length j <= f -> topo g = Ok (stable_order_fuel j f).
Proof.
  intros Hac f Hf. destruct (topo_valid Hac) as [l [Hl _]]. rewrite Hl. f_equal.
  destruct (outer_run Hac f ns (init_state g) inv_init) as [s' [Hr [Ek [Ep Er]]]].
  - reflexivity.
  - unfold init_state. cbn [pending]. apply graph_of_names.
  - unfold names. rewrite map_length. exact Hf.
  - unfold topo in Hl. destruct (reach_run _ _ Hr _ _ Hl) as [f' Hrun].
    destruct f' as [|f']; [discriminate|]. cbn [run] in Hrun.
    unfold step in Hrun. rewrite Ek, Ep in Hrun. inversion Hrun; subst l.
    rewrite Er. reflexivity.
Qed.

End Topo.

Lemma build_inv : forall j g, well_named j -> build j = Ok g -> g = graph_of (names j) (all_edges j).
Proof. intros j g Hw H. rewrite (build_eq j Hw) in H. inversion H. reflexivity. Qed.

Theorem fuel_suffices : forall j g, well_named j -> build j = Ok g -> topo g <> Raise RuntimeError.
Proof. intros j g Hw Hb. rewrite (build_inv j g Hw Hb). apply topo_fuel. exact Hw. Qed.

Theorem topo_valid_order : forall j g, well_named j -> build j = Ok g -> acyclic j ->
  exists l, topo g = Ok l /\ Permutation l (names j) /\
    forall n d, In d (deps_of j n) -> before d n l.
Proof. intros j g Hw Hb Ha. rewrite (build_inv j g Hw Hb). apply topo_valid; assumption. Qed.

Theorem topo_stable_order : forall j g, well_named j -> build j = Ok g -> acyclic j ->
  topo g = Ok (stable_order j).
Proof.
  intros j g Hw Hb Ha. rewrite (build_inv j g Hw Hb). apply (topo_stable_fuel j Hw Ha), le_n.
Qed.

Theorem topo_cyclic_raises : forall j g, well_named j -> build j = Ok g -> ~ acyclic j ->
  topo g = Raise ValueError.
Proof. intros j g Hw Hb Ha. rewrite (build_inv j g Hw Hb). apply topo_cyclic; assumption. Qed.

(* the converse directions: what the outcome of topo says about the Job *)
Theorem topo_ok_iff_acyclic : forall j g, well_named j -> build j = Ok g ->
  ((exists l, topo g = Ok l) <-> acyclic j).
Proof.
  intros j g Hw Hb. split.
  - intros [l Hl]. rewrite (build_inv j g Hw Hb) in Hl. eapply topo_ok_acyclic; eassumption.
  - intro Ha. destruct (topo_valid_order j g Hw Hb Ha) as [l [Hl _]]. eauto.
Qed.

(* the recursion fuel of the specification is immaterial on acyclic Jobs *)
Theorem visit_fuel_irrelevant : forall j f, well_named j -> acyclic j -> length j <= f ->
  stable_order_fuel j f = stable_order j.
Proof.
  intros j f Hw Ha Hf. pose proof (topo_stable_fuel j Hw Ha f Hf) as H.
  rewrite (topo_stable_fuel j Hw Ha _ (le_n _)) in H. injection H as <-. reflexivity.
Qed.

(* the model's cycle test used for decoded templates *)
Theorem has_cycle_iff : forall j, well_named j -> (has_cycle j = true <-> ~ acyclic j).
Proof.
  intros j Hw. unfold has_cycle, topo_job. rewrite (build_eq j Hw). cbn [bind]. split.
  - intros H Ha. destruct (topo_valid_order j _ Hw (build_eq j Hw) Ha) as [l [Hl _]].
    rewrite Hl in H. discriminate.
  - intro Hna. rewrite (topo_cyclic_raises j _ Hw (build_eq j Hw) Hna). reflexivity.
Qed.

(* boolean test of the domain, for concrete examples *)
Lemma has_dup_false : forall l, has_dup l = false -> NoDup l.
Proof.
  induction l as [|x t IH]; simpl; intro H; [constructor|].
  apply orb_false_iff in H. destruct H as [H1 H2]. constructor; [apply mem_nIn; exact H1 | apply IH; exact H2].
Qed.

Lemma well_named_b : forall j, dup_step_names j = false -> unknown_dep j = false -> well_named j.
Proof.
  intros j H1 H2. split; [apply has_dup_false; exact H1|].
  intros n ds d Hin Hd. destruct (in_dec N.eq_dec d (names j)) as [Hi|Hi]; [exact Hi|]. exfalso.
  assert (Ht : unknown_dep j = true); [|congruence].
  unfold unknown_dep. apply existsb_exists. exists (n, ds). split; [exact Hin|].
  apply existsb_exists. exists d. split; [exact Hd|]. apply negb_true_iff. apply mem_nIn. exact Hi.
Qed.
