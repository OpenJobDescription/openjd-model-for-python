(* ConformNodes.v — what [Export.nodes_ok] = Ok true says about the nodes of the tree:

     nodes_ok_all   : every model node (c, fs) of the tree was accepted by its own class c
                      (parse_any c (export (MModel c fs)) = Ok _);
   how an accepted object is taken apart ([pc_open]: one parsed field per field of the class, and the
   class's validator on them; [cls2_open] for a class with two fields), and what acceptance means for the
   four job-side task-parameter classes, on nodes of the shape ConformInst.jdef (type + a range of str
   items / a range string):

     range_list_accepted  : Int/Float/RangeListTaskParameterDefinition — every item has at most 1024
                            characters and the class's own validator (Validators.post_hook) holds of the
                            SAME items (the structural layer stores a str item as it is);
     range_expr_accepted  : RangeExpressionTaskParameterDefinition — the range string is a range expression
                            (Validators.range_expr_ok). *)
From Coq Require Import List NArith ZArith Bool String Lia.
Import ListNotations.
Require Import OJD.Base OJD.Lexer OJD.Json OJD.Schema OJD.Charsets OJD.CreateJob OJD.Parse OJD.Validators
               OJD.AcceptMono OJD.Export OJD.CreateJobExactLib OJD.CreateJobExactCarried OJD.WellKeyed
               OJD.GlueProofs OJD.ListLib OJD.ConformLib.
Local Open Scope string_scope.
Local Open Scope list_scope.

Notation G := Generated.schema.

Theorem nodes_ok_all : forall classify F v, nodes_ok classify F v = Ok true ->
  forall c fs, In (c, fs) (nodes v) -> exists y, parse_any classify c (export (MModel c fs)) = Ok y.
Proof.
  intros classify. induction F as [|f IH]; intros v H c fs Hin; [discriminate H|].
  cbn [nodes_ok] in H.
  assert (A : forall l, fold_left (fun (acc : outcome bool) x => do a <- acc; if a then nodes_ok classify f x else Ok false)
                                  l (Ok true) = Ok true ->
                        forall x, In x l -> In (c, fs) (nodes x) ->
                        exists y, parse_any classify c (export (MModel c fs)) = Ok y).
  { intros l Hl x Hx Hn. apply cf_all_fold_true in Hl. destruct Hl as [_ Hl]. exact (IH x (Hl x Hx) c fs Hn). }
  destruct v as [ | | | | | | |l|l|cls fields]; try (exfalso; exact Hin).
  - cbn [nodes] in Hin. apply in_flat_map in Hin. destruct Hin as [x [Hx Hn]]. exact (A l H x Hx Hn).
  - cbn [nodes] in Hin. apply in_flat_map in Hin. destruct Hin as [kv [Hkv Hn]].
    apply (A (map snd l) H (snd kv)); [apply in_map; exact Hkv|exact Hn].
  - destruct (fold_left _ (map snd fields) (Ok true)) as [below|e'] eqn:Eb; cbn [bind] in H; [|discriminate H].
    destruct below; [|discriminate H].
    cbn [nodes] in Hin. destruct Hin as [E|Hin].
    + injection E as <- <-.
      destruct (parse_any classify cls (export (MModel cls fields))) as [m|e1]; [exists m; reflexivity|].
      destruct e1; discriminate H.
    + apply in_flat_map in Hin. destruct Hin as [kv [Hkv Hn]].
      apply (A (map snd fields) Eb (snd kv)); [apply in_map; exact Hkv|exact Hn].
Qed.

Lemma nodes_self : forall c fs, In (c, fs) (nodes (MModel c fs)).
Proof. intros c fs. cbn [nodes]. left. reflexivity. Qed.

Lemma nodes_field : forall c fs n x nd, In (n, x) fs -> In nd (nodes x) -> In nd (nodes (MModel c fs)).
Proof.
  intros c fs n x nd Hin Hn. cbn [nodes]. right. apply in_flat_map. exists (n, x). split; [exact Hin|exact Hn].
Qed.

Lemma nodes_item : forall l x nd, In x l -> In nd (nodes x) -> In nd (nodes (MList l)).
Proof. intros l x nd Hin Hn. cbn [nodes]. apply in_flat_map. exists x. split; assumption. Qed.

Lemma nodes_member : forall l (kv : str * mval) nd, In kv l -> In nd (nodes (snd kv)) -> In nd (nodes (MDict l)).
Proof. intros l kv nd Hin Hn. cbn [nodes]. apply in_flat_map. exists kv. split; assumption. Qed.

Definition range_list_classes : list string :=
  ["IntRangeListTaskParameterDefinition"; "FloatRangeListTaskParameterDefinition"; "RangeListTaskParameterDefinition"].

Definition range_items_field : field :=
  mkField "range" "range" true (ListOf None None) (KStr false (Some 0%N) (Some 1024%N) CS_any).

(* [mapM_elim f [a1; ..; an] k P] unfolds to  forall y1, f a1 = Ok y1 -> .. forall yn, f an = Ok yn -> k [y1; ..; yn] -> P *)
Fixpoint mapM_elim {A B : Type} (f : A -> outcome B) (l : list A) (k : list B -> Prop) (P : Prop) : Prop :=
  match l with
  | [] => k [] -> P
  | a :: l => forall y, f a = Ok y -> mapM_elim f l (fun r => k (y :: r)) P
  end.

Lemma mapM_open : forall (A B : Type) (f : A -> outcome B) l ys, mapM f l = Ok ys ->
  forall (k : list B -> Prop) P, k ys -> mapM_elim f l k P -> P.
Proof.
  induction l as [|a l IH]; intros ys H k P Hk HP.
  - injection H as <-. exact (HP Hk).
  - apply mapM_cons_ok in H. destruct H as [y [ys' [Hy [Hl ->]]]]. exact (IH ys' Hl _ P Hk (HP y Hy)).
Qed.

Section Items.
  Variable classify : N -> cclass.
  Variable pre : string -> json -> bool.
  Variable post : string -> json -> list (string * mval) -> bool.
  Notation pk := (parse_kind G classify pre post).
  Notation pc := (parse_cls G classify pre post).

  (* the structural layer stores a str item as it is *)
  Lemma kstr_items : forall f lo cs ss l',
    mapM (pk f (KStr false lo (Some 1024%N) cs)) (map JStr ss) = Ok l' ->
    l' = map MStr ss /\ Forall (fun s => (N.of_nat (List.length s) <= 1024)%N) ss.
  Proof.
    intros f lo cs. induction ss as [|s r IH]; intros l' H.
    - injection H as <-. split; [reflexivity|constructor].
    - cbn [map] in H. apply mapM_cons_ok in H. destruct H as [y [ys [Hy [Hr ->]]]].
      destruct (IH ys Hr) as [-> Hl].
      destruct f as [|f]; [discriminate Hy|]. rewrite parse_kind_S in Hy. cbn [parse_scalar] in Hy.
      apply check_str_len in Hy. destruct Hy as [-> Hs]. split; [reflexivity|]. constructor; assumption.
  Qed.

  Lemma pc_open : forall f c c0 v x, pc f c v = Ok x -> lookup_cls G c = Some c0 ->
    forall P : Prop,
      (forall f' ms, f = S f' -> v = JObj ms ->
         mapM_elim (parse_field (pk f') ms) (c_fields c0) (fun fs => x = MModel c fs /\ post c v fs = true) P) -> P.
  Proof.
    intros f c c0 v x H El P HP. apply pc_inv in H.
    destruct H as [f' [c1 [ms [fields [Ef [El1 [Ev [Ex [_ [_ [Hm Hpost]]]]]]]]]]].
    rewrite El in El1. injection El1 as <-. exact (mapM_open _ _ _ _ _ Hm _ P (conj Ex Hpost) (HP f' ms Ef Ev)).
  Qed.

  Lemma cls2_open : forall f c c0 f1 f2 ms v',
    lookup_cls G c = Some c0 -> c_fields c0 = [f1; f2] -> pc f c (JObj ms) = Ok v' ->
    exists f' x1 x2,
      f = S f' /\ v' = MModel c [(f_name f1, x1); (f_name f2, x2)] /\
      parse_value (pk f') f1 (field_raw ms f1) = Ok x1 /\ parse_value (pk f') f2 (field_raw ms f2) = Ok x2 /\
      post c (JObj ms) [(f_name f1, x1); (f_name f2, x2)] = true.
  Proof.
    intros f c c0 f1 f2 ms v' El Ef H. apply (pc_open _ _ _ _ _ H El). rewrite Ef.
    intros f' ms' -> Ev y1 H1 y2 H2 [-> Hpost]. injection Ev as <-.
    apply parse_field_inv in H1. destruct H1 as [x1 [-> Hx1]]. apply parse_field_inv in H2. destruct H2 as [x2 [-> Hx2]].
    exists f', x1, x2. repeat split; assumption.
  Qed.

  Lemma range_list_open : forall f c ty r v', In c range_list_classes ->
    pc f c (JObj [($"type", JStr ty); ($"range", r)]) = Ok v' ->
    exists f' t' x,
      v' = MModel c [("type", t'); ("range", x)] /\ parse_value (pk f') range_items_field r = Ok x /\
      post c (JObj [($"type", JStr ty); ($"range", r)]) [("type", t'); ("range", x)] = true.
  Proof.
    intros f c ty r v' Hc H. destruct Hc as [<-|[<-|[<-|[]]]];
      (eapply cls2_open in H; [|vm_compute; reflexivity|reflexivity]);
      destruct H as [f' [t' [x [_ [E [_ [Hx Hpost]]]]]]]; exists f', t', x; repeat split; assumption.
  Qed.

  Lemma range_expr_open : forall f ty r v',
    pc f "RangeExpressionTaskParameterDefinition" (JObj [($"type", JStr ty); ($"range", r)]) = Ok v' ->
    exists f' t' x,
      v' = MModel "RangeExpressionTaskParameterDefinition" [("type", t'); ("range", x)] /\
      parse_value (pk f') (mkField "range" "range" true Single (KFormat "RangeString" (Some 1%N) None CS_any)) r = Ok x /\
      post "RangeExpressionTaskParameterDefinition" (JObj [($"type", JStr ty); ($"range", r)]) [("type", t'); ("range", x)] = true.
  Proof.
    intros f ty r v' H. eapply cls2_open in H; [|vm_compute; reflexivity|reflexivity].
    destruct H as [f' [t' [x [_ [E [_ [Hx Hpost]]]]]]]. exists f', t', x. repeat split; assumption.
  Qed.
End Items.

(* [parse_any] with its fuel abstracted: on a concrete object the fuel would compute and drag the parser along *)
Lemma parse_any_cls : forall classify c j y, parse_any classify c j = Ok y ->
  exists F, parse_cls G classify (pre_full classify F) (post_hook classify) F c j = Ok y.
Proof. intros classify c j y H. eexists. exact H. Qed.

Lemma tobj_list_def : forall c ty items, In c range_list_classes ->
  tobj G (MModel c [("type", MStr ty); ("range", MList items)])
  = JObj [($"type", JStr ty); ($"range", JArr (map (tobj G) items))].
Proof. intros c ty items [<-|[<-|[<-|[]]]]; reflexivity. Qed.

Theorem range_list_accepted : forall classify c ty ss y, In c range_list_classes ->
  parse_any classify c (export (MModel c [("type", MStr ty); ("range", MList (map MStr ss))])) = Ok y ->
  Forall (fun s => (N.of_nat (List.length s) <= 1024)%N) ss /\
  exists raw x1, post_hook classify c raw [("type", x1); ("range", MList (map MStr ss))] = true.
Proof.
  intros classify c ty ss y Hc H. rewrite ExportProofs.export_tobj, (tobj_list_def _ _ _ Hc), map_map in H.
  apply parse_any_cls in H. destruct H as [F H].
  destruct (range_list_open _ _ _ _ _ _ _ _ Hc H) as [f' [t' [x [_ [Hx Hpost]]]]].
  cbn [parse_value range_items_field f_shape f_kind list_items len_ok_n] in Hx.
  destruct (mapM _ _) as [l'|e] eqn:Ei in Hx; cbn [bind] in Hx; [|discriminate Hx]. injection Hx as <-.
  apply (kstr_items classify) in Ei. destruct Ei as [-> Hlen]. split; [exact Hlen|]. eexists. exists t'. exact Hpost.
Qed.

Theorem range_expr_accepted : forall classify ty r y,
  parse_any classify "RangeExpressionTaskParameterDefinition"
            (export (MModel "RangeExpressionTaskParameterDefinition" [("type", MStr ty); ("range", MStr r)])) = Ok y ->
  range_expr_ok classify r = true.
Proof.
  intros classify ty r y H. rewrite ExportProofs.export_tobj in H. apply parse_any_cls in H. destruct H as [F H].
  destruct (range_expr_open _ _ _ _ _ _ _ H) as [f' [t' [x [_ [Hx Hpost]]]]].
  cbn [parse_value f_shape f_kind] in Hx. destruct f' as [|f']; [discriminate Hx|].
  rewrite parse_kind_S in Hx. cbn [parse_scalar] in Hx.
  match type of Hx with context [if ?b then _ else _] => destruct b; [|discriminate Hx] end.
  injection Hx as <-. exact Hpost.
Qed.
