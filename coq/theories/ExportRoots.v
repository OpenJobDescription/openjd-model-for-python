(* ExportRoots.v — C17: the round trip of the two template roots, with no hypothesis.

   ExportProofs.v leaves one named hypothesis for root = JobTemplate / EnvironmentTemplate,
   [prevalidate_stable]: the variable-reference walk (the only validator besides the pre-validators that
   reads the RAW document) reports nothing on the re-export of a template it reported nothing on.
   It is discharged here:
     - the walk is the document-level specification of C03 on every document (ScopeProofs.exact_job/env);
     - the specification reports nothing on the re-export when it reported nothing on the source
       (ExportView.spec_job_stable / spec_env_stable);
     - the only strings of the re-export at a reference site that are not the source's strings are the
       texts of Decimals (FLOAT range items), made of digits and "-.E+": no "{{", so no reference
       ([print_dec_quiet]).
   Lemmas only. *)
From Coq Require Import List NArith ZArith Bool String Lia Arith.
Import ListNotations.
Require Import OJD.Base OJD.Lexer OJD.Json OJD.Schema OJD.Generated OJD.Charsets OJD.Numerals OJD.NumPrint
               OJD.CreateJob OJD.Parse OJD.FormatStr OJD.FsRefs OJD.ScopeWalk OJD.ScopeSpec OJD.ScopeProofs
               OJD.Validators OJD.Accept OJD.Export OJD.NumRoundtrip OJD.ExportProofs OJD.ExportView.
Local Open Scope string_scope.
Local Open Scope list_scope.

Lemma find_from_absent : forall c rest t i, (forall d, In d t -> N.eqb c d = false) -> find_from (c :: rest) t i = None.
Proof.
  intros c rest t. induction t as [|d t IH]; intros i H; [reflexivity|].
  cbn [find_from is_prefix]. rewrite (H d (or_introl eq_refl)). cbn [andb].
  apply IH. intros d' Hd'. apply H. right. exact Hd'.
Qed.

Lemma okc_no_brace : forall c, okc c = true -> N.eqb lbrace c = false /\ N.eqb rbrace c = false.
Proof. intros c H. split; apply N.eqb_neq; intros <-; discriminate H. Qed.

Lemma okc_no_refs : forall classify s, forallb okc s = true -> fs_refs classify s = Some [].
Proof.
  intros classify s H. rewrite forallb_forall in H. unfold fs_refs, mk. cbn [scan].
  destruct (Nat.leb (List.length s) 0) eqn:El; [reflexivity|].
  unfold find. cbn [Nat.ltb Nat.leb skipn].
  replace (Nat.ltb (List.length s) 0) with false by (symmetry; apply Nat.ltb_ge; lia).
  unfold open2, close2.
  rewrite find_from_absent by (intros d Hd; apply okc_no_brace; apply H; exact Hd).
  rewrite find_from_absent by (intros d Hd; apply okc_no_brace; apply H; exact Hd).
  reflexivity.
Qed.

Lemma print_dec_quiet : forall classify m e, quiet (fs_refs classify) (print_dec m e).
Proof. intros classify m e. right. apply okc_no_refs. apply print_dec_okc. Qed.

Theorem prevalidate_stable_holds : forall classify, prevalidate_stable classify.
Proof.
  intros classify f root ms flds Hr H.
  pose proof (parse_cls_post classify f root ms flds H) as Hpo.
  destruct Hr as [Er|Er]; subst root.
  - rewrite exact_job.
    apply (spec_job_stable classify pre_hook (post_hook classify) (fs_refs classify) (print_dec_quiet classify) f (JObj ms) _ H).
    rewrite <- exact_job.
    change (job_template_ok classify (JObj ms) flds = true) in Hpo. unfold job_template_ok in Hpo.
    repeat (apply andb_true_iff in Hpo; let H2 := fresh "Hc" in destruct Hpo as [Hpo H2]).
    destruct (prevalidate Generated.schema (fs_refs classify) "JobTemplate" (JObj ms)); [reflexivity|discriminate].
  - rewrite exact_env.
    rewrite (spec_env_stable classify pre_hook (post_hook classify) (fs_refs classify) f (JObj ms) _ H).
    rewrite <- exact_env.
    change (unique_names (fget "parameterDefinitions" flds)
            && match prevalidate Generated.schema (fs_refs classify) "EnvironmentTemplate" (JObj ms) with
               | [] => true | _ => false end = true) in Hpo.
    apply andb_true_iff in Hpo. destruct Hpo as [_ Hpo].
    destruct (prevalidate Generated.schema (fs_refs classify) "EnvironmentTemplate" (JObj ms)); [reflexivity|discriminate].
Qed.

(* decode(export(decode j)) = decode j for every template class, the two roots included *)
Theorem roundtrip_all_templates : forall classify root j v,
  In root template_classes ->
  parse_any classify root j = Ok v ->
  snd (roundtrip classify root v) = true.
Proof.
  intros classify root j v Hroot Hp. eapply roundtrip_live; try eassumption. apply prevalidate_stable_holds.
Qed.

Theorem roundtrip_template_roots : forall classify root j v,
  In root ["JobTemplate"; "EnvironmentTemplate"] ->
  parse_any classify root j = Ok v ->
  snd (roundtrip classify root v) = true.
Proof.
  intros classify root j v Hroot Hp. eapply roundtrip_all_templates; [|exact Hp].
  apply ListLib.mem_s_In. destruct Hroot as [<-|[<-|[]]]; vm_compute; reflexivity.
Qed.
