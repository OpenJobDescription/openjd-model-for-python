(* ScopeLib.v — schema-independent lemmas about the walker model ScopeWalk.v:
   one-step unfolding equations, fuel sufficiency of [collect], lookup of collected symbols,
   field-level characterisations of [walk].  Used by ScopeProofs.v. *)
From Coq Require Import List NArith ZArith Bool String Lia.
Import ListNotations.
Require Import OJD.Base OJD.Json OJD.Schema OJD.ScopeWalk OJD.ScopeSpec OJD.ListLib.
Local Open Scope string_scope.
Local Open Scope list_scope.

Lemma str_eqb_refl : forall a, str_eqb a a = true.
Proof. exact ListLib.str_eqb_refl. Qed.

Lemma str_eqb_neq : forall a b, a <> b -> str_eqb a b = false.
Proof. intros a b. apply ListLib.str_eqb_neq. Qed.

Lemma str_of_string_app : forall a b : string,
  str_of_string (a ++ b)%string = str_of_string a ++ str_of_string b.
Proof. induction a as [|c a IH]; intros b; cbn; [reflexivity|]. rewrite IH. reflexivity. Qed.

Lemma existsb_flat_map : forall {A B} (f : B -> bool) (g : A -> list B) l,
  existsb f (flat_map g l) = existsb (fun x => existsb f (g x)) l.
Proof. induction l as [|x l IH]; cbn; [reflexivity|]. rewrite existsb_app, IH. reflexivity. Qed.

Lemma existsb_orb : forall {A} (f g : A -> bool) l,
  existsb f l || existsb g l = existsb (fun x => f x || g x) l.
Proof.
  induction l as [|x l IH]; cbn; [reflexivity|]. rewrite <- IH.
  destruct (f x), (g x), (existsb f l), (existsb g l); reflexivity.
Qed.

Lemma existsb_ext_in : forall {A} (f g : A -> bool) l,
  (forall x, In x l -> f x = g x) -> existsb f l = existsb g l.
Proof.
  induction l as [|x l IH]; intros H; cbn; [reflexivity|].
  rewrite (H x (or_introl eq_refl)), IH; [reflexivity|]. intros y Hy. apply H. right. exact Hy.
Qed.

Lemma existsb_false : forall {A} (l : list A), existsb (fun _ => false) l = false.
Proof. induction l as [|x l IH]; cbn; auto. Qed.

Lemma concat_map_nil : forall {A B} (l : list A), List.concat (map (fun _ => @nil B) l) = [].
Proof. induction l as [|x l IH]; cbn; auto. Qed.

Lemma flat_map_nil : forall {A B} (l : list A), flat_map (fun _ => @nil B) l = [].
Proof. induction l as [|x l IH]; cbn; auto. Qed.

Lemma combine_seq_in : forall {A} (l : list A) s i x, In (i, x) (combine (seq s (List.length l)) l) -> In x l.
Proof.
  induction l as [|y l IH]; intros s i x H; cbn in H; [contradiction|].
  destruct H as [H|H]; [inversion H; left; reflexivity | right; eapply IH; exact H].
Qed.

Lemma concat_map_indexed_ext : forall {A B} (F G : nat * A -> list B) (l : list A),
  (forall i x, In x l -> F (i, x) = G (i, x)) ->
  List.concat (map F (indexed l)) = List.concat (map G (indexed l)).
Proof.
  intros A B F G l H. f_equal. apply map_ext_in. intros [i x] Hin.
  apply H. unfold indexed in Hin. eapply combine_seq_in. exact Hin.
Qed.

(* two walks over the items of the list [n] of [v] that agree item by item *)
Lemma concat_indexed_items : forall {B} n v (F G : nat * json -> list B),
  (forall items i x, jget n v = JArr items -> In x items -> F (i, x) = G (i, x)) ->
  match jget n v with JArr items => List.concat (map F (indexed items)) | _ => [] end
  = match jget n v with JArr items => List.concat (map G (indexed items)) | _ => [] end.
Proof.
  intros B n v F G H. destruct (jget n v) eqn:E; try reflexivity.
  apply concat_map_indexed_ext. intros i x Hx. exact (H _ i x eq_refl Hx).
Qed.

Lemma concat_map_ext_in : forall {A B} (F G : A -> list B) (l : list A),
  (forall x, In x l -> F x = G x) -> List.concat (map F l) = List.concat (map G l).
Proof. intros. f_equal. apply map_ext_in. assumption. Qed.

Lemma json_depth_pos : forall v, 1 <= json_depth v.
Proof. destruct v; cbn; lia. Qed.

Lemma assoc_depth : forall k (ms : list (str * json)) v,
  assoc k ms = Some v ->
  json_depth v <= fold_right (fun kv acc => Nat.max (json_depth (snd kv)) acc) O ms.
Proof.
  induction ms as [|[k' v'] ms IH]; intros v H; cbn in H; [discriminate|].
  cbn [fold_right snd]. destruct (str_eqb k k').
  - inversion H; subst. lia.
  - apply IH in H. lia.
Qed.

Lemma jget_depth : forall n v, is_null (jget n v) = false -> S (json_depth (jget n v)) <= json_depth v.
Proof.
  intros n v H. destruct v; cbn in H; try discriminate.
  unfold jget in *. destruct (assoc (str_of_string n) members) as [w|] eqn:E; [|discriminate].
  apply assoc_depth in E. cbn [json_depth]. lia.
Qed.

Lemma arr_depth : forall items x, In x items -> S (json_depth x) <= json_depth (JArr items).
Proof.
  intros items x H. cbn [json_depth]. apply le_n_S.
  induction items as [|y items IH]; [contradiction|]. cbn [fold_right].
  destruct H as [H|H]; [subst; lia | apply IH in H; lia].
Qed.

Lemma item_depth : forall n v items x, jget n v = JArr items -> In x items -> json_depth x + 2 <= json_depth v.
Proof.
  intros n v items x E H. apply arr_depth in H. rewrite <- E in H.
  assert (Hn : is_null (jget n v) = false) by (rewrite E; reflexivity). apply jget_depth in Hn. lia.
Qed.

Lemma obj_not_null : forall v, is_obj v = true -> is_null v = false.
Proof. destruct v; cbn; congruence. Qed.

Definition mem_of (t : symtabs) (sc : scope) (n : str) : bool := mem_str n (st_get sc t).

Definition scope_le (a b : scope) : bool :=   (* a symbol resolving at [a] is visible at [b] *)
  match a, b with
  | TEMPLATE, _ => true
  | SESSION, TEMPLATE => false
  | SESSION, _ => true
  | TASK, TASK => true
  | TASK, _ => false
  end.

Lemma scope_le_refl : forall sc, scope_le sc sc = true.
Proof. destruct sc; reflexivity. Qed.

Lemma mem_of_empty : forall sc n, mem_of st_empty sc n = false.
Proof. destruct sc; reflexivity. Qed.

Lemma mem_of_union : forall a b sc n, mem_of (st_union a b) sc n = mem_of a sc n || mem_of b sc n.
Proof. intros a b sc n. unfold mem_of. destruct sc; cbn; apply mem_str_app. Qed.

Lemma mem_of_add : forall t s nm sc n,
  mem_of (add_symbol t s nm) sc n = (scope_le s sc && str_eqb n nm) || mem_of t sc n.
Proof. intros t s nm sc n. unfold mem_of. destruct s, sc; cbn; reflexivity. Qed.

Definition tmem (o : option symtabs) (sc : scope) (n : str) : bool :=
  match o with Some t => mem_of t sc n | None => false end.

Lemma gather_fold_mem : forall m srcs acc sc n,
  mem_of (fold_left (fun acc s => match lookup_s s m with Some t => st_union acc t | None => acc end) srcs acc) sc n
  = mem_of acc sc n || existsb (fun s => tmem (lookup_s s m) sc n) srcs.
Proof.
  induction srcs as [|s srcs IH]; intros acc sc n; cbn [fold_left existsb].
  - rewrite orb_false_r. reflexivity.
  - rewrite IH. unfold tmem. destruct (lookup_s s m) as [t|].
    + rewrite mem_of_union, orb_assoc. reflexivity.
    + reflexivity.
Qed.

Lemma gather_mem : forall m srcs sc n,
  mem_of (gather m srcs) sc n = existsb (fun s => tmem (lookup_s s m) sc n) srcs.
Proof. intros. unfold gather. rewrite gather_fold_mem, mem_of_empty. reflexivity. Qed.

(* [n] is the name that [o] declares, under the prefix [pre] *)
Definition declares (pre : string) (n : str) (o : json) : bool :=
  match decl_name o with Some nm => str_eqb n (str_of_string pre ++ nm) | None => false end.

Lemma named_declared : forall pre ok v n,
  named pre (declared ok v) n = existsb (fun o => ok o && declares pre n o) (obj_list v).
Proof.
  intros pre ok v n. unfold named, declared, declares. rewrite existsb_flat_map.
  apply existsb_ext_in. intros o _. destruct (ok o); [|reflexivity].
  destruct (decl_name o); cbn; [rewrite orb_false_r|]; reflexivity.
Qed.

Fixpoint dfind (m : list (string * string)) (s : str) : option string :=
  match m with
  | [] => None
  | (kv, c) :: r => if str_eqb (str_of_string kv) s then Some c else dfind r s
  end.

Lemma resolve_disc_eq : forall key mapping v,
  resolve_disc key mapping v =
  match jget key v with
  | JStr s => match s with [] => None | _ => dfind mapping s end
  | _ => None
  end.
Proof.
  intros key mapping v. unfold resolve_disc. destruct (jget key v); try reflexivity.
  destruct s as [|ch s]; [reflexivity|].
  induction mapping as [|[kv c] mapping IH]; [reflexivity|].
  cbn [dfind]. destruct (str_eqb (str_of_string kv) (ch :: s)); [reflexivity | exact IH].
Qed.

(* the four type tests of the specification, in the order of the mapping of job parameters and
   task parameters *)
Definition type_tests (x : json) : bool * bool * bool * bool :=
  (type_is x "INT", type_is x "FLOAT", type_is x "STRING", type_is x "PATH").

Lemma disc4_cases : forall mapping cI cF cS cP x,
  mapping = [("INT", cI); ("FLOAT", cF); ("STRING", cS); ("PATH", cP)] ->
  let r := resolve_disc "type" mapping x in
  (type_tests x = (true, false, false, false) /\ r = Some cI) \/
  (type_tests x = (false, true, false, false) /\ r = Some cF) \/
  (type_tests x = (false, false, true, false) /\ r = Some cS) \/
  (type_tests x = (false, false, false, true) /\ r = Some cP) \/
  (type_tests x = (false, false, false, false) /\ r = None).
Proof.
  intros mapping cI cF cS cP x -> r. subst r. rewrite resolve_disc_eq. unfold type_tests, type_is.
  destruct (jget "type" x) as [| | | |s| |]; try (do 4 right; split; reflexivity).
  destruct (str_eqb s (str_of_string "INT")) eqn:EI.
  { apply str_eqb_eq in EI. subst s. left. split; reflexivity. }
  destruct (str_eqb s (str_of_string "FLOAT")) eqn:EF.
  { apply str_eqb_eq in EF. subst s. right; left. split; reflexivity. }
  destruct (str_eqb s (str_of_string "STRING")) eqn:ES.
  { apply str_eqb_eq in ES. subst s. do 2 right; left. split; reflexivity. }
  destruct (str_eqb s (str_of_string "PATH")) eqn:EP.
  { apply str_eqb_eq in EP. subst s. do 3 right; left. split; reflexivity. }
  do 4 right. split; [reflexivity|].
  destruct s as [|ch s]; [reflexivity|]. cbn [dfind].
  rewrite (str_eqb_sym (str_of_string "INT")), EI, (str_eqb_sym (str_of_string "FLOAT")), EF,
          (str_eqb_sym (str_of_string "STRING")), ES, (str_eqb_sym (str_of_string "PATH")), EP.
  reflexivity.
Qed.

Section Lib.
  Variable SC : schema_t.
  Variable refs : str -> option (list str).

  Definition cself (c : cls) (values : json) (sc : scope) (prefix : str) : symtabs :=
    let d := c_defs c in
    let self0 :=
      if String.eqb (d_field d) "" then st_empty
      else match jget (d_field d) values with
           | JStr ((_ :: _) as name) =>
             fold_left (fun acc pr => add_symbol acc (snd pr) (sym_name prefix (fst pr) name))
                       (d_defines d) st_empty
           | _ => st_empty
           end in
    fold_left (fun acc inj => add_symbol acc sc (sym_name prefix inj [])) (d_inject d) self0.

  Definition ctarget (k : kind) (v : json) : option string :=
    match k with
    | KModel cn => Some cn
    | KDisc key mapping => resolve_disc key mapping v
    | _ => None
    end.

  Definition csingle (f : nat) (sc : scope) (prefix : str) (k : kind) (v : json) : option symtabs :=
    match v with
    | JObj _ =>
      match ctarget k v with
      | None => Some st_empty
      | Some cn =>
        match lookup_cls SC cn with
        | None => Some st_empty
        | Some c' =>
          match lookup_s "__export__" (c_sources c') with
          | None => Some st_empty
          | Some _ =>
            match collect SC f cn v sc prefix with
            | None => None
            | Some m => Some (match lookup_s "__export__" m with Some t => t | None => st_empty end)
            end
          end
        end
      end
    | _ => Some st_empty
    end.

  Definition cstep (f : nat) (sc : scope) (prefix : str) (k : kind) (a : option symtabs) (item : json) : option symtabs :=
    match a with
    | None => None
    | Some t => match csingle f sc prefix k item with
                | None => None
                | Some t' => Some (st_union t t')
                end
    end.

  Definition clist (f : nat) (sc : scope) (prefix : str) (k : kind) (items : list json) : option symtabs :=
    fold_left (cstep f sc prefix k) items (Some st_empty).

  Definition cfield (f : nat) (values : json) (sc : scope) (prefix : str)
             (acc : option (list (string * symtabs))) (fl : field) : option (list (string * symtabs)) :=
    match acc with
    | None => None
    | Some m =>
      let v := jget (f_name fl) values in
      if is_null v then Some m
      else if kind_is_literal (f_kind fl) then Some m
      else match f_shape fl with
           | Single =>
             match csingle f sc prefix (f_kind fl) v with
             | None => None
             | Some t => Some (m ++ [(f_name fl, t)])
             end
           | ListOf _ _ =>
             match v with
             | JArr items =>
               match clist f sc prefix (f_kind fl) items with
               | None => None
               | Some t => Some (m ++ [(f_name fl, t)])
               end
             | _ => Some m
             end
           | DictOf _ => Some m
           end
    end.

  Lemma collect_S : forall f cname values sc prefix,
    collect SC (S f) cname values sc prefix =
    match lookup_cls SC cname with
    | None => Some []
    | Some c =>
      match fold_left (cfield f values sc prefix) (c_fields c) (Some [("__self__", cself c values sc prefix)]) with
      | None => None
      | Some m => Some (m ++ [("__export__", gather m (srcs_of c "__export__"))])
      end
    end.
  Proof. reflexivity. Qed.

  (* entries one field appends *)
  Definition centry (f : nat) (values : json) (sc : scope) (prefix : str) (fl : field)
    : option (list (string * symtabs)) :=
    let v := jget (f_name fl) values in
    if is_null v then Some []
    else if kind_is_literal (f_kind fl) then Some []
    else match f_shape fl with
         | Single => match csingle f sc prefix (f_kind fl) v with
                     | None => None
                     | Some t => Some [(f_name fl, t)]
                     end
         | ListOf _ _ =>
           match v with
           | JArr items => match clist f sc prefix (f_kind fl) items with
                           | None => None
                           | Some t => Some [(f_name fl, t)]
                           end
           | _ => Some []
           end
         | DictOf _ => Some []
         end.

  Lemma cfield_centry : forall f values sc prefix m fl,
    cfield f values sc prefix (Some m) fl =
    match centry f values sc prefix fl with None => None | Some e => Some (m ++ e) end.
  Proof.
    intros. unfold cfield, centry. cbv zeta.
    destruct (is_null (jget (f_name fl) values)); [rewrite app_nil_r; reflexivity|].
    destruct (kind_is_literal (f_kind fl)); [rewrite app_nil_r; reflexivity|].
    destruct (f_shape fl).
    - destruct (csingle f sc prefix (f_kind fl) (jget (f_name fl) values)); reflexivity.
    - destruct (jget (f_name fl) values); try (rewrite app_nil_r; reflexivity).
      destruct (clist f sc prefix (f_kind fl) l); reflexivity.
    - rewrite app_nil_r; reflexivity.
  Qed.

  Fixpoint centries (f : nat) (values : json) (sc : scope) (prefix : str) (flds : list field)
    : option (list (string * symtabs)) :=
    match flds with
    | [] => Some []
    | fl :: r => match centry f values sc prefix fl with
                 | None => None
                 | Some e => match centries f values sc prefix r with
                             | None => None
                             | Some es => Some (e ++ es)
                             end
                 end
    end.

  Lemma cfield_none : forall f values sc prefix flds,
    fold_left (cfield f values sc prefix) flds None = None.
  Proof. induction flds as [|fl flds IH]; cbn; auto. Qed.

  Lemma fold_cfield : forall f values sc prefix flds m,
    fold_left (cfield f values sc prefix) flds (Some m) =
    match centries f values sc prefix flds with None => None | Some es => Some (m ++ es) end.
  Proof.
    induction flds as [|fl flds IH]; intros m; cbn [fold_left centries].
    - rewrite app_nil_r. reflexivity.
    - rewrite cfield_centry. destruct (centry f values sc prefix fl) as [e|].
      + rewrite IH. destruct (centries f values sc prefix flds) as [es|]; [|reflexivity].
        rewrite app_assoc. reflexivity.
      + apply cfield_none.
  Qed.

  (* the whole result of collect, explicitly *)
  Definition cresult (c : cls) (values : json) (sc : scope) (prefix : str) (es : list (string * symtabs))
    : list (string * symtabs) :=
    let m := ("__self__", cself c values sc prefix) :: es in
    m ++ [("__export__", gather m (srcs_of c "__export__"))].

  Lemma collect_inv : forall f cname c values sc prefix m,
    lookup_cls SC cname = Some c ->
    collect SC (S f) cname values sc prefix = Some m ->
    exists es, centries f values sc prefix (c_fields c) = Some es /\ m = cresult c values sc prefix es.
  Proof.
    intros f cname c values sc prefix m Hc H. rewrite collect_S, Hc, fold_cfield in H.
    destruct (centries f values sc prefix (c_fields c)) as [es|]; [|discriminate].
    exists es. split; [reflexivity|]. inversion H. reflexivity.
  Qed.

  (* lookup of a field's entry, computed from the field list *)
  Fixpoint lk_entries (f : nat) (values : json) (sc : scope) (prefix : str) (k : string) (flds : list field)
    : option symtabs :=
    match flds with
    | [] => None
    | fl :: r =>
      if String.eqb (f_name fl) k
      then match centry f values sc prefix fl with
           | Some ((_, t) :: _) => Some t
           | _ => lk_entries f values sc prefix k r
           end
      else lk_entries f values sc prefix k r
    end.

  Lemma centry_keys : forall f values sc prefix fl e,
    centry f values sc prefix fl = Some e -> e = [] \/ exists t, e = [(f_name fl, t)].
  Proof.
    intros f values sc prefix fl e H. unfold centry in H. cbv zeta in H.
    destruct (is_null (jget (f_name fl) values)); [inversion H; auto|].
    destruct (kind_is_literal (f_kind fl)); [inversion H; auto|].
    destruct (f_shape fl).
    - destruct (csingle f sc prefix (f_kind fl) (jget (f_name fl) values)); inversion H; eauto.
    - destruct (jget (f_name fl) values); try (inversion H; auto; fail).
      destruct (clist f sc prefix (f_kind fl) l); inversion H; eauto.
    - inversion H; auto.
  Qed.

  Lemma lookup_centries : forall f values sc prefix k flds es,
    centries f values sc prefix flds = Some es ->
    lookup_s k es = lk_entries f values sc prefix k flds.
  Proof.
    induction flds as [|fl flds IH]; intros es H; cbn [centries lk_entries] in *.
    - inversion H. reflexivity.
    - destruct (centry f values sc prefix fl) as [e|] eqn:E; [|discriminate].
      destruct (centries f values sc prefix flds) as [es'|]; [|discriminate].
      inversion H; subst es. specialize (IH es' eq_refl).
      destruct (centry_keys _ _ _ _ _ _ E) as [He|[t He]]; subst e.
      + cbn [app]. rewrite IH. destruct (String.eqb (f_name fl) k); reflexivity.
      + cbn [app lookup_s]. destruct (String.eqb (f_name fl) k); [reflexivity | exact IH].
  Qed.

  Lemma lookup_cresult_self : forall c values sc prefix es,
    lookup_s "__self__" (cresult c values sc prefix es) = Some (cself c values sc prefix).
  Proof. reflexivity. Qed.

  Lemma lookup_cresult_field : forall c values sc prefix es k,
    String.eqb "__self__" k = false -> String.eqb "__export__" k = false ->
    lookup_s k (cresult c values sc prefix es) = lookup_s k es.
  Proof.
    intros c values sc prefix es k H1 H2. unfold cresult. cbv zeta.
    cbn [app lookup_s]. rewrite H1, lookup_s_app. destruct (lookup_s k es); [reflexivity|].
    cbn [lookup_s]. rewrite H2. reflexivity.
  Qed.

  Lemma lookup_cresult_export : forall c values sc prefix es,
    lookup_s "__export__" es = None ->
    lookup_s "__export__" (cresult c values sc prefix es)
    = Some (gather (("__self__", cself c values sc prefix) :: es) (srcs_of c "__export__")).
  Proof.
    intros c values sc prefix es Hn. unfold cresult. cbv zeta.
    cbn [app lookup_s]. change (String.eqb "__self__" "__export__") with false. cbv iota.
    rewrite lookup_s_app, Hn. reflexivity.
  Qed.

  (* only the fields called [k] matter to the lookup of [k]: with the field list of a concrete class
     the filter evaluates, and the lookup need not walk the list *)
  Lemma lk_entries_filter : forall f values sc prefix k flds,
    lk_entries f values sc prefix k flds
    = lk_entries f values sc prefix k (filter (fun fl => String.eqb (f_name fl) k) flds).
  Proof.
    induction flds as [|fl flds IH]; cbn [lk_entries filter]; [reflexivity|].
    destruct (String.eqb (f_name fl) k) eqn:E; [|exact IH]. cbn [lk_entries]. rewrite E, IH. reflexivity.
  Qed.

  (* when every item exports [g x], the list exports their union *)
  Lemma clist_union : forall f sc prefix k (g : json -> symtabs) items t0,
    (forall x, In x items -> csingle f sc prefix k x = Some (g x)) ->
    fold_left (cstep f sc prefix k) items (Some t0) = Some (fold_left (fun t x => st_union t (g x)) items t0).
  Proof.
    induction items as [|x items IH]; intros t0 H; cbn [fold_left]; [reflexivity|].
    unfold cstep at 2. rewrite (H x (or_introl eq_refl)). apply IH. intros y Hy. apply H. right. exact Hy.
  Qed.

  Lemma clist_some : forall f sc prefix k items,
    (forall x, In x items -> exists t, csingle f sc prefix k x = Some t) ->
    exists t, clist f sc prefix k items = Some t.
  Proof.
    intros f sc prefix k items H. eexists.
    apply (clist_union _ _ _ _ (fun x => match csingle f sc prefix k x with Some t => t | None => st_empty end)).
    intros x Hx. destruct (H x Hx) as [t ->]. reflexivity.
  Qed.

  Lemma collect_some : forall f cname values sc prefix,
    json_depth values <= f -> exists m, collect SC f cname values sc prefix = Some m.
  Proof.
    induction f as [|f IH]; intros cname values sc prefix Hd.
    - pose proof (json_depth_pos values). lia.
    - rewrite collect_S. destruct (lookup_cls SC cname) as [c|]; [|eauto].
      rewrite fold_cfield.
      assert (Hsingle : forall k w, json_depth w <= f -> exists t, csingle f sc prefix k w = Some t).
      { intros k w Hw. unfold csingle. destruct w; eauto.
        destruct (ctarget k (JObj members)) as [cn|]; eauto.
        destruct (lookup_cls SC cn) as [c'|]; eauto.
        destruct (lookup_s "__export__" (c_sources c')); eauto.
        destruct (IH cn (JObj members) sc prefix Hw) as [m Hm]. rewrite Hm. eauto. }
      assert (Hent : forall fl, exists e, centry f values sc prefix fl = Some e).
      { intros fl. unfold centry. cbv zeta.
        destruct (is_null (jget (f_name fl) values)) eqn:En; eauto.
        apply jget_depth in En.
        destruct (kind_is_literal (f_kind fl)); eauto.
        destruct (f_shape fl); eauto.
        - destruct (Hsingle (f_kind fl) (jget (f_name fl) values)) as [t Ht]; [lia|]. rewrite Ht. eauto.
        - destruct (jget (f_name fl) values) eqn:Ev; eauto.
          destruct (clist_some f sc prefix (f_kind fl) l) as [t Ht].
          + intros x Hx. apply Hsingle. apply arr_depth in Hx. lia.
          + rewrite Ht. eauto. }
      assert (Hall : forall flds, exists es, centries f values sc prefix flds = Some es).
      { induction flds as [|fl flds IHf]; cbn [centries]; eauto.
        destruct (Hent fl) as [e He]. destruct IHf as [es Hes]. rewrite He, Hes. eauto. }
      destruct (Hall (c_fields c)) as [es Hes]. rewrite Hes. eauto.
  Qed.

  (* symbols exported through [clist], by membership *)
  Lemma clist_mem : forall f sc prefix k items (g : json -> symtabs),
    (forall x, In x items -> csingle f sc prefix k x = Some (g x)) ->
    exists T, clist f sc prefix k items = Some T /\
              forall sc' n, mem_of T sc' n = existsb (fun x => mem_of (g x) sc' n) items.
  Proof.
    intros f sc prefix k items g H. eexists. split; [apply clist_union; exact H|]. intros sc' n.
    rewrite <- (orb_false_l (existsb _ items)), <- (mem_of_empty sc' n). generalize st_empty.
    induction items as [|x items IH]; intros t0; cbn [fold_left existsb]; [apply eq_sym, orb_false_r|].
    rewrite IH, mem_of_union, orb_assoc; [reflexivity|]. intros y Hy. apply H. right. exact Hy.
  Qed.

  Definition wsc (c : cls) (sc0 : scope) : scope := match c_scope c with Some s => s | None => sc0 end.
  Definition wprefix (c : cls) (prefix0 : str) : str :=
    let dp := d_prefix (c_defs c) in
    if starts_with_bar dp then str_of_string (drop1 dp) else prefix0 ++ str_of_string dp.

  Definition wfield (f : nat) (c : cls) (values : json) (sc : scope) (prefix : str)
             (value_symbols : list (string * symtabs)) (syms : symtabs) (l : loc) (fl : field) : list werr :=
    let v := jget (f_name fl) values in
    if is_null v then []
    else if kind_is_literal (f_kind fl) then []
    else
      let vs := st_union (gather value_symbols (srcs_of c (f_name fl))) syms in
      match f_shape fl with
      | Single => vsingle SC refs f (f_kind fl) v sc prefix vs (l ++ [LKey (str_of_string (f_name fl))])
      | ListOf _ _ =>
        match v with
        | JArr items =>
          List.concat (List.map (fun iv => vsingle SC refs f (f_kind fl) (snd iv) sc prefix vs
                                         (l ++ [LKey (str_of_string (f_name fl)); LIdx (fst iv)]))
                      (combine (seq 0 (List.length items)) items))
        | _ => []
        end
      | DictOf _ =>
        match v with
        | JObj members =>
          List.concat (List.map (fun kv => vsingle SC refs f (f_kind fl) (snd kv) sc prefix vs
                                         (l ++ [LKey (str_of_string (f_name fl)); LKey (fst kv)]))
                      members)
        | _ => []
        end
      end.

  Lemma wprefix_nobar : forall c p, d_prefix (c_defs c) = "" -> wprefix c p = p.
  Proof. intros c p H. unfold wprefix. rewrite H. cbn. apply app_nil_r. Qed.

  Lemma walk_S : forall f cname values sc0 prefix0 syms l,
    walk SC refs (S f) cname values sc0 prefix0 syms l =
    match lookup_cls SC cname with
    | None => []
    | Some c =>
      match collect SC f cname values (wsc c sc0) (wprefix c prefix0) with
      | None => [EFuel]
      | Some vsy => flat_map (wfield f c values (wsc c sc0) (wprefix c prefix0) vsy syms l) (c_fields c)
      end
    end.
  Proof. reflexivity. Qed.

  (* walk guarded by "the value is an object" (how vsingle reaches a model class) *)
  Definition wobj (f : nat) (cn : string) (v : json) (sc : scope) (prefix : str) (syms : symtabs) (l : loc)
    : list werr :=
    match v with JObj _ => walk SC refs f cn v sc prefix syms l | _ => [] end.

  Definition wdisc (f : nat) (key : string) (mapping : list (string * string)) (v : json) (sc : scope)
             (prefix : str) (syms : symtabs) (l : loc) : list werr :=
    match v with
    | JObj _ => match resolve_disc key mapping v with
                | Some cn => walk SC refs f cn v sc prefix syms l
                | None => []
                end
    | _ => []
    end.

  Lemma vsingle_model : forall f cn v sc p syms l,
    vsingle SC refs (S f) (KModel cn) v sc p syms l = wobj f cn v sc p syms l.
  Proof. reflexivity. Qed.

  Lemma vsingle_disc : forall f key mapping v sc p syms l,
    vsingle SC refs (S f) (KDisc key mapping) v sc p syms l = wdisc f key mapping v sc p syms l.
  Proof. reflexivity. Qed.

  Lemma vsingle_format : forall f a b c d v sc p syms l,
    vsingle SC refs (S f) (KFormat a b c d) v sc p syms l =
    match v with JStr s => check_fs refs s sc syms l | _ => [] end.
  Proof. reflexivity. Qed.

  Lemma vsingle_union : forall f alts v sc p syms l,
    vsingle SC refs (S f) (KUnion alts) v sc p syms l =
    flat_map (fun a =>
                match a with
                | UScalar k' => vsingle SC refs f k' v sc p syms l
                | UList _ _ k' =>
                  match v with
                  | JArr items => flat_map (fun item => vsingle SC refs f k' item sc p syms l) items
                  | _ => []
                  end
                end) alts.
  Proof. reflexivity. Qed.

  Definition kind_inert (k : kind) : bool :=
    match k with KFormat _ _ _ _ | KModel _ | KDisc _ _ | KUnion _ => false | _ => true end.

  Lemma vsingle_inert : forall f k v sc p syms l,
    kind_inert k = true -> vsingle SC refs (S f) k v sc p syms l = [].
  Proof. intros f k v sc p syms l H. destruct k; cbn in H; try discriminate; reflexivity. Qed.

  Lemma check_fs_chk : forall vis s sc syms l,
    (forall n, mem_of syms sc n = vis n) ->
    check_fs refs s sc syms l = chk refs vis l (JStr s).
  Proof.
    intros vis s sc syms l H. unfold check_fs, chk. destruct (refs s) as [names|]; [|reflexivity].
    apply flat_map_ext. intros n. unfold mem_of in H. rewrite H. reflexivity.
  Qed.

  Lemma vsingle_format_chk : forall vis f a b c d v sc p syms l,
    (forall n, mem_of syms sc n = vis n) ->
    vsingle SC refs (S f) (KFormat a b c d) v sc p syms l = chk refs vis l v.
  Proof.
    intros. rewrite vsingle_format. destruct v; try reflexivity. apply check_fs_chk. assumption.
  Qed.

  (* One field, by shape and kind.  The field is a [mkField] pattern so that [rewrite] finds the
     lemma that fits a concrete field by matching. *)
  Definition fsyms (c : cls) (vsy : list (string * symtabs)) (syms : symtabs) (name : string) : symtabs :=
    st_union (gather vsy (srcs_of c name)) syms.

  Lemma fsyms_mem : forall c vsy syms name sc n,
    mem_of (fsyms c vsy syms name) sc n
    = existsb (fun s => tmem (lookup_s s vsy) sc n) (srcs_of c name) || mem_of syms sc n.
  Proof. intros. unfold fsyms. rewrite mem_of_union, gather_mem. reflexivity. Qed.

  (* a field without sources sees the inherited symbols *)
  Lemma fsyms_vis : forall c vsy syms name sc vis,
    srcs_of c name = [] -> (forall n, mem_of syms sc n = vis n) ->
    forall n, mem_of (fsyms c vsy syms name) sc n = vis n.
  Proof. intros c vsy syms name sc vis Hs Hv n. rewrite fsyms_mem, Hs. apply Hv. Qed.

  Lemma wfield_literal : forall f c values sc p vsy syms l fl,
    kind_is_literal (f_kind fl) = true -> wfield f c values sc p vsy syms l fl = [].
  Proof.
    intros. unfold wfield. cbv zeta. destruct (is_null (jget (f_name fl) values)); [reflexivity|].
    rewrite H. reflexivity.
  Qed.

  Lemma wfield_single : forall f c values sc p vsy syms l n a r k,
    wfield f c values sc p vsy syms l (mkField n a r Single k)
    = if is_null (jget n values) || kind_is_literal k then []
      else vsingle SC refs f k (jget n values) sc p (fsyms c vsy syms n) (l ++ [key n]).
  Proof.
    intros. unfold wfield. cbn [f_name f_kind f_shape]. cbv zeta.
    destruct (is_null (jget n values)), (kind_is_literal k); reflexivity.
  Qed.

  Lemma wfield_list : forall f c values sc p vsy syms l n a r mn mx k,
    kind_is_literal k = false ->
    wfield f c values sc p vsy syms l (mkField n a r (ListOf mn mx) k)
    = match jget n values with
      | JArr items =>
        List.concat (map (fun iv => vsingle SC refs f k (snd iv) sc p (fsyms c vsy syms n)
                                       ((l ++ [key n]) ++ [LIdx (fst iv)])) (indexed items))
      | _ => []
      end.
  Proof.
    intros. unfold wfield. cbn [f_name f_kind f_shape]. cbv zeta. rewrite H.
    destruct (jget n values); try reflexivity.
    cbn [is_null]. unfold indexed. f_equal. apply map_ext. intros iv. rewrite <- app_assoc. reflexivity.
  Qed.

  Lemma wfield_dict : forall f c values sc p vsy syms l n a r kk k,
    kind_is_literal k = false ->
    wfield f c values sc p vsy syms l (mkField n a r (DictOf kk) k)
    = match jget n values with
      | JObj members =>
        List.concat (map (fun kv => vsingle SC refs f k (snd kv) sc p (fsyms c vsy syms n)
                                       (l ++ [key n; LKey (fst kv)])) members)
      | _ => []
      end.
  Proof.
    intros. unfold wfield. cbn [f_name f_kind f_shape]. cbv zeta. rewrite H.
    destruct (jget n values); reflexivity.
  Qed.

  Lemma wfield_inert : forall f c values sc p vsy syms l fl,
    kind_inert (f_kind fl) = true -> wfield (S f) c values sc p vsy syms l fl = [].
  Proof.
    intros f c values sc p vsy syms l [n a r sh k] H. cbn [f_kind] in H.
    destruct (kind_is_literal k) eqn:El; [apply wfield_literal; exact El|]. destruct sh.
    - rewrite wfield_single. destruct (_ || _); [reflexivity|]. apply vsingle_inert. exact H.
    - rewrite wfield_list by exact El. destruct (jget n values); try reflexivity.
      erewrite map_ext; [apply concat_map_nil|]. intros. apply vsingle_inert. exact H.
    - rewrite wfield_dict by exact El. destruct (jget n values); try reflexivity.
      erewrite map_ext; [apply concat_map_nil|]. intros. apply vsingle_inert. exact H.
  Qed.

  Lemma wfield_fmt_single : forall vis f c values sc p vsy syms l n a r x1 x2 x3 x4,
    (forall m, mem_of (fsyms c vsy syms n) sc m = vis m) ->
    wfield (S f) c values sc p vsy syms l (mkField n a r Single (KFormat x1 x2 x3 x4))
    = chk refs vis (l ++ [key n]) (jget n values).
  Proof.
    intros. rewrite wfield_single, orb_false_r.
    destruct (is_null (jget n values)) eqn:En; [destruct (jget n values); try discriminate; reflexivity|].
    apply vsingle_format_chk. assumption.
  Qed.

  Lemma wfield_fmt_list : forall vis f c values sc p vsy syms l n a r mn mx x1 x2 x3 x4,
    (forall m, mem_of (fsyms c vsy syms n) sc m = vis m) ->
    wfield (S f) c values sc p vsy syms l (mkField n a r (ListOf mn mx) (KFormat x1 x2 x3 x4))
    = chk_list refs vis (l ++ [key n]) (jget n values).
  Proof.
    intros. rewrite wfield_list by reflexivity. unfold chk_list. destruct (jget n values); try reflexivity.
    f_equal. apply map_ext. intros iv. apply vsingle_format_chk. assumption.
  Qed.

  Lemma wfield_fmt_dict : forall vis f c values sc p vsy syms l n a r kk x1 x2 x3 x4,
    (forall m, mem_of (fsyms c vsy syms n) sc m = vis m) ->
    wfield (S f) c values sc p vsy syms l (mkField n a r (DictOf kk) (KFormat x1 x2 x3 x4))
    = match jget n values with
      | JObj members => List.concat (map (fun kv => chk refs vis (l ++ [key n; LKey (fst kv)]) (snd kv)) members)
      | _ => []
      end.
  Proof.
    intros. rewrite wfield_dict by reflexivity. destruct (jget n values); try reflexivity.
    f_equal. apply map_ext. intros kv. apply vsingle_format_chk. assumption.
  Qed.

  Lemma wfield_model_single : forall f c values sc p vsy syms l n a r cn,
    wfield (S f) c values sc p vsy syms l (mkField n a r Single (KModel cn))
    = wobj f cn (jget n values) sc p (fsyms c vsy syms n) (l ++ [key n]).
  Proof. intros. rewrite wfield_single, orb_false_r. destruct (jget n values); reflexivity. Qed.

  Lemma wfield_model_list : forall f c values sc p vsy syms l n a r mn mx cn,
    wfield (S f) c values sc p vsy syms l (mkField n a r (ListOf mn mx) (KModel cn))
    = match jget n values with
      | JArr items =>
        List.concat (map (fun iv => wobj f cn (snd iv) sc p (fsyms c vsy syms n) ((l ++ [key n]) ++ [LIdx (fst iv)]))
                         (indexed items))
      | _ => []
      end.
  Proof. intros. apply wfield_list. reflexivity. Qed.

  Lemma wfield_disc_single : forall f c values sc p vsy syms l n a r dk mapping,
    wfield (S f) c values sc p vsy syms l (mkField n a r Single (KDisc dk mapping))
    = wdisc f dk mapping (jget n values) sc p (fsyms c vsy syms n) (l ++ [key n]).
  Proof. intros. rewrite wfield_single, orb_false_r. destruct (jget n values); reflexivity. Qed.

  Lemma wfield_disc_list : forall f c values sc p vsy syms l n a r mn mx dk mapping,
    wfield (S f) c values sc p vsy syms l (mkField n a r (ListOf mn mx) (KDisc dk mapping))
    = match jget n values with
      | JArr items =>
        List.concat (map (fun iv => wdisc f dk mapping (snd iv) sc p (fsyms c vsy syms n)
                                     ((l ++ [key n]) ++ [LIdx (fst iv)])) (indexed items))
      | _ => []
      end.
  Proof. intros. apply wfield_list. reflexivity. Qed.

  Definition live (fl : field) : bool := negb (kind_is_literal (f_kind fl) || kind_inert (f_kind fl)).

  Lemma flat_map_live : forall f c values sc p vsy syms l flds,
    flat_map (wfield (S f) c values sc p vsy syms l) flds
    = flat_map (wfield (S f) c values sc p vsy syms l) (filter live flds).
  Proof.
    induction flds as [|fl flds IH]; cbn [flat_map filter]; [reflexivity|]. rewrite IH.
    destruct (live fl) eqn:E; [reflexivity|]. apply negb_false_iff, orb_true_iff in E.
    destruct E as [E|E]; [rewrite wfield_literal by exact E|rewrite wfield_inert by exact E]; reflexivity.
  Qed.

  (* How every class lemma starts: with enough fuel, the walk of a value at class [c] is the walk of
     the live fields of [c] against the symbols that [collect] gathers, which are known explicitly. *)
  Lemma walk_fields : forall f cn c v sc0 p0 syms l,
    lookup_cls SC cn = Some c -> 2 * json_depth v + 2 <= f ->
    exists es,
      centries (f - 2) v (wsc c sc0) (wprefix c p0) (c_fields c) = Some es /\
      walk SC refs f cn v sc0 p0 syms l =
      flat_map (wfield (S (f - 2)) c v (wsc c sc0) (wprefix c p0)
                       (cresult c v (wsc c sc0) (wprefix c p0) es) syms l) (filter live (c_fields c)).
  Proof.
    intros f cn c v sc0 p0 syms l Hc Hf.
    destruct f as [|[|f]]; [lia|lia|]. cbn [Nat.sub]. rewrite Nat.sub_0_r.
    destruct (collect_some (S f) cn v (wsc c sc0) (wprefix c p0)) as [m Hm]; [lia|].
    destruct (collect_inv _ _ _ _ _ _ _ Hc Hm) as [es [Hes ->]].
    exists es. split; [exact Hes|]. rewrite walk_S, Hc, Hm. apply flat_map_live.
  Qed.

  Lemma wobj_fields : forall f cn c v sc0 p0 syms l,
    lookup_cls SC cn = Some c ->
    (is_obj v = true -> 2 * json_depth v + 2 <= f) ->
    exists es,
      (is_obj v = true -> centries (f - 2) v (wsc c sc0) (wprefix c p0) (c_fields c) = Some es) /\
      wobj f cn v sc0 p0 syms l =
      if is_obj v
      then flat_map (wfield (S (f - 2)) c v (wsc c sc0) (wprefix c p0)
                            (cresult c v (wsc c sc0) (wprefix c p0) es) syms l) (filter live (c_fields c))
      else [].
  Proof.
    intros f cn c v sc0 p0 syms l Hc Hf.
    destruct (is_obj v) eqn:Eo; [|exists []; split; [discriminate|destruct v; try discriminate; reflexivity]].
    destruct (walk_fields _ _ _ _ sc0 p0 syms l Hc (Hf eq_refl)) as (es & Hes & E).
    exists es. split; [intros _; exact Hes|]. destruct v; try discriminate. exact E.
  Qed.

  Fixpoint silent (n : nat) (cn : string) : bool :=
    match n with
    | O => false
    | S n' =>
      match lookup_cls SC cn with
      | None => true
      | Some c =>
        forallb (fun fl => kind_is_literal (f_kind fl) || kind_inert (f_kind fl) ||
                           match f_kind fl, f_shape fl with
                           | KModel cn', Single => silent n' cn'
                           | KModel cn', ListOf _ _ => silent n' cn'
                           | _, _ => false
                           end) (c_fields c)
      end
    end.

  Lemma walk_silent : forall n cn, silent n cn = true ->
    forall f v sc p syms l, (is_obj v = true -> 2 * json_depth v + 2 <= f) ->
    wobj f cn v sc p syms l = [].
  Proof.
    induction n as [|n IH]; intros cn Hs f v sc p syms l Hf; [discriminate|].
    cbn [silent] in Hs. destruct (lookup_cls SC cn) as [c|] eqn:Ec.
    2:{ destruct v; try reflexivity. specialize (Hf eq_refl). destruct f; [lia|].
        unfold wobj. rewrite walk_S, Ec. reflexivity. }
    destruct (wobj_fields _ _ _ _ sc p syms l Ec Hf) as (es & _ & ->).
    destruct (is_obj v) eqn:Eo; [specialize (Hf eq_refl)|reflexivity].
    rewrite <- (flat_map_nil (filter live (c_fields c))) at 1. apply flat_map_ext_in.
    intros [nm a r sh k] Hin. apply filter_In in Hin. destruct Hin as [Hin Hl].
    rewrite forallb_forall in Hs. specialize (Hs _ Hin). unfold live in Hl. cbn [f_kind f_shape] in Hs, Hl.
    apply negb_true_iff in Hl. rewrite Hl in Hs. cbn [orb] in Hs.
    destruct k; try discriminate. destruct sh; try discriminate.
    - rewrite wfield_model_single. apply IH; [exact Hs|].
      intros Ho. apply obj_not_null in Ho. apply jget_depth in Ho. lia.
    - rewrite wfield_model_list. destruct (jget nm v) eqn:Ev; try reflexivity.
      assert (Hd : S (json_depth (JArr l0)) <= json_depth v).
      { rewrite <- Ev. apply jget_depth. rewrite Ev. reflexivity. }
      erewrite concat_map_indexed_ext; [apply concat_map_nil|].
      intros i x Hx. cbn [fst snd]. apply IH; [exact Hs|].
      intros _. apply arr_depth in Hx. lia.
  Qed.

  Lemma resolve_disc_in : forall key mapping v cn,
    resolve_disc key mapping v = Some cn -> In cn (map snd mapping).
  Proof.
    intros key mapping v cn. unfold resolve_disc.
    destruct (jget key v); try discriminate. destruct s; try discriminate.
    induction mapping as [|[kv c] mapping IH]; [discriminate|].
    cbn [map snd]. destruct (str_eqb (str_of_string kv) (n :: s)).
    - intros H; inversion H; left; reflexivity.
    - intros H. right. apply IH. exact H.
  Qed.

  Lemma wdisc_wobj : forall f key mapping v sc p syms l cn,
    resolve_disc key mapping v = Some cn ->
    wdisc f key mapping v sc p syms l = wobj f cn v sc p syms l.
  Proof. intros. unfold wdisc, wobj. rewrite H. reflexivity. Qed.

  Lemma wdisc_silent : forall n f key mapping v sc p syms l,
    (forall cn, In cn (map snd mapping) -> silent n cn = true) ->
    (is_obj v = true -> 2 * json_depth v + 2 <= f) ->
    wdisc f key mapping v sc p syms l = [].
  Proof.
    intros n f key mapping v sc p syms l Hs Hf.
    destruct (resolve_disc key mapping v) as [cn|] eqn:E.
    - rewrite (wdisc_wobj _ _ _ _ _ _ _ _ _ E). apply (walk_silent n); [|exact Hf].
      apply Hs. eapply resolve_disc_in. exact E.
    - unfold wdisc. rewrite E. destruct v; reflexivity.
  Qed.


  Lemma fold_add_mem : forall {A} (sf : A -> scope) (nf : A -> str) defs acc0 sc' n,
    mem_of (fold_left (fun acc pr => add_symbol acc (sf pr) (nf pr)) defs acc0) sc' n
    = mem_of acc0 sc' n || existsb (fun pr => scope_le (sf pr) sc' && str_eqb n (nf pr)) defs.
  Proof.
    intros A sf nf. induction defs as [|d defs IH]; intros acc0 sc' n; cbn [fold_left existsb].
    - rewrite orb_false_r. reflexivity.
    - rewrite IH, mem_of_add.
      destruct (scope_le (sf d) sc' && str_eqb n (nf d)), (mem_of acc0 sc' n); reflexivity.
  Qed.

  (* [n] is one of the symbols that class [c] defines for the name declared by [x], visible at [sc'] *)
  Definition defines_mem (c : cls) (p : str) (sc' : scope) (n : str) (x : json) : bool :=
    match decl_name x with
    | Some nm => existsb (fun pr => scope_le (snd pr) sc' && str_eqb n (sym_name p (fst pr) nm)) (d_defines (c_defs c))
    | None => false
    end.

  Lemma cself_named : forall c x sc p sc' n,
    d_inject (c_defs c) = [] -> d_field (c_defs c) = "name" -> is_obj x = true ->
    mem_of (cself c x sc p) sc' n = defines_mem c p sc' n x.
  Proof.
    intros c x sc p sc' n Hi Hf Ho. unfold cself. cbv zeta. rewrite Hi, Hf. cbn [fold_left].
    change (String.eqb "name" "") with false. cbv iota.
    destruct x; try discriminate. unfold defines_mem, decl_name.
    destruct (jget "name" (JObj members)); try apply mem_of_empty.
    destruct s; [apply mem_of_empty|].
    rewrite (fold_add_mem (fun pr => snd pr) (fun pr => sym_name p (fst pr) (n0 :: s))), mem_of_empty.
    reflexivity.
  Qed.

  Definition ktargets (k : kind) : list string :=
    match k with KModel cn => [cn] | KDisc _ mapping => map snd mapping | _ => [] end.

  Lemma ctarget_in : forall k v cn, ctarget k v = Some cn -> In cn (ktargets k).
  Proof.
    intros k v cn H. destruct k; cbn in *; try discriminate.
    - inversion H. left. reflexivity.
    - eapply resolve_disc_in. exact H.
  Qed.

  (* every class this kind can reach either exports nothing or exports exactly its own symbol *)
  Definition self_exporting (k : kind) : bool :=
    forallb (fun cn =>
               match lookup_cls SC cn with
               | None => true
               | Some c' =>
                 match lookup_s "__export__" (c_sources c') with
                 | None => true
                 | Some srcs =>
                   match srcs with [s] => String.eqb s "__self__" | _ => false end
                   && forallb (fun fl => negb (String.eqb (f_name fl) "__export__")) (c_fields c')
                 end
               end) (ktargets k).

  Definition cexport_self (k : kind) (x : json) (sc : scope) (p : str) : symtabs :=
    match x with
    | JObj _ =>
      match ctarget k x with
      | None => st_empty
      | Some cn =>
        match lookup_cls SC cn with
        | None => st_empty
        | Some c' =>
          match lookup_s "__export__" (c_sources c') with
          | None => st_empty
          | Some _ => st_union st_empty (cself c' x sc p)
          end
        end
      end
    | _ => st_empty
    end.

  Lemma lk_entries_none : forall f values sc p k flds,
    forallb (fun fl => negb (String.eqb (f_name fl) k)) flds = true ->
    lk_entries f values sc p k flds = None.
  Proof.
    induction flds as [|fl flds IH]; intros H; cbn [lk_entries]; [reflexivity|].
    cbn [forallb] in H. apply andb_true_iff in H. destruct H as [H1 H2].
    apply negb_true_iff in H1. rewrite H1. apply IH. exact H2.
  Qed.

  Lemma csingle_self : forall f sc p k x,
    self_exporting k = true -> json_depth x <= f ->
    csingle f sc p k x = Some (cexport_self k x sc p).
  Proof.
    intros f sc p k x Hse Hd. unfold csingle, cexport_self. destruct x; try reflexivity.
    destruct (ctarget k (JObj members)) as [cn|] eqn:Et; [|reflexivity].
    apply ctarget_in in Et. unfold self_exporting in Hse. rewrite forallb_forall in Hse.
    specialize (Hse cn Et).
    destruct (lookup_cls SC cn) as [c'|] eqn:Ec; [|reflexivity].
    destruct (lookup_s "__export__" (c_sources c')) as [srcs|] eqn:Es; [|reflexivity].
    apply andb_true_iff in Hse. destruct Hse as [Hs1 Hs2].
    destruct srcs as [|s0 [|? ?]]; try discriminate. apply String.eqb_eq in Hs1. subst s0.
    destruct f as [|f]; [pose proof (json_depth_pos (JObj members)); lia|].
    destruct (collect_some (S f) cn (JObj members) sc p Hd) as [m Hm]. rewrite Hm.
    destruct (collect_inv _ _ _ _ _ _ _ Ec Hm) as [es [Hes Hmm]]. subst m.
    rewrite lookup_cresult_export
      by (rewrite (lookup_centries _ _ _ _ _ _ _ Hes); apply lk_entries_none; exact Hs2).
    unfold srcs_of. rewrite Es. reflexivity.
  Qed.

  (* a list-valued field whose items export only their own symbol *)
  Lemma centry_list_self : forall f v sc p fl mn mx,
    f_shape fl = ListOf mn mx -> kind_is_literal (f_kind fl) = false ->
    self_exporting (f_kind fl) = true -> json_depth v <= S f ->
    exists e, centry f v sc p fl = Some e /\
      forall sc' n, match e with (_, t) :: _ => mem_of t sc' n | [] => false end
                    = existsb (fun x => mem_of (cexport_self (f_kind fl) x sc p) sc' n)
                              (obj_list (jget (f_name fl) v)).
  Proof.
    intros f v sc p fl mn mx Hs Hl Hse Hd. unfold centry. cbv zeta. rewrite Hs, Hl.
    destruct (is_null (jget (f_name fl) v)) eqn:En.
    - exists []. split; [reflexivity|]. intros. destruct (jget (f_name fl) v); try discriminate. reflexivity.
    - apply jget_depth in En.
      destruct (jget (f_name fl) v) eqn:Ev; try (exists []; split; [reflexivity|]; intros; reflexivity).
      destruct (clist_mem f sc p (f_kind fl) l (fun x => cexport_self (f_kind fl) x sc p)) as [T [HT HM]].
      + intros x Hx. apply csingle_self; [exact Hse|]. apply arr_depth in Hx. lia.
      + rewrite HT. eexists. split; [reflexivity|]. intros. cbn [obj_list]. apply HM.
  Qed.


  Lemma lookup_list_self : forall f c v sc p es k a r mn mx kd sc' n,
    centries f v sc p (c_fields c) = Some es ->
    filter (fun fl => String.eqb (f_name fl) k) (c_fields c) = [mkField k a r (ListOf mn mx) kd] ->
    kind_is_literal kd = false -> self_exporting kd = true -> json_depth v <= S f ->
    tmem (lookup_s k es) sc' n
    = existsb (fun x => mem_of (cexport_self kd x sc p) sc' n) (obj_list (jget k v)).
  Proof.
    intros f c v sc p es k a r mn mx kd sc' n Hes Hk Hl Hse Hd.
    rewrite (lookup_centries _ _ _ _ k _ _ Hes), lk_entries_filter, Hk. cbn [lk_entries f_name].
    rewrite String.eqb_refl.
    destruct (centry_list_self f v sc p (mkField k a r (ListOf mn mx) kd) mn mx eq_refl Hl Hse Hd) as [e [-> HM]].
    rewrite <- HM. destruct e as [|[? t] ?]; reflexivity.
  Qed.

  (* a definition object whose class exports its own name *)
  Definition named_export (c : cls) : bool :=
    match lookup_s "__export__" (c_sources c), d_inject (c_defs c) with Some _, [] => true | _, _ => false end
    && String.eqb (d_field (c_defs c)) "name".

  Lemma cexport_mem : forall k cn c' x sc p sc' n,
    ctarget k x = Some cn -> lookup_cls SC cn = Some c' -> named_export c' = true ->
    mem_of (cexport_self k x sc p) sc' n = defines_mem c' p sc' n x.
  Proof.
    intros k cn c' x sc p sc' n Ht Hc Hn. unfold named_export in Hn. apply andb_true_iff in Hn.
    destruct Hn as [Hn Hf]. apply String.eqb_eq in Hf.
    destruct (lookup_s "__export__" (c_sources c')) eqn:Hs; [|discriminate].
    destruct (d_inject (c_defs c')) eqn:Hi; [|discriminate].
    unfold cexport_self. destruct x; try (rewrite mem_of_empty; reflexivity). rewrite Ht, Hc, Hs.
    rewrite mem_of_union, mem_of_empty. apply cself_named; auto.
  Qed.

  (* the four-way "type" union of definition objects: which class exports, by type *)
  Lemma cexport_disc4 : forall mapping cI cF cS cP c1 c2 c3 c4 x sc p sc' n,
    mapping = [("INT", cI); ("FLOAT", cF); ("STRING", cS); ("PATH", cP)] ->
    lookup_cls SC cI = Some c1 -> lookup_cls SC cF = Some c2 ->
    lookup_cls SC cS = Some c3 -> lookup_cls SC cP = Some c4 ->
    forallb named_export [c1; c2; c3; c4] = true ->
    let m := mem_of (cexport_self (KDisc "type" mapping) x sc p) sc' n in
    (type_tests x = (true, false, false, false) /\ m = defines_mem c1 p sc' n x) \/
    (type_tests x = (false, true, false, false) /\ m = defines_mem c2 p sc' n x) \/
    (type_tests x = (false, false, true, false) /\ m = defines_mem c3 p sc' n x) \/
    (type_tests x = (false, false, false, true) /\ m = defines_mem c4 p sc' n x) \/
    (type_tests x = (false, false, false, false) /\ m = false).
  Proof.
    intros mapping cI cF cS cP c1 c2 c3 c4 x sc p sc' n Hm H1 H2 H3 H4 Hn m. subst m.
    cbn [forallb] in Hn. rewrite !andb_true_iff in Hn. destruct Hn as (N1 & N2 & N3 & N4 & _).
    destruct (disc4_cases mapping _ _ _ _ x Hm) as [H|[H|[H|[H|H]]]]; destruct H as (E & Hr).
    - left. rewrite (cexport_mem (KDisc _ _) _ _ _ _ _ _ _ Hr H1 N1). auto.
    - right; left. rewrite (cexport_mem (KDisc _ _) _ _ _ _ _ _ _ Hr H2 N2). auto.
    - do 2 right; left. rewrite (cexport_mem (KDisc _ _) _ _ _ _ _ _ _ Hr H3 N3). auto.
    - do 3 right; left. rewrite (cexport_mem (KDisc _ _) _ _ _ _ _ _ _ Hr H4 N4). auto.
    - do 4 right. split; [exact E|]. unfold cexport_self. cbn [ctarget]. rewrite Hr. destruct x; apply mem_of_empty.
  Qed.

End Lib.
