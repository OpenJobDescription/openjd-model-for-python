(* ConformProofs.v — C09 as ONE theorem about [CreateJobFull.create_job_full]:

     full_job_params  : every (name, type, value) of Job.parameters of a returned Job has
                        Glue.conforms_job type value = true;
     full_task_params : every value of every task parameter of every step of a returned Job has
                        Glue.conforms_task type value = true;
     full_job_wf      : the readers of Conform.v see every value (Conform.job_wf).

   Composition:
     decode_job = Ok t        -> t is a well-typed JobTemplate instance           (ConformTyped.decode_job_typed)
     inst ... t = Ok j0       -> j0 has the Job shape, each task parameter definition of the class that goes
                                 with its "type", each job parameter tied to a template definition of the
                                 same name and type and to RawParam.<name>           (ConformInst.inst_job)
     coerce_job               -> every range item is a str                          (ConformInst.coerce_job_shape)
     nodes_ok = Ok true       -> every node passed its own class                    (ConformNodes.nodes_ok_all),
                                 i.e. the validators of props/C09.v hold of the items (range_list_accepted /
                                 range_expr_accepted + GlueProofs.post_int_range_list, post_float_range_list,
                                 range_values_conform)
     prep_full = Ok pvals     -> RawParam.<name> conforms to the template's type    (ConformPrep) *)
From Coq Require Import List NArith ZArith Bool String Lia.
Import ListNotations.
Require Import OJD.Base OJD.Json OJD.Schema OJD.CreateJob OJD.Validators OJD.Accept OJD.Export OJD.RangeExpr
               OJD.Glue OJD.GlueProofs OJD.WellKeyed OJD.CreateJobFull OJD.ConformTyped OJD.ConformPrep
               OJD.ConformInst OJD.ConformNodes OJD.Conform.
Local Open Scope string_scope.
Local Open Scope list_scope.

Lemma create_job_full_ok : forall classify envs t vals job, create_job_full classify envs t vals = Ok job ->
  exists pvals j0, prep_full envs t vals = Ok pvals /\
                   inst G (fs_resolve classify) (symtab_of pvals) (S (mval_depth t)) t = Ok j0 /\
                   job = coerce j0 /\ nodes_ok classify (S (S (S (mval_depth t)))) job = Ok true.
Proof.
  intros classify envs t vals job H. unfold create_job_full in H.
  destruct (prep_full envs t vals) as [pvals|e0]; cbn [bind] in H; [|discriminate H].
  destruct (inst G (fs_resolve classify) (symtab_of pvals) (S (mval_depth t)) t) as [j0|e1] eqn:Ei;
    [|destruct e1; discriminate H].
  rewrite (coerce_job_coerce j0 (S (mval_depth t))) in H
    by (pose proof (CreateJobExactLib.inst_depth _ _ _ _ _ _ Ei); lia).
  destruct (nodes_ok classify (S (S (S (mval_depth t)))) (coerce j0)) as [[|]|e2] eqn:En; try discriminate H.
  injection H as <-. exists pvals, j0. repeat split; assumption.
Qed.

Theorem full_job_shape : forall classify j t envs vals job,
  decode_job classify j = Ok t -> create_job_full classify envs t vals = Ok job ->
  exists pvals,
    prep_full envs t vals = Ok pvals /\
    job_of jdef (jpar t (symtab_of pvals)) job /\
    nodes_ok classify (S (S (S (mval_depth t)))) job = Ok true.
Proof.
  intros classify j t envs vals job Hd H.
  destruct (create_job_full_ok classify envs t vals job H) as [pvals [j0 [Ep [Ei [-> En]]]]].
  exists pvals. split; [exact Ep|]. split; [|exact En].
  apply coerce_job_shape. exact (inst_job _ _ _ t j0 (decode_job_typed classify j t Hd) Ei).
Qed.

Theorem full_job_params : forall classify j t envs vals job,
  decode_job classify j = Ok t -> create_job_full classify envs t vals = Ok job ->
  forall name ty v, In (name, ty, v) (job_parameters_of job) -> conforms_job ty v = true.
Proof.
  intros classify j t envs vals job Hd H name ty v Hin.
  destruct (full_job_shape classify j t envs vals job Hd H) as [pvals [Ep [Hj _]]].
  destruct Hj as [n [steps [d [p [e [-> [_ Hp]]]]]]].
  unfold job_parameters_of in Hin.
  cbn [model_fields mfield lookup_s String.eqb Ascii.eqb Bool.eqb] in Hin.
  destruct Hp as [->|[pd [-> Hpd]]]; [destruct Hin|]. cbn [dict_entries] in Hin.
  apply in_map_iff in Hin. destruct Hin as [kv [E Hkv]].
  rewrite Forall_forall in Hpd. destruct (Hpd kv Hkv) as [T [dsc [v' [Ey [_ [Hv [c [fs [l [ic [ifs [-> [Hf [Hi [Hn Ht]]]]]]]]]]]]]]].
  rewrite Ey in E. cbn [model_fields mfield lookup_s String.eqb Ascii.eqb Bool.eqb mstr] in E.
  injection E as <- <- <-.
  eapply prep_full_conforms_fields; eassumption.
Qed.

Lemma in_map_mstr : forall v ss, In v (map mstr (map MStr ss)) -> In v ss.
Proof. intros v ss H. rewrite map_map in H. cbn [mstr] in H. rewrite map_id in H. exact H. Qed.

Lemma conforms_task_len : forall ty v, ty = $"STRING" \/ ty = $"PATH" ->
  (N.of_nat (List.length v) <= 1024)%N -> conforms_task ty v = true.
Proof.
  intros ty v Hty Hl. unfold conforms_task. apply N.leb_le in Hl.
  destruct Hty as [-> | ->].
  - change (str_eqb $"STRING" $"INT") with false. change (str_eqb $"STRING" $"FLOAT") with false. cbv iota. exact Hl.
  - change (str_eqb $"PATH" $"INT") with false. change (str_eqb $"PATH" $"FLOAT") with false. cbv iota. exact Hl.
Qed.

(* one definition of the Job that passed its own class: every value it enumerates conforms to its type *)
Lemma def_conforms : forall classify c fs y,
  jdef (MModel c fs) -> parse_any classify c (export (MModel c fs)) = Ok y ->
  forall v, In v (def_values classify (MModel c fs)) -> conforms_task (mstr (mfield "type" fs)) v = true.
Proof.
  intros classify c fs y Hj Hp v Hv. unfold def_values in Hv. cbn [model_fields] in Hv.
  inversion Hj as [ss Ec|r Ec|ss Ec|ty ss Hty Ec]; subst c fs;
    cbn [mfield lookup_s String.eqb Ascii.eqb Bool.eqb mstr] in *.
  - apply in_map_mstr in Hv.
    destruct (range_list_accepted classify _ _ _ _ (or_introl eq_refl) Hp) as [_ [raw [x1 Hpost]]].
    apply (post_int_range_list classify raw _ Hpost (MStr v)).
    unfold fget. cbn [mfield lookup_s String.eqb Ascii.eqb Bool.eqb mitems]. apply in_map. exact Hv.
  - apply range_expr_accepted in Hp. unfold range_expr_ok in Hp.
    destruct (from_str false false classify r) as [e|err]; [|discriminate Hp].
    exact (proj2 (range_values_conform e v Hv)).
  - apply in_map_mstr in Hv.
    destruct (range_list_accepted classify _ _ _ _ (or_intror (or_introl eq_refl)) Hp) as [_ [raw [x1 Hpost]]].
    apply (post_float_range_list classify raw _ Hpost (MStr v)).
    unfold fget. cbn [mfield lookup_s String.eqb Ascii.eqb Bool.eqb mitems]. apply in_map. exact Hv.
  - apply in_map_mstr in Hv.
    destruct (range_list_accepted classify _ _ _ _ (or_intror (or_intror (or_introl eq_refl))) Hp) as [Hlen _].
    rewrite Forall_forall in Hlen. apply conforms_task_len; [exact Hty|apply Hlen; exact Hv].
Qed.

Lemma job_def_node : forall n steps d pp e sn sd sc se hr dp dd cb (kv : str * mval) c fs,
  In (MModel "Step" [("name", MStr sn); ("description", sd); ("script", sc); ("stepEnvironments", se);
                     ("parameterSpace", MModel "StepParameterSpace" [("taskParameterDefinitions", MDict dd); ("combination", cb)]);
                     ("hostRequirements", hr); ("dependencies", dp)]) steps ->
  In kv dd -> snd kv = MModel c fs ->
  In (c, fs) (nodes (MModel "Job" [("name", MStr n); ("steps", MList steps); ("description", d);
                                   ("parameters", pp); ("jobEnvironments", e)])).
Proof.
  intros n steps d pp e sn sd sc se hr dp dd cb kv c fs Hst Hkv Ekv.
  eapply (nodes_field _ _ "steps"); [right; left; reflexivity|]. eapply nodes_item; [exact Hst|].
  eapply (nodes_field _ _ "parameterSpace"); [do 4 right; left; reflexivity|].
  eapply (nodes_field _ _ "taskParameterDefinitions"); [left; reflexivity|].
  eapply nodes_member; [exact Hkv|]. rewrite Ekv. apply nodes_self.
Qed.

Theorem full_task_params : forall classify j t envs vals job,
  decode_job classify j = Ok t -> create_job_full classify envs t vals = Ok job ->
  forall step p ty v, In (step, p, ty, v) (task_values_of classify job) -> conforms_task ty v = true.
Proof.
  intros classify j t envs vals job Hd H step p ty v Hin.
  destruct (full_job_shape classify j t envs vals job Hd H) as [pvals [_ [Hj Hn]]].
  destruct Hj as [n [steps [d [pp [e [-> [Hs _]]]]]]].
  unfold task_values_of in Hin. cbn [model_fields mfield lookup_s String.eqb Ascii.eqb Bool.eqb mitems] in Hin.
  apply in_flat_map in Hin. destruct Hin as [st [Hst Hin]].
  rewrite Forall_forall in Hs. destruct (Hs st Hst) as [sn [sd [sc [se [ps [hr [dp [Est Hps]]]]]]]].
  unfold step_task_values in Hin. rewrite Est in Hin.
  cbn [model_fields mfield lookup_s String.eqb Ascii.eqb Bool.eqb mstr] in Hin.
  destruct Hps as [->|[dd [cb [Eps Hdd]]]]; [destruct Hin|].
  rewrite Eps in Hin. cbn [model_fields mfield lookup_s String.eqb Ascii.eqb Bool.eqb dict_entries] in Hin.
  apply in_flat_map in Hin. destruct Hin as [kv [Hkv Hin]].
  apply in_map_iff in Hin. destruct Hin as [v' [E Hv]]. injection E as _ _ <- <-.
  rewrite Forall_forall in Hdd. pose proof (Hdd kv Hkv) as Hjd.
  assert (Hm : exists c fs, snd kv = MModel c fs) by (inversion Hjd; eexists; eexists; reflexivity).
  destruct Hm as [c [fs Ekv]]. rewrite Ekv in *. cbn [model_fields].
  subst st ps. destruct (nodes_ok_all classify _ _ Hn c fs (job_def_node _ _ _ _ _ _ _ _ _ _ _ _ _ _ _ _ Hst Hkv Ekv)) as [y Hy].
  eapply def_conforms; eassumption.
Qed.

Lemma forallb_is_mstr : forall ss, forallb is_mstr (map MStr ss) = true.
Proof. induction ss as [|s r IH]; [reflexivity|]. cbn [map forallb is_mstr andb]. exact IH. Qed.

Lemma def_wf_ok : forall classify c fs y,
  jdef (MModel c fs) -> parse_any classify c (export (MModel c fs)) = Ok y -> def_wf classify (MModel c fs) = true.
Proof.
  intros classify c fs y Hj Hp.
  inversion Hj as [ss Ec|r Ec|ss Ec|ty ss Hty Ec]; subst c fs;
    cbn [def_wf mfield lookup_s String.eqb Ascii.eqb Bool.eqb is_mstr andb range_list_class orb];
    try (apply forallb_is_mstr).
  apply range_expr_accepted in Hp. exact Hp.
Qed.

Theorem full_job_wf : forall classify j t envs vals job,
  decode_job classify j = Ok t -> create_job_full classify envs t vals = Ok job -> job_wf classify job = true.
Proof.
  intros classify j t envs vals job Hd H.
  destruct (full_job_shape classify j t envs vals job Hd H) as [pvals [_ [Hj Hn]]].
  destruct Hj as [n [steps [d [pp [e [-> [Hs Hp]]]]]]].
  cbn [job_wf mfield lookup_s String.eqb Ascii.eqb Bool.eqb andb].
  apply andb_true_iff. split.
  - apply forallb_forall. intros st Hst. rewrite Forall_forall in Hs.
    destruct (Hs st Hst) as [sn [sd [sc [se [ps [hr [dp [Est Hps]]]]]]]]. rewrite Est.
    cbn [step_wf mfield lookup_s String.eqb Ascii.eqb Bool.eqb andb is_mstr].
    destruct Hps as [->|[dd [cb [Eps Hdd]]]]; [reflexivity|]. rewrite Eps.
    cbn [space_wf mfield lookup_s String.eqb Ascii.eqb Bool.eqb andb].
    apply forallb_forall. intros kv Hkv. rewrite Forall_forall in Hdd. pose proof (Hdd kv Hkv) as Hjd.
    assert (Hm : exists c fs, snd kv = MModel c fs) by (inversion Hjd; eexists; eexists; reflexivity).
    destruct Hm as [c [fs Ekv]]. rewrite Ekv in *.
    subst st ps. destruct (nodes_ok_all classify _ _ Hn c fs (job_def_node _ _ _ _ _ _ _ _ _ _ _ _ _ _ _ _ Hst Hkv Ekv)) as [y Hy].
    eapply def_wf_ok; eassumption.
  - destruct Hp as [->|[pd [-> Hpd]]]; [reflexivity|].
    apply forallb_forall. intros kv Hkv. rewrite Forall_forall in Hpd.
    destruct (Hpd kv Hkv) as [T [dsc [v' [Ey _]]]]. rewrite Ey. reflexivity.
Qed.
