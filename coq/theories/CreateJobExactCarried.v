(* CreateJobExactCarried.v — C05_exact, the "carried over unchanged" half at document level.

   For the classes below scripts, environments and dependencies ([carried_classes] of CreateJobProofs.v)
   the export of the decoded instance is the DOCUMENT it was decoded from, up to [json_equiv]
   (member order, explicit nulls), provided
     * the objects of the document have pairwise distinct keys ([keys_distinct]; true of every value a
       JSON / YAML parser returns: a Python dict cannot hold a key twice), and
     * the two lax integer fields of these classes, "timeout" and "notifyPeriodInSeconds", are given
       as integers ([lax_ints_native]; pydantic coerces "5", true, 5.0 to an int there, so the Job
       would hold 5 where the document has "5").
   The condition on the schema is a boolean check on Generated.schema.
   The file opens with the inversions of the structural parser that the other CreateJobExact files share
   ([pc_inv], [pk_model_inv], [pk_disc_inv], [fields_values], exact scalars, [fld] / [cls_fields]). *)
From Coq Require Import List NArith ZArith Bool String Lia.
Import ListNotations.
Require Import OJD.Base OJD.ListLib OJD.Lexer OJD.Json OJD.Schema OJD.Generated OJD.Charsets OJD.Numerals OJD.NumPrint
               OJD.FormatStr OJD.CreateJob OJD.CreateJobProofs OJD.Parse OJD.Validators OJD.Accept
               OJD.ExportProofs OJD.AcceptMono OJD.DecodeInv OJD.JsonEquiv OJD.CreateJobExactLib.
Local Open Scope string_scope.
Local Open Scope list_scope.

Definition lax_int_keys : list string := ["timeout"; "notifyPeriodInSeconds"].

Definition is_lax_key (k : str) : bool := existsb (fun a => str_eqb k (str_of_string a)) lax_int_keys.

Fixpoint lax_ints_native (j : json) : bool :=
  match j with
  | JArr l => forallb lax_ints_native l
  | JObj ms =>
    forallb (fun kv => if is_lax_key (fst kv)
                       then match snd kv with JInt _ | JNull => true | _ => false end
                       else if str_eqb (fst kv) $"variables" then true
                       else lax_ints_native (snd kv)) ms
  | _ => true
  end.

Notation keys_distinct := distinct_keys (only parsing).

Lemma nodupb_NoDup : forall l, nodupb l = true -> NoDup l.
Proof. exact str_nodupb_NoDup. Qed.

Section Inv.
  Variable SC : schema_t.
  Variable classify : N -> cclass.
  Variable pre : string -> json -> bool.
  Variable post : string -> json -> list (string * mval) -> bool.
  Notation pk := (parse_kind SC classify pre post).
  Notation pc := (parse_cls SC classify pre post).

  Lemma pc_inv : forall f c v x, pc f c v = Ok x ->
    exists f' c0 ms fields,
      f = S f' /\ lookup_cls SC c = Some c0 /\ v = JObj ms /\ x = MModel c fields /\
      pre c v = true /\ extra_bad c0 ms = false /\
      mapM (parse_field (pk f') ms) (c_fields c0) = Ok fields /\ post c v fields = true.
  Proof.
    intros f c v x H. destruct (parse_cls_ok_inv _ _ _ _ _ _ _ _ H) as (f' & c0 & ms & fields & A & B & C & D & E & F & K & L).
    exists f', c0, ms, fields. repeat split; assumption.
  Qed.

  Lemma pk_model_inv : forall f c v x, pk f (KModel c) v = Ok x ->
    exists f' c0 ms fields,
      f = S (S f') /\ lookup_cls SC c = Some c0 /\ v = JObj ms /\ x = MModel c fields /\
      pre c v = true /\ extra_bad c0 ms = false /\
      mapM (parse_field (pk f') ms) (c_fields c0) = Ok fields /\ post c v fields = true.
  Proof.
    intros f c v x H. destruct f as [|f]; [discriminate H|]. rewrite parse_kind_S in H.
    destruct (pc_inv _ _ _ _ H) as [f' [c0 [ms [fields [-> K]]]]]. exists f', c0, ms, fields. split; [reflexivity|exact K].
  Qed.

  Lemma pk_disc_inv : forall f key mp v x, pk f (KDisc key mp) v = Ok x ->
    exists f' ms s k c,
      f = S f' /\ v = JObj ms /\ assoc (str_of_string key) ms = Some (JStr s) /\
      In (k, c) mp /\ str_of_string k = s /\ pc f' c v = Ok x.
  Proof.
    intros f key mp v x H. destruct f as [|f]; [discriminate H|]. rewrite parse_kind_S in H.
    destruct (disc_res_ok _ _ _ _ _ H) as [ms [s [[k c] [-> [Ea [Hin [Hs H']]]]]]].
    exists f, ms, s, k, c. repeat split; assumption.
  Qed.

  Lemma parse_field_inv : forall f ms fl y, parse_field (pk f) ms fl = Ok y ->
    exists x, y = (f_name fl, x) /\ parse_value (pk f) fl (field_raw ms fl) = Ok x.
  Proof.
    intros f ms fl y H. destruct (parse_field_ok _ _ _ _ H) as [x [Hv ->]]. exists x. split; [reflexivity|exact Hv].
  Qed.

  (* the fields of an accepted object all at once: each is the value read for its declaration *)
  Definition field_val_of (f : nat) (ms : list (str * json)) (fl : field) : mval :=
    match parse_value (pk f) fl (field_raw ms fl) with Ok x => x | Raise _ => MNone end.

  Lemma fields_values : forall f ms fls fields, mapM (parse_field (pk f) ms) fls = Ok fields ->
    fields = map (fun fl => (f_name fl, field_val_of f ms fl)) fls /\
    forall i fl, nth_error fls i = Some fl -> parse_field (pk f) ms fl = Ok (f_name fl, field_val_of f ms fl).
  Proof.
    intros f ms fls. induction fls as [|fl r IH]; intros fields H.
    - injection H as <-. split; [reflexivity|intros [|i] fl; discriminate].
    - apply mapM_cons_ok in H. destruct H as [y [ys [Hy [Hr ->]]]]. destruct (IH ys Hr) as [-> HF].
      assert (E : parse_field (pk f) ms fl = Ok (f_name fl, field_val_of f ms fl)).
      { destruct (parse_field_inv _ _ _ _ Hy) as [x [_ Hv]]. unfold parse_field, field_val_of. rewrite Hv. reflexivity. }
      split; [cbn [map]; congruence|]. intros [|i] fl' Hn; [injection Hn as <-; exact E|exact (HF i fl' Hn)].
  Qed.

  Lemma parse_value_null : forall f fl x, parse_value (pk f) fl JNull = Ok x -> x = MNone.
  Proof. intros f fl x H. cbn [parse_value] in H. destruct (f_required fl); [discriminate H|]. injection H as <-. reflexivity. Qed.

  Lemma parse_value_single : forall f fl raw x, f_shape fl = Single -> raw <> JNull ->
    parse_value (pk f) fl raw = Ok x -> pk f (f_kind fl) raw = Ok x.
  Proof. intros f fl raw x Hs Hn H. unfold parse_value in H. rewrite Hs in H. destruct raw; try exact H. contradiction. Qed.

  Lemma scalar_exact : forall k v x, exact_kind k = true -> parse_scalar classify k v = Ok x ->
    leaf x = true /\ tobj SC x = v /\ x <> MNone.
  Proof.
    intros k v x Hk H.
    destruct k as [lit|members|strict lo hi cs|c lo hi cs|strict|strict ge le gt|gt| |c|key mp|alts];
      try discriminate Hk; cbn [parse_scalar] in H.
    - destruct v as [| | | |s| |]; try discriminate H. destruct (str_eqb s (str_of_string lit)); [|discriminate H].
      injection H as <-. repeat split; discriminate.
    - destruct v as [| | | |s| |]; try discriminate H. destruct (existsb _ members); [|discriminate H].
      injection H as <-. repeat split; discriminate.
    - cbn [exact_kind] in Hk. subst strict. destruct v as [| | | |s| |]; try discriminate H.
      unfold check_str in H. destruct (len_ok lo hi s && cs_ok cs s); [|discriminate H]. injection H as <-.
      repeat split; discriminate.
    - destruct v as [| | | |s| |]; try discriminate H.
      destruct (len_ok lo hi s && cs_ok cs s && fs_ok classify s); [|discriminate H]. injection H as <-.
      repeat split; discriminate.
    - destruct v as [|b| | | | |]; try (destruct strict; discriminate H). injection H as <-. repeat split; discriminate.
  Qed.

  Lemma pk_exact_inv : forall f k v x, exact_kind k = true -> pk f k v = Ok x ->
    leaf x = true /\ tobj SC x = v /\ x <> MNone.
  Proof.
    intros f k v x Hk H. destruct f as [|f]; [discriminate H|]. rewrite parse_kind_S in H.
    destruct k; try discriminate Hk; exact (scalar_exact _ _ _ Hk H).
  Qed.

  Lemma pk_exact_tobj : forall f k v x, exact_kind k = true -> pk f k v = Ok x -> leaf x = true /\ tobj SC x = v.
  Proof. intros f k v x Hk H. destruct (pk_exact_inv f k v x Hk H) as [A [B _]]. split; assumption. Qed.
  Lemma kformat_inv : forall f c lo hi cs it m, pk f (KFormat c lo hi cs) it = Ok m -> exists s, it = JStr s /\ m = MFmt s.
  Proof.
    intros f c lo hi cs it m H. destruct f as [|f]; [discriminate H|]. rewrite parse_kind_S in H. cbn [parse_scalar] in H.
    destruct it as [| | | |s| |]; try discriminate H.
    destruct (len_ok lo hi s && cs_ok cs s && fs_ok classify s); [|discriminate H]. injection H as <-.
    exists s. split; reflexivity.
  Qed.
  Lemma kstr_inv : forall f strict lo hi cs v m, pk f (KStr strict lo hi cs) v = Ok m -> exists s, m = MStr s.
  Proof.
    intros f strict lo hi cs v m H. destruct f as [|f]; [discriminate H|]. rewrite parse_kind_S in H. cbn [parse_scalar] in H.
    destruct v; try discriminate H; try (destruct strict; try discriminate H);
      apply check_str_ok in H; destruct H as [-> _]; eexists; reflexivity.
  Qed.
End Inv.

(* The [i]-th declared field of class [c] of the live schema.  Proofs that read an object field by field keep the
   fields in this folded form (a name and a number): unfolded, every step would carry the literal declarations of
   the fields still to be read. *)
Definition fields_of (c : string) : list field :=
  match lookup_cls Generated.schema c with Some c0 => c_fields c0 | None => [] end.
Definition fld (c : string) (i : nat) : field := nth i (fields_of c) (mkField "" "" false Single KDec).

Lemma map_nth_seq : forall (A : Type) (l : list A) d, map (fun i => nth i l d) (seq 0 (List.length l)) = l.
Proof.
  induction l as [|a l IH]; intros d; [reflexivity|]. cbn [List.length seq map nth]. f_equal.
  rewrite <- seq_shift, map_map. exact (IH d).
Qed.

Lemma cls_fields : forall c c0 n, lookup_cls Generated.schema c = Some c0 -> List.length (fields_of c) = n ->
  c_fields c0 = map (fld c) (seq 0 n).
Proof. intros c c0 n H <-. unfold fld, fields_of. rewrite H. symmetry. apply map_nth_seq. Qed.

Lemma leaf_jobj : forall SC x, leaf x = true -> jobj SC x = tobj SC x.
Proof. intros SC x H. destruct x; try discriminate H; reflexivity. Qed.

Section Fields.
  Variable SC : schema_t.
  Variable c : string.

  (* the value exported for a field: [CreateJobExactLib.jfield] with the name and the value apart *)
  Definition jval (n : string) (x : mval) : json :=
    if String.eqb n "range"
    then match x with MList items => JArr (map (range_item SC) items) | _ => tobj SC x end
    else jobj SC x.

  Definition jfields (fs : list (string * mval)) : list (str * json) :=
    map (fun fv => (str_of_string (alias_of SC c (fst fv)), jval (fst fv) (snd fv))) fs.

  Lemma jval_null : forall n x, jval n x = JNull -> x = MNone.
  Proof. intros n x. exact (jfield_null SC (n, x)). Qed.

  Lemma json_equiv_model : forall fs s, json_equiv (JObj (jfields fs)) s -> json_equiv (jobj SC (MModel c fs)) s.
  Proof.
    intros fs s H. inversion H as [| | | | | |ms ms' HF]; subst. rewrite jobj_fields. constructor. intros k.
    rewrite (jfind_kept _ _ _ _ _ (jfield_none SC)). exact (HF k).
  Qed.
End Fields.

Section Carried.
  Variable classify : N -> cclass.
  Notation G := Generated.schema.
  Notation pk := (parse_kind G classify pre_hook (post_hook classify)).
  Notation pc := (parse_cls G classify pre_hook (post_hook classify)).
  Notation CL := carried_classes.

  Definition ckind_ok (k : kind) : bool :=
    match k with
    | KModel c => mem_s c CL
    | KDisc _ mp => forallb (fun kc => mem_s (snd kc) CL) mp
    | _ => exact_kind k
    end.

  Definition plain_alias (a : string) : bool := negb (mem_s a lax_int_keys) && negb (String.eqb a "variables").

  Definition cfield_ok (cname : string) (fl : field) : bool :=
    negb (String.eqb (f_name fl) "range") &&
    match f_shape fl with
    | Single =>
      match f_kind fl with
      | KInt false _ _ _ => mem_s (f_alias fl) lax_int_keys
      | k => ckind_ok k && plain_alias (f_alias fl)
      end
    | ListOf _ _ => ckind_ok (f_kind fl) && plain_alias (f_alias fl)
    | DictOf kk =>
      String.eqb cname "Environment" && String.eqb (f_name fl) "variables" && String.eqb (f_alias fl) "variables"
      && exact_kind (f_kind fl) && match kk with KStr _ _ _ _ => true | _ => false end
    end.

  Definition ccls_ok (cname : string) : bool :=
    match lookup_cls G cname with
    | Some c0 => c_extra_forbid c0 && nodup_sb (map f_name (c_fields c0)) && nodup_sb (map f_alias (c_fields c0))
                 && forallb (cfield_ok cname) (c_fields c0)
    | None => false
    end.

  Lemma carried_schema_ok : forallb ccls_ok CL = true.
  Proof. vm_compute. reflexivity. Qed.

  Lemma ccls_ok_of : forall c c0, In c CL -> lookup_cls G c = Some c0 ->
    c_extra_forbid c0 = true /\ NoDup (map f_name (c_fields c0)) /\ NoDup (map f_alias (c_fields c0)) /\
    forall fl, In fl (c_fields c0) -> cfield_ok c fl = true.
  Proof.
    intros c c0 Hc Hl. pose proof carried_schema_ok as H. rewrite forallb_forall in H. specialize (H c Hc).
    unfold ccls_ok in H. rewrite Hl in H. apply andb_true_iff in H. destruct H as [H H4].
    apply andb_true_iff in H. destruct H as [H H3]. apply andb_true_iff in H. destruct H as [H1 H2].
    repeat split; try assumption; try (apply nodup_sb_NoDup; assumption).
    intros fl Hfl. rewrite forallb_forall in H4. exact (H4 fl Hfl).
  Qed.
End Carried.

Lemma sos_eqb : forall a b, str_eqb (str_of_string a) (str_of_string b) = String.eqb a b.
Proof.
  intros a b. destruct (String.eqb a b) eqn:E.
  - apply String.eqb_eq in E. subst. apply str_eqb_refl.
  - apply str_eqb_neq. intros H. apply str_of_string_inj in H. subst. rewrite String.eqb_refl in E. discriminate E.
Qed.

Lemma alias_known_false : forall fls a, ~ In a (map f_alias fls) -> alias_known fls (str_of_string a) = false.
Proof.
  induction fls as [|fl r IH]; intros a H; [reflexivity|].
  unfold alias_known. cbn [existsb]. rewrite sos_eqb.
  destruct (String.eqb a (f_alias fl)) eqn:E.
  - apply String.eqb_eq in E. exfalso. apply H. left. symmetry. exact E.
  - apply IH. intros Hc. apply H. right. exact Hc.
Qed.

Section Bindings.
  Variable SC : schema_t.
  Variable c : string.
  Variable ms : list (str * json).

  Definition field_rel (fl : field) (fv : string * mval) : Prop :=
    fst fv = f_name fl /\ opt_rel json_equiv (onn (jval SC (fst fv) (snd fv))) (onn (field_raw ms fl)).

  Lemma jfields_bindings : forall fls fields,
    Forall2 field_rel fls fields ->
    NoDup (map f_alias fls) ->
    (forall fl, In fl fls -> alias_of SC c (f_name fl) = f_alias fl) ->
    forall k,
      (alias_known fls k = false -> jfind k (jfields SC c fields) = None) /\
      (forall fl, In fl fls -> k = str_of_string (f_alias fl) ->
                  opt_rel json_equiv (jfind k (jfields SC c fields)) (onn (field_raw ms fl))).
  Proof.
    intros fls fields HF. induction HF as [|fl0 fv0 r r' [Hn0 Hr0] _ IH]; intros Hnd Hal k.
    - split; [reflexivity|intros fl []].
    - cbn [map] in Hnd. inversion Hnd as [|a l Hnotin Hnd']. subst a l.
      assert (Hal' : forall fl, In fl r -> alias_of SC c (f_name fl) = f_alias fl) by (intros fl Hfl; apply Hal; right; exact Hfl).
      destruct (IH Hnd' Hal' k) as [IH1 IH2].
      unfold jfields. cbn [map]. fold (jfields SC c r'). rewrite Hn0. rewrite (Hal fl0 (or_introl eq_refl)). split.
      + intros Hk. unfold alias_known in Hk. cbn [existsb] in Hk. apply orb_false_iff in Hk. destruct Hk as [Hk1 Hk2].
        rewrite jfind_miss by exact Hk1. apply IH1. exact Hk2.
      + intros fl [<-|Hfl] Ek.
        * subst k. rewrite jfind_hit; [rewrite <- Hn0; exact Hr0|apply str_eqb_refl|].
          apply (proj1 (IH Hnd' Hal' _)). apply alias_known_false. exact Hnotin.
        * subst k. rewrite jfind_miss.
          -- apply IH2; [exact Hfl|reflexivity].
          -- rewrite sos_eqb. destruct (String.eqb (f_alias fl) (f_alias fl0)) eqn:E; [|reflexivity].
             apply String.eqb_eq in E. exfalso. apply Hnotin. rewrite <- E. apply in_map. exact Hfl.
  Qed.

  Theorem parsed_object_equiv : forall fls fields,
    Forall2 field_rel fls fields ->
    NoDup (map f_alias fls) ->
    (forall fl, In fl fls -> alias_of SC c (f_name fl) = f_alias fl) ->
    NoDup (map fst ms) ->
    (forall kv, In kv ms -> alias_known fls (fst kv) = true) ->
    json_equiv (jobj SC (MModel c fields)) (JObj ms).
  Proof.
    intros fls fields HF Hnd Hal Hms Hkeys. apply json_equiv_model. constructor. intros k.
    destruct (jfields_bindings fls fields HF Hnd Hal k) as [B1 B2].
    destruct (alias_known fls k) eqn:Ek.
    - unfold alias_known in Ek. apply existsb_exists in Ek. destruct Ek as [fl [Hfl Ek]].
      apply str_eqb_eq in Ek. rewrite (jfind_assoc k ms Hms).
      specialize (B2 fl Hfl Ek). unfold field_raw in B2. rewrite <- Ek in B2.
      destruct (assoc k ms); exact B2.
    - rewrite (B1 eq_refl). rewrite jfind_notin; [constructor|].
      intros Hin. apply in_map_iff in Hin. destruct Hin as [kv [E Hkv]]. specialize (Hkeys kv Hkv).
      rewrite E in Hkeys. rewrite Hkeys in Ek. discriminate Ek.
  Qed.
End Bindings.

Lemma extra_bad_keys : forall c0 ms, c_extra_forbid c0 = true -> extra_bad c0 ms = false ->
  forall kv, In kv ms -> alias_known (c_fields c0) (fst kv) = true.
Proof.
  intros c0 ms Hf He kv Hkv. unfold extra_bad in He. rewrite Hf in He. cbn [andb] in He.
  apply negb_false_iff in He. rewrite forallb_forall in He. exact (He kv Hkv).
Qed.

Lemma Forall2_impl_in2 : forall (A B : Type) (R R' : A -> B -> Prop) l l',
  (forall a b, In a l -> In b l' -> R a b -> R' a b) -> Forall2 R l l' -> Forall2 R' l l'.
Proof.
  intros A B R R' l l' H HF. induction HF as [|a b r r' Hab _ IH]; constructor.
  - apply H; [left; reflexivity|left; reflexivity|exact Hab].
  - apply IH. intros x y Hx Hy. apply H; right; assumption.
Qed.

Lemma is_lax_key_sos : forall a, is_lax_key (str_of_string a) = mem_s a lax_int_keys.
Proof.
  intros a. unfold is_lax_key, mem_s. induction lax_int_keys as [|x r IH]; [reflexivity|].
  cbn [existsb]. rewrite sos_eqb. rewrite IH. reflexivity.
Qed.

Lemma plain_alias_keys : forall a, plain_alias a = true ->
  is_lax_key (str_of_string a) = false /\ str_eqb (str_of_string a) $"variables" = false.
Proof.
  intros a H. unfold plain_alias in H. apply andb_true_iff in H. destruct H as [H1 H2].
  apply negb_true_iff in H1. apply negb_true_iff in H2. split.
  - rewrite is_lax_key_sos. exact H1.
  - change ($"variables") with (str_of_string "variables"). rewrite sos_eqb. exact H2.
Qed.

Lemma lax_member_int : forall ms k v, lax_ints_native (JObj ms) = true -> In (k, v) ms -> is_lax_key k = true ->
  v = JNull \/ exists z, v = JInt z.
Proof.
  intros ms k v H Hin Hk. cbn [lax_ints_native] in H. rewrite forallb_forall in H. specialize (H (k, v) Hin).
  cbn [fst snd] in H. rewrite Hk in H. destruct v; try discriminate H; [left; reflexivity|right; eexists; reflexivity].
Qed.

Lemma lax_member_sub : forall ms k v, lax_ints_native (JObj ms) = true -> In (k, v) ms ->
  is_lax_key k = false -> str_eqb k $"variables" = false -> lax_ints_native v = true.
Proof.
  intros ms k v H Hin Hk Hv. cbn [lax_ints_native] in H. rewrite forallb_forall in H. specialize (H (k, v) Hin).
  cbn [fst snd] in H. rewrite Hk, Hv in H. exact H.
Qed.

Lemma lax_jget : forall k j, lax_ints_native j = true ->
  is_lax_key (str_of_string k) = false -> str_eqb (str_of_string k) $"variables" = false ->
  lax_ints_native (jget k j) = true.
Proof.
  intros k j H H1 H2. destruct j as [| | | | | |ms]; try reflexivity. cbn [jget].
  destruct (assoc (str_of_string k) ms) as [v|] eqn:E; [|reflexivity].
  apply assoc_In in E. exact (lax_member_sub ms _ v H E H1 H2).
Qed.

Lemma lax_jget_int : forall k ms, lax_ints_native (JObj ms) = true -> is_lax_key (str_of_string k) = true ->
  jget k (JObj ms) = JNull \/ exists z, jget k (JObj ms) = JInt z.
Proof.
  intros k ms H Hk. cbn [jget]. destruct (assoc (str_of_string k) ms) as [v|] eqn:E; [|left; reflexivity].
  apply assoc_In in E. exact (lax_member_int ms _ v H E Hk).
Qed.

Section CarriedMain.
  Variable classify : N -> cclass.
  Notation G := Generated.schema.
  Notation pk := (parse_kind G classify pre_hook (post_hook classify)).
  Notation pc := (parse_cls G classify pre_hook (post_hook classify)).
  Notation CL := carried_classes.

  Definition carried_k (f : nat) : Prop :=
    forall k v x, ckind_ok k = true -> pk f k v = Ok x -> lax_ints_native v = true -> keys_distinct v = true ->
                  json_equiv (jobj G x) v.
  Definition carried_c (f : nat) : Prop :=
    forall c v x, In c CL -> pc f c v = Ok x -> lax_ints_native v = true -> keys_distinct v = true ->
                  json_equiv (jobj G x) v.

  Lemma carried_items : forall f k items l, carried_k f -> ckind_ok k = true ->
    Forall2 (fun it m => pk f k it = Ok m) items l ->
    forallb lax_ints_native items = true -> forallb keys_distinct items = true ->
    Forall2 json_equiv (map (jobj G) l) items.
  Proof.
    intros f k items l IHk Hk HF. induction HF as [|it m r r' Hp _ IH]; intros Hl Hd; [constructor|].
    cbn [forallb] in Hl, Hd. apply andb_true_iff in Hl. apply andb_true_iff in Hd.
    destruct Hl as [Hl1 Hl2]. destruct Hd as [Hd1 Hd2]. cbn [map]. constructor.
    - exact (IHk k it m Hk Hp Hl1 Hd1).
    - exact (IH Hl2 Hd2).
  Qed.

  Lemma carried_dict : forall f kk k members l, exact_kind k = true ->
    mapM (dict_entry (pk f) kk k) members = Ok l ->
    jobj G (MDict l) = JObj members.
  Proof.
    intros f kk k members l Hk. revert l. induction members as [|[k0 v0] r IH]; intros l H.
    - injection H as <-. reflexivity.
    - apply mapM_cons_ok in H. destruct H as [e0 [l' [E0 [Em ->]]]]. specialize (IH l' Em). cbn [jobj] in IH. injection IH as IH.
      apply dict_entry_ok in E0. destruct E0 as [y [E2 ->]]. cbn [fst snd] in E2 |- *.
      destruct (pk_exact_inv G classify _ _ f k v0 y Hk E2) as [Hleaf [Ht Hnn]].
      cbn [jobj flat_map snd fst]. rewrite IH, (leaf_jobj G y Hleaf), Ht. destruct y; try reflexivity. contradiction.
  Qed.

  (* one field of a carried class: a lax integer given as an integer, a value or a list of values of a carried kind,
     or the dictionary of exact values (an environment's variables) *)
  Lemma carried_field : forall f c ms fl x, carried_k f -> cfield_ok c fl = true ->
    lax_ints_native (JObj ms) = true -> keys_distinct (JObj ms) = true ->
    parse_value (pk f) fl (field_raw ms fl) = Ok x ->
    opt_rel json_equiv (onn (jval G (f_name fl) x)) (onn (field_raw ms fl)).
  Proof.
    intros f c ms fl x IHk Hfl Hl Hd Hv.
    unfold cfield_ok in Hfl. apply andb_true_iff in Hfl. destruct Hfl as [Hnr Hsh].
    apply negb_true_iff in Hnr. unfold jval. rewrite Hnr. clear Hnr.
    change (field_raw ms fl) with (jget (f_alias fl) (JObj ms)) in *. set (raw := jget (f_alias fl) (JObj ms)) in *.
    destruct (parse_value_ok _ _ _ _ Hv) as [[-> [_ ->]]|K]; [constructor|]. clear Hv. apply onn_equiv.
    assert (Hsub : plain_alias (f_alias fl) = true -> lax_ints_native raw = true /\ keys_distinct raw = true).
    { intros Hpa. destruct (plain_alias_keys _ Hpa) as [Hk1 Hk2]. split; [exact (lax_jget _ _ Hl Hk1 Hk2)|exact (dk_jget _ _ Hd)]. }
    destruct (f_shape fl) as [|lo hi|kk].
    - assert (Gen : ckind_ok (f_kind fl) && plain_alias (f_alias fl) = true -> json_equiv (jobj G x) raw).
      { intros H. apply andb_true_iff in H. destruct H as [Hck Hpa]. destruct (Hsub Hpa) as [Hlr Hdr].
        exact (IHk _ _ x Hck K Hlr Hdr). }
      destruct (f_kind fl) as [lit|members|strict lo hi cs|c' lo hi cs|strict|strict ge le gt|gt| |c'|key mp|alts] eqn:Ek;
        try exact (Gen Hsh).
      destruct strict; [exact (Gen Hsh)|]. rewrite <- is_lax_key_sos in Hsh.
      destruct f as [|f1]; [discriminate K|]. rewrite parse_kind_S in K.
      destruct (lax_jget_int _ ms Hl Hsh) as [E|[z E]]; fold raw in E; rewrite E in *; cbn [parse_scalar] in K; [discriminate K|].
      destruct (zopt_ok ge le gt z); [|discriminate K]. injection K as <-. apply json_equiv_refl.
    - apply andb_true_iff in Hsh. destruct Hsh as [Hck Hpa]. destruct (Hsub Hpa) as [Hlr Hdr].
      destruct (list_items_ok _ _ _ _ _ _ K) as [items [l [E [Hm ->]]]]. rewrite E in *. cbn [jobj]. constructor.
      apply mapM_Forall2 in Hm. exact (carried_items f (f_kind fl) items l IHk Hck Hm Hlr Hdr).
    - destruct K as [members [l [-> [Hm ->]]]]. apply andb_true_iff in Hsh. destruct Hsh as [Hsh _].
      apply andb_true_iff in Hsh. rewrite (carried_dict f kk (f_kind fl) members l (proj2 Hsh) Hm). apply json_equiv_refl.
  Qed.

  Theorem carried_equiv : forall f, carried_k f /\ carried_c f.
  Proof.
    induction f as [|f [IHk IHc]].
    - split; intros a v x Ha H; discriminate H.
    - split.
      + intros k v x Hk H Hl Hd. rewrite parse_kind_S in H.
        destruct k as [lit|members|strict lo hi cs|c lo hi cs|strict|strict ge le gt|gt| |c|key mp|alts];
          try (cbn [ckind_ok] in Hk; destruct (scalar_exact G classify _ _ _ Hk H) as [Hleaf [Ht _]];
               rewrite (leaf_jobj G x Hleaf), Ht; apply json_equiv_refl);
          try discriminate Hk.
        * apply (IHc c v x); try assumption. apply mem_s_In. exact Hk.
        * destruct (disc_res_ok _ _ _ _ _ H) as [ms [s [kc [_ [_ [Hin [_ H']]]]]]].
          cbn [ckind_ok] in Hk. rewrite forallb_forall in Hk.
          apply (IHc (snd kc) v x); try assumption. apply mem_s_In. exact (Hk kc Hin).
      + intros c v x Hc H Hl Hd.
        destruct (pc_inv _ _ _ _ _ _ _ _ H) as [f' [c0 [ms [fields [Ef [Hlk [-> [-> [_ [Hex [Hm _]]]]]]]]]]].
        injection Ef as <-.
        destruct (ccls_ok_of c c0 Hc Hlk) as [Hforb [Hnn [Hna Hfl]]].
        apply (parsed_object_equiv G c ms (c_fields c0) fields).
        * apply mapM_Forall2 in Hm. revert Hm. apply Forall2_impl_in2. intros fl fv Hfin _ Hp.
          apply parse_field_inv in Hp. destruct Hp as [x [-> Hv]]. split; [reflexivity|].
          exact (carried_field f c ms fl x IHk (Hfl fl Hfin) Hl Hd Hv).
        * exact Hna.
        * intros fl Hfin. exact (alias_of_field G c c0 fl Hlk Hnn Hfin).
        * exact (proj1 (dk_members ms Hd)).
        * exact (extra_bad_keys c0 ms Hforb Hex).
  Qed.

  Corollary carried_cls : forall f c v x, In c CL -> pc f c v = Ok x ->
    lax_ints_native v = true -> keys_distinct v = true -> json_equiv (jobj G x) v.
  Proof. intros f. exact (proj2 (carried_equiv f)). Qed.

  Corollary carried_kind : forall f k v x, ckind_ok k = true -> pk f k v = Ok x ->
    lax_ints_native v = true -> keys_distinct v = true -> json_equiv (jobj G x) v.
  Proof. intros f. exact (proj1 (carried_equiv f)). Qed.
End CarriedMain.
