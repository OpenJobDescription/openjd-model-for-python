(* ConformPrep.v — the job-parameter half of C09x: what [CreateJobFull.prep_full] hands to the symbol table.

   For every job parameter definition [item] of the job template (read by [pdef_of_mval] into [d]):
   the text bound to RawParam.<name> in the symbol table built from prep_full's result — the text
   instantiate_model stores as JobParameter.value — conforms to the type DECLARED IN THE TEMPLATE
   ([ptyp d], whose text is the definition's own "type" field).

   Chain: the definition is in the group of its name; the group merges into ONE definition of the same
   name and type (Merge.merge refuses mixed types); preprocessing checks the value stored under that name
   against the merged definition (_check_constraints, JobParams.check_loop); C09_job_params. *)
From Coq Require Import List NArith ZArith Bool String Lia.
Import ListNotations.
Require Import OJD.Base OJD.Json OJD.CreateJob OJD.CreateJobProofs OJD.JobParams OJD.JobParamsProofs OJD.Merge
               OJD.MergeProofs OJD.Glue OJD.GlueProofs OJD.CreateJobFull OJD.CreateJobFullProofs OJD.ListLib.
Local Open Scope string_scope.
Local Open Scope list_scope.

Lemma ptype_of_str_inv : forall ts t, ptype_of_str ts = Some t -> ts = ptype_str t.
Proof.
  intros ts t H. unfold ptype_of_str in H.
  destruct (str_eqb ts $"STRING") eqn:E1; [injection H as <-; apply str_eqb_eq; exact E1|].
  destruct (str_eqb ts $"PATH") eqn:E2; [injection H as <-; apply str_eqb_eq; exact E2|].
  destruct (str_eqb ts $"INT") eqn:E3; [injection H as <-; apply str_eqb_eq; exact E3|].
  destruct (str_eqb ts $"FLOAT") eqn:E4; [injection H as <-; apply str_eqb_eq; exact E4|].
  discriminate H.
Qed.

Lemma ptype_text_str : forall t, ptype_text t = ptype_str t.
Proof. intros t. destruct t; reflexivity. Qed.

Lemma pdef_of_fields_inv : forall fs d, pdef_of_fields fs = Ok d ->
  mfield "name" fs = MStr (pname d) /\ mfield "type" fs = MStr (ptype_str (ptyp d)).
Proof.
  intros fs d H. unfold pdef_of_fields in H.
  destruct (mfield "name" fs) as [ | | | | |n| | | | ]; try discriminate H.
  destruct (mfield "type" fs) as [ | | | | |ts| | | | ]; try discriminate H.
  destruct (ptype_of_str ts) as [t|] eqn:Et; [|discriminate H].
  apply ptype_of_str_inv in Et. subst ts.
  assert (E : pname d = n /\ ptyp d = t).
  { destruct (is_numeric t);
      repeat match type of H with
             | bind ?x _ = Ok _ => destruct x; cbn [bind] in H; [|discriminate H]
             end;
      injection H as <-; split; reflexivity. }
  destruct E as [-> ->]. split; reflexivity.
Qed.

Lemma merge_ok_name_type : forall g m, merge false g = Ok m ->
  forall d, In d g -> pname d = pname m /\ ptyp d = ptyp m.
Proof.
  intros g m H d Hd. apply merge_ok_inv in H.
  destruct H as [dl [_ [Hn [Ht [_ [-> _]]]]]]. cbn [candidate pname ptyp].
  split; [apply Hn; exact Hd|apply Ht; exact Hd].
Qed.

Lemma merge_definitions_covers : forall eds jd defs, merge_definitions eds jd = Ok defs ->
  forall d, In d (List.concat eds ++ jd) -> exists m, In m defs /\ pname m = pname d /\ ptyp m = ptyp d.
Proof.
  intros eds jd defs H d Hd. unfold merge_definitions in H.
  destruct (merge_groups (collect_groups (List.concat eds ++ jd))) as [[ms b]|e] eqn:Em; cbn [bind fst snd] in H; [|discriminate H].
  destruct b; [discriminate H|]. injection H as <-.
  destruct (collect_covers (List.concat eds ++ jd) [] d (or_introl Hd)) as [k [g [Hg Hdg]]].
  destruct (merge_groups_clean _ _ Em k g Hg) as [m [Hm Hok]].
  destruct (merge_ok_name_type g m Hok d Hdg) as [E1 E2].
  exists m. split; [exact Hm|]. split; symmetry; assumption.
Qed.

Lemma check_loop_zero : forall defs rv, check_loop false defs rv = Ok O ->
  forall m, In m defs -> forall t v, JobParams.lookup (pname m) rv = Some (t, v) ->
  check_constraints false m v = Ok tt.
Proof.
  induction defs as [|d ds IH]; intros rv H m Hm t v Hl; [destruct Hm|].
  cbn [check_loop] in H.
  destruct (JobParams.lookup (pname d) rv) as [[t0 v0]|] eqn:El.
  - destruct (check_constraints false d v0) as [[]|e] eqn:Ec.
    + destruct Hm as [<-|Hm].
      * rewrite El in Hl. injection Hl as _ <-. exact Ec.
      * eapply IH; eassumption.
    + destruct e; try discriminate H.
      destruct (check_loop false ds rv); cbn [bind] in H; discriminate H.
  - destruct Hm as [<-|Hm]; [rewrite El in Hl; discriminate Hl|]. eapply IH; eassumption.
Qed.

Lemma preprocess_checked : forall dir_ok path_in path_default defs vals r,
  preprocess false dir_ok path_in path_default defs vals = Ok r ->
  forall m, In m defs -> forall t v, JobParams.lookup (pname m) r = Some (t, v) ->
  check_constraints false m v = Ok tt.
Proof.
  intros dir_ok path_in path_default defs vals r H m Hm t v Hl. unfold preprocess in H.
  destruct defs as [|d0 ds] eqn:Edefs; [destruct Hm|]. rewrite <- Edefs in *. clear Edefs.
  destruct (JobParams.collect_defaults dir_ok path_in path_default defs vals) as [rv|x].
  - destruct (check_all false defs rv) as [u|x] eqn:Ec.
    + apply finish_ok in H. destruct H as [_ ->].
      unfold check_all in Ec. destruct (check_loop false defs rv) as [n|e] eqn:El; cbn [bind] in Ec; [|discriminate Ec].
      destruct n; [|discriminate Ec]. eapply check_loop_zero; eassumption.
    + destruct x; try discriminate H. apply finish_ok in H. destruct H as [Hz _]. lia.
  - destruct x; try discriminate H. apply finish_ok in H. destruct H as [Hz _]. lia.
Qed.

Lemma raw_lookup : forall r n,
  st_lookup (symtab_of (pvals_of r)) ($"RawParam." ++ n) = option_map snd (JobParams.lookup n r).
Proof.
  intros r n. change ($"RawParam.") with p_raw. rewrite symtab_raw.
  induction r as [|[k [t v]] r IH]; [reflexivity|].
  unfold pvals_of, first_named. cbn [map List.find fst snd JobParams.lookup]. unfold v_name at 1. cbn [fst].
  destruct (str_eqb n k); [reflexivity|]. exact IH.
Qed.

Theorem prep_full_conforms : forall envs c fs l item d vals pvals v,
  prep_full envs (MModel c fs) vals = Ok pvals ->
  mfield "parameterDefinitions" fs = MList l -> In item l -> pdef_of_mval item = Ok d ->
  st_lookup (symtab_of pvals) ($"RawParam." ++ pname d) = Some v ->
  conforms_job (ptype_str (ptyp d)) v = true.
Proof.
  intros envs c fs l item d vals pvals v H Hf Hin Hd Hv. unfold prep_full in H.
  destruct (mapM defs_of_template envs) as [eds|e0]; cbn [bind] in H; [|discriminate H].
  destruct (defs_of_template (MModel c fs)) as [jd|e1] eqn:Ej; cbn [bind] in H; [|discriminate H].
  destruct (merge_definitions eds jd) as [defs|e2] eqn:Em; [|destruct e2; discriminate H].
  destruct (preprocess_server defs vals) as [r|e3] eqn:Ep; [|destruct e3; discriminate H].
  injection H as <-.
  (* the definition is among the template's *)
  assert (Hjd : In d jd).
  { cbn [defs_of_template] in Ej. rewrite Hf in Ej. cbn [defs_of_value] in Ej.
    destruct (mapM_in_ok _ _ _ _ _ Ej item Hin) as [d' [Hd' E]]. rewrite Hd in E. injection E as <-. exact Hd'. }
  destruct (merge_definitions_covers eds jd defs Em d) as [m [Hm [En Et]]]; [apply in_or_app; right; exact Hjd|].
  rewrite raw_lookup in Hv.
  destruct (JobParams.lookup (pname d) r) as [[t' v']|] eqn:El; [|discriminate Hv]. cbn [option_map snd] in Hv.
  injection Hv as ->.
  rewrite <- En in El. unfold preprocess_server in Ep.
  pose proof (preprocess_checked _ _ _ _ _ _ Ep m Hm t' v El) as Hc.
  apply check_conforms_job in Hc. rewrite ptype_text_str, Et in Hc. exact Hc.
Qed.

(* the same in terms of the definition's own fields: [k] its name, [T] the text of its "type" field *)
Theorem prep_full_conforms_fields : forall envs c fs l ic ifs k T vals pvals v,
  prep_full envs (MModel c fs) vals = Ok pvals ->
  mfield "parameterDefinitions" fs = MList l -> In (MModel ic ifs) l ->
  mfield "name" ifs = MStr k -> mfield "type" ifs = MStr T ->
  st_lookup (symtab_of pvals) ($"RawParam." ++ k) = Some v ->
  conforms_job T v = true.
Proof.
  intros envs c fs l ic ifs k T vals pvals v H Hf Hin Hn Ht Hv.
  assert (Hd : exists d, pdef_of_mval (MModel ic ifs) = Ok d).
  { unfold prep_full in H.
    destruct (mapM defs_of_template envs) as [eds|e0]; cbn [bind] in H; [|discriminate H].
    destruct (defs_of_template (MModel c fs)) as [jd|e1] eqn:Ej; cbn [bind] in H; [|discriminate H].
    cbn [defs_of_template] in Ej. rewrite Hf in Ej. cbn [defs_of_value] in Ej.
    destruct (mapM_in_ok _ _ _ _ _ Ej _ Hin) as [d [_ E]]. exists d. exact E. }
  destruct Hd as [d Hd]. pose proof Hd as Hd'. cbn [pdef_of_mval] in Hd'.
  apply pdef_of_fields_inv in Hd'. destruct Hd' as [E1 E2].
  rewrite Hn in E1. injection E1 as ->. rewrite Ht in E2. injection E2 as ->.
  eapply prep_full_conforms; eassumption.
Qed.
