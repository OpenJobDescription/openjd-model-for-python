(* ExportCreatedCarried.v — the parts of a Job that create_job carries over from the template unchanged
   (scripts, actions, cancelation methods, embedded files, environments, step dependencies: CreateJobProofs.carried_classes).

   For a WELL-TYPED instance y of one of these classes (ConformTyped.tc, what the decoder builds), and so for the value
   of a field whose kind is one of them ([carried_vp]):
     - every successful re-parse of its export as that class is equal to it ([SEMC], ExportCreatedSem.v);
     - its nodes are instances of the carried classes (so instantiate_model returns it unchanged,
       CreateJobProofs.carried_unchanged) and the job-side coercion leaves it alone (no field is called "range").
   By induction on the depth of the tree; the schema facts are checked on Generated.schema ([carried_classes_ok]). *)
From Coq Require Import List NArith ZArith Bool String Lia.
Import ListNotations.
Require Import OJD.Lexer OJD.Json OJD.Schema OJD.CreateJob OJD.CreateJobProofs OJD.ExportProofs OJD.CreateJobExactLib
               OJD.ConformTyped OJD.ConformInst OJD.ExportCreatedSem OJD.ListLib.
Local Open Scope string_scope.
Local Open Scope list_scope.

Definition cancel_mp : list (string * string) :=
  [("NOTIFY_THEN_TERMINATE", "CancelationMethodNotifyThenTerminate"); ("TERMINATE", "CancelationMethodTerminate")].

Fixpoint mp_eqb (a b : list (string * string)) : bool :=
  match a, b with
  | [], [] => true
  | (x, y) :: a', (x', y') :: b' => String.eqb x x' && String.eqb y y' && mp_eqb a' b'
  | _, _ => false
  end.

Lemma mp_eqb_eq : forall a b, mp_eqb a b = true -> a = b.
Proof.
  induction a as [|[x y] a IH]; intros [|[x' y'] b] H; try discriminate H; [reflexivity|].
  cbn [mp_eqb] in H. apply andb_true_iff in H. destruct H as [H H3]. apply andb_true_iff in H. destruct H as [H1 H2].
  apply String.eqb_eq in H1. apply String.eqb_eq in H2. rewrite (IH b H3). subst. reflexivity.
Qed.

(* the kinds of the fields of the carried classes: scalars, carried classes, the cancelation union *)
Definition kind_carried (k : kind) : bool :=
  match k with
  | KModel c => mem_s c carried_classes
  | KDisc key mp => String.eqb key "mode" && mp_eqb mp cancel_mp
  | KUnion _ => false
  | _ => true
  end.

Definition carried_cls_ok (c : string) : bool :=
  match lookup_cls G c with
  | Some k => fields_ok c k (map f_name (c_fields k))
              && forallb (fun fl => kind_carried (f_kind fl) && negb (String.eqb (f_name fl) "range")) (c_fields k)
  | None => false
  end.

Lemma carried_classes_ok : forallb carried_cls_ok carried_classes = true.
Proof. vm_compute. reflexivity. Qed.

Lemma carried_class_ok : forall c k, In c carried_classes -> lookup_cls G c = Some k ->
  fields_ok c k (map f_name (c_fields k)) = true /\
  forall fl, In fl (c_fields k) -> kind_carried (f_kind fl) = true /\ f_name fl <> "range".
Proof.
  intros c k Hc Hl. pose proof carried_classes_ok as H. rewrite forallb_forall in H. specialize (H c Hc).
  unfold carried_cls_ok in H. rewrite Hl in H. apply andb_true_iff in H. destruct H as [H1 H2].
  split; [exact H1|]. intros fl Hfl. rewrite forallb_forall in H2. specialize (H2 fl Hfl).
  apply andb_true_iff in H2. destruct H2 as [Ha Hb]. split; [exact Ha|].
  apply negb_true_iff in Hb. apply String.eqb_neq in Hb. exact Hb.
Qed.

Lemma tf_names : forall fields fs, Forall2 (tf G) fields fs -> map fst fs = map f_name fields.
Proof.
  intros fields fs H. induction H as [|fl fv fields fs Hf _ IH]; [reflexivity|].
  apply tf_inv in Hf. destruct Hf as [Hn _]. cbn [map]. rewrite Hn, IH. reflexivity.
Qed.

Lemma tf_mfield : forall fields fs fl, Forall2 (tf G) fields fs -> NoDup (map f_name fields) -> In fl fields ->
  tv G fl (mfield (f_name fl) fs) /\ In (f_name fl, mfield (f_name fl) fs) fs.
Proof.
  intros fields fs fl H. induction H as [|g fv fields fs Hf _ IH]; intros Hnd Hin; [destruct Hin|].
  cbn [map] in Hnd. inversion Hnd as [|? ? Hnotin Hnd']. subst.
  apply tf_inv in Hf. destruct fv as [n x]. destruct Hf as [Hn Hx]. cbn [fst snd] in Hn, Hx. subst n.
  rewrite mfield_cons. destruct Hin as [->|Hin].
  - rewrite String.eqb_refl. split; [exact Hx|left; reflexivity].
  - destruct (String.eqb (f_name g) (f_name fl)) eqn:E.
    + apply String.eqb_eq in E. exfalso. apply Hnotin. rewrite E. apply in_map. exact Hin.
    + destruct (IH Hnd' Hin) as [H1 H2]. split; [exact H1|right; exact H2].
Qed.

Section Carried.
  Variable classify : N -> cclass.
  Variable pre : string -> json -> bool.
  Variable post : string -> json -> list (string * mval) -> bool.
  Notation SEMK := (SEMK classify pre post).
  Notation SEMC := (SEMC classify pre post).
  Notation SEMV := (SEMV classify pre post).

  Definition KP (k : kind) (y : mval) : Prop :=
    SEMK k y /\ incl (classes_in y) carried_classes /\ coerce y = y /\ mnone y = false.
  Definition CP (c : string) (y : mval) : Prop :=
    SEMC c y /\ incl (classes_in y) carried_classes /\ coerce y = y.
  Definition VP (fl : field) (y : mval) : Prop :=
    SEMV fl y /\ incl (classes_in y) carried_classes /\ coerce y = y.

  (* a scalar other than None: no classes, nothing to coerce; what remains is SEMK *)
  Ltac scalar_kp := split; [|split; [apply incl_nil_l|split; reflexivity]].

  Lemma map_id_in : forall (A : Type) (g : A -> A) l, (forall x, In x l -> g x = x) -> map g l = l.
  Proof.
    induction l as [|a r IH]; intros H; [reflexivity|]. cbn [map]. rewrite (H a (or_introl eq_refl)).
    rewrite IH; [reflexivity|]. intros x Hx. apply H. right. exact Hx.
  Qed.

  (* fields, given the kinds for smaller values *)
  Lemma tv_vp : forall n,
    (forall k y, mval_depth y <= n -> kind_carried k = true -> tk G k y -> KP k y) ->
    forall fl x, mval_depth x <= n -> kind_carried (f_kind fl) = true -> tv G fl x -> VP fl x.
  Proof.
    intros n HK fl x Hd Hk Ht. inversion Ht as [fl0 Hreq|fl0 x0 Hs Hx|fl0 lo hi l Hs Hl|fl0 kk l Hs Hl]; subst.
    - split; [apply semv_none|split; [apply incl_nil_l|reflexivity]].
    - destruct (HK _ _ Hd Hk Hx) as [H1 [H2 [H3 _]]]. split; [apply semv_single; assumption|split; assumption].
    - assert (Hi : forall y, In y l -> KP (f_kind fl) y).
      { intros y Hy. rewrite Forall_forall in Hl. apply HK; [|exact Hk|apply Hl; exact Hy].
        pose proof (item_depth l y Hy). lia. }
      split; [eapply semv_list; [exact Hs|intros y Hy; apply (Hi y Hy)]|]. split.
      + cbn [classes_in]. intros c Hc. apply in_flat_map in Hc. destruct Hc as [y [Hy Hc]].
        destruct (Hi y Hy) as [_ [H2 _]]. apply H2. exact Hc.
      + cbn [coerce]. f_equal. apply map_id_in. intros y Hy. destruct (Hi y Hy) as [_ [_ [H3 _]]]. exact H3.
    - assert (Hi : forall kv, In kv l -> KP (f_kind fl) (snd kv)).
      { intros kv Hkv. rewrite Forall_forall in Hl. apply HK; [|exact Hk|apply Hl; exact Hkv].
        pose proof (member_depth l kv Hkv). lia. }
      split; [eapply semv_dict; [exact Hs|intros kv Hkv; destruct (Hi kv Hkv) as [H1 [_ [_ H4]]]; split; assumption]|]. split.
      + cbn [classes_in]. intros c Hc. apply in_flat_map in Hc. destruct Hc as [kv [Hkv Hc]].
        destruct (Hi kv Hkv) as [_ [H2 _]]. apply H2. exact Hc.
      + cbn [coerce]. f_equal. apply map_id_in. intros [k y] Hkv. cbn [fst snd].
        destruct (Hi _ Hkv) as [_ [_ [H3 _]]]. cbn [snd] in H3. rewrite H3. reflexivity.
  Qed.

  (* a model node, given its fields *)
  Lemma tc_cp : forall n,
    (forall k y, mval_depth y <= n -> kind_carried k = true -> tk G k y -> KP k y) ->
    forall c y, mval_depth y <= S n -> In c carried_classes -> tc G c y -> CP c y.
  Proof.
    intros n HK c y Hd Hc Ht. apply tc_inv in Ht. destruct Ht as [c0 [fs [Hl [-> HF]]]].
    destruct (carried_class_ok c c0 Hc Hl) as [Hok Hkinds].
    destruct (generated_names_distinct c c0 Hl) as [Hn1 _].
    assert (Hfv : forall fv, In fv fs -> exists fl, In fl (c_fields c0) /\ fst fv = f_name fl /\ VP fl (snd fv)).
    { intros fv Hfv. destruct (Forall2_in_r _ _ _ _ _ _ HF Hfv) as [fl [Hfl Htf]].
      apply tf_inv in Htf. destruct Htf as [Hn Hx]. exists fl. split; [exact Hfl|]. split; [exact Hn|].
      apply (tv_vp n HK); [|apply (Hkinds fl Hfl)|exact Hx].
      pose proof (field_depth c fs fv Hfv). lia. }
    split; [|split].
    - eapply sem_cls; [exact Hl|rewrite (tf_names _ _ HF); exact Hok|].
      intros fl Hfl. destruct (tf_mfield _ _ fl HF Hn1 Hfl) as [Htv Hin].
      apply (tv_vp n HK); [pose proof (field_depth c fs _ Hin) as D; cbn [snd] in D; lia|apply (Hkinds fl Hfl)|exact Htv].
    - cbn [classes_in]. intros c1 [<-|Hc1]; [exact Hc|]. apply in_flat_map in Hc1. destruct Hc1 as [fv [Hin Hc1]].
      destruct (Hfv fv Hin) as [fl [_ [_ [_ [H2 _]]]]]. apply H2. exact Hc1.
    - cbn [coerce]. f_equal. apply map_id_in. intros [m x] Hin.
      destruct (Hfv _ Hin) as [fl [Hfl [Hn [_ [_ H3]]]]]. cbn [fst snd] in Hn, H3 |- *.
      destruct (Hkinds fl Hfl) as [_ Hnr]. subst m. apply String.eqb_neq in Hnr. rewrite Hnr. rewrite H3. reflexivity.
  Qed.

  (* the cancelation union of Action: the discriminator is re-read from the export *)
  Lemma cancel_disc : forall kk c y, In (kk, c) cancel_mp -> tc G c y ->
    exists ms, T y = JObj ms /\ assoc (str_of_string "mode") ms = Some (JStr (str_of_string kk)).
  Proof.
    intros kk c y Hin Ht. destruct Hin as [E|[E|[]]]; injection E as <- <-; typed_fields Ht.
    1: intros x Hx p _ ->. 2: intros x Hx ->.
    all: apply tv_req_single in Hx; [|reflexivity..]; apply tk_lit_inv in Hx; subst x;
      rewrite T_model, mems_cons; eexists; (split; [reflexivity|]); cbn [mnone app assoc]; rewrite str_eqb_refl; reflexivity.
  Qed.

  Lemma tk_kp_step : forall n,
    (forall c y, mval_depth y <= n -> In c carried_classes -> tc G c y -> CP c y) ->
    forall k y, mval_depth y <= n -> kind_carried k = true -> tk G k y -> KP k y.
  Proof.
    intros n HC k y Hd Hk Ht.
    destruct k as [lit|members|strict minl maxl cs|fc minl maxl cs|strict|strict ge le gt|gt| |c|key mp|alts];
      cbn [kind_carried] in Hk; try discriminate Hk.
    - apply tk_lit_inv in Ht. subst y. scalar_kp. eapply sem_text; reflexivity.
    - apply tk_enum_inv in Ht. destruct Ht as [s ->]. scalar_kp. eapply sem_text; reflexivity.
    - apply tk_str_inv in Ht. destruct Ht as [s [-> _]]. scalar_kp. eapply sem_text; reflexivity.
    - apply tk_fmt_inv in Ht. destruct Ht as [s ->]. scalar_kp. eapply sem_text; reflexivity.
    - inversion Ht; subst. scalar_kp. apply sem_bool.
    - apply tk_int_inv in Ht. destruct Ht as [z ->]. scalar_kp. apply sem_int.
    - inversion Ht; subst. scalar_kp. apply sem_float.
    - apply tk_dec_inv in Ht. destruct Ht as [a [e ->]]. scalar_kp. apply sem_dec.
    - apply mem_s_In in Hk. apply tk_model_inv in Ht. destruct (HC c y Hd Hk Ht) as [H1 [H2 H3]].
      split; [apply sem_model; exact H1|]. split; [exact H2|]. split; [exact H3|].
      apply tc_inv in Ht. destruct Ht as [c0 [fs [_ [-> _]]]]. reflexivity.
    - apply andb_true_iff in Hk. destruct Hk as [Hkey Hmp]. apply String.eqb_eq in Hkey. apply mp_eqb_eq in Hmp. subst key mp.
      apply tk_disc_inv in Ht. destruct Ht as [kk [c [Hin Htc]]].
      assert (Hc : In c carried_classes) by (apply mem_s_In; destruct Hin as [E|[E|[]]]; injection E as _ <-; reflexivity).
      destruct (HC c y Hd Hc Htc) as [H1 [H2 H3]].
      destruct (cancel_disc kk c y Hin Htc) as [ms [Ey Ea]].
      split; [|split; [exact H2|split; [exact H3|]]].
      + eapply sem_disc; try eassumption. apply nodup_sb_NoDup. reflexivity.
      + apply tc_inv in Htc. destruct Htc as [c0 [fs [_ [-> _]]]]. reflexivity.
  Qed.

  Theorem carried_all : forall n,
    (forall c y, mval_depth y <= n -> In c carried_classes -> tc G c y -> CP c y) /\
    (forall k y, mval_depth y <= n -> kind_carried k = true -> tk G k y -> KP k y).
  Proof.
    induction n as [|n [IHc IHk]].
    - assert (HC0 : forall c y, mval_depth y <= 0 -> In c carried_classes -> tc G c y -> CP c y).
      { intros c y Hd _ Ht. apply tc_inv in Ht. destruct Ht as [c0 [fs [_ [-> _]]]]. cbn [mval_depth] in Hd. lia. }
      split; [exact HC0|apply tk_kp_step; exact HC0].
    - assert (HC : forall c y, mval_depth y <= S n -> In c carried_classes -> tc G c y -> CP c y)
        by (apply tc_cp; exact IHk).
      split; [exact HC|apply tk_kp_step; exact HC].
  Qed.

  (* a typed value of a field whose kind is a carried one: what step_sem and job_sem need of script, environments, dependencies *)
  Theorem carried_vp : forall fl x, tv G fl x -> kind_carried (f_kind fl) = true -> VP fl x.
  Proof. intros fl x Ht Hk. exact (tv_vp _ (proj2 (carried_all (mval_depth x))) fl x (le_n _) Hk Ht). Qed.
End Carried.
