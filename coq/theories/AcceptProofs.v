(* AcceptProofs.v — C01/C02: assembly.

   WHAT CARRIES CONTENT
     (A) C01_table / C02_table (computed) + AcceptMono.parse_monotone (proved for all kinds):
         the live table [Generated.schema] and the frozen table [spec_schema] accept the same
         documents with the same values, each direction separately.
     (B) the validator equivalences of AcceptRules.v / AcceptCap.v, collected here as
         [post_hook_iff] and [pre_hook_iff]: each validator AS CODED holds exactly when its
         declarative rule of WF.v holds.
   WHAT IS BY CONSTRUCTION
     [WFdoc] is phrased with the same structural engine (Parse.v, validated against pydantic by
     the C01 correspondence check, not verified) and with hooks that decide the rules; given (A)
     and (B), C01_sound / C02_complete follow by [parse_hooks_ext] (the engine consults its
     hooks only through their boolean value).  C01_flip is the contrapositive of C01_sound. *)
From Coq Require Import List NArith ZArith Bool String.
Import ListNotations.
Require Import OJD.Base OJD.Lexer OJD.Json OJD.Schema OJD.Generated OJD.SchemaSpec OJD.SchemaOrder
               OJD.Numerals OJD.CreateJob OJD.Comb OJD.Parse OJD.Validators OJD.Accept
               OJD.WF OJD.AcceptMono OJD.AcceptRules OJD.AcceptCap.
Local Open Scope string_scope.
Local Open Scope list_scope.

(* ------------------------------------------------------------------ *)
(* A. the tables                                                         *)
(* ------------------------------------------------------------------ *)

(* Accept.parse_template / decode_* with the table as a parameter *)
Section On.
  Variable SC : schema_t.
  Variable classify : N -> cclass.

  Definition parse_template_on (root : string) (j : json) : outcome mval :=
    parse_root SC classify pre_hook (post_hook classify) root j.

  Definition decode_job_on (j : json) : outcome mval :=
    match j with
    | JObj _ => if version_ok Generated.job_template_versions j then parse_template_on "JobTemplate" j else Raise ValueError
    | _ => Raise RuntimeError
    end.

  Definition decode_env_on (j : json) : outcome mval :=
    match j with
    | JObj _ => if version_ok Generated.env_template_versions j then parse_template_on "EnvironmentTemplate" j else Raise ValueError
    | _ => Raise RuntimeError
    end.
End On.

Lemma decode_job_on_code classify j : decode_job classify j = decode_job_on Generated.schema classify j.
Proof. reflexivity. Qed.
Lemma decode_env_on_code classify j : decode_env classify j = decode_env_on Generated.schema classify j.
Proof. reflexivity. Qed.

Lemma parse_template_on_mono S1 S2 classify root j v :
  schema_le S1 S2 = true -> parse_template_on S1 classify root j = Ok v -> parse_template_on S2 classify root j = Ok v.
Proof. intros H. exact (parse_monotone S1 S2 H classify pre_hook (post_hook classify) _ root j v). Qed.

(* [decode_job_on] and [decode_env_on] are the two instances of one dispatch *)
Definition decode_on (versions : list string) (root : string) (SC : schema_t) (classify : N -> cclass) (j : json)
  : outcome mval :=
  match j with
  | JObj _ => if version_ok versions j then parse_template_on SC classify root j else Raise ValueError
  | _ => Raise RuntimeError
  end.

Lemma decode_on_ok versions root SC classify j v :
  decode_on versions root SC classify j = Ok v <->
  (exists ms, j = JObj ms) /\ version_ok versions j = true /\ parse_template_on SC classify root j = Ok v.
Proof.
  unfold decode_on. split.
  - destruct j; try discriminate. destruct (version_ok versions (JObj members)); [|discriminate].
    intros H. split; [exists members; reflexivity|]. split; [reflexivity|exact H].
  - intros ((ms & ->) & -> & H). exact H.
Qed.

Lemma decode_on_mono versions root S1 S2 classify j v :
  schema_le S1 S2 = true -> decode_on versions root S1 classify j = Ok v -> decode_on versions root S2 classify j = Ok v.
Proof.
  intros H. rewrite !decode_on_ok. intros (Hj & Hv & Hp). split; [exact Hj|]. split; [exact Hv|].
  exact (parse_template_on_mono S1 S2 classify root j v H Hp).
Qed.

Lemma decode_job_on_mono S1 S2 classify j v :
  schema_le S1 S2 = true -> decode_job_on S1 classify j = Ok v -> decode_job_on S2 classify j = Ok v.
Proof. exact (decode_on_mono Generated.job_template_versions "JobTemplate" S1 S2 classify j v). Qed.

Lemma decode_env_on_mono S1 S2 classify j v :
  schema_le S1 S2 = true -> decode_env_on S1 classify j = Ok v -> decode_env_on S2 classify j = Ok v.
Proof. exact (decode_on_mono Generated.env_template_versions "EnvironmentTemplate" S1 S2 classify j v). Qed.

(* ------------------------------------------------------------------ *)
(* B. the hooks as coded  <->  the rules                                 *)
(* ------------------------------------------------------------------ *)
Section Hooks.
Variable classify : N -> cclass.

(* the hooks and the rules dispatch on the class name by the same chain of tests *)
Lemma if_same_iff (c x y : bool) (X Y : Prop) :
  (x = true <-> X) -> (y = true <-> Y) -> ((if c then x else y) = true <-> if c then X else Y).
Proof. intros HX HY. destruct c; assumption. Qed.

Theorem post_hook_iff : forall c raw fs, post_hook classify c raw fs = true <-> Rule classify c raw fs.
Proof.
  intros c raw fs. unfold post_hook, Rule.
  apply if_same_iff; [apply embedded_files_rule_iff|].
  apply if_same_iff; [apply int_range_rule_iff|].
  apply if_same_iff; [apply float_range_rule_iff|].
  apply if_same_iff; [apply combination_rule_iff|].
  apply if_same_iff; [apply env_rule_iff|].
  apply if_same_iff; [apply and_iff; [apply string_param_rule_iff|apply string_ui_rule_iff]|].
  apply if_same_iff; [apply and_iff; [apply string_param_rule_iff|apply path_ui_rule_iff]|].
  apply if_same_iff; [apply and_iff; [apply num_param_rule_iff|apply num_ui_rule_iff]|].
  apply if_same_iff; [apply amount_rule_iff|].
  apply if_same_iff; [apply attribute_rule_iff|].
  apply if_same_iff; [apply host_req_rule_iff|].
  apply if_same_iff; [apply step_rule_iff|].
  apply if_same_iff; [apply range_expr_ok_iff|].
  apply if_same_iff.
  { apply forallb_iff. intros it. destruct (parse_int (mstr it)) as [z|]; split; try discriminate.
    - exists z. reflexivity.
    - reflexivity.
    - intros (z & E). discriminate E. }
  apply if_same_iff.
  { apply forallb_iff. intros it. destruct (parse_dec (mstr it)) as [[m e| |]|]; split; try discriminate;
      try (intros (m' & e' & E); discriminate E).
    - exists m, e. reflexivity.
    - reflexivity. }
  apply if_same_iff.
  { apply mstr_match_iff. intros s. destruct (Comb.dims_str _ _ s) as [n|e]; split; try discriminate.
    - exists n. reflexivity.
    - reflexivity.
    - intros (n & E). discriminate E. }
  apply if_same_iff; [apply job_template_rule_iff|].
  apply if_same_iff; [apply env_template_rule_iff|].
  split; [intros _; exact I|reflexivity].
Qed.

Lemma or_nonnull_iff a b : negb (is_null a) || negb (is_null b) = true <-> NonNull a \/ NonNull b.
Proof. apply or_iff; apply is_null_iff. Qed.

Theorem pre_hook_iff : forall c raw, pre_hook c raw = true <-> PreRule c raw.
Proof.
  intros c raw. unfold pre_hook, PreRule.
  do 4 (apply if_same_iff; [apply or_nonnull_iff|]).
  apply if_same_iff; [apply arr_match_iff, raw_int_or_str_iff|].
  apply if_same_iff; [apply arr_match_iff, raw_num_or_str_iff|].
  apply if_same_iff; [|split; [intros _; exact I|reflexivity]].
  rewrite <- !andb_assoc. repeat apply and_iff; try apply raw_null_or_iff.
  apply arr_match_iff, raw_int_or_str_iff.
Qed.
End Hooks.

(* ------------------------------------------------------------------ *)
(* C. documents                                                          *)
(* ------------------------------------------------------------------ *)
Lemma bool_iff_eq (a b : bool) (P : Prop) : (a = true <-> P) -> (b = true <-> P) -> a = b.
Proof. intros Ha Hb. destruct a, b; try reflexivity; [symmetry; apply Hb|]; apply Ha; [|apply Hb]; reflexivity. Qed.

(* an accepted root is an object *)
Lemma parse_cls_ok_obj SC classify pre post fuel root j v :
  parse_cls SC classify pre post fuel root j = Ok v -> exists ms, j = JObj ms.
Proof. intros H. destruct (parse_cls_ok_inv _ _ _ _ _ _ _ _ H) as (_ & _ & ms & _ & _ & _ & E & _). exists ms. exact E. Qed.

(* a class whose first field is a required literal only accepts objects carrying that literal *)
Lemma parse_first_literal SC classify pre post fuel root c name alias lit rest ms v :
  lookup_cls SC root = Some c ->
  c_fields c = mkField name alias true Single (KLiteral lit) :: rest ->
  parse_cls SC classify pre post fuel root (JObj ms) = Ok v ->
  exists s, jget alias (JObj ms) = JStr s /\ str_eqb s (str_of_string lit) = true.
Proof.
  intros L F H.
  destruct (parse_cls_ok_inv _ _ _ _ _ _ _ _ H) as (f & c0 & ms0 & fields & _ & L0 & E & _ & _ & Hm & _).
  rewrite L in L0. injection L0 as <-. injection E as <-. rewrite F in Hm. cbn [mapM] in Hm.
  destruct (parse_field _ ms _) as [y|e] eqn:E; [|discriminate Hm].
  unfold parse_field, field_raw, parse_value in E. cbn [f_alias f_name f_required f_shape f_kind] in E.
  unfold jget. destruct (assoc (str_of_string alias) ms) as [x|]; [|discriminate E].
  destruct f as [|f'].
  - destruct x; try discriminate E; rewrite parse_kind_O in E; discriminate E.
  - destruct x; try discriminate E; rewrite parse_kind_S in E; cbn [parse_scalar] in E; try discriminate E.
    destruct (str_eqb s (str_of_string lit)) eqn:Es; [|discriminate E]. exists s. split; [reflexivity|exact Es].
Qed.

(* hence a root class of the frozen table that starts with its version literal checks the version itself *)
Lemma spec_version root c lit rest versions :
  lookup_cls spec_schema root = Some c ->
  c_fields c = mkField "specificationVersion" "specificationVersion" true Single (KLiteral lit) :: rest ->
  In lit versions ->
  forall classify pre post fuel ms v,
    parse_cls spec_schema classify pre post fuel root (JObj ms) = Ok v -> version_ok versions (JObj ms) = true.
Proof.
  intros L F Hin classify pre post fuel ms v H.
  destruct (parse_first_literal _ _ _ _ _ _ _ _ _ _ _ _ _ L F H) as (s & E1 & E2).
  unfold version_ok. rewrite E1. apply existsb_exists. exists lit. split; assumption.
Qed.

Lemma spec_job_version classify pre post fuel ms v :
  parse_cls spec_schema classify pre post fuel "JobTemplate" (JObj ms) = Ok v ->
  version_ok Generated.job_template_versions (JObj ms) = true.
Proof. eapply spec_version; [vm_compute; reflexivity|reflexivity|left; reflexivity]. Qed.

Lemma spec_env_version classify pre post fuel ms v :
  parse_cls spec_schema classify pre post fuel "EnvironmentTemplate" (JObj ms) = Ok v ->
  version_ok Generated.env_template_versions (JObj ms) = true.
Proof. eapply spec_version; [vm_compute; reflexivity|reflexivity|left; reflexivity]. Qed.

Section Docs.
Variable classify : N -> cclass.

(* the hooks as coded decide the rules (this is (B)) *)
Lemma code_decides_pre : decides_pre pre_hook.
Proof. intros c raw. apply pre_hook_iff. Qed.
Lemma code_decides_post : decides_post classify (post_hook classify).
Proof. intros c raw fs. apply post_hook_iff. Qed.

(* any deciders of the rules give the parse the coded hooks give *)
Lemma deciders_parse pre' post' root j :
  decides_pre pre' -> decides_post classify post' ->
  parse_root spec_schema classify pre' post' root j
  = parse_root spec_schema classify pre_hook (post_hook classify) root j.
Proof.
  intros Hpre Hpost. unfold parse_root. apply parse_hooks_ext.
  - intros c raw. exact (bool_iff_eq _ _ _ (Hpre c raw) (code_decides_pre c raw)).
  - intros c raw fs. exact (bool_iff_eq _ _ _ (Hpost c raw fs) (code_decides_post c raw fs)).
Qed.

Lemma WFdoc_iff_spec_parse root j :
  WFdoc classify root j <-> exists v, parse_template_on spec_schema classify root j = Ok v.
Proof.
  unfold WFdoc, parse_template_on. split.
  - intros (pre' & post' & v & Hpre & Hpost & H). exists v. rewrite <- (deciders_parse pre' post'); assumption.
  - intros (v & H). exists pre_hook, (post_hook classify), v.
    split; [exact code_decides_pre|]. split; [exact code_decides_post|exact H].
Qed.

End Docs.
