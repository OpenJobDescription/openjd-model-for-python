(* UsableSpace.v — a job-side parameter space of the right shape, all of whose nodes are accepted by
   their own classes, is usable:  [space_shape] + [node_accepted] for every subnode  ==>  [usable_space].

   Ingredients: UsableParse.v (what acceptance of the StepParameterSpace node and of the range-expression
   nodes says), C13 (a parsed range expression has elen = number of values >= 1), C14 (a parsed
   combination is canonical; the accounting check = a permutation of the declared names), UsableTree.v
   (the constructor returns a C07-valid tree) and C07 (a valid tree iterates). *)
From Coq Require Import List NArith ZArith Bool String Lia Permutation.
Import ListNotations.
Require Import OJD.Base OJD.Lexer OJD.Schema OJD.NumPrint OJD.CreateJob OJD.Validators OJD.RangeExpr
               OJD.RangeExprProofs OJD.Comb OJD.CombSpec OJD.CombProofs OJD.ParamSpace OJD.ParamSpaceSpec
               OJD.ParamSpaceProofs OJD.UsableGlue OJD.UsableSpec OJD.UsableTree OJD.UsableShape
               OJD.UsableParse.
Local Open Scope string_scope.
Local Open Scope list_scope.

Lemma mk_expr_elen_pos : forall rs e, mk_expr false rs = Ok e -> (0 < elen e)%Z.
Proof.
  intros rs e H. unfold mk_expr in H. destruct (sort_ranges rs) as [|f r]; [discriminate H|].
  destruct (merge_loop false [f] r) as [m|x]; cbn [bind] in H; [|discriminate H].
  destruct (last (cum_lengths 0 m) 0 <=? 0)%Z eqn:E; [discriminate H|].
  destruct (no_overlap m); [|discriminate H]. injection H as <-. cbn [elen]. lia.
Qed.

Lemma mapM_Forall2_ex : forall (A B : Type) (f : A -> outcome B) (R : A -> B -> Prop) l,
  (forall x, In x l -> exists y, f x = Ok y /\ R x y) ->
  exists ys, mapM f l = Ok ys /\ Forall2 R l ys.
Proof.
  intros A B f R. induction l as [|a l IH]; intros H.
  - exists []. split; [reflexivity|constructor].
  - destruct (H a (or_introl eq_refl)) as [y [Hy Ry]].
    destruct (IH (fun x Hx => H x (or_intror Hx))) as [ys [Hys HF]].
    exists (y :: ys). split; [cbn [mapM]; rewrite Hy; cbn [bind]; rewrite Hys; reflexivity|constructor; assumption].
Qed.

Section Space.
  Variable classify : N -> cclass.

  Lemma read_items_mstr : forall l, Forall is_mstr l -> read_items l = Ok (map mstr l).
  Proof.
    intros l H. unfold read_items. induction H as [|x l [s ->] _ IH]; [reflexivity|].
    cbn [mapM bind map mstr]. rewrite IH. reflexivity.
  Qed.

  (* a range string that the validator accepts: the glue expands it to elen >= 1 printed values *)
  Lemma read_range_expr : forall rs, range_expr_ok classify rs = true ->
    exists e, RangeExpr.from_str false false classify rs = Ok e /\ (elen e <? 2 ^ 63)%Z = true /\
              read_range classify (MStr rs) = Ok (map print_Z (elems e)) /\
              elems e <> [] /\ Z.to_N (elen e) = N.of_nat (List.length (map print_Z (elems e))).
  Proof.
    intros rs H. unfold range_expr_ok in H.
    destruct (RangeExpr.from_str false false classify rs) as [e|x] eqn:Ef; [|discriminate H].
    exists e. split; [reflexivity|]. split; [exact H|]. cbn [read_range]. rewrite Ef. cbn [bind]. rewrite H.
    split; [reflexivity|].
    assert (HI : IsExpr e).
    { unfold RangeExpr.from_str in Ef. destruct (lex_for classify range_kinds rs) as [ts|x]; cbn [bind] in Ef; [|discriminate Ef].
      exact (parse_tokens_IsExpr ts e Ef). }
    pose proof (RangeExprProofs.len_correct e HI) as Hlen.
    assert (Hpos : (0 < elen e)%Z) by (destruct HI as [rs0 [_ Hm]]; exact (mk_expr_elen_pos rs0 e Hm)).
    split.
    - intros E. rewrite E in Hlen. cbn [List.length] in Hlen. lia.
    - rewrite map_length, Hlen. lia.
  Qed.

  (* one entry of taskParameterDefinitions *)
  Definition param_rel (kv : str * mval) (p : param) : Prop :=
    pname p = fst kv /\ snd p <> [] /\ sps_entry classify kv = [(fst kv, N.of_nat (List.length (snd p)))].

  Lemma read_param_ok : forall kv,
    def_shape is_mstr (snd kv) -> node_accepted classify (snd kv) ->
    exists p, read_param classify kv = Ok p /\ param_rel kv p.
  Proof.
    intros [k d] Hd Ha. cbn [snd] in Hd, Ha. destruct Hd as [ty rs Hty|c ty items Hc Hty Hne Hit].
    - apply expr_def_node in Ha. destruct (read_range_expr rs Ha) as [e [Ef [Hlt [Hr [Hne Hl]]]]].
      destruct (pty_of_str ty) as [pt|] eqn:Ept; [|contradiction].
      exists (k, pt, map print_Z (elems e)). split.
      + unfold read_param. cbn [snd fst mfield lookup_s String.eqb Ascii.eqb Bool.eqb]. rewrite Ept, Hr. reflexivity.
      + unfold param_rel, pname. cbn [fst snd]. split; [reflexivity|]. split.
        * intros E. apply map_eq_nil in E. exact (Hne E).
        * unfold sps_entry. cbn [fget mfield lookup_s model_fields snd fst String.eqb Ascii.eqb Bool.eqb].
          rewrite Ef, Hlt, Hl. reflexivity.
    - destruct (pty_of_str ty) as [pt|] eqn:Ept; [|contradiction].
      exists (k, pt, map mstr items). split.
      + unfold read_param. cbn [snd fst mfield lookup_s String.eqb Ascii.eqb Bool.eqb]. rewrite Ept.
        cbn [read_range]. rewrite (read_items_mstr items Hit). reflexivity.
      + unfold param_rel, pname. cbn [fst snd]. split; [reflexivity|]. split.
        * intros E. apply map_eq_nil in E. exact (Hne E).
        * unfold sps_entry. cbn [fget mfield lookup_s model_fields snd fst String.eqb Ascii.eqb Bool.eqb].
          rewrite map_length. reflexivity.
  Qed.

  Lemma params_of_rel : forall kys ps, Forall2 param_rel kys ps ->
    map pname ps = map fst kys /\
    (forall p, In p ps -> snd p <> []) /\
    Forall2 (fun a p => fst a = pname p /\ snd a = N.of_nat (List.length (snd p))) (flat_map (sps_entry classify) kys) ps.
  Proof.
    intros kys ps H. induction H as [|kv p kys ps [Hn [Hne He]] _ [IH1 [IH2 IH3]]].
    - split; [reflexivity|]. split; [intros p []|constructor].
    - split; [cbn [map]; rewrite Hn, IH1; reflexivity|]. split.
      + intros q [<-|Hq]; [exact Hne|exact (IH2 q Hq)].
      + cbn [flat_map]. rewrite He. cbn [app]. constructor; [|exact IH3]. cbn [fst snd]. split; [symmetry; exact Hn|reflexivity].
  Qed.

  Theorem shape_usable : forall psn,
    space_shape classify is_mstr psn ->
    (forall w, subnode psn w -> node_accepted classify w) ->
    usable_space classify psn.
  Proof.
    intros psn [kys [cb [-> [Hne [Hnd [HD Hcb]]]]]] Hacc.
    set (psn := MModel "StepParameterSpace" [("taskParameterDefinitions", MDict kys); ("combination", cb)]) in *.
    (* the definitions *)
    destruct (mapM_Forall2_ex _ _ (read_param classify) param_rel kys) as [ps [Hps HF]].
    { intros kv Hkv. rewrite Forall_forall in HD. apply read_param_ok; [exact (HD kv Hkv)|].
      apply Hacc. unfold psn.
      apply (Sub_model _ _ ("taskParameterDefinitions", MDict kys)); [left; reflexivity|].
      cbn [snd]. apply (Sub_dict _ kv); [exact Hkv|apply Sub_refl]. }
    destruct (params_of_rel kys ps HF) as [Hnames [Hvals Hal]].
    assert (Hpne : ps <> []).
    { intros ->. inversion HF. subst kys. apply Hne. reflexivity. }
    assert (Hpnd : NoDup (map pname ps)) by (rewrite Hnames; exact Hnd).
    (* the combination *)
    assert (Hcomb : exists comb : option Comb.ctree,
               read_comb classify cb = Ok (option_map conv comb) /\
               forall c, comb = Some c ->
                 Canonical c /\ Permutation (collect_ids c) (map pname ps) /\
                 exists n, dims (lookup_len (flat_map (sps_entry classify) kys)) c = Ok n).
    { destruct Hcb as [Ecb|[s [ct [Ecb [Hparse Hacct]]]]].
      - exists None. rewrite Ecb. split; [reflexivity|]. intros c E. discriminate E.
      - exists (Some ct). rewrite Ecb. cbn [read_comb]. rewrite Hparse. split; [reflexivity|].
        intros c E. injection E as <-.
        assert (Hp : exists ts, Comb.parse ts = Ok ct).
        { unfold Comb.parse_str in Hparse. destruct (lex_for classify comb_kinds s) as [ts|x]; cbn [bind] in Hparse; [|discriminate Hparse].
          exists ts. exact Hparse. }
        destruct Hp as [ts Hts]. split; [exact (proj1 (parse_print_parse ts ct Hts))|]. split.
        + rewrite Hnames. apply (accounting_permutation (map fst kys) (collect_ids ct) Hnd). exact Hacct.
        + assert (Ha : node_accepted classify psn) by (apply Hacc; apply Sub_refl).
          unfold psn in Ha. rewrite Ecb in Ha. destruct (space_node classify kys s HD Ha) as [n Hn].
          unfold dims_str in Hn. rewrite Hparse in Hn. cbn [bind] in Hn. exists n. exact Hn. }
    destruct Hcomb as [comb [Hrc Hc]].
    destruct (space_built ps comb (flat_map (sps_entry classify) kys) Hpne Hpnd Hvals Hal Hc) as [t [Hinit Hv]].
    exists (Some (ps, option_map conv comb)), (TopNode t). split.
    - unfold psn. cbn [read_space mfield lookup_s String.eqb Ascii.eqb Bool.eqb]. rewrite Hps. cbn [bind].
      rewrite Hrc. reflexivity.
    - split; [exact Hinit|]. split; [exact Hv|]. apply ok_iterates. exact Hv.
  Qed.

  (* a step without a parameter space *)
  Theorem none_usable : usable_space classify MNone.
  Proof.
    exists None, (TopList none_denote). split; [reflexivity|]. split; [reflexivity|]. split; [reflexivity|].
    apply ok_iterates. reflexivity.
  Qed.
End Space.
