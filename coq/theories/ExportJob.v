(* ExportJob.v — C17, root = "Job" (and every class a Job is made of): decode (export x) = x.

   Two things put these classes outside ExportProofs.roundtrip_generic:
   (i)  StepParameterSpace.taskParameterDefinitions is an ORDERED UNION OF TWO MODEL CLASSES
        (RangeListTaskParameterDefinition | RangeExpressionTaskParameterDefinition).  The export of a
        range-expression definition has a STRING under "range"; the first alternative wants a list there and
        rejects it with a validation error, so the re-parse falls through to the same (second) alternative
        ([rl_rejects_re] and the union case of [rt_job_ind]).
   (ii) the pre-validator of the job-side AmountRequirement / AttributeRequirement re-parses the raw object as
        the TEMPLATE class with the caller's fuel ([pre_full]).  The job-side and the template-side parse of one
        object have the same export ([amount_same_export], [attribute_same_export]), the template classes round
        trip (ExportProofs.roundtrip_inner), and the fuel computed from the exported root is enough for every
        sub-document ([tmpl_fuel_change]).
   The induction is the one of ExportProofs.roundtrip_generic and rests on the same step below a class
   (ExportProofs.cls_body_rt), here with different pre-validators on the source and the re-export side and a
   depth bound on the exported document.  Lemmas only. *)
From Coq Require Import List NArith ZArith Bool String Lia Arith.
Import ListNotations.
Require Import OJD.Base OJD.Lexer OJD.Json OJD.Schema OJD.Generated OJD.Charsets OJD.Numerals OJD.NumPrint
               OJD.CreateJob OJD.Parse OJD.ScopeWalk OJD.ScopeSpec OJD.Validators OJD.Accept OJD.Export OJD.NumRoundtrip
               OJD.ExportProofs OJD.ExportView.
Local Open Scope string_scope.
Local Open Scope list_scope.

Notation G := Generated.schema.
Notation EXP := (exp Generated.schema).

Definition RL : string := "RangeListTaskParameterDefinition".
Definition RE : string := "RangeExpressionTaskParameterDefinition".
Definition tpd_union : kind := KUnion [UScalar (KModel RL); UScalar (KModel RE)].

Definition is_tpd_union (k : kind) : bool :=
  match k with
  | KUnion [UScalar (KModel a); UScalar (KModel b)] => String.eqb a RL && String.eqb b RE
  | _ => false
  end.

Lemma is_tpd_union_eq : forall k, is_tpd_union k = true -> k = tpd_union.
Proof.
  intros k H. destruct k as [| | | | | | | | | |alts]; try discriminate.
  destruct alts as [|[k1|] [|[k2|] [|]]]; try discriminate; try (destruct k1; discriminate);
    try (destruct k1; try discriminate; destruct k2; discriminate).
  destruct k1; try discriminate. destruct k2; try discriminate.
  cbn [is_tpd_union] in H. apply andb_true_iff in H. destruct H as [H1 H2].
  apply String.eqb_eq in H1. apply String.eqb_eq in H2. subst. reflexivity.
Qed.

Definition job_classes : list string :=
  ["Job"; "Step"; "StepScript"; "StepActions"; "Action"; "CancelationMethodNotifyThenTerminate";
   "CancelationMethodTerminate"; "EmbeddedFileText"; "Environment"; "EnvironmentScript"; "EnvironmentActions";
   "StepParameterSpace"; "RangeListTaskParameterDefinition"; "RangeExpressionTaskParameterDefinition";
   "HostRequirements"; "AmountRequirement"; "AttributeRequirement"; "StepDependency"; "JobParameter"].

(* kinds of their fields: scalars, their own classes, discriminated unions over them with a re-readable key,
   and the one ordered union of (i) *)
Definition jk_ok (k : kind) : bool :=
  match k with
  | KModel c => mem_s c job_classes
  | KDisc key mapping => forallb (fun tc => mem_s (snd tc) job_classes && disc_field_ok G key (snd tc)) mapping
  | KUnion _ => is_tpd_union k
  | _ => true
  end.

Definition jcls_ok (c : string) : bool :=
  match lookup_cls G c with
  | Some k => nodup_sb (map f_name (c_fields k)) && nodup_sb (map f_alias (c_fields k))
              && forallb (fun fl => jk_ok (f_kind fl)
                                    && match f_shape fl with DictOf kk => scalar_kind kk | _ => true end)
                         (c_fields k)
  | None => false
  end.

Lemma job_classes_ok : forallb jcls_ok job_classes = true.
Proof. vm_compute. reflexivity. Qed.

Lemma jcls_ok_of : forall c k, In c job_classes -> lookup_cls G c = Some k ->
  NoDup (map f_name (c_fields k)) /\ NoDup (map f_alias (c_fields k))
  /\ forall fl, In fl (c_fields k) ->
       jk_ok (f_kind fl) = true /\ forall kk, f_shape fl = DictOf kk -> scalar_kind kk = true.
Proof.
  intros c k Hc Hl. pose proof job_classes_ok as H. rewrite forallb_forall in H. specialize (H c Hc).
  unfold jcls_ok in H. rewrite Hl in H. apply andb_true_iff in H. destruct H as [H12 H3].
  apply andb_true_iff in H12. destruct H12 as [H1 H2].
  split; [apply nodup_sb_NoDup; exact H1|]. split; [apply nodup_sb_NoDup; exact H2|].
  rewrite forallb_forall in H3. intros fl Hfl. specialize (H3 fl Hfl). apply andb_true_iff in H3.
  destruct H3 as [Ha Hb]. split; [exact Ha|]. intros kk Hs. rewrite Hs in Hb. exact Hb.
Qed.

Lemma job_not_root : forall c, In c job_classes -> c <> "JobTemplate" /\ c <> "EnvironmentTemplate".
Proof. intros c Hc. apply ListLib.mem_s_In in Hc. split; intros ->; vm_compute in Hc; discriminate Hc. Qed.

Lemma F2_2 : forall (A B : Type) (R : A -> B -> Prop) a b l,
  Forall2 R [a; b] l -> exists x y, l = [x; y] /\ R a x /\ R b y.
Proof.
  intros A B R a b l H. inversion H as [|? x ? l1 Ha H1]; subst. inversion H1 as [|? y ? l2 Hb H2]; subst.
  inversion H2; subst. exists x, y. auto.
Qed.

Section Kinds.
  Variable classify : N -> cclass.

  Lemma scalar_det : forall pre post pre' post' a b k w, scalar_kind k = true ->
    parse_kind G classify pre post (S a) k w = parse_kind G classify pre' post' (S b) k w.
  Proof. intros. rewrite !parse_kind_Sb. destruct k; try discriminate; reflexivity. Qed.

  Lemma scalar_step : forall pre1 pre2 post f k v x, scalar_kind k = true ->
    parse_kind G classify pre1 post f k v = Ok x -> parse_kind G classify pre2 post f k (EXP x) = Ok x.
  Proof.
    intros pre1 pre2 post f k v x Hs H. destruct f as [|f]; [discriminate|].
    rewrite parse_kind_Sb, kind_body_scalar in H by exact Hs. rewrite parse_kind_Sb, kind_body_scalar by exact Hs.
    eapply scalar_body_rt, H.
  Qed.

  Lemma pc_disc2 : forall pre post f key c ms s x,
    disc_field_ok G key c = true -> assoc $key ms = Some (JStr s) ->
    parse_cls G classify pre post f c (JObj ms) = Ok x ->
    exists ms', EXP x = JObj ms' /\ assoc $key ms' = Some (JStr s).
  Proof.
    intros pre post f key c ms s x Hd Ha H.
    destruct (parse_cls_inv _ _ _ _ _ _ _ _ H) as [f' [k [ms0 [vals [_ [Hl _]]]]]].
    destruct (generated_names_distinct c k Hl) as [Hn1 Hn2]. eapply pc_disc; eassumption.
  Qed.

  (* (i): the export of a range-expression definition is rejected, with a validation error, by the first
     alternative of the union *)
  Lemma rl_rejects_re : forall pre1 pre2 post g v x,
    parse_cls G classify pre1 post g RE v = Ok x ->
    exists e, parse_cls G classify pre2 post g RL (EXP x) = Raise e /\ e <> RuntimeError.
  Proof.
    intros pre1 pre2 post g v x H.
    destruct (parse_cls_inv _ _ _ _ _ _ _ _ H) as [g1 [k [ms [vals [Eg [Hl [Ev [_ [Hf [Ex _]]]]]]]]]].
    pose proof Hl as Hc. vm_compute in Hc. inversion Hc as [Hk]. subst k. clear Hc.
    cbn [c_fields] in Hf. destruct (F2_2 _ _ _ _ _ _ Hf) as [y0 [y1 [Evs [A0 A1]]]]. subst vals.
    (* type: a string, read with positive fuel *)
    assert (B0 : exists g2 t, g1 = S g2 /\ y0 = MStr t).
    { destruct (field_value_cases _ _ _ _ A0) as [[_ [_ Erq]]|[_ Hsv]]; [discriminate|].
      unfold shape_value in Hsv. cbn [f_shape f_kind] in Hsv. destruct g1 as [|g2]; [discriminate|].
      rewrite parse_kind_Sb in Hsv. cbn [kind_body scalar_body] in Hsv. unfold reject in Hsv.
      destruct (raw_of _ ms); try discriminate. destruct (existsb _ _); [|discriminate]. inversion Hsv. eauto. }
    destruct B0 as [g2 [t [Eg1 Ey0]]]. subst g1 y0.
    assert (B1 : exists s, y1 = MFmt s).
    { destruct (field_value_cases _ _ _ _ A1) as [[_ [_ Erq]]|[_ Hsv]]; [discriminate|].
      unfold shape_value in Hsv. cbn [f_shape f_kind] in Hsv.
      rewrite parse_kind_Sb in Hsv. cbn [kind_body scalar_body] in Hsv. unfold reject in Hsv.
      destruct (raw_of _ ms); try discriminate. destruct (_ && _); [|discriminate]. inversion Hsv. eauto. }
    destruct B1 as [s Ey1]. subst y1.
    assert (Ee : EXP x = JObj [($"type", JStr t); ($"range", JStr s)]) by (subst x; reflexivity).
    rewrite Ee. subst g. rewrite parse_cls_Sb. unfold cls_body.
    destruct (lookup_cls G RL) as [kR|] eqn:HlR; [|vm_compute in HlR; discriminate].
    vm_compute in HlR. inversion HlR as [HkR]. subst kR. clear HlR.
    destruct (negb (pre2 RL _)); [exists ValueError; split; [reflexivity|discriminate]|].
    destruct (negb (extra_ok _ _)); [exists ValueError; split; [reflexivity|discriminate]|].
    cbn [c_fields mapM]. unfold parse_field_b at 1.
    assert (Et : raw_of {| f_name := "type"; f_alias := "type"; f_required := true;
                           f_shape := Single; f_kind := KEnum ["INT"; "FLOAT"; "STRING"; "PATH"] |}
                        [($"type", JStr t); ($"range", JStr s)] = JStr t) by reflexivity.
    rewrite Et. unfold field_value at 1. unfold shape_value at 1. cbn [f_shape f_kind].
    rewrite parse_kind_Sb. cbn [kind_body scalar_body]. unfold reject at 1.
    destruct (existsb (fun m : string => str_eqb t $m) ["INT"; "FLOAT"; "STRING"; "PATH"]);
      [|exists ValueError; split; [reflexivity|discriminate]].
    cbn [bind]. unfold parse_field_b at 1.
    assert (Er : raw_of {| f_name := "range"; f_alias := "range"; f_required := true;
                           f_shape := ListOf None None; f_kind := KStr false (Some 0%N) (Some 1024%N) CS_any |}
                        [($"type", JStr t); ($"range", JStr s)] = JStr s) by reflexivity.
    rewrite Er. unfold field_value, shape_value. cbn [f_shape f_kind list_value bind].
    exists ValueError. split; [reflexivity|discriminate].
  Qed.
End Kinds.

Definition strs_only (raw : json) : Prop :=
  match raw with
  | JNull | JStr _ => True
  | JArr items => Forall (fun it => exists s, it = JStr s) items
  | _ => False
  end.

Lemma emit_ext2 : forall l l' : list (field * mval),
  Forall2 (fun p q => f_alias (fst p) = f_alias (fst q) /\ EXP (snd p) = EXP (snd q)) l l' ->
  emit EXP l = emit EXP l'.
Proof.
  intros l l' H. induction H as [|[fp yp] [fq yq] l l' [Ha He] _ IH]; [reflexivity|].
  unfold emit in *. cbn [flat_map fst snd] in *. rewrite IH. f_equal. rewrite Ha.
  destruct (mnone yp) eqn:Ep, (mnone yq) eqn:Eq.
  - destruct yp, yq; try discriminate. reflexivity.
  - exfalso. destruct yp; try discriminate. apply (exp_not_null G yq Eq). rewrite <- He. reflexivity.
  - exfalso. destruct yq; try discriminate. apply (exp_not_null G yp Ep). rewrite He. reflexivity.
  - destruct yp; try discriminate; destruct yq; try discriminate; rewrite He; reflexivity.
Qed.

Section Req.
  Variable classify : N -> cclass.
  Notation POST := (post_hook classify).
  Notation PCt := (parse_cls G classify pre_hook POST).

  Lemma pk_fmt_str : forall pre post g a b c d it z,
    parse_kind G classify pre post g (KFormat a b c d) it = Ok z -> exists s, it = JStr s.
  Proof.
    intros pre post g a b c d it z H. destruct g as [|g]; [discriminate|]. rewrite parse_kind_Sb in H.
    cbn [kind_body scalar_body] in H. unfold reject in H. destruct it; try discriminate. eauto.
  Qed.

  Lemma fmt_strs_only : forall pre post g fl raw z a b c d,
    f_kind fl = KFormat a b c d -> is_dictof (f_shape fl) = false ->
    field_value (parse_kind G classify pre post g) fl raw = Ok z -> strs_only raw.
  Proof.
    intros pre post g fl raw z a b c d Hk Hs H.
    destruct (field_value_cases _ _ _ _ H) as [[Er _]|[_ Hsv]]; [subst; exact I|].
    unfold shape_value in Hsv. rewrite Hk in Hsv. destruct (f_shape fl); try discriminate.
    - destruct (pk_fmt_str _ _ _ _ _ _ _ _ _ Hsv) as [s Es]. subst. exact I.
    - destruct (list_value_inv _ _ _ _ _ _ Hsv) as [items [ys [Er [_ HF]]]]. subst raw. cbn [strs_only].
      clear Hsv H. induction HF as [|it y l l' Hy _ IH]; [constructor|]. constructor; [|exact IH].
      eapply pk_fmt_str. exact Hy.
  Qed.

  Lemma str_image : forall pre post g fl raw y,
    str_kind (f_kind fl) = true -> is_dictof (f_shape fl) = false -> strs_only raw ->
    field_value (parse_kind G classify pre post g) fl raw = Ok y -> EXP y = raw.
  Proof.
    intros pre post g fl raw y Hk Hs Hr H.
    destruct (field_value_cases _ _ _ _ H) as [[Er [Ey _]]|[Er Hsv]]; [subst; reflexivity|].
    unfold shape_value in Hsv. destruct (f_shape fl); try discriminate.
    - destruct raw; try contradiction.
      + eapply pk_str; eassumption.
      + exfalso. destruct g as [|g]; [discriminate|]. rewrite parse_kind_Sb in Hsv.
        rewrite (kind_body_scalar _ _ _ _ _ (scalar_of_str _ Hk)) in Hsv.
        destruct (f_kind fl); try discriminate; cbn [scalar_body] in Hsv; discriminate.
    - destruct (list_value_inv _ _ _ _ _ _ Hsv) as [items [ys [Er' [Ey HF]]]]. subst raw y.
      rewrite exp_list. f_equal. cbn [strs_only] in Hr. clear Hsv Er H.
      induction HF as [|it z l l' Hz _ IH]; [reflexivity|]. inversion Hr as [|? ? [s Es] Hr']; subst.
      cbn [map]. rewrite (IH Hr'). rewrite (pk_str _ _ _ _ _ _ _ _ Hk Hz). reflexivity.
  Qed.

  (* a text field: format string on the template side, lax string on the job side *)
  Lemma same_str_export : forall pre post f g flJ flT r y z a b c d,
    exact_fld flT = true -> f_kind flT = KFormat a b c d ->
    str_kind (f_kind flJ) = true -> is_dictof (f_shape flJ) = false ->
    field_value (parse_kind G classify pre_hook POST g) flT r = Ok z ->
    field_value (parse_kind G classify pre post f) flJ r = Ok y ->
    EXP y = EXP z.
  Proof.
    intros pre post f g flJ flT r y z a b c d He Hk Hsj Hdj Hz Hy.
    rewrite (fv_exact _ _ _ _ _ _ _ He Hz).
    eapply str_image; try eassumption. eapply fmt_strs_only; try eassumption.
    unfold exact_fld in He. apply andb_true_iff in He. destruct He as [_ He]. destruct (f_shape flT); try discriminate; reflexivity.
  Qed.

  Lemma same_scalar_value : forall pre post f g flJ flT r y z,
    f_shape flJ = Single -> f_shape flT = Single -> f_kind flJ = f_kind flT -> scalar_kind (f_kind flT) = true ->
    field_value (parse_kind G classify pre_hook POST g) flT r = Ok z ->
    field_value (parse_kind G classify pre post f) flJ r = Ok y ->
    y = z.
  Proof.
    intros pre post f g flJ flT r y z Hsj Hst Hk Hs Hz Hy.
    destruct (field_value_cases _ _ _ _ Hz) as [[Er [Ez _]]|[Er Hzv]];
      destruct (field_value_cases _ _ _ _ Hy) as [[Er' [Ey _]]|[Er' Hyv]]; try contradiction; [congruence|].
    unfold shape_value in *. rewrite Hsj in Hyv. rewrite Hst in Hzv. rewrite Hk in Hyv.
    destruct f as [|f]; [discriminate|]. destruct g as [|g]; [discriminate|].
    rewrite (scalar_det classify pre post pre_hook POST f g _ _ Hs) in Hyv. congruence.
  Qed.

  (* two classes whose fields pair off, each pair read under one key and exported alike: one object parsed
     as either class exports to the same document *)
  Definition same_exp_fld pre post (flJ flT : field) : Prop :=
    f_alias flJ = f_alias flT
    /\ forall f g r y z, field_value (parse_kind G classify pre_hook POST g) flT r = Ok z ->
                         field_value (parse_kind G classify pre post f) flJ r = Ok y -> EXP y = EXP z.

  Lemma cls_same_export : forall pre post f g cJ cT kJ kT v x xt,
    lookup_cls G cJ = Some kJ -> lookup_cls G cT = Some kT ->
    Forall2 (same_exp_fld pre post) (c_fields kJ) (c_fields kT) ->
    parse_cls G classify pre post f cJ v = Ok x -> PCt g cT v = Ok xt -> EXP x = EXP xt.
  Proof.
    intros pre post f g cJ cT kJ kT v x xt HlJ HlT Hflds HJ HT.
    destruct (parse_cls_inv _ _ _ _ _ _ _ _ HJ) as [fJ [kJ' [msJ [valsJ [_ [HlJ' [EvJ [_ [HfJ [ExJ _]]]]]]]]]].
    destruct (parse_cls_inv _ _ _ _ _ _ _ _ HT) as [fT [kT' [msT [valsT [_ [HlT' [EvT [_ [HfT [ExT _]]]]]]]]]].
    rewrite HlJ in HlJ'. inversion HlJ'. subst kJ'. rewrite HlT in HlT'. inversion HlT'. subst kT'.
    destruct (generated_names_distinct _ _ HlJ) as [HnJ _]. destruct (generated_names_distinct _ _ HlT) as [HnT _].
    subst v. inversion EvT. subst msT x xt.
    rewrite (exp_model G _ _ valsJ HlJ HnJ) by (symmetry; eapply ListLib.Forall2_length; exact HfJ).
    rewrite (exp_model G _ _ valsT HlT HnT) by (symmetry; eapply ListLib.Forall2_length; exact HfT).
    f_equal. apply emit_ext2. unfold raw_of in HfJ, HfT. clear - Hflds HfJ HfT. revert valsJ valsT HfJ HfT.
    induction Hflds as [|flJ flT lJ lT [Ha He] _ IH]; intros valsJ valsT HfJ HfT;
      inversion HfJ as [|? y ? ? Hy HfJ']; inversion HfT as [|? z ? ? Hz HfT']; subst; cbn [combine]; constructor.
    - split; [exact Ha|]. cbn [fst snd]. rewrite Ha in Hy. exact (He _ _ _ _ _ Hz Hy).
    - apply IH; assumption.
  Qed.

  Lemma amount_same_export : forall pre post f g v x xt,
    parse_cls G classify pre post f "AmountRequirement" v = Ok x ->
    PCt g "AmountRequirementTemplate" v = Ok xt -> EXP x = EXP xt.
  Proof.
    intros pre post f g v x xt. eapply cls_same_export; [vm_compute; reflexivity|vm_compute; reflexivity|].
    repeat constructor; intros f0 g0 r y z Hz Hy.
    - eapply (same_str_export pre post); try eassumption; reflexivity.
    - f_equal. eapply (same_scalar_value pre post); try eassumption; reflexivity.
    - f_equal. eapply (same_scalar_value pre post); try eassumption; reflexivity.
  Qed.

  Lemma attribute_same_export : forall pre post f g v x xt,
    parse_cls G classify pre post f "AttributeRequirement" v = Ok x ->
    PCt g "AttributeRequirementTemplate" v = Ok xt -> EXP x = EXP xt.
  Proof.
    intros pre post f g v x xt. eapply cls_same_export; [vm_compute; reflexivity|vm_compute; reflexivity|].
    repeat constructor; intros f0 g0 r y z Hz Hy; (eapply (same_str_export pre post); try eassumption; reflexivity).
  Qed.

  Lemma tmpl_fuel_change : forall F F2 c d y,
    In c template_classes -> PCt F c d = Ok y -> parse_fuel d <= F2 -> PCt F2 c d = Ok y.
  Proof.
    intros F F2 c d y. apply fuel_change, template_schema_ok.
  Qed.

  (* the job-side pre-validator is the template-side parse of the same object: that parse has the same
     export, the template class round-trips, and the fuel does not matter *)
  Lemma tmpl_pre_stable : forall F F2 post f c tc v x,
    In tc inner_classes ->
    (forall F raw, pre_full classify F c raw = is_ok (PCt F tc raw)) ->
    (forall xt, PCt F tc v = Ok xt -> EXP x = EXP xt) ->
    parse_cls G classify (pre_full classify F) post f c v = Ok x ->
    parse_fuel (EXP x) <= F2 ->
    pre_full classify F2 c (EXP x) = true.
  Proof.
    intros F F2 post f c tc v x Hi Hpf Hsame H Hd.
    destruct (parse_cls_inv _ _ _ _ _ _ _ _ H) as [f' [k [ms [vals [_ [_ [_ [Hpre _]]]]]]]].
    rewrite Hpf in Hpre |- *. destruct (PCt F tc v) as [xt|] eqn:Et; [|discriminate Hpre].
    rewrite (Hsame xt eq_refl) in Hd |- *.
    pose proof (roundtrip_inner classify F _ _ _ Hi Et) as Hrt.
    rewrite (tmpl_fuel_change F F2 _ _ _ (inner_sub_template _ Hi) Hrt Hd). reflexivity.
  Qed.

  Lemma req_pre_stable : forall F F2 post f c tc v x,
    (c = "AmountRequirement" /\ tc = "AmountRequirementTemplate")
    \/ (c = "AttributeRequirement" /\ tc = "AttributeRequirementTemplate") ->
    parse_cls G classify (pre_full classify F) post f c v = Ok x ->
    parse_fuel (EXP x) <= F2 ->
    pre_full classify F2 c (EXP x) = true.
  Proof.
    intros F F2 post f c tc v x [[-> ->]|[-> ->]] H.
    - apply (tmpl_pre_stable F F2 post f _ "AmountRequirementTemplate" v); [apply ListLib.mem_s_In; vm_compute; reflexivity|exact (pre_full_amount classify)| |exact H].
      intros xt. exact (amount_same_export _ _ _ _ _ _ _ H).
    - apply (tmpl_pre_stable F F2 post f _ "AttributeRequirementTemplate" v); [apply ListLib.mem_s_In; vm_compute; reflexivity|exact (pre_full_attribute classify)| |exact H].
      intros xt. exact (attribute_same_export _ _ _ _ _ _ _ H).
  Qed.
End Req.

Section JobRT.
  Variable classify : N -> cclass.
  Notation POST := (post_hook classify).

  Section Ind.
    Variables F F2 D : nat.
    Hypothesis HD : 6 * D + 12 <= F2.
    Notation PK1 := (parse_kind G classify (pre_full classify F) POST).
    Notation PC1 := (parse_cls G classify (pre_full classify F) POST).
    Notation PK2 := (parse_kind G classify (pre_full classify F2) POST).
    Notation PC2 := (parse_cls G classify (pre_full classify F2) POST).

    Lemma hooks_job : forall f c ms flds,
      In c job_classes -> PC1 f c (JObj ms) = Ok (MModel c flds) -> json_depth (EXP (MModel c flds)) <= D ->
      pre_full classify F2 c (EXP (MModel c flds)) = true /\ POST c (EXP (MModel c flds)) flds = true.
    Proof.
      intros f c ms flds Hc H Hd. split.
      - assert (Hfu : parse_fuel (EXP (MModel c flds)) <= F2) by (unfold parse_fuel; lia).
        destruct (String.eqb c "AmountRequirement") eqn:E1.
        { apply String.eqb_eq in E1. subst c.
          eapply (req_pre_stable classify F F2 POST f _ "AmountRequirementTemplate"); [left; auto|exact H|exact Hfu]. }
        destruct (String.eqb c "AttributeRequirement") eqn:E2.
        { apply String.eqb_eq in E2. subst c.
          eapply (req_pre_stable classify F F2 POST f _ "AttributeRequirementTemplate"); [right; auto|exact H|exact Hfu]. }
        apply String.eqb_neq in E1. apply String.eqb_neq in E2.
        rewrite (pre_full_other classify F2 c _ E1 E2).
        eapply pre_hook_kept; [exact H|].
        destruct (parse_cls_inv _ _ _ _ _ _ _ _ H) as [f' [k [ms0 [vals [_ [_ [_ [Hp _]]]]]]]].
        rewrite (pre_full_other classify F c _ E1 E2) in Hp. exact Hp.
      - destruct (parse_cls_inv _ _ _ _ _ _ _ _ H) as [f' [k [ms0 [vals [_ [_ [Ev [_ [_ [Ex Hpo]]]]]]]]]].
        inversion Ex. subst flds. destruct (job_not_root c Hc) as [N1 N2].
        rewrite (KeyOrder.post_hook_raw_free classify c _ (JObj ms) _ N1 N2). exact Hpo.
    Qed.

    Theorem rt_job_ind : forall f,
      (forall k v x, jk_ok k = true -> PK1 f k v = Ok x -> json_depth (EXP x) <= D -> PK2 f k (EXP x) = Ok x)
      /\ (forall c v x, In c job_classes -> PC1 f c v = Ok x -> json_depth (EXP x) <= D -> PC2 f c (EXP x) = Ok x).
    Proof.
      induction f as [|f [IHk IHc]]; [split; intros; discriminate|]. split.
      - intros k v x Hk H Hd.
        destruct (scalar_kind k) eqn:Es; [eapply scalar_step; eassumption|].
        destruct k as [| | | | | | | |c|key mapping|alts]; try discriminate.
        + (* model *)
          rewrite parse_kind_Sb in *. cbn [kind_body jk_ok] in *. apply ListLib.mem_s_In in Hk. eapply IHc; eassumption.
        + (* discriminated union *)
          rewrite parse_kind_Sb in *. cbn [kind_body] in *.
          apply (disc_value_rt G job_classes D (PC1 f) (PC2 f)) with (v := v); try assumption.
          intros key0 c ms s x0 _. apply pc_disc2.
        + (* the ordered union of RangeList | RangeExpression *)
          cbn [jk_ok] in Hk. apply is_tpd_union_eq in Hk. unfold tpd_union in Hk. inversion Hk. subst alts. clear Hk.
          rewrite parse_kind_Sb in *. cbn [kind_body] in *.
          assert (HkL : jk_ok (KModel RL) = true) by reflexivity.
          assert (HkE : jk_ok (KModel RE) = true) by reflexivity.
          destruct (try_alts_two_ok _ _ _ _ _ H) as [E1|[_ H2]]; cbn [try_alts_b alt_value] in *.
          * rewrite (IHk _ _ _ HkL E1 Hd). reflexivity.
          * rewrite (IHk _ _ _ HkE H2 Hd).
            destruct f as [|g]; [discriminate|]. rewrite parse_kind_Sb in H2 |- *. cbn [kind_body] in H2 |- *.
            destruct (rl_rejects_re classify (pre_full classify F) (pre_full classify F2) POST g v x H2) as [e' [Er Hne]].
            rewrite Er. destruct e'; try reflexivity. contradiction.
      - intros c v x Hc H Hd. rewrite parse_cls_Sb in *.
        destruct (parse_nn G classify (pre_full classify F) POST f) as [NNk _].
        eapply (cls_body_rt G (pre_full classify F) (pre_full classify F2) POST job_classes jk_ok D (PK1 f) (PK2 f));
          try eassumption.
        + intros c0 k0 Hc0 Hl0. destruct (jcls_ok_of c0 k0 Hc0 Hl0) as [Hn1 [Hn2 Hko]].
          split; [exact Hn1|]. split; [exact Hn2|]. intros fl Hfl. destruct (Hko fl Hfl) as [Ha Hb].
          split; [exact Ha|]. intros kk Hs s w Hw. destruct f as [|g]; [discriminate|].
          rewrite <- (scalar_det classify (pre_full classify F) POST (pre_full classify F2) POST g g kk _ (Hb kk Hs)).
          exact Hw.
        + intros c0 ms flds Hc0 Hb Hd0. apply (hooks_job (S f) c0 ms flds Hc0); [|exact Hd0].
          rewrite parse_cls_Sb. exact Hb.
    Qed.
  End Ind.

  (* decode (export (decode j)) = decode j for a Job and every class below it, as [roundtrip] computes it *)
  Theorem roundtrip_job_classes : forall root j v,
    In root job_classes ->
    parse_any classify root j = Ok v ->
    snd (roundtrip classify root v) = true.
  Proof.
    intros root j v Hroot Hp. unfold parse_any in Hp.
    unfold roundtrip. cbn [snd]. rewrite export_exp. unfold parse_any.
    set (F := parse_fuel j) in *. set (F2 := parse_fuel (EXP v)). set (M := Nat.max F F2).
    assert (H1 : parse_cls G classify (pre_full classify F) POST M root j = Ok v).
    { rewrite (parse_fuel_enough classify (pre_full classify F) POST M root j) by (unfold F, M; lia). exact Hp. }
    destruct (rt_job_ind F F2 (json_depth (EXP v)) (Nat.le_refl _) M) as [_ Hc].
    specialize (Hc root j v Hroot H1 (Nat.le_refl _)).
    rewrite (parse_fuel_enough classify (pre_full classify F2) POST M root (EXP v)) in Hc by (unfold F2, M; lia).
    fold F2 in Hc. rewrite Hc. apply mval_eqb_refl. lia.
  Qed.

  Theorem roundtrip_job : forall j v,
    parse_any classify "Job" j = Ok v -> snd (roundtrip classify "Job" v) = true.
  Proof. intros j v Hp. eapply roundtrip_job_classes; [|exact Hp]. left. reflexivity. Qed.
End JobRT.
